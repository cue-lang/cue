(* Comparison functions that are total orders, and their lexicographic combinations. *)
From Coq Require Import List Arith NArith Lia.
Import ListNotations.

Record total_cmp {A : Type} (c : A -> A -> comparison) : Prop := {
  tc_eq : forall x y, c x y = Eq <-> x = y;
  tc_opp : forall x y, c x y = CompOpp (c y x);
  tc_trans : forall x y z, c x y = Lt -> c y z = Lt -> c x z = Lt }.

Lemma tc_refl {A} (c : A -> A -> comparison) : total_cmp c -> forall x, c x x = Eq.
Proof. intros H x. apply (tc_eq c H). reflexivity. Qed.

Lemma tc_gt_lt {A} (c : A -> A -> comparison) : total_cmp c -> forall x y, c x y = Gt <-> c y x = Lt.
Proof.
  intros H x y. rewrite (tc_opp c H x y). destruct (c y x); simpl; split; congruence.
Qed.

(* "not greater" is the order a total comparison induces *)
Lemma tc_le_refl {A} (c : A -> A -> comparison) : total_cmp c -> forall x, c x x <> Gt.
Proof. intros H x. rewrite (tc_refl c H). discriminate. Qed.

Lemma tc_le_trans {A} (c : A -> A -> comparison) :
  total_cmp c -> forall x y z, c x y <> Gt -> c y z <> Gt -> c x z <> Gt.
Proof.
  intros H x y z Hxy Hyz Hxz. apply Hyz.
  apply (tc_gt_lt c H) in Hxz. apply (tc_gt_lt c H).
  destruct (c x y) eqn:E; [|exact (tc_trans c H _ _ _ Hxz E) | contradiction].
  apply (tc_eq c H) in E. subst y. exact Hxz.
Qed.

Lemma tc_le_antisym {A} (c : A -> A -> comparison) :
  total_cmp c -> forall x y, c x y <> Gt -> c y x <> Gt -> x = y.
Proof.
  intros H x y Hxy Hyx. destruct (c x y) eqn:E; [|exfalso|contradiction].
  - apply (tc_eq c H). exact E.
  - apply Hyx. apply (tc_gt_lt c H). exact E.
Qed.

Lemma N_compare_total : total_cmp N.compare.
Proof.
  constructor.
  - intros; apply N.compare_eq_iff.
  - intros; apply N.compare_antisym.
  - intros x y z. rewrite !N.compare_lt_iff. lia.
Qed.

Lemma nat_compare_total : total_cmp Nat.compare.
Proof.
  constructor.
  - intros; apply Nat.compare_eq_iff.
  - intros; apply Nat.compare_antisym.
  - intros x y z. rewrite !Nat.compare_lt_iff. lia.
Qed.

(* lexicographic product *)
Definition lex {A B} (ca : A -> A -> comparison) (cb : B -> B -> comparison)
           (x y : A * B) : comparison :=
  match ca (fst x) (fst y) with Eq => cb (snd x) (snd y) | c => c end.

Lemma lex_total {A B} (ca : A -> A -> comparison) (cb : B -> B -> comparison) :
  total_cmp ca -> total_cmp cb -> total_cmp (lex ca cb).
Proof.
  intros Ha Hb. constructor.
  - intros [a b] [a' b']; unfold lex; simpl. split.
    + destruct (ca a a') eqn:E; try discriminate. intros E2.
      apply (tc_eq ca Ha) in E. apply (tc_eq cb Hb) in E2. congruence.
    + intros [= -> ->]. rewrite (tc_refl ca Ha). apply (tc_refl cb Hb).
  - intros [a b] [a' b']; unfold lex; simpl.
    rewrite (tc_opp ca Ha a a'). destruct (ca a' a); simpl; auto. apply (tc_opp cb Hb).
  - intros [a b] [a' b'] [a'' b'']; unfold lex; simpl.
    destruct (ca a a') eqn:E1; try discriminate.
    + apply (tc_eq ca Ha) in E1; subst a'.
      destruct (ca a a'') eqn:E2; auto. apply (tc_trans cb Hb).
    + intros _. destruct (ca a' a'') eqn:E2; try discriminate.
      * apply (tc_eq ca Ha) in E2; subst a''. rewrite E1. auto.
      * intros _. rewrite (tc_trans ca Ha _ _ _ E1 E2). auto.
Qed.

(* lexicographic order on lists, shorter prefix first *)
Fixpoint list_cmp {A} (c : A -> A -> comparison) (x y : list A) : comparison :=
  match x, y with
  | [], [] => Eq
  | [], _ => Lt
  | _, [] => Gt
  | a :: x', b :: y' => match c a b with Eq => list_cmp c x' y' | r => r end
  end.

Lemma list_cmp_total {A} (c : A -> A -> comparison) : total_cmp c -> total_cmp (list_cmp c).
Proof.
  intros H. constructor.
  - induction x as [|a x IH]; destruct y as [|b y]; simpl; split; try congruence; auto.
    + destruct (c a b) eqn:E; try discriminate. intros E2.
      apply (tc_eq c H) in E. apply IH in E2. congruence.
    + intros [= -> ->]. rewrite (tc_refl c H). apply IH. reflexivity.
  - induction x as [|a x IH]; destruct y as [|b y]; simpl; auto.
    rewrite (tc_opp c H a b). destruct (c b a); simpl; auto.
  - induction x as [|a x IH]; destruct y as [|b y]; destruct z as [|d z]; simpl; try congruence.
    destruct (c a b) eqn:E1; try discriminate.
    + apply (tc_eq c H) in E1; subst b. destruct (c a d); auto. apply IH.
    + intros _. destruct (c b d) eqn:E2; try discriminate.
      * apply (tc_eq c H) in E2; subst d. rewrite E1; auto.
      * intros _. rewrite (tc_trans c H _ _ _ E1 E2); auto.
Qed.

(* transport along an injection *)
Lemma total_cmp_inj {A B} (c : B -> B -> comparison) (f : A -> B) :
  total_cmp c -> (forall x y, f x = f y -> x = y) -> total_cmp (fun x y => c (f x) (f y)).
Proof.
  intros H inj. constructor.
  - intros x y. rewrite (tc_eq c H). split; [apply inj | congruence].
  - intros; apply (tc_opp c H).
  - intros x y z; apply (tc_trans c H).
Qed.

(* transport along pointwise equality *)
Lemma total_cmp_ext {A} (c c' : A -> A -> comparison) :
  (forall x y, c x y = c' x y) -> total_cmp c' -> total_cmp c.
Proof.
  intros E H. constructor.
  - intros x y. rewrite E. apply (tc_eq _ H).
  - intros x y. rewrite !E. apply (tc_opp _ H).
  - intros x y z. rewrite !E. apply (tc_trans _ H).
Qed.

(* a total preorder induced by a map into a total order (no injectivity):
   all order laws except "Eq implies equal". *)
Record total_pre {A : Type} (c : A -> A -> comparison) : Prop := {
  tp_refl : forall x, c x x = Eq;
  tp_opp : forall x y, c x y = CompOpp (c y x);
  tp_trans : forall x y z, c x y = Lt -> c y z = Lt -> c x z = Lt;
  tp_eq_l : forall x y z, c x y = Eq -> c x z = c y z }.

Lemma total_pre_of_map {A B} (c : B -> B -> comparison) (f : A -> B) :
  total_cmp c -> total_pre (fun x y => c (f x) (f y)).
Proof.
  intros H. constructor.
  - intros; apply (tc_refl c H).
  - intros; apply (tc_opp c H).
  - intros x y z; apply (tc_trans c H).
  - intros x y z E. apply (tc_eq c H) in E. rewrite E. reflexivity.
Qed.

(* tp_eq_l on the other side *)
Lemma tp_eq_r {A} (c : A -> A -> comparison) : total_pre c -> forall x y z, c y z = Eq -> c x y = c x z.
Proof.
  intros H x y z E. rewrite (tp_opp c H x y), (tp_opp c H x z), (tp_eq_l c H y z x E). reflexivity.
Qed.
