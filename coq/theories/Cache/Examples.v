(* C16 - non-vacuity: the hypotheses of the main theorems are met by concrete,
   non-trivial histories of the unmodified protocol. *)
From Verif Require Import Cache.Model Cache.Inv Cache.Safety Cache.Recovery Cache.Variants.
From Coq Require Import List Arith Bool Lia.
Import ListNotations.

Definition c_ok : cfg := base false false false false false.

Lemma c_ok_env : env_ok c_ok.
Proof. repeat split. Qed.

(* a complete fetch by thread i of a process, from a store without zip and directory *)
Definition fetch_all (i : tid) : list label :=
  [Eff i (StatDir false)] ++ dl i ++
  map (Eff i) [LockAcq; StatDir false; CreateMarker; TCheck; MkdirDir; CreateFile 0; WriteFile 0 1; CloseFile 0;
               UnlinkMarker; LockRel].

(* crash in the middle of the extraction (file created, not yet written) *)
Definition h_crash_mid : list label :=
  [Spawn 0 KFetch; Eff 0 (StatDir false)] ++ dl 0 ++
  map (Eff 0) [LockAcq; StatDir false; CreateMarker; TCheck; MkdirDir; CreateFile 0] ++ [Crash 0].

Definition w_crash_mid : world := match run c_ok world0 h_crash_mid with Some w => w | None => world0 end.

Lemma w_crash_mid_reachable : reachable c_ok w_crash_mid.
Proof.
  apply (run_reachable c_ok h_crash_mid world0); [constructor|].
  vm_compute. reflexivity.
Qed.

(* reachable_safe is not vacuous: a reader is served after a complete fetch *)
Example served_reachable :
  exists w i t, reachable c_ok w /\ nth_error (threads w) i = Some t /\ tpc t = Done ROk /\ tkind t = KFromCache.
Proof.
  pose (ls := [Spawn 0 KFetch] ++ fetch_all 0 ++ [Spawn 1 KFromCache; Eff 1 (StatDir true); Eff 1 (StatMarker false)]).
  destruct (run c_ok world0 ls) as [w|] eqn:E; [|vm_compute in E; discriminate].
  exists w, 1. assert (R : reachable c_ok w) by (eapply (run_reachable c_ok ls world0); [constructor | exact E]).
  revert E. vm_compute. intros E. inversion E; subst; clear E. eexists. split; [exact R|]. repeat split.
Qed.

(* the state after the crash is partial: directory present, incomplete, marker present, lock free *)
Example crash_mid_state :
  dir (st w_crash_mid) = Some [(0, 0)] /\ marker (st w_crash_mid) = true /\ lock (st w_crash_mid) = None /\
  zip (st w_crash_mid) = Some 1 /\ quiescent w_crash_mid.
Proof.
  vm_compute. repeat split. intros t [<- | []]. reflexivity.
Qed.

(* C16_two_stat_safe is not vacuous: first stat sees the partial directory of the crashed
   process, then a second process re-extracts, then the second stat sees no marker *)
Example two_stat_window :
  exists ls w2, dir (st w_crash_mid) <> None /\ run c_ok w_crash_mid ls = Some w2 /\ marker (st w2) = false.
Proof.
  exists ([Spawn 1 KFetch] ++ map (Eff 1) [StatDir true; StatMarker true; TEnter; StatZip true; LockAcq; StatDir true; StatMarker true;
            UnlinkFile 0; RmdirDir; CreateMarker; TCheck; MkdirDir; CreateFile 0; WriteFile 0 1; CloseFile 0; UnlinkMarker; LockRel]).
  eexists. split; [vm_compute; discriminate|]. split; vm_compute; reflexivity.
Qed.

(* recovery is not vacuous: its hypotheses hold in the crashed state, for process 1 *)
Example recovery_applicable :
  quiescent w_crash_mid /\ mem_nat 1 (crashed w_crash_mid) = false /\ sfz (ps w_crash_mid 1) = SfIdle.
Proof. split; [apply crash_mid_state|]. vm_compute. auto. Qed.

(* and the clean run really goes through removal of the partial directory and re-extraction *)
Example recovery_run :
  match step c_ok w_crash_mid (Spawn 1 KFetch) with
  | Some w0 => match run_clean c_ok (clean_fuel c_ok (st w0)) w0 1 with
               | Some w' => completeb c_ok (st w') && Nat.eqb (gz (ps w' 1)) 0
               | None => false end
  | None => false end = true.
Proof. vm_compute. reflexivity. Qed.

(* a registry fault leaves no zip and no temp file, and the caller gets an error *)
Example registry_fault :
  match run c_ok world0 ([Spawn 0 KFetch; Eff 0 (StatDir false)] ++
          map (Eff 0) [TEnter; StatZip false; LockAcq; StatZip false; CreateZTmp 7; TRegFault; CloseZTmp 7; UnlinkZTmp 7; LockRel]) with
  | Some w => match zip (st w), ztmp (st w), map tpc (threads w) with None, [], [Done RErr] => true | _, _, _ => false end
  | None => false end = true.
Proof. vm_compute. reflexivity. Qed.

(* the model refuses a rename of an incomplete temp file (what a broken implementation would do) *)
Example rename_of_short_body_rejected :
  accept c_ok [world0] ([Spawn 0 KFetch; Eff 0 (StatDir false)] ++
     map (Eff 0) [StatZip false; LockAcq; StatZip false; CreateZTmp 7; CloseZTmp 7; RenameZip 7]) = [].
Proof. vm_compute. reflexivity. Qed.
