(* C16 - the inductive invariant of the cache protocol.  [trans] restates [tstep] as a
   relation, one constructor per arm of [tstep], the TEnter arms at ZE and ME split by
   the state of the entry (52 in all); everything said about a single step (here and in
   SingleFlight.v) is proved by cases on [trans]. *)
From Verif Require Import Cache.Model.
From Coq Require Import List Arith Bool Lia.
Import ListNotations.

Lemma upd_nth_length : forall A i (x : A) l, length (upd_nth i x l) = length l.
Proof. induction i; destruct l; simpl; auto. Qed.

Lemma nth_upd_same : forall A i (x : A) l, i < length l -> nth_error (upd_nth i x l) i = Some x.
Proof. induction i; destruct l; simpl; intros; try lia; auto. apply IHi. lia. Qed.

Lemma nth_upd_other : forall A i j (x : A) l, i <> j -> nth_error (upd_nth i x l) j = nth_error l j.
Proof. induction i; destruct l, j; simpl; intros; try congruence; auto. Qed.

Lemma nth_app_new : forall A (l : list A) x i t, nth_error (l ++ [x]) i = Some t ->
  nth_error l i = Some t \/ (i = length l /\ t = x).
Proof.
  intros. destruct (lt_dec i (length l)).
  - rewrite nth_error_app1 in H by auto. auto.
  - rewrite nth_error_app2 in H by lia. destruct (i - length l) eqn:E; simpl in H.
    + inversion H. right. split; auto. lia.
    + destruct n0; discriminate.
Qed.

Lemma is_some_true : forall A (o : option A), is_some o = true -> o <> None.
Proof. destruct o; [discriminate | discriminate 1]. Qed.

Lemma is_some_false : forall A (o : option A), is_some o = false -> o = None.
Proof. destruct o; [discriminate 1 | reflexivity]. Qed.

Lemma lookup_single : forall n b, lookup n [(n, b)] = Some b.
Proof. intros. simpl. rewrite Nat.eqb_refl. reflexivity. Qed.

Lemma lookup_add_bytes : forall n k l b, lookup n l = Some b -> lookup n (add_bytes n k l) = Some (b + k).
Proof.
  induction l as [|[a v] r]; simpl; intros; try discriminate.
  destruct (Nat.eqb a n) eqn:E; simpl; rewrite E; auto. congruence.
Qed.

Lemma lookup_add_bytes_other : forall n m k l, n <> m -> lookup m (add_bytes n k l) = lookup m l.
Proof.
  induction l as [|[a v] r]; simpl; intros; auto.
  destruct (Nat.eqb a n) eqn:E; simpl.
  - apply Nat.eqb_eq in E. subst a. destruct (Nat.eqb n m) eqn:F; auto. apply Nat.eqb_eq in F. congruence.
  - destruct (Nat.eqb a m); auto.
Qed.

Lemma lookup_app_notin : forall n l r, lookup n l = None -> lookup n (l ++ r) = lookup n r.
Proof. induction l as [|[a v] l']; simpl; intros; auto. destruct (Nat.eqb a n); try discriminate; auto. Qed.

Lemma add_bytes_app_notin : forall n k l r, lookup n l = None -> add_bytes n k (l ++ r) = l ++ add_bytes n k r.
Proof.
  induction l as [|[a v] l']; simpl; intros; auto.
  destruct (Nat.eqb a n); try discriminate. f_equal; auto.
Qed.

(* keys of the first i entries of the complete directory are below i *)
Lemma lookup_firstn_combine : forall fs a i k, a + i <= k ->
  lookup k (firstn i (combine (seq a (length fs)) fs)) = None.
Proof.
  induction fs; simpl; intros.
  - destruct i; auto.
  - destruct i; simpl; auto.
    destruct (Nat.eqb a0 k) eqn:E. { apply Nat.eqb_eq in E. lia. }
    apply IHfs. lia.
Qed.

Lemma lookup_firstn_full : forall c i, lookup i (firstn i (full c)) = None.
Proof. intros. unfold full, nfiles. apply lookup_firstn_combine. lia. Qed.

(* the file being written is the last entry of the directory *)
Lemma lookup_last_file : forall c i b, lookup i (firstn i (full c) ++ [(i, b)]) = Some b.
Proof.
  intros. rewrite lookup_app_notin by apply lookup_firstn_full. apply lookup_single.
Qed.

Lemma add_bytes_last_file : forall c i k b,
  add_bytes i k (firstn i (full c) ++ [(i, b)]) = firstn i (full c) ++ [(i, b + k)].
Proof.
  intros. rewrite add_bytes_app_notin by apply lookup_firstn_full. simpl. rewrite Nat.eqb_refl. reflexivity.
Qed.

Lemma full_length : forall c, length (full c) = nfiles c.
Proof. intros. unfold full. rewrite combine_length, seq_length. unfold nfiles. lia. Qed.

Lemma firstn_S_nth : forall A (l : list A) i d, i < length l -> firstn (S i) l = firstn i l ++ [nth i l d].
Proof.
  induction l; simpl; intros; try lia.
  destruct i; simpl; auto. f_equal. apply IHl. lia.
Qed.

Lemma full_nth : forall c i, i < nfiles c -> nth i (full c) (0, 0) = (i, fsize c i).
Proof.
  intros. unfold full. rewrite combine_nth by (rewrite seq_length; reflexivity).
  rewrite seq_nth by auto. reflexivity.
Qed.

Lemma firstn_S_full : forall c i, i < nfiles c -> firstn (S i) (full c) = firstn i (full c) ++ [(i, fsize c i)].
Proof.
  intros. rewrite (firstn_S_nth _ (full c) i (0, 0)) by (rewrite full_length; auto).
  rewrite full_nth; auto.
Qed.

Lemma firstn_full_all : forall c, firstn (nfiles c) (full c) = full c.
Proof. intros. rewrite <- full_length. apply firstn_all. Qed.

Definition locked_pc (p : pc) : bool :=
  match p with
  | Z2 | Z4 | Z7 _ | Z8 _ _ | Z9 _ | ZR _ | Z10 _
  | F1 | F2 | F4 | F6 | U0 | U2 | UM | U3c _ | U3w _ | E0 | E1 | F9 _
  | M2 | M3 | M5 _ | M6 _ | M7 _ => true
  | _ => false
  end.

Definition zip_ok (c : cfg) (s : store) : Prop := zip s = Some (zsize c).
Definition mod_ok (c : cfg) (s : store) : Prop := modf s = Some (msize c).

(* what a thread at a given pc knows about the store *)
Definition pcinv (c : cfg) (s : store) (t : thread) : Prop :=
  match tpc t with
  | P1 => created s = true
  | Z7 n => exists b, ztmp s = [(n, b)] /\ b <= zsize c
  | Z8 n true => ztmp s = [(n, zsize c)]
  | Z9 n => ztmp s = [(n, zsize c)]
  | Z10 true => zip_ok c s
  | F0 | F1 => zip_ok c s
  | F2 => zip_ok c s /\ dir s <> None
  | F4 => zip_ok c s /\ marker s = true /\ dir s <> None
  | F6 => zip_ok c s /\ dir s = None
  | U0 | U2 => zip_ok c s /\ marker s = true /\ dir s = None
  | UM | E0 | E1 => False
  | U3c i => marker s = true /\ i <= nfiles c /\ dir s = Some (firstn i (full c))
  | U3w i => marker s = true /\ i < nfiles c /\ exists b, b <= fsize c i /\ dir s = Some (firstn i (full c) ++ [(i, b)])
  | F9 ROk => complete c s
  | F9 _ => False
  | M5 n => exists b, lookup n (mtmp s) = Some b /\ b <= msize c
  | M6 n => lookup n (mtmp s) = Some (msize c)
  | M7 true => mod_ok c s
  | Done ROk => match tkind t with KModFile => mod_ok c s | _ => complete c s end
  | _ => True
  end.

(* ModFile threads run the M program, the others the P/Z/F/U program *)
Definition mod_pc (p : pc) : bool :=
  match p with ME | M0 | M1 | M2 | M3 | M5 _ | M6 _ | M7 _ => true | _ => false end.
Definition kind_ok (k : kind) (p : pc) : bool :=
  match p with
  | Done _ | Dead => true
  | _ => match k with KModFile => mod_pc p | _ => negb (mod_pc p) end
  end.

Definition tinv (c : cfg) (s : store) (i : tid) (t : thread) : Prop :=
  (locked_pc (tpc t) = true -> lock s = Some i) /\ kind_ok (tkind t) (tpc t) = true /\ pcinv c s t.

(* [pcinv] looks at the thread only through its pc and kind *)
Lemma pcinv_ext : forall c s t t', tpc t' = tpc t -> tkind t' = tkind t -> pcinv c s t -> pcinv c s t'.
Proof. intros c s t t' P K. unfold pcinv. rewrite P, K. auto. Qed.

Lemma pcinv_done_ok : forall c s t, tpc t = Done ROk -> pcinv c s t ->
  match tkind t with KModFile => mod_ok c s | _ => complete c s end.
Proof. intros c s t P. unfold pcinv. rewrite P. auto. Qed.

(* The store invariant.  [si_zip], [si_mod]: a cached zip or module file is complete.
   [si_created], [si_dir] carry the safety argument: a thread at P1 remembers only
   [created s = true] (see [pcinv]); [created] never goes back to false ([st_created]
   below); so when the second stat finds no marker, [si_dir] gives the complete
   directory, whatever happened between the two stats. *)
Record SI (c : cfg) (s : store) : Prop := {
  si_zip : forall z, zip s = Some z -> z = zsize c;
  si_mod : forall m, modf s = Some m -> m = msize c;
  si_created : dir s <> None -> created s = true;
  si_dir : created s = true -> marker s = false -> dir s = Some (full c)
}.

Lemma SI_zip : forall c s, SI c s -> is_some (zip s) = true -> zip s = Some (zsize c).
Proof. intros c s S H. destruct (zip s) eqn:E; [|discriminate]. rewrite (si_zip _ _ S _ E). reflexivity. Qed.

Lemma SI_mod : forall c s, SI c s -> is_some (modf s) = true -> modf s = Some (msize c).
Proof. intros c s S H. destruct (modf s) eqn:E; [|discriminate]. rewrite (si_mod _ _ S _ E). reflexivity. Qed.

Record Inv (c : cfg) (w : world) : Prop := {
  inv_store : SI c (st w);
  inv_threads : forall i t, nth_error (threads w) i = Some t -> tinv c (st w) i t;
  inv_lock : forall i, lock (st w) = Some i ->
               exists t, nth_error (threads w) i = Some t /\ locked_pc (tpc t) = true;
  inv_sfz : forall p, sfz (ps w p) = SfDone true -> zip_ok c (st w);
  inv_sfm : forall p, sfm (ps w p) = SfDone true -> mod_ok c (st w)
}.

Definition env_ok (c : cfg) : Prop := variant_ok c /\ allow_io c = false.

(* facts that, once true, stay true *)
Record stab (c : cfg) (s s' : store) : Prop := {
  st_created : created s = true -> created s' = true;
  st_zip : zip_ok c s -> zip_ok c s';
  st_mod : mod_ok c s -> mod_ok c s';
  st_complete : complete c s -> complete c s'
}.

Lemma stab_refl : forall c s, stab c s s.
Proof. intros; constructor; auto. Qed.

(* [tstep] as a relation between pc, effect, new store, new process state and new pc,
   in the order of Model.v, with the guards as propositions.  The thread only matters
   through [after_p] and [after_f0]; its [de] flag is not tracked. *)
Section Trans.
Variables (c : cfg) (s : store) (q : pstate) (i : tid) (t : thread).

Inductive trans : pc -> eff -> store -> pstate -> pc -> Prop :=
| tP0 : forall y, v_stat_swapped c = false -> is_some (dir s) = y ->
    trans P0 (StatDir y) s q (if y then P1 else after_p t false)
| tP1 : forall y, v_stat_swapped c = false -> marker s = y ->
    trans P1 (StatMarker y) s q (if y then after_p t true else Done ROk)
| tP0s : forall y, v_stat_swapped c = true -> marker s = y ->
    trans P0 (StatMarker y) s q (if y then after_p t true else P1)
| tP1s : forall y, v_stat_swapped c = true -> is_some (dir s) = y ->
    trans P1 (StatDir y) s q (if y then Done ROk else after_p t false)
| tZE : sfz q = SfIdle -> trans ZE TEnter s (set_sfz q (SfRunning i)) Z0
| tZE_hit : forall ok, sfz q = SfDone ok -> trans ZE TEnter s q (if ok then F0 else Done RErr)
| tZ0 : forall y, is_some (zip s) = y ->
    trans Z0 (StatZip y) s (if y then set_sfz q (SfDone true) else q) (if y then F0 else Z1)
| tZ1 : lock s = None -> trans Z1 LockAcq (set_lock s (Some i)) q Z2
| tZ2 : forall y, is_some (zip s) = y -> trans Z2 (StatZip y) s q (if y then Z10 true else Z4)
| tZ4 : forall n (LK : is_some (lookup n (ztmp s)) = true),
    trans Z4 (UnlinkZTmp n) (set_ztmp s (remove_key n (ztmp s))) q Z4
| tZ4_create : forall n (ZT : ztmp s = []), trans Z4 (CreateZTmp n) (set_ztmp s [(n, 0)]) (inc_gz q) (Z7 n)
| tZ7 : forall n k b (LK : lookup n (ztmp s) = Some b) (BD : b + k <= zsize c),
    trans (Z7 n) (WriteZTmp n k) (set_ztmp s (add_bytes n k (ztmp s))) q (Z7 n)
| tZ7e : forall n (LK : lookup n (ztmp s) = Some (zsize c)), trans (Z7 n) TRegEOF s q (Z8 n true)
| tZ7f : forall n, trans (Z7 n) TRegFault s q (Z8 n false)
| tZ8 : forall n ok, trans (Z8 n ok) (CloseZTmp n) s q (if ok then Z9 n else ZR n)
| tZ9 : forall n b (LK : lookup n (ztmp s) = Some b),
    trans (Z9 n) (RenameZip n) (set_zip (set_ztmp s (remove_key n (ztmp s))) (Some b)) q (Z10 true)
| tZR : forall n, trans (ZR n) (UnlinkZTmp n) (set_ztmp s (remove_key n (ztmp s))) q (Z10 false)
| tZ10 : forall ok, trans (Z10 ok) LockRel (set_lock s None) (set_sfz q (SfDone ok)) (if ok then F0 else Done RErr)
| tF0 : lock s = None -> trans F0 LockAcq (set_lock s (Some i)) q (after_f0 c t)
| tF1 : forall y, is_some (dir s) = y -> trans F1 (StatDir y) s q (if y then F2 else F6)
| tF2 : forall y, marker s = y -> trans F2 (StatMarker y) s q (if y then F4 else F9 ROk)
| tF4 : forall j l (DR : dir s = Some l) (LK : is_some (lookup j l) = true),
    trans F4 (UnlinkFile j) (set_dir s (Some (remove_key j l))) q F4
| tF4_rmdir : forall (DR : dir s = Some []), trans F4 RmdirDir (set_dir s None) q F6
| tF6 : v_marker_late c = false -> trans F6 CreateMarker (set_marker s true) q U0
| tF6_late : v_marker_late c = true -> trans F6 TCheck s q U0
| tU0 : trans U0 TCheck s q
    (if match dir s with None | Some [] => true | _ => false end &&
        match zip s with Some z => Nat.eqb z (zsize c) | None => false end then U2 else E0)
| tU2 : dir s = None -> trans U2 MkdirDir (mk_dir s) q (after_mkdir c)
| tUM : v_marker_late c = true -> trans UM CreateMarker (set_marker s true) q (U3c 0)
| tUM_unlink : v_marker_late c = false -> v_marker_early c = true -> marker s = true ->
    trans UM UnlinkMarker (set_marker s false) q (U3c 0)
| tU3c : forall j l (LTj : j < nfiles c) (DR : dir s = Some l) (NF : is_some (lookup j l) = false),
    trans (U3c j) (CreateFile j) (set_dir s (Some (l ++ [(j, 0)]))) q (U3w j)
| tU3c_unlink_marker : v_marker_early c = false -> marker s = true ->
    trans (U3c (nfiles c)) UnlinkMarker (set_marker s false) q (F9 ROk)
| tU3c_unlock : v_marker_early c = true -> trans (U3c (nfiles c)) LockRel (set_lock s None) q (Done ROk)
| tU3w : forall j k l b (DR : dir s = Some l) (LK : lookup j l = Some b) (BD : b + k <= fsize c j),
    trans (U3w j) (WriteFile j k) (set_dir s (Some (add_bytes j k l))) q (U3w j)
| tU3w_close : forall j l (DR : dir s = Some l) (LK : lookup j l = Some (fsize c j)),
    trans (U3w j) (CloseFile j) s q (U3c (S j))
| tU3c_io : forall j, allow_io c = true -> trans (U3c j) TIOFault s q E0
| tU3w_io : forall j, allow_io c = true -> trans (U3w j) TIOFault s q E0
| tE0 : forall j l (DR : dir s = Some l) (LK : is_some (lookup j l) = true),
    trans E0 (UnlinkFile j) (set_dir s (Some (remove_key j l))) q E0
| tE0_rmdir : forall (DR : dir s = Some []), trans E0 RmdirDir (set_dir s None) q E1
| tE0_unlink_marker : forall (DR : dir s = None), trans E0 UnlinkMarker (set_marker s false) q (F9 RErr)
| tE1 : trans E1 UnlinkMarker (set_marker s false) q (F9 RErr)
| tF9 : forall r, trans (F9 r) LockRel (set_lock s None) q (Done r)
| tME : sfm q = SfIdle -> trans ME TEnter s (set_sfm q (SfRunning i)) M0
| tME_hit : forall ok, sfm q = SfDone ok -> trans ME TEnter s q (Done (if ok then ROk else RErr))
| tM0 : forall y, is_some (modf s) = y ->
    trans M0 (OpenMod y) s (if y then set_sfm q (SfDone true) else q) (if y then Done ROk else M1)
| tM1 : lock s = None -> trans M1 LockAcq (set_lock s (Some i)) q M2
| tM2 : forall y, is_some (modf s) = y -> trans M2 (OpenMod y) s q (if y then M7 true else M3)
| tM3 : trans M3 TRegFault s q (M7 false)
| tM3_create : forall n (NF : is_some (lookup n (mtmp s)) = false), trans M3 (CreateMTmp n) (set_mtmp s ((n, 0) :: mtmp s)) q (M5 n)
| tM5 : forall n k b (LK : lookup n (mtmp s) = Some b) (BD : b + k <= msize c),
    trans (M5 n) (WriteMTmp n k) (set_mtmp s (add_bytes n k (mtmp s))) q (M5 n)
| tM5_close : forall n (LK : lookup n (mtmp s) = Some (msize c)), trans (M5 n) (CloseMTmp n) s q (M6 n)
| tM6 : forall n b (LK : lookup n (mtmp s) = Some b),
    trans (M6 n) (RenameMod n) (set_modf (set_mtmp s (remove_key n (mtmp s))) (Some b)) q (M7 true)
| tM7 : forall ok, trans (M7 ok) LockRel (set_lock s None) (set_sfm q (SfDone ok)) (Done (if ok then ROk else RErr)).

End Trans.

(* case analysis on the guards of one branch of [tstep], outermost first *)
Ltac brk H := repeat match type of H with
  | (if ?b then _ else _) = _ => destruct b eqn:?; try discriminate H
  | match ?x with _ => _ end = _ => destruct x eqn:?; try discriminate H
  end.

Lemma no_step : forall (r : store * pstate * thread) (P : Prop), None = Some r -> P.
Proof. discriminate. Qed.

Lemma tstep_trans : forall c s q i t e s' q' t', tstep c s q i t e = Some (s', q', t') ->
  proc t' = proc t /\ tkind t' = tkind t /\ trans c s q i t (tpc t) e s' q' (tpc t').
Proof.
  intros c s q i t e s' q' t'. unfold tstep.
  (* the only split over the 35 pcs and 28 effects; the equation stays in the goal, so a
     dead case is one [no_step] *)
  destruct (tpc t); destruct e; try apply no_step.
  all: intros H; brk H; injection H as <- <- <-.
  all: repeat match goal with
       | E : Bool.eqb _ _ = true |- _ => apply eqb_prop in E
       | E : Nat.eqb _ _ = true |- _ => apply Nat.eqb_eq in E; subst
       | E : Nat.leb _ _ = true |- _ => apply Nat.leb_le in E
       | E : Nat.ltb _ _ = true |- _ => apply Nat.ltb_lt in E
       | E : andb _ _ = true |- _ => apply andb_prop in E; destruct E
       end.
  all: repeat split; solve [econstructor; eauto].
Qed.

(* Cases on a transition for a goal about [f] of the new pc: where the new pc still
   depends on a flag, the kind or a stat result, cases on that as well. *)
Ltac trans_cases T f :=
  destruct T; unfold after_p, after_f0, after_mkdir;
  repeat match goal with |- context [f (match ?x with _ => _ end)] => destruct x end.

(* how a step of thread i from pc to pc' may change the store as far as the lock goes *)
Definition frame (s s' : store) (i : tid) (pc pc' : pc) : Prop :=
  match locked_pc pc, locked_pc pc' with
  | false, false => s' = s
  | false, true => lock s = None /\ s' = set_lock s (Some i)
  | true, true => lock s' = lock s
  | true, false => lock s' = None
  end.

Lemma trans_frame : forall c s q i t pc e s' q' pc',
  trans c s q i t pc e s' q' pc' -> frame s s' i pc pc'.
Proof.
  intros c s q i t pc e s' q' pc' T. unfold frame.
  trans_cases T locked_pc; simpl; auto.
Qed.

Lemma trans_kind : forall c s q i t pc e s' q' pc' k,
  trans c s q i t pc e s' q' pc' -> kind_ok k pc = true -> kind_ok k pc' = true.
Proof.
  intros c s q i t pc e s' q' pc' k T.
  trans_cases T (kind_ok k); destruct k; simpl; auto.
Qed.

(* what [SI] and [stab] look at: steps that only touch the lock or a temp file keep both *)
Definition files (s : store) := (zip s, modf s, marker s, dir s, created s).

Lemma files_inv : forall c s s', files s' = files s -> SI c s -> SI c s' /\ stab c s s'.
Proof.
  intros c s s' E [A B C D]. injection E as E1 E2 E3 E4 E5.
  split; constructor; unfold zip_ok, mod_ok, complete; rewrite ?E1, ?E2, ?E3, ?E4, ?E5; auto.
Qed.

Local Arguments firstn : simpl never.

(* closes what is left of [trans_inv] for one transition once the facts special to it
   are in the context: splits the conjunctions, unfolds the predicates, then
   [auto], [congruence], [lia] *)
Ltac step_fin :=
  unfold pcinv; simpl; repeat split; simpl; intros; unfold zip_ok, mod_ok, complete in *; simpl;
  repeat match goal with H : _ /\ _ |- _ => destruct H | H : exists _, _ |- _ => destruct H end;
  try match goal with HK : kind_ok _ _ = true |- context [tkind ?t] => destruct (tkind t); try discriminate HK end;
  auto using SI_zip, SI_mod, is_some_true, is_some_false; try congruence; try lia.

Lemma trans_inv : forall c s q i t pc e s' q' pc', env_ok c -> SI c s ->
  kind_ok (tkind t) pc = true -> pcinv c s (set_pc t pc) ->
  (sfz q = SfDone true -> zip_ok c s) -> (sfm q = SfDone true -> mod_ok c s) ->
  trans c s q i t pc e s' q' pc' ->
  (SI c s' /\ stab c s s') /\ pcinv c s' (set_pc t pc') /\
  (sfz q' = SfDone true -> zip_ok c s') /\ (sfm q' = SfDone true -> mod_ok c s').
Proof.
  intros c s q i t pc e s' q' pc' [[V1 [V2 [V3 V4]]] IO] HSI HK HP HZ HM T.
  pose proof HSI as [S1 S2 S3 S4]. unfold pcinv in HP.
  (* the variants and the error path go: a flag of [env_ok] or [pcinv] at UM, E0, E1 refutes them *)
  destruct T; simpl in HP; try contradiction; try congruence.
  all: try destruct y; try destruct ok; unfold after_p, after_f0, after_mkdir; rewrite ?V1, ?V2, ?V3.
  all: try (split; [apply files_inv; [reflexivity | assumption] |]).
  all: try solve [step_fin].
  (* left: the steps whose new pc records something about a file being written *)
  - (* Z4, CreateZTmp *) step_fin. exists 0. split; [reflexivity | lia].
  - (* Z7, WriteZTmp *) destruct HP as (x & ZT & LE). rewrite ZT in *. rewrite lookup_single in LK. injection LK as <-.
    simpl. rewrite Nat.eqb_refl. step_fin. exists (x + k). auto.
  - (* Z7, TRegEOF *) destruct HP as (x & ZT & LE). rewrite ZT in *. rewrite lookup_single in LK. injection LK as ->. step_fin.
  - (* Z9 *) rewrite HP in LK. rewrite lookup_single in LK. injection LK as <-. step_fin.
  - (* U0: Unzip's checks succeed *) destruct HP as (Z & M & D). rewrite D, Z, Nat.eqb_refl. step_fin.
  - (* U3c, CreateFile *) destruct HP as (M & _ & D). assert (CR : created s = true) by (apply S3; congruence).
    rewrite D in DR. injection DR as <-. step_fin. exists 0. split; [lia | reflexivity].
  - (* U3c, UnlinkMarker: all files are there *) destruct HP as (_ & _ & D). rewrite firstn_full_all in D. step_fin.
  - (* U3w, WriteFile *) destruct HP as (M & LT & x & LE & D). assert (CR : created s = true) by (apply S3; congruence).
    rewrite D in DR. injection DR as <-. rewrite lookup_last_file in LK. injection LK as <-.
    rewrite add_bytes_last_file. step_fin. exists (x + k). auto.
  - (* U3w, CloseFile *) destruct HP as (M & LT & x & LE & D). rewrite D in DR. injection DR as <-.
    rewrite lookup_last_file in LK. injection LK as ->.
    rewrite <- firstn_S_full in D by assumption. step_fin.
  - (* F9 *) destruct r; try contradiction; step_fin.
  - (* M3, CreateMTmp *) step_fin. rewrite Nat.eqb_refl. exists 0. split; [reflexivity | lia].
  - (* M5, WriteMTmp *) destruct HP as (x & L & LE). rewrite L in LK. injection LK as <-.
    step_fin. exists (x + k). split; [apply lookup_add_bytes; assumption | assumption].
Qed.

Lemma pcinv_set_lock : forall c s x t, pcinv c (set_lock s x) t <-> pcinv c s t.
Proof. intros. unfold pcinv, complete, zip_ok, mod_ok. destruct (tpc t); simpl; tauto. Qed.

Lemma pcinv_stab : forall c s s' t, locked_pc (tpc t) = false -> stab c s s' -> pcinv c s t -> pcinv c s' t.
Proof.
  intros c s s' t L [A B C D]. unfold pcinv. destruct (tpc t); simpl in *; try discriminate; auto.
  destruct r; auto. destruct (tkind t); auto.
Qed.

Lemma tinv_frame : forall c s s' i j t pc' tj,
  i <> j -> tinv c s i t -> tinv c s j tj -> frame s s' i (tpc t) pc' -> stab c s s' -> tinv c s' j tj.
Proof.
  intros c s s' i j t pc' tj NE [Li _] [Lj [Kj Pj]] F ST. unfold frame in F.
  destruct (locked_pc (tpc t)); [|destruct (locked_pc pc')].
  - assert (NL : locked_pc (tpc tj) = false).
    { destruct (locked_pc (tpc tj)); auto. rewrite (Lj eq_refl) in Li. specialize (Li eq_refl). congruence. }
    split; [intros L; congruence | split; [auto | eapply pcinv_stab; eauto]].
  - destruct F as [LN ->].
    split; [intros L; rewrite (Lj L) in LN; discriminate | split; [auto | apply pcinv_set_lock; auto]].
  - subst s'. split; [|split]; auto.
Qed.

Lemma inv_init : forall c, Inv c world0.
Proof.
  intros. constructor; simpl.
  - constructor; simpl; intros; try discriminate; congruence.
  - intros i t H. destruct i; discriminate.
  - intros; discriminate.
  - intros; discriminate.
  - intros; discriminate.
Qed.

Lemma live_locked : forall p, locked_pc p = true -> live p = true.
Proof. destruct p; simpl; auto; discriminate. Qed.

(* what a successful spawn or thread step is *)
Lemma step_spawn_inv : forall c w p k w', step c w (Spawn p k) = Some w' ->
  w' = {| st := st w; ps := ps w; crashed := crashed w;
          threads := threads w ++ [{| proc := p; tkind := k; tpc := init_pc k; de := false |}] |}.
Proof.
  intros c w p k w' STEP. simpl in STEP. destruct (mem_nat p (crashed w)); [discriminate|].
  injection STEP as <-. reflexivity.
Qed.

Lemma step_eff_inv : forall c w i e w', step c w (Eff i e) = Some w' ->
  exists t s' q' t', nth_error (threads w) i = Some t /\ proc t' = proc t /\ tkind t' = tkind t /\
    trans c (st w) (ps w (proc t)) i t (tpc t) e s' q' (tpc t') /\
    w' = {| st := s'; ps := upd_ps (ps w) (proc t) q'; threads := upd_nth i t' (threads w);
            crashed := crashed w |}.
Proof.
  intros c w i e w' STEP. simpl in STEP.
  destruct (nth_error (threads w) i) as [t|]; [|discriminate].
  destruct (tstep c (st w) (ps w (proc t)) i t e) as [[[s' q'] t']|] eqn:TS; [|discriminate].
  injection STEP as <-. destruct (tstep_trans _ _ _ _ _ _ _ _ _ TS) as (PR & KD & T).
  exists t, s', q', t'. auto.
Qed.

Lemma inv_spawn : forall c w p k w', Inv c w -> step c w (Spawn p k) = Some w' ->
  Inv c w' /\ stab c (st w) (st w').
Proof.
  intros c w p k w' [HS HT HL HZ HM] STEP. rewrite (step_spawn_inv _ _ _ _ _ STEP).
  split; [|apply stab_refl]. constructor; simpl; auto.
  - intros i t N. apply nth_app_new in N. destruct N as [N | [-> ->]]; auto.
    unfold tinv, pcinv. destruct k; simpl; (split; [intros; discriminate | split; [reflexivity | exact I]]).
  - intros i Hi. destruct (HL i Hi) as [t [N L]]. exists t. split; auto.
    rewrite nth_error_app1; auto. apply nth_error_Some. congruence.
Qed.

Lemma inv_crash : forall c w p w', Inv c w -> step c w (Crash p) = Some w' ->
  Inv c w' /\ stab c (st w) (st w').
Proof.
  intros c w p w' [HS HT HL HZ HM] STEP. simpl in STEP.
  inversion STEP; subst; clear STEP.
  assert (KEEP : forall j t, nth_error (threads w) j = Some t -> locked_pc (tpc t) = true ->
                   holder_in (threads w) p (lock (st w)) = true -> proc t <> p -> False).
  { intros j t N L HI NP. destruct (HT j t N) as [LJ _]. rewrite (LJ L) in HI. simpl in HI. rewrite N in HI.
    apply Nat.eqb_eq in HI. auto. }
  destruct (files_inv c (st w) (if holder_in (threads w) p (lock (st w)) then set_lock (st w) None else st w))
    as [HS' ST]; [destruct (holder_in _ _ _); reflexivity | exact HS |].
  split; [|exact ST].
  constructor; simpl; [exact HS' | | | intros q Hq; apply ST; eauto | intros q Hq; apply ST; eauto].
  - intros j t' N. rewrite nth_error_map in N. destruct (nth_error (threads w) j) as [t|] eqn:NJ; try discriminate.
    inversion N; subst; clear N. destruct (HT j t NJ) as [LJ [KJ PJ]].
    unfold kill. destruct (Nat.eqb (proc t) p && live (tpc t)) eqn:K.
    + split; [|split]; simpl; auto; [intros; discriminate | exact I].
    + assert (PJ' : forall x, pcinv c (set_lock (st w) x) t) by (intros; apply pcinv_set_lock; auto).
      destruct (holder_in (threads w) p (lock (st w))) eqn:HI; (split; [|split]; auto).
      intros L. exfalso. eapply KEEP; eauto. intros EQ. rewrite EQ, Nat.eqb_refl, (live_locked _ L) in K. discriminate.
  - intros j Hj. destruct (holder_in (threads w) p (lock (st w))) eqn:HI; simpl in Hj; try discriminate.
    destruct (HL j Hj) as [t [N L]]. exists t. split; auto.
    rewrite nth_error_map, N. simpl. unfold kill.
    unfold holder_in in HI. rewrite Hj, N in HI. rewrite HI. reflexivity.
Qed.

Lemma inv_thread_step : forall c w i e w', env_ok c -> Inv c w -> step c w (Eff i e) = Some w' ->
  Inv c w' /\ stab c (st w) (st w').
Proof.
  intros c w i e w' EV [HS HT HL HZ HM] STEP.
  destruct (step_eff_inv _ _ _ _ _ STEP) as (t & s' & q' & t' & N & PR & KD & T & ->).
  destruct (HT i t N) as [LT [HK HP]].
  pose proof (trans_frame _ _ _ _ _ _ _ _ _ _ T) as FR.
  destruct (trans_inv _ _ _ _ _ _ _ _ _ _ EV HS HK HP (HZ (proc t)) (HM (proc t)) T) as ((HS' & ST) & HP' & HZ' & HM').
  assert (LT' : locked_pc (tpc t') = true -> lock s' = Some i).
  { intros L'. unfold frame in FR. rewrite L' in FR. destruct (locked_pc (tpc t)).
    - rewrite FR. auto.
    - destruct FR as [_ ->]. reflexivity. }
  assert (HT' : tinv c s' i t').
  { split; [exact LT' | split].
    - rewrite KD. apply (trans_kind _ _ _ _ _ _ _ _ _ _ _ T HK).
    - apply (pcinv_ext _ _ (set_pc t (tpc t'))); auto. }
  assert (LEN : i < length (threads w)) by (apply nth_error_Some; congruence).
  split; [|exact ST]. constructor; simpl; auto.
  - intros j tj NJ. destruct (Nat.eq_dec i j) as [<- | NE].
    + rewrite nth_upd_same in NJ by auto. inversion NJ; subst. auto.
    + rewrite nth_upd_other in NJ by auto. apply (tinv_frame c (st w) s' i j t (tpc t') tj); auto.
  - intros j Hj. unfold frame in FR.
    destruct (Nat.eq_dec i j) as [<- | NE].
    + exists t'. split. { apply nth_upd_same; auto. }
      destruct (locked_pc (tpc t)) eqn:L, (locked_pc (tpc t')); auto; [congruence|].
      subst s'. destruct (HL i Hj) as [t0 [N0 L0]]. congruence.
    + rewrite nth_upd_other by auto.
      destruct (locked_pc (tpc t)), (locked_pc (tpc t')).
      * rewrite FR, (LT eq_refl) in Hj. congruence.
      * congruence.
      * destruct FR as [_ ->]. simpl in Hj. congruence.
      * subst s'. apply HL; auto.
  - intros p. unfold upd_ps. destruct (Nat.eqb p (proc t)); auto. intros Hp. apply ST. apply (HZ p Hp).
  - intros p. unfold upd_ps. destruct (Nat.eqb p (proc t)); auto. intros Hp. apply ST. apply (HM p Hp).
Qed.

Lemma inv_stab_step : forall c w l w', env_ok c -> Inv c w -> step c w l = Some w' ->
  Inv c w' /\ stab c (st w) (st w').
Proof.
  intros c w l w' EV I STEP. destruct l.
  - apply (inv_spawn _ _ _ _ _ I STEP).
  - apply (inv_crash _ _ _ _ I STEP).
  - apply (inv_thread_step _ _ _ _ _ EV I STEP).
Qed.

Lemma inv_step : forall c w l w', env_ok c -> Inv c w -> step c w l = Some w' -> Inv c w'.
Proof. intros c w l w' EV I STEP. apply (inv_stab_step _ _ _ _ EV I STEP). Qed.

Theorem inv_reachable : forall c w, env_ok c -> reachable c w -> Inv c w.
Proof.
  intros c w EV R. induction R.
  - apply inv_init.
  - eapply inv_step; eauto.
Qed.
