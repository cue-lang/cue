(* C16 - recovery: from every reachable quiescent state a clean fetch by a fresh
   process terminates with the complete directory.  The clean run is the fuelled
   function [run_clean] of Model.v; the fuel [clean_fuel] is proved sufficient. *)
From Verif Require Import Cache.Model Cache.Inv Cache.Safety.
From Coq Require Import List Arith Bool Lia.
Import ListNotations.

Local Arguments firstn : simpl never.

Definition dlen (s : store) : nat := match dir s with Some l => S (length l) | None => 0 end.

(* A bound on the steps the clean run still needs; any numbering that strictly decreases
   along the clean run would do.  [recovery] starts at P0 with fuel [clean_fuel]:
   40 + length ztmp + dlen + 3 * nfiles < 42 + length ztmp + length dir + 3 * nfiles,
   as dlen <= 1 + length dir. *)
Definition rank (c : cfg) (s : store) (t : thread) : nat :=
  let n3 := 3 * nfiles c in
  match tpc t with
  | P0 => 40 + length (ztmp s) + dlen s + n3
  | P1 => 39 + length (ztmp s) + dlen s + n3
  | ZE => 38 + length (ztmp s) + dlen s + n3
  | Z0 => 37 + length (ztmp s) + dlen s + n3
  | Z1 => 36 + length (ztmp s) + dlen s + n3
  | Z2 => 35 + length (ztmp s) + dlen s + n3
  | Z4 => 34 + length (ztmp s) + dlen s + n3
  | Z7 n => (match lookup n (ztmp s) with Some b => if Nat.eqb b (zsize c) then 31 else 32 | None => 32 end) + dlen s + n3
  | Z8 _ _ => 30 + dlen s + n3
  | Z9 _ => 29 + dlen s + n3
  | Z10 _ => 28 + dlen s + n3
  | F0 => 27 + dlen s + n3
  | F1 => 26 + dlen s + n3
  | F2 => 25 + dlen s + n3
  | F4 => 24 + dlen s + n3
  | F6 => 23 + n3
  | U0 => 22 + n3
  | U2 => 21 + n3
  | U3c i => 20 + 3 * (nfiles c - i)
  | U3w i => 20 + 3 * (nfiles c - i) -
             (match dir s with
              | Some l => match lookup i l with Some b => if Nat.eqb b (fsize c i) then 2 else 1 | None => 1 end
              | None => 1 end)
  | F9 _ => 10
  | _ => 0
  end.

(* the pcs of a fault-free Fetch, with the single-flight entry still free before ZE *)
Definition good (q : pstate) (t : thread) : Prop :=
  match tpc t with
  | P0 | P1 | ZE => sfz q = SfIdle
  | Z0 | Z1 | Z2 | Z4 | Z7 _ | Z8 _ true | Z9 _ | Z10 true
  | F0 | F1 | F2 | F4 | F6 | U0 | U2 | U3c _ | U3w _ | F9 ROk | Done ROk => True
  | _ => False
  end.

Lemma remove_key_shorter : forall n l, is_some (lookup n l) = true -> length (remove_key n l) < length l.
Proof.
  induction l as [|[a v] r]; simpl; intros; try discriminate.
  destruct (Nat.eqb a n) eqn:E.
  - clear H. assert (length (remove_key n r) <= length r).
    { clear. induction r as [|[a v] r]; simpl; auto. destruct (Nat.eqb a n); simpl; lia. }
    lia.
  - simpl. apply IHr in H. lia.
Qed.

Lemma first_key_lookup : forall l n, first_key l = Some n -> is_some (lookup n l) = true.
Proof. destruct l as [|[a v] r]; simpl; intros; try discriminate. inversion H; subst. rewrite Nat.eqb_refl. reflexivity. Qed.

Lemma first_key_none : forall l, first_key l = None -> l = [].
Proof. destruct l as [|[a v] r]; simpl; intros; auto; discriminate. Qed.

Definition solo (w : world) (i : tid) : Prop :=
  forall j tj, j <> i -> nth_error (threads w) j = Some tj -> live (tpc tj) = false.

Lemma solo_lock_free : forall c w i t, Inv c w -> solo w i -> nth_error (threads w) i = Some t ->
  locked_pc (tpc t) = false -> lock (st w) = None.
Proof.
  intros c w i t I S N L. destruct (lock (st w)) as [j|] eqn:E; auto.
  destruct (inv_lock _ _ I j E) as [tj [Nj Lj]].
  destruct (Nat.eq_dec j i) as [-> | NE].
  - congruence.
  - specialize (S j tj NE Nj). rewrite (live_locked _ Lj) in S. discriminate.
Qed.

Local Arguments Nat.add : simpl never.
Local Arguments Nat.mul : simpl never.
Local Arguments Nat.sub : simpl never.

(* [step_now] evaluates [tstep] once the effect is known; [ranked] closes the
   comparison of ranks once both are numerals plus common terms. *)
Ltac step_now := cbv beta iota delta [tstep ret zip_done after_p after_f0 after_mkdir tpc tkind de proc set_pc set_pc_de].
Ltac ranked := unfold rank, good, dlen; simpl; split; auto; lia.

(* The effect chosen by [clean_eff] is enabled, and taking it lowers the rank. *)
Lemma solo_progress : forall c s q i t,
  env_ok c -> tinv c s i t -> tkind t = KFetch -> good q t -> live (tpc t) = true ->
  (locked_pc (tpc t) = false -> lock s = None) ->
  match clean_eff c s t with
  | Some e => match tstep c s q i t e with
              | Some (s', q', t') => rank c s' t' < rank c s t /\ good q' t'
              | None => False
              end
  | None => False
  end.
Proof.
  intros c s q i t [[V1 [V2 [V3 V4]]] IO] [HL [HK HP]] K G LV LF.
  destruct t as [p k pc d]. simpl in *. subst k. unfold pcinv in HP. simpl in HP.
  destruct pc; simpl in LV; try discriminate LV; unfold good in G; simpl in G; try contradiction.
  all: unfold clean_eff; simpl.
  (* P0, P1, Z0, Z2, Z8, Z10, F1, F2, F6, F9: effect and guard are read off the store, the
     step computes, and either outcome of a stat lowers the rank *)
  all: try (step_now; rewrite ?V1, ?V4, ?Bool.eqb_reflx, ?Nat.eqb_refl;
            try match goal with |- context [if ?b then _ else _] => destruct b end; ranked; fail).
  - (* ZE *) step_now. rewrite G. ranked.
  - (* Z1 *) step_now. rewrite (LF eq_refl). ranked.
  - (* Z4: stale temp files go one by one, then the new one is created *)
    destruct (first_key (ztmp s)) as [n|] eqn:FK; step_now.
    + pose proof (first_key_lookup _ _ FK) as L. rewrite L. pose proof (remove_key_shorter _ _ L). ranked.
    + rewrite (first_key_none _ FK). unfold rank, good, dlen; simpl. rewrite (first_key_none _ FK).
      split; auto. destruct (zsize c); simpl; lia.
  - (* Z7: the rest of the body in one chunk, then EOF *)
    destruct HP as [b [ZT LE]]. rewrite ZT, lookup_single. destruct (Nat.eqb b (zsize c)) eqn:EB; step_now.
    + rewrite ZT, lookup_single, EB. unfold rank, good, dlen; simpl. rewrite ZT, lookup_single, EB. split; auto; lia.
    + rewrite Nat.eqb_refl, ZT, lookup_single. replace (b + (zsize c - b)) with (zsize c) by lia. rewrite Nat.leb_refl.
      unfold rank, good, dlen; simpl. rewrite ZT, lookup_single, EB. simpl. rewrite Nat.eqb_refl, lookup_single.
      replace (b + (zsize c - b)) with (zsize c) by lia. rewrite Nat.eqb_refl. split; auto; lia.
  - (* Z9 *) step_now. rewrite Nat.eqb_refl, HP, lookup_single. ranked.
  - (* F0 *) step_now. rewrite (LF eq_refl), V3. ranked.
  - (* F4: RemoveAll of the partial directory *)
    destruct HP as [_ [_ DN]]. destruct (dir s) as [l|] eqn:D; try congruence.
    destruct (first_key l) as [f|] eqn:FK; step_now; rewrite D.
    + pose proof (first_key_lookup _ _ FK) as L. rewrite L. pose proof (remove_key_shorter _ _ L).
      unfold rank, good, dlen; simpl. rewrite D. split; auto; lia.
    + rewrite (first_key_none _ FK). unfold rank, good, dlen; simpl. rewrite D, (first_key_none _ FK). simpl. split; auto; lia.
  - (* U0 *) destruct HP as [Z [_ DN]]. step_now. rewrite DN, Z, Nat.eqb_refl. ranked.
  - (* U2 *) destruct HP as [_ [_ DN]]. step_now. rewrite DN, V1, V2. ranked.
  - (* U3c *) destruct HP as [MK [LE DI]]. destruct (Nat.eqb i0 (nfiles c)) eqn:EN; step_now.
    + rewrite EN, V2, MK. ranked.
    + apply Nat.eqb_neq in EN. assert (LT : i0 < nfiles c) by lia. apply Nat.ltb_lt in LT.
      rewrite Nat.eqb_refl, LT, DI, lookup_firstn_full. simpl.
      unfold rank, good; simpl. rewrite lookup_last_file. apply Nat.ltb_lt in LT. split; auto. destruct (0 =? fsize c i0); lia.
  - (* U3w *) destruct HP as [MK [LT [b [LE DI]]]]. rewrite DI, lookup_last_file.
    destruct (Nat.eqb b (fsize c i0)) eqn:EB; step_now; rewrite Nat.eqb_refl, DI, lookup_last_file.
    + rewrite EB. unfold rank, good; simpl. rewrite DI, lookup_last_file, EB. split; auto; lia.
    + replace (b + (fsize c i0 - b)) with (fsize c i0) by lia. rewrite Nat.leb_refl, add_bytes_last_file.
      unfold rank, good; simpl. rewrite DI, !lookup_last_file, EB.
      replace (b + (fsize c i0 - b)) with (fsize c i0) by lia. rewrite Nat.eqb_refl. split; auto; lia.
Qed.

Lemma run_clean_unfold : forall c f w i t, nth_error (threads w) i = Some t -> live (tpc t) = true ->
  run_clean c (S f) w i =
  match clean_eff c (st w) t with
  | Some e => match step c w (Eff i e) with Some w' => run_clean c f w' i | None => None end
  | None => None
  end.
Proof. intros. simpl. rewrite H. destruct (tpc t); simpl in *; try discriminate; reflexivity. Qed.

Lemma run_clean_done : forall c f w i t r, nth_error (threads w) i = Some t -> tpc t = Done r -> run_clean c f w i = Some w.
Proof. intros. destruct f; simpl; rewrite H, H0; reflexivity. Qed.

Lemma good_not_dead : forall q t, good q t -> live (tpc t) = false -> tpc t = Done ROk.
Proof. intros q t G L. unfold good in G. destruct (tpc t); simpl in *; try discriminate; try contradiction. destruct r; try contradiction; auto. Qed.

Lemma run_clean_ok : forall c, env_ok c -> forall fuel w i t,
  reachable c w -> solo w i -> nth_error (threads w) i = Some t -> tkind t = KFetch ->
  good (ps w (proc t)) t -> rank c (st w) t < fuel ->
  exists w' t', run_clean c fuel w i = Some w' /\ reachable c w' /\
                nth_error (threads w') i = Some t' /\ tpc t' = Done ROk /\ tkind t' = KFetch.
Proof.
  intros c EV. induction fuel; intros w i t R S N K G RK; [lia|].
  destruct (live (tpc t)) eqn:LV.
  - pose proof (inv_reachable _ _ EV R) as I.
    assert (LF : locked_pc (tpc t) = false -> lock (st w) = None) by (intros; eapply solo_lock_free; eauto).
    pose proof (solo_progress c (st w) (ps w (proc t)) i t EV (inv_threads _ _ I i t N) K G LV LF) as P.
    rewrite (run_clean_unfold _ _ _ _ _ N LV).
    destruct (clean_eff c (st w) t) as [e|]; [|contradiction].
    destruct (tstep c (st w) (ps w (proc t)) i t e) as [[[s' q'] t']|] eqn:TS; [|contradiction].
    destruct P as [RK' G'].
    assert (ST : step c w (Eff i e) = Some {| st := s'; ps := upd_ps (ps w) (proc t) q';
                   threads := upd_nth i t' (threads w); crashed := crashed w |}).
    { simpl. rewrite N, TS. reflexivity. }
    rewrite ST.
    destruct (tstep_trans _ _ _ _ _ _ _ _ _ TS) as [PR [KD _]].
    assert (LEN : i < length (threads w)) by (apply nth_error_Some; congruence).
    eapply IHfuel.
    + eapply reachS; eauto.
    + intros j tj NE NJ. simpl in NJ. rewrite nth_upd_other in NJ by auto. eapply S; eauto.
    + simpl. apply nth_upd_same; auto.
    + congruence.
    + simpl. unfold upd_ps. rewrite PR, Nat.eqb_refl. exact G'.
    + simpl. lia.
  - pose proof (good_not_dead _ _ G LV) as D.
    exists w, t. rewrite (run_clean_done _ _ _ _ _ _ N D). repeat split; auto.
Qed.

(* Recovery.  From any reachable world in which no call is in progress (every
   earlier process has finished or was killed, at any points whatsoever), a Fetch
   by a fresh process, run alone and without faults, terminates within
   [clean_fuel] steps, returns Ok, and the directory is the complete content. *)
Theorem recovery : forall c w p, env_ok c -> reachable c w -> quiescent w ->
  mem_nat p (crashed w) = false -> sfz (ps w p) = SfIdle ->
  exists w0 w' t',
    step c w (Spawn p KFetch) = Some w0 /\
    run_clean c (clean_fuel c (st w0)) w0 (length (threads w)) = Some w' /\
    nth_error (threads w') (length (threads w)) = Some t' /\ tpc t' = Done ROk /\
    complete c (st w') /\ reachable c w'.
Proof.
  intros c w p EV R Q NC IDLE.
  set (t0 := {| proc := p; tkind := KFetch; tpc := P0; de := false |}).
  set (w0 := {| st := st w; ps := ps w; crashed := crashed w; threads := threads w ++ [t0] |}).
  assert (S0 : step c w (Spawn p KFetch) = Some w0) by (simpl; rewrite NC; reflexivity).
  assert (R0 : reachable c w0) by (eapply reachS; eauto).
  assert (N0 : nth_error (threads w0) (length (threads w)) = Some t0).
  { simpl. rewrite nth_error_app2 by lia. rewrite Nat.sub_diag. reflexivity. }
  assert (SO : solo w0 (length (threads w))).
  { intros j tj NE NJ. simpl in NJ. apply nth_app_new in NJ. destruct NJ as [NJ | [E _]]; [|congruence].
    apply Q. eapply nth_error_In; eauto. }
  assert (RK : rank c (st w0) t0 < clean_fuel c (st w0)).
  { unfold rank, clean_fuel, dlen. simpl. destruct (dir (st w)); lia. }
  destruct (run_clean_ok c EV (clean_fuel c (st w0)) w0 (length (threads w)) t0 R0 SO N0 eq_refl IDLE RK)
    as [w' [t' [RC [R' [N' [D' K']]]]]].
  exists w0, w', t'. repeat split; auto; apply (reachable_safe c EV w' _ t' R' N' D'); congruence.
Qed.
