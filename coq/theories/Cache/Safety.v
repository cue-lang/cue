(* C16 - what the invariant gives an observer: a call that returned success sees the
   complete directory; the facts of [stab] are kept along every run; the trace acceptor
   stays within the reachable worlds.  The further corollaries are in Properties/C16.v. *)
From Verif Require Import Cache.Model Cache.Inv.
From Coq Require Import List Arith Bool Lia.
Import ListNotations.

Section Safety.
Variable c : cfg.
Hypothesis EV : env_ok c.

(* A Fetch / FetchFromCache call that returned successfully - through the
   unlocked two-stat test, the re-check under the lock, or its own extraction -
   returned a complete directory; and it is still complete in every later world. *)
Theorem reachable_safe : forall w i t,
  reachable c w -> nth_error (threads w) i = Some t -> tpc t = Done ROk -> tkind t <> KModFile ->
  complete c (st w).
Proof.
  intros w i t R N P K. destruct (inv_threads _ _ (inv_reachable _ _ EV R) i t N) as [_ [_ PI]].
  apply (pcinv_done_ok _ _ _ P) in PI. destruct (tkind t); auto. congruence.
Qed.

Lemma step_stab : forall w l w', reachable c w -> step c w l = Some w' -> stab c (st w) (st w').
Proof.
  intros w l w' R STEP. apply (inv_stab_step _ _ _ _ EV (inv_reachable _ _ EV R) STEP).
Qed.

Lemma run_reachable : forall ls w w', reachable c w -> run c w ls = Some w' -> reachable c w'.
Proof.
  induction ls; simpl; intros w w' R H.
  - inversion H; subst; auto.
  - destruct (step c w a) eqn:S; try discriminate. eapply IHls; [|eauto]. eapply reachS; eauto.
Qed.

Lemma run_stab : forall ls w w', reachable c w -> run c w ls = Some w' -> stab c (st w) (st w').
Proof.
  induction ls; simpl; intros w w' R H.
  - inversion H; subst. apply stab_refl.
  - destruct (step c w a) as [w1|] eqn:S; try discriminate.
    pose proof (step_stab _ _ _ R S) as [A B C D].
    assert (R1 : reachable c w1) by (eapply reachS; eauto).
    destruct (IHls _ _ R1 H) as [A' B' C' D']. constructor; auto.
Qed.

End Safety.

Lemma via_taus1_reach : forall c w i l w', reachable c w -> In w' (via_taus1 c w i l) -> reachable c w'.
Proof.
  intros c w i l w' R H. unfold via_taus1 in H. apply in_flat_map in H. destruct H as [e [_ H]].
  destruct (step c w (Eff i e)) as [w1|] eqn:E1; [|contradiction].
  destruct (step c w1 l) as [w2|] eqn:E2; simpl in H; [|contradiction].
  destruct H as [<-|[]]. eapply reachS; [eapply reachS|]; eauto.
Qed.

Lemma via_taus2_reach : forall c w i l w', reachable c w -> In w' (via_taus2 c w i l) -> reachable c w'.
Proof.
  intros c w i l w' R H. unfold via_taus2 in H. apply in_flat_map in H. destruct H as [e [_ H]].
  destruct (step c w (Eff i e)) as [w1|] eqn:E1; [|contradiction].
  eapply via_taus1_reach; [|eauto]. eapply reachS; eauto.
Qed.

Lemma accept1_reach : forall c w l w', reachable c w -> In w' (accept1 c w l) -> reachable c w'.
Proof.
  intros c w l w' R H. unfold accept1 in H.
  destruct (step c w l) as [w1|] eqn:E.
  - destruct H as [<-|[]]. eapply reachS; eauto.
  - destruct l; try contradiction.
    destruct (via_taus1 c w i (Eff i e)) eqn:V.
    + eapply via_taus2_reach; eauto.
    + rewrite <- V in H. eapply via_taus1_reach; eauto.
Qed.
