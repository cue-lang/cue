(* C16 - one download per version and process: the model of par.ErrCache.Do in
   downloadZip.  [gz (ps w p)] counts the temp-file creations of process p, each of
   which is followed by one GetModule and, if that succeeds, one GetZip in downloadZip1. *)
From Verif Require Import Cache.Model Cache.Inv.
From Coq Require Import List Arith Bool Lia.
Import ListNotations.

(* [zrun]: the pcs inside the closure that downloadZipCache.Do runs (downloadZip);
   [zpre]: those of them at which the temp file of this run does not exist yet. *)
Definition zrun (p : pc) : bool :=
  match p with Z0 | Z1 | Z2 | Z4 | Z7 _ | Z8 _ _ | Z9 _ | ZR _ | Z10 _ => true | _ => false end.
Definition zpre (p : pc) : bool :=
  match p with Z0 | Z1 | Z2 | Z4 => true | _ => false end.

(* what a step of thread i from pc to pc' does to the single-flight entry and the download count *)
Definition sf_move (i : tid) (pc pc' : pc) (q q' : pstate) : Prop :=
  match zrun pc, zrun pc' with
  | false, true => sfz q = SfIdle /\ sfz q' = SfRunning i /\ gz q' = gz q
  | true, true => sfz q' = sfz q /\ (zpre pc' = true -> zpre pc = true) /\
                  (gz q' = gz q \/ zpre pc = true /\ zpre pc' = false /\ gz q' = S (gz q))
  | true, false => (exists ok, sfz q' = SfDone ok) /\ gz q' = gz q
  | false, false => sfz q' = sfz q /\ gz q' = gz q
  end.

Lemma trans_sf : forall c s q i t pc e s' q' pc', trans c s q i t pc e s' q' pc' -> sf_move i pc pc' q q'.
Proof.
  intros c s q i t pc e s' q' pc' T. unfold sf_move.
  trans_cases T zrun; simpl; eauto 6.
Qed.

(* The single-flight invariant.  [sf_run]: a thread inside the closure is the one the
   entry names, so there is one per process; while it is before its temp file the count
   is still 0, which is what lets the step to Z7 raise it to 1 and no further. *)
Record SF (w : world) : Prop := {
  sf_le : forall p, gz (ps w p) <= 1;
  sf_idle : forall p, sfz (ps w p) = SfIdle -> gz (ps w p) = 0;
  sf_run : forall i t, nth_error (threads w) i = Some t -> zrun (tpc t) = true ->
             sfz (ps w (proc t)) = SfRunning i /\ (zpre (tpc t) = true -> gz (ps w (proc t)) = 0)
}.

Lemma sf_init : SF world0.
Proof. constructor; simpl; intros; auto. destruct i; discriminate. Qed.

Lemma sf_step : forall c w l w', SF w -> step c w l = Some w' -> SF w'.
Proof.
  intros c w l w' [LE ID RN] STEP. destruct l as [p k | p | i e].
  - rewrite (step_spawn_inv _ _ _ _ _ STEP).
    constructor; simpl; auto. intros i t N Z. apply nth_app_new in N. destruct N as [N | [-> ->]]; auto.
    destruct k; discriminate.
  - simpl in STEP. injection STEP as <-. constructor; simpl; auto.
    intros i t' N Z. rewrite nth_error_map in N. destruct (nth_error (threads w) i) as [t|] eqn:NI; try discriminate.
    inversion N; subst; clear N. unfold kill in *. destruct (Nat.eqb (proc t) p && live (tpc t)); simpl in *; try discriminate.
    apply RN; auto.
  - destruct (step_eff_inv _ _ _ _ _ STEP) as (t & s' & q' & t' & N & PR & _ & T & ->).
    apply trans_sf in T. unfold sf_move in T.
    assert (LEN : i < length (threads w)) by (apply nth_error_Some; congruence).
    pose proof (RN i t N) as RI.
    constructor; simpl.
    + intros p. unfold upd_ps. destruct (Nat.eqb p (proc t)); auto. specialize (LE (proc t)).
      destruct (zrun (tpc t)), (zrun (tpc t')); try lia.
      destruct T as (_ & _ & [G | (ZP & _ & G)]); [lia|]. destruct (RI eq_refl) as [_ G0]. rewrite G, (G0 ZP). lia.
    + intros p. unfold upd_ps. destruct (Nat.eqb p (proc t)); auto. intros IDLE.
      destruct (zrun (tpc t)), (zrun (tpc t')).
      * destruct (RI eq_refl) as [A _]. destruct T as (SQ & _). congruence.
      * destruct T as ((ok & SD) & _). congruence.
      * destruct T as (_ & SR & _). congruence.
      * destruct T as (SQ & G). rewrite G. apply ID. congruence.
    + intros j tj NJ ZJ. destruct (Nat.eq_dec j i) as [-> | NE].
      * rewrite nth_upd_same in NJ by auto. inversion NJ; subst tj; clear NJ.
        unfold upd_ps. rewrite PR, Nat.eqb_refl. rewrite ZJ in T. destruct (zrun (tpc t)).
        -- destruct (RI eq_refl) as [A G0]. destruct T as (SQ & ZP & G). split; [congruence|]. intros Z'.
           destruct G as [G | (_ & ZF & _)]; [|congruence]. rewrite G. auto.
        -- destruct T as (IDL & SR & G). split; auto. intros _. rewrite G. apply ID; auto.
      * rewrite nth_upd_other in NJ by auto. destruct (RN j tj NJ ZJ) as [A G0].
        unfold upd_ps. destruct (Nat.eqb (proc tj) (proc t)) eqn:EP; auto.
        apply Nat.eqb_eq in EP. rewrite EP in A.
        destruct (zrun (tpc t)); [destruct (RI eq_refl); congruence|].
        destruct (zrun (tpc t')).
        -- destruct T as (IDL & _). congruence.
        -- destruct T as (SQ & G). rewrite SQ, G, <- EP. rewrite <- EP in A. auto.
Qed.

Theorem sf_reachable : forall c w, reachable c w -> SF w.
Proof. intros c w R. induction R; [apply sf_init | eapply sf_step; eauto]. Qed.

(* At most one download (temp file + GetModule/GetZip round trip) of the version per
   process, whatever the number of goroutines, the interleaving and the faults; for
   every configuration, the refuted variants included. *)
Theorem single_flight : forall c w p, reachable c w -> gz (ps w p) <= 1.
Proof. intros c w p R. apply (sf_le _ (sf_reachable c w R)). Qed.

