(* C16 - which orderings matter: four variants of the protocol, and the real
   protocol under local I/O errors, each with a reachable state in which a
   Fetch / FetchFromCache has returned success while the directory is not the
   complete content.  The witness histories are here; Properties/C16.v checks each by
   computation through [refuted_by]. *)
From Verif Require Import Cache.Model.
From Coq Require Import List Arith Bool Lia.
Import ListNotations.

Definition unsafe (c : cfg) (w : world) : Prop :=
  exists i t, nth_error (threads w) i = Some t /\ tpc t = Done ROk /\ tkind t <> KModFile /\ ~ complete c (st w).

Definition served (t : thread) : bool :=
  match tpc t, tkind t with
  | Done ROk, KFetch | Done ROk, KFromCache => true
  | _, _ => false
  end.

Definition unsafeb (c : cfg) (w : world) : bool := existsb served (threads w) && negb (completeb c (st w)).

Lemma pairs_eqb_refl : forall l, pairs_eqb l l = true.
Proof. induction l as [|[a b] r]; simpl; auto. rewrite !Nat.eqb_refl. auto. Qed.

Lemma complete_completeb : forall c s, complete c s -> completeb c s = true.
Proof. intros c s [D M]. unfold completeb. rewrite D, M, pairs_eqb_refl. reflexivity. Qed.

Lemma unsafeb_sound : forall c w, unsafeb c w = true -> unsafe c w.
Proof.
  intros c w H. unfold unsafeb in H. apply andb_prop in H. destruct H as [E N].
  apply existsb_exists in E. destruct E as [t [I S]]. apply In_nth_error in I. destruct I as [i I].
  exists i, t. unfold served in S. destruct (tpc t) eqn:P; try discriminate. destruct r; try discriminate.
  repeat split; auto.
  - destruct (tkind t); try discriminate; congruence.
  - intros C. rewrite (complete_completeb _ _ C) in N. discriminate.
Qed.

(* a history, checked by evaluation, that ends in an unsafe world *)
Lemma refuted_by : forall c ls,
  match run c world0 ls with Some w => unsafeb c w | None => false end = true ->
  exists ls' w, run c world0 ls' = Some w /\ unsafe c w.
Proof.
  intros c ls H. destruct (run c world0 ls) as [w|] eqn:E; [|discriminate].
  exists ls, w. split; [exact E | apply unsafeb_sound; exact H].
Qed.

Definition base (io late early norecheck swapped : bool) : cfg :=
  {| zsize := 1; msize := 1; fsizes := [1]; allow_io := io;
     v_marker_late := late; v_marker_early := early; v_no_recheck := norecheck; v_stat_swapped := swapped |}.

(* download of the zip by thread i (from the empty store), up to the unlock *)
Definition dl (i : tid) : list label :=
  map (Eff i) [TEnter; StatZip false; LockAcq; StatZip false; CreateZTmp 0; WriteZTmp 0 1; TRegEOF;
               CloseZTmp 0; RenameZip 0; LockRel].

(* 1. marker written after the directory is created: crash between mkdir and the marker *)
Definition h_marker_late : list label :=
  [Spawn 0 KFetch; Eff 0 (StatDir false)] ++ dl 0 ++
  map (Eff 0) [LockAcq; StatDir false; TCheck; TCheck; MkdirDir] ++
  [Crash 0; Spawn 1 KFromCache; Eff 1 (StatDir true); Eff 1 (StatMarker false)].

(* 2. marker removed before the extraction is complete: crash after the removal *)
Definition h_marker_early : list label :=
  [Spawn 0 KFetch; Eff 0 (StatDir false)] ++ dl 0 ++
  map (Eff 0) [LockAcq; StatDir false; CreateMarker; TCheck; MkdirDir; UnlinkMarker] ++
  [Crash 0; Spawn 1 KFromCache; Eff 1 (StatDir true); Eff 1 (StatMarker false)].

(* 3. no re-check of downloadDir under the lock: a fetcher that saw "absent" before
   another one completed re-extracts over the complete directory, Unzip refuses the
   non-empty directory, the error path removes it - while a reader is between its two stats *)
Definition h_no_recheck : list label :=
  [Spawn 0 KFetch; Eff 0 (StatDir false);                       (* A saw: absent *)
   Spawn 1 KFetch; Eff 1 (StatDir false)] ++ dl 1 ++            (* B fetches completely *)
  map (Eff 1) [LockAcq; CreateMarker; TCheck; MkdirDir; CreateFile 0; WriteFile 0 1; CloseFile 0; UnlinkMarker; LockRel] ++
  [Spawn 2 KFromCache; Eff 2 (StatDir true)] ++                 (* C: first stat, directory complete *)
  map (Eff 0) [TEnter; StatZip true; LockAcq; CreateMarker; TCheck; UnlinkFile 0; RmdirDir; UnlinkMarker] ++
  [Eff 2 (StatMarker false)].                                   (* C: second stat *)

(* 4. downloadDir stats the marker first and the directory second *)
Definition h_stat_swapped : list label :=
  [Spawn 0 KFromCache; Eff 0 (StatMarker false);                (* reader (thread 0): no marker, nothing there yet *)
   Spawn 1 KFetch; Eff 1 (StatMarker false); Eff 1 (StatDir false)] ++ dl 1 ++
  map (Eff 1) [LockAcq; StatDir false; CreateMarker; TCheck; MkdirDir] ++
  [Eff 0 (StatDir true)].                                       (* reader: directory exists *)

(* 5. The protocol as written, but with a local I/O error during extraction (outside the
   property's fault model): the error path removes the directory and then the marker,
   and a reader between its two stats reports a directory that no longer exists. *)
Definition h_io_error : list label :=
  [Spawn 0 KFetch; Eff 0 (StatDir false)] ++ dl 0 ++
  map (Eff 0) [LockAcq; StatDir false; CreateMarker; TCheck; MkdirDir] ++
  [Spawn 1 KFromCache; Eff 1 (StatDir true)] ++
  map (Eff 0) [TIOFault; RmdirDir; UnlinkMarker] ++
  [Eff 1 (StatMarker false)].

