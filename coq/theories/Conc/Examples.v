From Verif Require Import Conc.Index Conc.IndexProofs Conc.Once Conc.OnceProofs.
From Coq Require Import List Arith Bool Lia.
Import ListNotations.

Notation ed := Nat.eq_dec.

(* the table after the package init: getKey("_") on the empty table; "_" is key 0 here *)
Definition tbl_init : tbl nat := fst (seq_keys nat ed (empty_tbl nat) [0]).

Example tbl_init_wf : wf_tbl nat ed tbl_init /\ labels nat tbl_init = [0] /\ lmap nat tbl_init = [(0, 0)].
Proof.
  split; [|split; reflexivity].
  eapply (seq_keys_wf nat ed [0] (empty_tbl nat)); [apply wf_empty | reflexivity].
Qed.

(* three threads, two new strings, overlapping calls: threads 0 and 1 both miss
   string 5 in section A; thread 1 appends it, thread 0's re-check finds it *)
Definition sched3 : list (Index.label nat) :=
  [CallA 0 5; CallA 1 5; CallA 2 6; SecB 1; SecB 0; SecB 2; CallA 2 5; CallA 0 6; CallA 1 0].

Example index_three_threads :
  exists st, Index.run nat ed true (Index.init nat tbl_init) sched3 = Some st /\
    Index.reachable nat ed true tbl_init st /\
    labels nat (tb nat st) = [0; 5; 6] /\
    logs nat st 0 = [(5, 1); (6, 2)] /\ logs nat st 1 = [(5, 1); (0, 0)] /\ logs nat st 2 = [(6, 2); (5, 1)] /\
    check_history nat ed (labels nat tbl_init) (map (logs nat st) (seq 0 3))
                  (labels nat (tb nat st)) (lmap nat (tb nat st)) = true.
Proof.
  eexists. split; [vm_compute; reflexivity|]. split; [exists sched3; vm_compute; reflexivity|].
  vm_compute. repeat split; reflexivity.
Qed.

(* the history check is not trivially true: it rejects the duplicate-entry
   history of the variant without the re-check, a history with two indices for
   one string, a reused index, and a slot nobody can have appended *)
Example check_history_rejects :
  check_history nat ed [0] [[(5, 1)]; [(5, 2)]] [0; 5; 5] [(5, 2); (0, 0)] = false /\
  check_history nat ed [0] [[(5, 1)]; [(5, 2)]] [0; 5; 6] [(6, 2); (5, 1); (0, 0)] = false /\
  check_history nat ed [0] [[(5, 1)]; [(6, 1)]] [0; 5] [(5, 1); (0, 0)] = false /\
  check_history nat ed [0] [[(6, 2); (5, 1)]] [0; 5; 6] [(6, 2); (5, 1); (0, 0)] = false /\
  check_history nat ed [0] [[(5, 1); (6, 2)]] [0; 5; 6] [(6, 2); (5, 1); (0, 0)] = true.
Proof. vm_compute. repeat split; reflexivity. Qed.

Example check_once_rejects :
  check_once nat ed [(7, 1); (7, 0)] [(7, Some 0)] = false /\
  check_once nat ed [(7, 0)] [(7, Some 0); (7, Some 1)] = false /\
  check_once nat ed [(7, 0)] [(7, None)] = false /\
  check_once nat ed [] [(7, Some 0)] = false /\
  check_once nat ed [(8, 3); (7, 0)] [(7, Some 0); (8, Some 3); (7, Some 0)] = true.
Proof. vm_compute. repeat split; reflexivity. Qed.

(* two keys, three callers, interleaved: f runs once per key *)
Example once_two_keys :
  exists st, Once.run nat ed true (Once.init nat)
      [Call 0 7; Call 1 7; Call 2 8; Step 0; Step 2; Step 1; Step 2; Step 0; Step 1; Step 2; Step 0; Step 2; Step 0;
       Step 2; Step 0; Step 2; Step 0; Step 2; Step 0; Step 2; Step 0; Step 2; Step 0; Step 1; Step 1; Step 1; Step 1] = Some st /\
    E nat ed st 7 = [0] /\ E nat ed st 8 = [2] /\
    returns_of nat st = [(7, Some 0); (7, Some 0); (8, Some 2)] /\
    (forall t, t < 3 -> Once.pcs nat st t = Once.Idle).
Proof.
  eexists. split; [vm_compute; reflexivity|]. vm_compute. repeat split; auto.
  intros t H. do 3 (destruct t as [|t]; [reflexivity|]). lia.
Qed.
