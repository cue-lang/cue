(* C19 - proofs about the label index machine (Conc/Index.v): invariants over all
   interleavings of the lock sections, for any number of threads. *)
From Verif Require Import Conc.Index.
From Coq Require Import List Arith Bool Lia.
Import ListNotations.

Section IndexProofs.
  Variable K : Type.
  Variable K_eq_dec : forall a b : K, {a = b} + {a <> b}.

  Notation tbl := (tbl K).
  Notation state := (state K).
  Notation assoc := (assoc K K_eq_dec).
  Notation append_key := (append_key K).
  Notation get_key := (get_key K K_eq_dec).
  Notation step := (step K K_eq_dec).
  Notation run := (run K K_eq_dec).
  Notation init := (init K).
  Notation wf_tbl := (wf_tbl K K_eq_dec).
  Notation reachable := (reachable K K_eq_dec).
  Notation appender_ok := (appender_ok K).

  Lemma assoc_in : forall m s p, assoc m s = Some p -> In (s, p) m.
  Proof.
    induction m as [|[k q] r IH]; simpl; intros s p H; try discriminate.
    destruct (K_eq_dec k s) as [->|NE].
    - inversion H; subst; auto.
    - right; auto.
  Qed.

  Lemma wf_iff : forall b, wf_tbl b ->
    forall s p, assoc (lmap K b) s = Some p <-> nth_error (labels K b) p = Some s.
  Proof.
    intros b [ND [A B]] s p; split; intros H.
    - apply A. apply assoc_in; auto.
    - apply B; auto.
  Qed.

  Lemma wf_empty : wf_tbl (empty_tbl K).
  Proof.
    repeat split; simpl.
    - constructor.
    - intros k p [].
    - intros [|p] k H; discriminate.
  Qed.

  Lemma nth_error_app_mono : forall (A : Type) (l e : list A) p x,
    nth_error l p = Some x -> nth_error (l ++ e) p = Some x.
  Proof.
    intros A l e p x H. rewrite nth_error_app1; auto.
    apply nth_error_Some. congruence.
  Qed.

  Lemma nth_error_snoc : forall (A : Type) (l : list A) x, nth_error (l ++ [x]) (length l) = Some x.
  Proof. intros. rewrite nth_error_app2 by lia. rewrite Nat.sub_diag. reflexivity. Qed.

  (* in a duplicate-free list, positions and elements determine each other *)
  Lemma nth_error_NoDup_iff : forall (A : Type) (l : list A) p p' x x', NoDup l ->
    nth_error l p = Some x -> nth_error l p' = Some x' -> (x = x' <-> p = p').
  Proof.
    intros A l p p' x x' ND H H'. split; intros; subst; [|congruence].
    eapply (proj1 (NoDup_nth_error _) ND); try congruence. apply nth_error_Some. congruence.
  Qed.

  Lemma wf_not_in : forall b s, wf_tbl b -> assoc (lmap K b) s = None -> ~ In s (labels K b).
  Proof.
    intros b s [ND [A B]] N I. apply In_nth_error in I. destruct I as [p P].
    apply B in P. congruence.
  Qed.

  Lemma NoDup_snoc : forall (l : list K) s, NoDup l -> ~ In s l -> NoDup (l ++ [s]).
  Proof.
    induction l as [|k r IH]; simpl; intros s N NI.
    - constructor; [auto | constructor].
    - inversion N; subst. constructor.
      + intros I. apply in_app_or in I. destruct I as [I | [I | []]]; auto.
      + apply IH; auto.
  Qed.

  Lemma wf_append : forall b s, wf_tbl b -> assoc (lmap K b) s = None ->
    wf_tbl (fst (append_key b s)).
  Proof.
    intros b s W N. pose proof (wf_not_in b s W N) as NI.
    destruct W as [ND [A B]]. unfold append_key; simpl. repeat split; simpl.
    - apply NoDup_snoc; auto.
    - intros k p [E | I].
      + inversion E; subst. apply nth_error_snoc.
      + apply nth_error_app_mono. auto.
    - intros p k H.
      destruct (Nat.lt_ge_cases p (length (labels K b))) as [LT | GE].
      + rewrite nth_error_app1 in H by auto.
        destruct (K_eq_dec s k) as [->|NE].
        * apply B in H. congruence.
        * apply B; auto.
      + rewrite nth_error_app2 in H by auto.
        destruct (p - length (labels K b)) as [|d] eqn:D; simpl in H.
        * inversion H; subst. destruct (K_eq_dec k k); try congruence. f_equal. lia.
        * destruct d; discriminate.
  Qed.

  Lemma get_key_spec : forall b s b' p, wf_tbl b -> get_key b s = (b', p) ->
    wf_tbl b' /\ nth_error (labels K b') p = Some s /\
    (exists ext, labels K b' = labels K b ++ ext) /\
    (In s (labels K b) -> b' = b).
  Proof.
    intros b s b' p W H. unfold get_key in H.
    destruct (assoc (lmap K b) s) as [q|] eqn:A.
    - inversion H; subst. split; [auto|]. split; [apply (wf_iff _ W); auto|]. split; [|auto].
      exists []. rewrite app_nil_r; auto.
    - pose proof (wf_append b s W A) as W'. unfold append_key in *. inversion H; subst; simpl in *.
      split; [exact W'|]. split; [|split].
      + apply nth_error_snoc.
      + eexists; reflexivity.
      + intros I. exfalso. exact (wf_not_in b s W A I).
  Qed.

  Lemma seq_keys_wf : forall ss b b' ps, wf_tbl b -> seq_keys K K_eq_dec b ss = (b', ps) -> wf_tbl b'.
  Proof.
    induction ss as [|s r IH]; simpl; intros b b' ps W H.
    - inversion H; subst; auto.
    - destruct (get_key b s) as [b1 p] eqn:G. destruct (seq_keys K K_eq_dec b1 r) as [b2 qs] eqn:S.
      inversion H; subst. eapply IH; [|eauto]. eapply get_key_spec; eauto.
  Qed.

  Lemma appender_ok_app : forall p L e, appender_ok p L = true -> appender_ok p (L ++ e) = true.
  Proof.
    induction L as [|[s q] r IH]; simpl; intros e H; try discriminate.
    destruct (Nat.eqb q p); auto. destruct (Nat.ltb q p); auto.
  Qed.

  Lemma appender_ok_new : forall p s L, (forall k q, In (k, q) L -> q < p) ->
    appender_ok p (L ++ [(s, p)]) = true.
  Proof.
    induction L as [|[k q] r IH]; simpl; intros H.
    - rewrite Nat.eqb_refl. reflexivity.
    - assert (q < p) as LT by (eapply H; left; reflexivity).
      destruct (Nat.eqb_spec q p); auto.
      destruct (Nat.ltb_spec q p); try lia. apply IH. intros; eapply H; right; eauto.
  Qed.

  Record Inv (b0 : tbl) (st : state) : Prop := {
    inv_wf : wf_tbl (tb K st);
    inv_ext : exists ext, labels K (tb K st) = labels K b0 ++ ext;
    inv_log : forall t s p, In (s, p) (logs K st t) -> nth_error (labels K (tb K st)) p = Some s;
    inv_app : forall p, length (labels K b0) <= p < length (labels K (tb K st)) ->
                exists t, appender_ok p (logs K st t) = true
  }.

  Lemma inv_init : forall b0, wf_tbl b0 -> Inv b0 (init b0).
  Proof.
    intros b0 W. constructor; simpl; auto.
    - exists []. rewrite app_nil_r; auto.
    - intros t s p [].
    - intros p H. lia.
  Qed.

  Lemma upd_same : forall A (f : nat -> A) t a, upd f t a t = a.
  Proof. intros. unfold upd. rewrite Nat.eqb_refl. reflexivity. Qed.

  Lemma upd_other : forall A (f : nat -> A) t a u, u <> t -> upd f t a u = f u.
  Proof. intros. unfold upd. destruct (Nat.eqb_spec u t); congruence. Qed.

  (* what a return adds to the logs *)
  Lemma ret_log_in : forall st b t s p u e, In e (logs K (ret K st b t s p) u) ->
    In e (logs K st u) \/ e = (s, p).
  Proof.
    intros st b t s p u e I. simpl in I. destruct (Nat.eq_dec u t) as [->|NE].
    - rewrite upd_same in I. apply in_app_or in I. destruct I as [I | [I | []]]; auto.
    - rewrite upd_other in I by auto. auto.
  Qed.

  Lemma ret_appender : forall st b t s p u q, appender_ok q (logs K st u) = true ->
    appender_ok q (logs K (ret K st b t s p) u) = true.
  Proof.
    intros st b t s p u q H. simpl. destruct (Nat.eq_dec u t) as [->|NE].
    - rewrite upd_same. apply appender_ok_app; auto.
    - rewrite upd_other by auto. auto.
  Qed.

  (* returning an index that is already in the table *)
  Lemma inv_ret_found : forall b0 st t s p, Inv b0 st -> assoc (lmap K (tb K st)) s = Some p ->
    Inv b0 (ret K st (tb K st) t s p).
  Proof.
    intros b0 st t s p [W E L A] F. constructor; auto.
    - intros u k q I. apply ret_log_in in I. destruct I as [I | I]; [eauto|].
      inversion I; subst. apply (wf_iff _ W); auto.
    - intros q H. destruct (A q H) as [u U]. exists u. apply ret_appender; auto.
  Qed.

  (* appending a string that is not in the table *)
  Lemma inv_ret_append : forall b0 st t s, Inv b0 st -> assoc (lmap K (tb K st)) s = None ->
    Inv b0 (ret K st (fst (append_key (tb K st) s)) t s (snd (append_key (tb K st) s))).
  Proof.
    intros b0 st t s [W [ext E] L A] F.
    assert (LT : forall u k q, In (k, q) (logs K st u) -> q < length (labels K (tb K st))).
    { intros u k q I. apply L in I. apply nth_error_Some. congruence. }
    constructor.
    - apply wf_append; auto.
    - exists (ext ++ [s]). simpl. rewrite E, app_assoc. reflexivity.
    - intros u k q I. apply ret_log_in in I. simpl. destruct I as [I | I].
      + apply nth_error_app_mono. eauto.
      + inversion I; subst. apply nth_error_snoc.
    - intros q H. cbn [tb ret fst append_key labels] in H. rewrite app_length in H. simpl in H.
      destruct (Nat.eq_dec q (length (labels K (tb K st)))) as [->|NE].
      + exists t. simpl. rewrite upd_same. apply appender_ok_new. intros k q I. eapply LT; eauto.
      + destruct (A q) as [u U]; [lia|]. exists u. apply ret_appender; auto.
  Qed.

  Lemma inv_step : forall b0 st l st', Inv b0 st -> step true st l = Some st' -> Inv b0 st'.
  Proof.
    intros b0 st l st' I H. destruct l as [t s | t]; simpl in H.
    - destruct (pcs K st t); try discriminate.
      destruct (assoc (lmap K (tb K st)) s) as [p|] eqn:F; inversion H; subst; clear H.
      + apply inv_ret_found; auto.
      + destruct I; constructor; auto.
    - destruct (pcs K st t) as [|s]; try discriminate.
      destruct (assoc (lmap K (tb K st)) s) as [p|] eqn:F.
      + inversion H; subst. apply inv_ret_found; auto.
      + pose proof (inv_ret_append b0 st t s I F) as R.
        unfold append_key in *. simpl in *. inversion H; subst. exact R.
  Qed.

  Lemma inv_run : forall ls b0 st st', Inv b0 st -> run true st ls = Some st' -> Inv b0 st'.
  Proof.
    induction ls as [|l r IH]; simpl; intros b0 st st' I H.
    - inversion H; subst; auto.
    - destruct (step true st l) as [st1|] eqn:S; try discriminate.
      eapply IH; [|eauto]. eapply inv_step; eauto.
  Qed.

  Lemma inv_reachable : forall b0 st, wf_tbl b0 -> reachable true b0 st -> Inv b0 st.
  Proof. intros b0 st W [ls R]. eapply inv_run; [apply inv_init; auto | eauto]. Qed.

  (* the table and the logs only grow: for both variants, from any state *)

  Lemma step_grows : forall rc st l st', step rc st l = Some st' ->
    (exists ext, labels K (tb K st') = labels K (tb K st) ++ ext) /\
    (forall t, exists e, logs K st' t = logs K st t ++ e).
  Proof.
    intros rc st l st' H.
    assert (N : forall (A : Type) (x : list A), exists e, x = x ++ e).
    { intros. exists []. rewrite app_nil_r. auto. }
    assert (R : forall b u s p t, exists e, logs K (ret K st b u s p) t = logs K st t ++ e).
    { intros b u s p t. simpl. destruct (Nat.eq_dec t u) as [->|NE].
      - rewrite upd_same. eexists; reflexivity.
      - rewrite upd_other by auto. apply N. }
    destruct l as [u s | u]; simpl in H.
    - destruct (pcs K st u); try discriminate.
      destruct (assoc (lmap K (tb K st)) s); inversion H; subst; split; try apply N; auto.
    - destruct (pcs K st u) as [|s]; try discriminate.
      destruct (if rc then assoc (lmap K (tb K st)) s else None); inversion H; subst; split; auto.
      eexists; reflexivity.
  Qed.

  Lemma run_grows : forall rc ls st st', run rc st ls = Some st' ->
    (exists ext, labels K (tb K st') = labels K (tb K st) ++ ext) /\
    (forall t, exists e, logs K st' t = logs K st t ++ e).
  Proof.
    induction ls as [|l r IH]; simpl; intros st st' H.
    - inversion H; subst. split; [|intros t]; exists []; rewrite app_nil_r; auto.
    - destruct (step rc st l) as [st1|] eqn:S; try discriminate.
      destruct (step_grows _ _ _ _ S) as [[e1 E1] L1]. destruct (IH _ _ H) as [[e2 E2] L2]. split.
      + exists (e1 ++ e2). rewrite E2, E1, app_assoc. reflexivity.
      + intros t. destruct (L1 t) as [a A]. destruct (L2 t) as [b B].
        exists (a ++ b). rewrite B, A, app_assoc. reflexivity.
  Qed.

  Lemma run_app : forall rc l1 l2 st, run rc st (l1 ++ l2) =
    match run rc st l1 with Some st1 => run rc st1 l2 | None => None end.
  Proof.
    induction l1 as [|l r IH]; simpl; intros; auto.
    destruct (step rc st l); auto.
  Qed.

  (* In every reachable state: every interleaving, any number of threads, any call
     sequence. *)
  Theorem index_bijective : forall b0 st, wf_tbl b0 -> reachable true b0 st ->
    (* the table has no duplicates and labelMap is exactly its inverse *)
    NoDup (labels K (tb K st)) /\
    (forall s p, assoc (lmap K (tb K st)) s = Some p <-> index_to_string K (tb K st) p = Some s) /\
    (* IndexToString (getKey s) = s for every index handed out so far, to any thread *)
    (forall t s p, In (s, p) (logs K st t) -> index_to_string K (tb K st) p = Some s) /\
    (* same string <-> same index, across all threads *)
    (forall t s p t' s' p', In (s, p) (logs K st t) -> In (s', p') (logs K st t') -> (s = s' <-> p = p')) /\
    (* the table only grew by appending *)
    (exists ext, labels K (tb K st) = labels K b0 ++ ext).
  Proof.
    intros b0 st W R. pose proof (inv_reachable b0 st W R) as [Wf E L A].
    split; [apply Wf|]. split; [apply wf_iff; auto|]. split; [exact L|]. split; auto.
    intros t s p t' s' p' I I'. eapply nth_error_NoDup_iff; [apply Wf | eauto | eauto].
  Qed.


  Notation keyb := (keyb K K_eq_dec).
  Notation memb := (memb K K_eq_dec).
  Notation nodupb := (nodupb K K_eq_dec).
  Notation prefixb := (prefixb K K_eq_dec).
  Notation entry_ok := (entry_ok K K_eq_dec).
  Notation check_history := (check_history K K_eq_dec).

  Lemma keyb_refl : forall k, keyb k k = true.
  Proof. intros; unfold keyb. destruct (K_eq_dec k k); congruence. Qed.

  Lemma keyb_true : forall a b, keyb a b = true <-> a = b.
  Proof. intros; unfold keyb. destruct (K_eq_dec a b); split; congruence. Qed.

  Lemma memb_In : forall s l, memb s l = true <-> In s l.
  Proof.
    induction l as [|k r IH]; simpl.
    - split; [discriminate | tauto].
    - rewrite orb_true_iff, keyb_true, IH. tauto.
  Qed.

  Lemma nodupb_NoDup : forall l, nodupb l = true <-> NoDup l.
  Proof.
    induction l as [|k r IH]; simpl.
    - split; auto. constructor.
    - rewrite andb_true_iff, negb_true_iff, IH. split.
      + intros [M N]. constructor; auto. intros I. apply memb_In in I. congruence.
      + intros N. inversion N; subst. split; auto. destruct (memb k r) eqn:M; auto.
        apply memb_In in M. contradiction.
  Qed.

  Lemma prefixb_app : forall a e, prefixb a (a ++ e) = true.
  Proof. induction a as [|x a IH]; simpl; intros; auto. rewrite keyb_refl. simpl. apply IH. Qed.

  Lemma prefixb_true : forall a b, prefixb a b = true -> exists e, b = a ++ e.
  Proof.
    induction a as [|x a IH]; simpl; intros b H.
    - exists b; auto.
    - destruct b as [|y b]; try discriminate. apply andb_true_iff in H. destruct H as [E P].
      apply keyb_true in E. subst. destruct (IH _ P) as [e ->]. exists e; auto.
  Qed.

  Lemma entry_ok_true : forall final s p, entry_ok final (s, p) = true <-> nth_error final p = Some s.
  Proof.
    intros. unfold entry_ok. simpl. destruct (nth_error final p) as [k|].
    - rewrite keyb_true. split; congruence.
    - split; discriminate.
  Qed.

  (* without the re-check: two threads miss the same new string in section A,
     then both append it. *)
  Definition dup_schedule (s : K) : list (label K) := [CallA 0 s; CallA 1 s; SecB 0; SecB 1].

  Theorem index_recheck_necessary : forall s : K,
    exists st, reachable false (empty_tbl K) st /\
      ~ NoDup (labels K (tb K st)) /\
      (* and the two callers were handed different indices for the same string *)
      In (s, 0) (logs K st 0) /\ In (s, 1) (logs K st 1) /\
      (* and the map binds s to the second of them *)
      assoc (lmap K (tb K st)) s = Some 1.
  Proof.
    intros s.
    destruct (run false (init (empty_tbl K)) (dup_schedule s)) as [st|] eqn:R.
    2:{ exfalso. revert R. unfold dup_schedule, run, step, init, empty_tbl, append_key, ret; simpl.
        unfold upd; simpl. discriminate. }
    exists st. split; [exists (dup_schedule s); exact R|].
    revert R. unfold dup_schedule, run, step, init, empty_tbl, append_key, ret; simpl.
    unfold upd; simpl. intros R. inversion R; subst; clear R; simpl.
    split.
    - intros N. inversion N; subst. apply H1. left; reflexivity.
    - split; [left; reflexivity|]. split; [left; reflexivity|].
      destruct (K_eq_dec s s); congruence.
  Qed.

  (* the same schedule with the re-check is harmless *)
  Example index_recheck_effective : forall s : K,
    exists st, run true (init (empty_tbl K)) (dup_schedule s) = Some st /\
      labels K (tb K st) = [s] /\ logs K st 0 = [(s, 0)] /\ logs K st 1 = [(s, 0)].
  Proof.
    intros s. eexists. unfold dup_schedule, run, step, init, empty_tbl, append_key, ret; simpl.
    unfold upd; simpl. destruct (K_eq_dec s s); try congruence. simpl. split; [reflexivity|]. simpl. auto.
  Qed.

End IndexProofs.
