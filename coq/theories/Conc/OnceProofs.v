(* The invariant of the par.Cache.Do machine of Conc/Once.v - what the done flag, the mutex
   word and the executions of a key say about where the threads working on that key are - and
   what follows from it: f runs once per key, no deadlock, every call returns. *)
From Verif Require Import Conc.Once.
From Coq Require Import List Arith Bool Lia.
Import ListNotations.

Section OnceProofs.
  Variable K : Type.
  Variable K_eq_dec : forall a b : K, {a = b} + {a <> b}.

  Notation state := (state K).
  Notation pc := (pc K).
  Notation step := (step K K_eq_dec).
  Notation run := (run K K_eq_dec).
  Notation init := (init K).
  Notation reachable := (reachable K K_eq_dec).
  Notation entry_of := (entry_of K).
  Notation execs_of := (execs_of K K_eq_dec).
  Notation set_pc := (set_pc K).
  Notation set_ent := (set_ent K K_eq_dec).
  Notation key_of := (key_of K).
  Notation keyb := (keyb K K_eq_dec).

  Definition E (st : state) (k : K) : list nat := execs_of k (execs K st).

  (* the key whose mutex the thread holds *)
  Definition crit (p : pc) : option K :=
    match p with
    | PDone2 _ k | PRunF _ k | PStoreRes _ k _ | PStoreDone _ k | PUnlock _ k => Some k
    | _ => None
    end.

  (* i_none: a key that is not in the map has no execution, and the threads working on it
     are about to store its entry.
     i_lock: the mutex word names exactly the thread inside the critical section.
     i_done, i_undone: done is set only with the one execution and its result stored; while it
     is not set there is no execution yet, or one in flight between PStoreRes and PStoreDone.
     i_runf .. i_ret: what each program counter knows about the flag; i_rets: what was returned. *)
  Record Inv (st : state) : Prop := {
    i_none : forall k, ents K st k = None ->
               E st k = [] /\ forall t, key_of (pcs K st t) = Some k -> pcs K st t = PLoadOrStore K k;
    i_lock : forall k t, crit (pcs K st t) = Some k <-> e_lock (entry_of st k) = Some t;
    i_done : forall k, e_done (entry_of st k) = true ->
               exists tok, E st k = [tok] /\ e_res (entry_of st k) = Some tok;
    i_undone : forall k, e_done (entry_of st k) = false ->
               E st k = [] \/ exists t, (exists r, pcs K st t = PStoreRes K k r) \/ pcs K st t = PStoreDone K k;
    i_runf : forall t k, pcs K st t = PRunF K k -> e_done (entry_of st k) = false;
    i_sres : forall t k r, pcs K st t = PStoreRes K k r -> e_done (entry_of st k) = false /\ E st k = [r];
    i_sdone : forall t k, pcs K st t = PStoreDone K k ->
               e_done (entry_of st k) = false /\ exists tok, E st k = [tok] /\ e_res (entry_of st k) = Some tok;
    i_unl : forall t k, pcs K st t = PUnlock K k -> e_done (entry_of st k) = true;
    i_ret : forall t k, pcs K st t = PRet K k -> e_done (entry_of st k) = true;
    i_rets : forall t k r, In (t, k, r) (rets K st) ->
               e_done (entry_of st k) = true /\ r = e_res (entry_of st k)
  }.

  Lemma inv_init : Inv init.
  Proof.
    constructor; unfold E, entry_of; simpl; intros; try discriminate; auto.
    - split; auto. intros; discriminate.
    - split; discriminate.
    - contradiction.
  Qed.

  Lemma entry_of_set_ent : forall st k e t p k',
    entry_of (set_ent st k e t p) k' = if K_eq_dec k' k then e else entry_of st k'.
  Proof. intros. unfold entry_of, set_ent, updk; simpl. destruct (K_eq_dec k' k); auto. Qed.

  Lemma ents_set_ent : forall st k e t p k',
    ents K (set_ent st k e t p) k' = if K_eq_dec k' k then Some e else ents K st k'.
  Proof. intros. unfold set_ent, updk; simpl. destruct (K_eq_dec k' k); auto. Qed.

  Lemma E_set_ent : forall st k e t p k', E (set_ent st k e t p) k' = E st k'.
  Proof. reflexivity. Qed.

  (* what [set_ent] did to the entries, the executions and the program counters *)
  Ltac rw := rewrite ?entry_of_set_ent, ?ents_set_ent, ?E_set_ent in *; cbn [pcs set_ent] in *.

  (* split on every comparison of threads ([Nat.eqb]) and of keys ([K_eq_dec]) in sight *)
  Ltac brk :=
    unfold updn in *;
    repeat match goal with
    | H : context [Nat.eqb ?a ?b] |- _ => destruct (Nat.eqb_spec a b) as [|NEt]; subst
    | |- context [Nat.eqb ?a ?b] => destruct (Nat.eqb_spec a b) as [|NEt]; subst
    | H : context [K_eq_dec ?a ?b] |- _ => destruct (K_eq_dec a b) as [|NEk]; subst
    | |- context [K_eq_dec ?a ?b] => destruct (K_eq_dec a b) as [|NEk]; subst
    end.

  (* a thread that holds no mutex is not the holder of any entry *)
  Lemma not_holder : forall st t k, Inv st -> crit (pcs K st t) = None -> e_lock (entry_of st k) <> Some t.
  Proof. intros st t k I C H. apply (i_lock st I) in H. congruence. Qed.

  Lemma excl : forall st t u k, Inv st -> crit (pcs K st t) = Some k -> crit (pcs K st u) = Some k -> u = t.
  Proof.
    intros st t u k I A B. apply (i_lock st I) in A. apply (i_lock st I) in B. congruence.
  Qed.

  Lemma alone : forall st t u k, Inv st -> crit (pcs K st t) = Some k -> u <> t -> crit (pcs K st u) <> Some k.
  Proof. intros st t u k I C NE B. apply NE. eapply excl; eauto. Qed.

  Lemma alone_at : forall st t u k q, Inv st -> crit (pcs K st t) = Some k -> u <> t ->
    pcs K st u = q -> crit q <> Some k.
  Proof. intros st t u k q I C NE <-. eapply alone; eauto. Qed.

  (* the thread that holds k's mutex, and no other mutex *)
  Lemma holder_lock : forall st t k k0, Inv st -> crit (pcs K st t) = Some k ->
    (Some k = Some k0 <-> e_lock (entry_of st k0) = Some t).
  Proof. intros st t k k0 I C. rewrite <- (i_lock st I k0 t), C. tauto. Qed.

  (* Two clauses of Inv speak of all threads at a key; when thread t moves to p' they
     carry over as follows. *)
  Lemma none_move : forall st t p' k, Inv st -> ents K st k = None ->
    (key_of p' = Some k -> p' = PLoadOrStore K k) ->
    E st k = [] /\
    forall u, key_of (updn (pcs K st) t p' u) = Some k -> updn (pcs K st) t p' u = PLoadOrStore K k.
  Proof.
    intros st t p' k I H HN. destruct (i_none st I k H) as [A B]. split; auto. intros u. brk; auto.
  Qed.

  Lemma undone_move : forall st t p' k, Inv st -> e_done (entry_of st k) = false ->
    (forall r, pcs K st t <> PStoreRes K k r) -> pcs K st t <> PStoreDone K k ->
    E st k = [] \/
    exists u, (exists r, updn (pcs K st) t p' u = PStoreRes K k r) \/ updn (pcs K st) t p' u = PStoreDone K k.
  Proof.
    intros st t p' k I H O1 O2. destruct (i_undone st I k H) as [A | [u U]]; auto.
    right. exists u. brk; auto. destruct U as [[r U] | U]; [apply O1 in U | apply O2 in U]; contradiction.
  Qed.

  (* Generic frame lemma: thread t moves to p' without changing which mutex it
     holds; entries, executions unchanged; the map may gain (default) entries;
     the return log may gain a correct entry. *)
  Lemma inv_move : forall st st' t p',
    Inv st ->
    (forall u, pcs K st' u = if Nat.eqb u t then p' else pcs K st u) ->
    (forall k, entry_of st' k = entry_of st k) ->
    (forall k, E st' k = E st k) ->
    (forall k, ents K st' k = None -> ents K st k = None) ->
    (forall x, In x (rets K st') -> In x (rets K st) \/
        exists k, x = (t, k, e_res (entry_of st k)) /\ e_done (entry_of st k) = true) ->
    crit p' = crit (pcs K st t) ->
    (forall k r, pcs K st t <> PStoreRes K k r) -> (forall k, pcs K st t <> PStoreDone K k) ->
    (forall k, key_of p' = Some k -> ents K st' k = None -> p' = PLoadOrStore K k) ->
    (forall k, p' = PRunF K k -> e_done (entry_of st k) = false) ->
    (forall k, p' = PUnlock K k -> e_done (entry_of st k) = true) ->
    (forall k, p' = PRet K k -> e_done (entry_of st k) = true) ->
    (forall k r, p' <> PStoreRes K k r) -> (forall k, p' <> PStoreDone K k) ->
    Inv st'.
  Proof.
    intros st st' t p' I HP HE HX HM HRT C O1 O2 HN HF HU HR N1 N2.
    constructor; intros; rewrite ?HE, ?HX, ?HP in *; brk;
      pose proof I as [N LK D U RF SR SD UL RT RS]; eauto 4.
    - (* i_none *) destruct (none_move st t p' k I (HM _ H) (fun A => HN k A H)) as [A B].
      split; auto. intros u. rewrite HP. apply B.
    - (* i_lock, the mover: it holds what it held *) rewrite C. apply LK.
    - (* i_undone *) destruct (undone_move st t p' k I H (O1 k) (O2 k)) as [A | [u A]]; auto.
      right. exists u. rewrite HP. exact A.
    - (* i_sres: p' is not PStoreRes *) destruct (N1 _ _ eq_refl).
    - (* i_sdone: nor PStoreDone *) destruct (N2 _ eq_refl).
    - (* i_rets *) destruct (HRT _ H) as [A | [k' [A D']]]; [eauto|]. inversion A; subst. auto.
  Qed.

  (* The five steps that change an entry or the executions, taken by thread [me] on key [mk].
     In each proof the first line disposes of the clauses that hold as in [st] (another key,
     another thread, a field the step leaves alone).  The bullets are what is left; in them
     t, k, r are the variables of the clause of Inv, [NEt : t <> me] and [NEk : k <> mk] come
     from the case split. *)

  (* e.mu.Lock() *)
  Lemma inv_lock : forall st me mk, Inv st -> pcs K st me = PLock K mk -> e_lock (entry_of st mk) = None ->
    Inv (set_ent st mk {| e_done := e_done (entry_of st mk); e_lock := Some me; e_res := e_res (entry_of st mk) |} me (PDone2 K mk)).
  Proof.
    intros st me mk I P L. constructor; intros; rw; brk; simpl in *; try congruence;
      pose proof I as [N LK D U RF SR SD UL RT RS]; eauto 4.
    - (* i_none, k <> mk *) apply none_move; auto. simpl. congruence.
    - (* i_lock: me holds mk *) tauto.
    - (* i_lock: me holds nothing else *)
      split; [congruence|]. intros C. apply LK in C. rewrite P in C. discriminate.
    - (* i_lock: nobody else holds mk, it was free *)
      split; [|congruence]. intros C. apply LK in C. congruence.
    - (* i_undone, mk *) apply undone_move; auto; rewrite P; discriminate.
    - (* i_undone, k <> mk *) apply undone_move; auto; rewrite P; discriminate.
  Qed.

  (* e.result = <value returned by f> *)
  Lemma inv_store_res : forall st me mk r, Inv st -> pcs K st me = PStoreRes K mk r ->
    Inv (set_ent st mk {| e_done := e_done (entry_of st mk); e_lock := e_lock (entry_of st mk); e_res := Some r |} me (PStoreDone K mk)).
  Proof.
    intros st me mk r I P. destruct (i_sres st I me mk r P) as [D0 EK].
    assert (C : crit (pcs K st me) = Some mk) by (rewrite P; reflexivity).
    constructor; intros; rw; brk; simpl in *; try congruence;
      pose proof I as [N LK D U RF SR SD UL RT RS]; eauto 4.
    - (* i_none, k <> mk *) apply none_move; auto. simpl. congruence.
    - (* i_lock: me still holds mk *) apply holder_lock; auto.
    - (* i_lock: and nothing else *) apply holder_lock; auto.
    - (* i_undone, mk: me is at PStoreDone *) right. exists me. rewrite Nat.eqb_refl. auto.
    - (* i_undone, k <> mk *) apply undone_move; auto; rewrite P; congruence.
    - (* i_rets, mk: nobody has returned, done is not set *) edestruct RS; eauto. congruence.
  Qed.

  (* e.done.Store(true) *)
  Lemma inv_store_done : forall st me mk, Inv st -> pcs K st me = PStoreDone K mk ->
    Inv (set_ent st mk {| e_done := true; e_lock := e_lock (entry_of st mk); e_res := e_res (entry_of st mk) |} me (PUnlock K mk)).
  Proof.
    intros st me mk I P. destruct (i_sdone st I me mk P) as [D0 [tok [EK R]]].
    assert (C : crit (pcs K st me) = Some mk) by (rewrite P; reflexivity).
    constructor; intros; rw; brk; simpl in *; try congruence;
      pose proof I as [N LK D U RF SR SD UL RT RS]; eauto 4.
    - (* i_none, k <> mk *) apply none_move; auto. simpl. congruence.
    - (* i_lock: me still holds mk *) apply holder_lock; auto.
    - (* i_lock: and nothing else *) apply holder_lock; auto.
    - (* i_undone, k <> mk *) apply undone_move; auto; rewrite P; congruence.
    - (* i_runf: no other thread is in mk's critical section *)
      exfalso. eapply alone_at; eauto.
    - (* i_sres: likewise *) exfalso. eapply alone_at; eauto.
    - (* i_sdone: likewise *) exfalso. eapply alone_at; eauto.
    - (* i_rets, mk *) edestruct RS; eauto.
  Qed.

  (* e.mu.Unlock() *)
  Lemma inv_unlock : forall st me mk, Inv st -> pcs K st me = PUnlock K mk ->
    Inv (set_ent st mk {| e_done := e_done (entry_of st mk); e_lock := None; e_res := e_res (entry_of st mk) |} me (PRet K mk)).
  Proof.
    intros st me mk I P. pose proof (i_unl st I me mk P) as D0.
    assert (C : crit (pcs K st me) = Some mk) by (rewrite P; reflexivity).
    constructor; intros; rw; brk; simpl in *; try congruence;
      pose proof I as [N LK D U RF SR SD UL RT RS]; eauto 4.
    - (* i_none, k <> mk *) apply none_move; auto. simpl. congruence.
    - (* i_lock: mk is free, me holds nothing *) split; discriminate.
    - (* i_lock: me held nothing else *)
      split; [discriminate|]. intros L. apply LK in L. congruence.
    - (* i_lock: nobody else was in mk's critical section *)
      split; [|discriminate]. intros L. exfalso. eapply alone; eauto.
    - (* i_undone, k <> mk *) apply undone_move; auto; rewrite P; congruence.
  Qed.

  Lemma E_cons : forall st k t k' ents' pcs' rets',
    E {| ents := ents'; pcs := pcs'; execs := (k, t) :: execs K st; rets := rets' |} k' =
    if K_eq_dec k k' then t :: E st k' else E st k'.
  Proof.
    intros. unfold E, Once.execs_of, Once.keyb; simpl. destruct (K_eq_dec k k'); auto.
  Qed.

  (* f runs *)
  Lemma inv_runf : forall st me mk, Inv st -> pcs K st me = PRunF K mk ->
    Inv {| ents := ents K st; pcs := updn (pcs K st) me (PStoreRes K mk me);
           execs := (mk, me) :: execs K st; rets := rets K st |}.
  Proof.
    intros st me mk I P. pose proof (i_runf st I me mk P) as D0.
    assert (C : crit (pcs K st me) = Some mk) by (rewrite P; reflexivity).
    (* f has not run for mk: done is not set and nobody else is in the critical section *)
    assert (EK : E st mk = []).
    { destruct (i_undone st I mk D0) as [A | [u U]]; auto. exfalso.
      destruct (Nat.eq_dec u me) as [->|NE].
      - destruct U as [[r U] | U]; congruence.
      - apply (alone st me u mk I C NE). destruct U as [[r U] | U]; rewrite U; reflexivity. }
    assert (EO : forall k, entry_of {| ents := ents K st; pcs := updn (pcs K st) me (PStoreRes K mk me);
           execs := (mk, me) :: execs K st; rets := rets K st |} k = entry_of st k) by reflexivity.
    constructor; intros; rewrite ?E_cons, ?EO in *; simpl in *; brk; try congruence;
      pose proof I as [N LK D U RF SR SD UL RT RS]; eauto 4.
    - (* i_none, mk: its entry exists, me is past PLoadOrStore *)
      edestruct N as [_ B]; eauto. specialize (B me). rewrite P in B. discriminate (B eq_refl).
    - (* i_none, k <> mk *) apply none_move; auto. simpl. congruence.
    - (* i_lock: me still holds mk, and nothing else *) eapply holder_lock; eauto.
    - (* i_undone, mk: me is at PStoreRes *) right. exists me. rewrite Nat.eqb_refl. eauto.
    - (* i_undone, k <> mk *) apply undone_move; auto; rewrite P; congruence.
    - (* i_sres, me: the token just recorded is the only one *)
      split; auto. rewrite EK. congruence.
    - (* i_sres: no other thread is in mk's critical section *)
      exfalso. eapply alone_at; eauto.
    - (* i_sdone: likewise *) exfalso. eapply alone_at; eauto.
  Qed.

  (* apply [inv_move] for thread t at [P : pcs K st t = _] moving to p.  Discharged here: the
     side conditions that hold by computation or because two program counters differ in
     constructor; "p is at a key whose entry is absent only as PLoadOrStore", from what the
     context says about [ents K st k]; "the flag p relies on", from the test just made.
     Left to the caller: the conditions on entries and on the map when the step stores a new
     entry (LoadOrStore), and the condition on the return log when it returns (PRet). *)
  Ltac mv st t p I P :=
    eapply (inv_move st _ t p); [exact I | intros; reflexivity | ..];
    try (intros; reflexivity); try (rewrite P; reflexivity); try (rewrite P; discriminate);
    try discriminate; simpl; auto;
    try (intros k0 A B; inversion A; subst; congruence);
    try (intros k0 A; inversion A; subst; auto; fail).

  Lemma inv_step : forall st l st', Inv st -> step true st l = Some st' -> Inv st'.
  Proof.
    intros st l st' I H. destruct l as [t k | t]; simpl in H.
    - (* Call *)
      destruct (pcs K st t) eqn:P; try discriminate.
      destruct (ents K st k) eqn:EN; inversion H; subst; clear H.
      + mv st t (PDone1 K k) I P.
      + mv st t (PLoadOrStore K k) I P.
    - (* except at PLoadOrStore, the entry of the thread's key is in the map *)
      destruct (pcs K st t) eqn:P; try discriminate;
        try (assert (EX : ents K st k <> None)
               by (intros N; destruct (i_none st I k N) as [_ B]; specialize (B t); rewrite P in B;
                   discriminate (B eq_refl))).
      + (* LoadOrStore *)
        destruct (ents K st k) eqn:EN; inversion H; subst; clear H.
        * mv st t (PDone1 K k) I P.
        * mv st t (PDone1 K k) I P.
          -- intros k0. rewrite entry_of_set_ent. destruct (K_eq_dec k0 k) as [->|]; auto.
             unfold entry_of. rewrite EN. reflexivity.
          -- intros k0. unfold updk. destruct (K_eq_dec k0 k); [discriminate | auto].
          -- intros k0 A. inversion A; subst. unfold updk. destruct (K_eq_dec k0 k0); congruence.
      + (* done.Load() #1 *)
        destruct (e_done (entry_of st k)) eqn:D; inversion H; subst; clear H.
        * mv st t (PRet K k) I P.
        * mv st t (PLock K k) I P.
      + (* mu.Lock() *)
        destruct (e_lock (entry_of st k)) eqn:L; try discriminate. inversion H; subst; clear H.
        apply inv_lock; auto.
      + (* done.Load() #2 *)
        destruct (e_done (entry_of st k)) eqn:D; inversion H; subst; clear H.
        * mv st t (PUnlock K k) I P.
        * mv st t (PRunF K k) I P.
      + (* f() *)
        inversion H; subst; clear H. apply inv_runf; auto.
      + inversion H; subst; clear H. apply inv_store_res; auto.
      + inversion H; subst; clear H. apply inv_store_done; auto.
      + inversion H; subst; clear H. apply inv_unlock; auto.
      + (* return e.result *)
        inversion H; subst; clear H.
        mv st t (@Idle K) I P.
        intros x [<- | IN]; auto. right. exists k. split; auto. eapply (i_ret st I); eauto.
  Qed.

  Lemma inv_run : forall ls st st', Inv st -> run true st ls = Some st' -> Inv st'.
  Proof.
    induction ls as [|l r IH]; simpl; intros st st' I H.
    - inversion H; subst; auto.
    - destruct (step true st l) as [st1|] eqn:S; try discriminate.
      eapply IH; [|eauto]. eapply inv_step; eauto.
  Qed.

  Lemma inv_reachable : forall st, reachable true st -> Inv st.
  Proof. intros st [ls R]. eapply inv_run; [apply inv_init | eauto]. Qed.

  Lemma E_le1 : forall st k, Inv st -> length (E st k) <= 1.
  Proof.
    intros st k I. destruct (e_done (entry_of st k)) eqn:D.
    - destruct (i_done st I k D) as [tok [A _]]. rewrite A. simpl. lia.
    - destruct (i_undone st I k D) as [A | [u [[r U] | U]]].
      + rewrite A. simpl. lia.
      + destruct (i_sres st I u k r U) as [_ A]. rewrite A. simpl. lia.
      + destruct (i_sdone st I u k U) as [_ [tok [A _]]]. rewrite A. simpl. lia.
  Qed.

  Lemma ret_once : forall st t k r, Inv st -> In (t, k, r) (rets K st) ->
    exists tok, r = Some tok /\ E st k = [tok].
  Proof.
    intros st t k r I H. destruct (i_rets st I t k r H) as [D R].
    destruct (i_done st I k D) as [tok [A B]]. exists tok. split; congruence.
  Qed.

  (* Under every interleaving of any number of callers of any keys:
     f runs at most once per key; a caller that has returned got the result of
     the one run (so f ran exactly once); all callers of a key get the same result *)
  Theorem do_once : forall st, reachable true st ->
    (forall k, length (E st k) <= 1) /\
    (forall t k r, In (t, k, r) (rets K st) -> exists tok, r = Some tok /\ E st k = [tok]) /\
    (forall t k r t' r', In (t, k, r) (rets K st) -> In (t', k, r') (rets K st) -> r = r').
  Proof.
    intros st R. pose proof (inv_reachable st R) as I. split; [|split].
    - intros k. apply E_le1; auto.
    - intros. eapply ret_once; eauto.
    - intros t k r t' r' A B. destruct (ret_once _ _ _ _ I A) as [x [-> X]].
      destruct (ret_once _ _ _ _ I B) as [y [-> Y]]. congruence.
  Qed.

  Lemma execs_of_in : forall k tok ex, In (k, tok) ex -> In tok (execs_of k ex).
  Proof.
    intros k tok ex H. unfold Once.execs_of. apply in_map_iff. exists (k, tok). split; auto.
    apply filter_In. split; auto. simpl. unfold Once.keyb. destruct (K_eq_dec k k); congruence.
  Qed.

  Definition rank (p : pc) : nat :=
    match p with
    | Idle => 0 | PRet _ _ => 1 | PUnlock _ _ => 2 | PStoreDone _ _ => 3 | PStoreRes _ _ _ => 4
    | PRunF _ _ => 5 | PDone2 _ _ => 6 | PLock _ _ => 7 | PDone1 _ _ => 8 | PLoadOrStore _ _ => 9
    end.

  Lemma step_rank : forall ul st t st', step ul st (Step t) = Some st' ->
    rank (pcs K st' t) < rank (pcs K st t) /\ forall u, u <> t -> pcs K st' u = pcs K st u.
  Proof.
    intros ul st t st' H. simpl in H.
    assert (O : forall (f : nat -> pc) p u, u <> t -> updn f t p u = f u).
    { intros f p u NE. unfold updn. destruct (Nat.eqb_spec u t); congruence. }
    destruct (pcs K st t) eqn:P; try discriminate;
      repeat match type of H with
             | context [match ?x with _ => _ end] => destruct x
             | context [if ?x then _ else _] => destruct x
             end; try discriminate; inversion H; subst; clear H; simpl;
      unfold updn at 1; rewrite Nat.eqb_refl; simpl; split; auto; lia.
  Qed.

  Theorem do_progress : forall st t, reachable true st -> pcs K st t <> Idle ->
    exists u st', pcs K st u <> Idle /\ step true st (Step u) = Some st'.
  Proof.
    intros st t R NI. pose proof (inv_reachable st R) as I.
    assert (G : forall u, pcs K st u <> Idle -> (forall k, pcs K st u <> PLock K k) ->
                exists st', step true st (Step u) = Some st').
    { intros u A B. unfold Once.step. destruct (pcs K st u) eqn:P; try congruence; cbv iota beta;
        try destruct (ents K st k); try destruct (e_done (entry_of st k)); eexists; reflexivity. }
    destruct (pcs K st t) eqn:P; try congruence;
      try (destruct (G t) as [st' S]; [congruence | intros; congruence | exists t, st'; split; [congruence | exact S]]).
    (* PLock: either the mutex is free, or its holder can move *)
    destruct (e_lock (entry_of st k)) as [u|] eqn:L.
    - apply (i_lock st I) in L.
      destruct (G u) as [st' S].
      + intros C. rewrite C in L. discriminate.
      + intros k0 C. rewrite C in L. discriminate.
      + exists u, st'. split; auto. intros C. rewrite C in L. discriminate.
    - exists t. unfold Once.step. rewrite P. cbv iota beta. rewrite L.
      eexists; split; [congruence | reflexivity].
  Qed.

  Definition measure (st : state) (n : nat) : nat := list_sum (map (fun t => rank (pcs K st t)) (seq 0 n)).

  Lemma list_sum_decr : forall (f g : nat -> nat) l t, NoDup l -> In t l -> g t < f t ->
    (forall u, u <> t -> g u = f u) ->
    list_sum (map g l) < list_sum (map f l).
  Proof.
    intros f g l t ND IN D O. induction l as [|a l IH]; [destruct IN|].
    inversion ND; subst. simpl. destruct (Nat.eq_dec a t) as [->|NE].
    - rewrite (map_ext_in g f l); [lia|]. intros u Hu. apply O. intros ->. auto.
    - destruct IN as [->|IN]; [congruence|]. rewrite (O a NE). specialize (IH H2 IN). lia.
  Qed.

  Lemma reachable_step : forall ul st l st', reachable ul st -> step ul st l = Some st' -> reachable ul st'.
  Proof.
    intros ul st l st' [ls R] S. exists (ls ++ [l]). revert R. generalize init.
    induction ls as [|x ls IH]; simpl; intros s0 R.
    - inversion R; subst. rewrite S. reflexivity.
    - destruct (step ul s0 x); [auto | discriminate].
  Qed.

  (* every caller returns: from any reachable state in which the threads >= n
     are idle there is a continuation, without new calls, after which every
     thread has returned (is idle again) *)
  Theorem do_all_return : forall n st, reachable true st ->
    (forall t, n <= t -> pcs K st t = Idle) ->
    exists ls st', run true st ls = Some st' /\ (forall t, pcs K st' t = Idle) /\
                   (forall l, In l ls -> exists u, l = Step u).
  Proof.
    intros n st. remember (measure st n) as m eqn:M. revert st M.
    induction m as [m IH] using lt_wf_ind. intros st M R HN.
    assert (D : forall t, {pcs K st t = Idle} + {pcs K st t <> Idle}).
    { intros t. destruct (pcs K st t); (left; reflexivity) || (right; discriminate). }
    destruct (Forall_Exists_dec _ D (seq 0 n)) as [A | A].
    - exists [], st. split; [reflexivity|]. split; [|intros l []].
      intros t. destruct (Nat.lt_ge_cases t n) as [LT|GE]; auto.
      rewrite Forall_forall in A. apply A. apply in_seq. lia.
    - apply Exists_exists in A. destruct A as [t [_ T]].
      destruct (do_progress st t R T) as [u [st1 [U S]]].
      assert (UN : u < n). { destruct (Nat.lt_ge_cases u n); auto. rewrite HN in U by auto. congruence. }
      destruct (step_rank _ _ _ _ S) as [RK OT].
      destruct (IH (measure st1 n)) with (st := st1) as [ls [st' [RN [AI ST]]]]; auto.
      + subst m. unfold measure. apply list_sum_decr with (t := u); auto.
        * apply seq_NoDup.
        * apply in_seq. lia.
        * intros v NE. rewrite OT; auto.
      + eapply reachable_step; eauto.
      + intros v GE. rewrite OT by lia. auto.
      + exists (Step u :: ls), st'. cbn [Once.run]. rewrite S. split; auto. split; auto.
        intros l [<- | IN]; eauto.
  Qed.

  (* the key a step works on: callers of different keys do not interfere
     (Properties/C19.v, C19_do_keys_independent) *)
  Definition label_key (st : state) (l : label K) : option K :=
    match l with Call _ k => Some k | Step t => key_of (pcs K st t) end.

End OnceProofs.

(* the per-entry mutex is necessary: under this schedule, without it, two callers both
   run f and return different results (K := nat; Properties/C19.v, C19_once_lock_necessary) *)
Definition nolock_schedule : list (label nat) :=
  [Call 0 7; Call 1 7; Step 0; Step 1; Step 0; Step 1; Step 0; Step 1; Step 0; Step 1;
   Step 0; Step 1; Step 0; Step 0; Step 0; Step 0; Step 1; Step 1; Step 1; Step 1].

(* the same schedule is not even enabled with the mutex (thread 1 blocks in Lock),
   and the fair continuation runs f once *)
Example once_lock_effective :
  run nat Nat.eq_dec true (init nat) nolock_schedule = None /\
  exists st, run nat Nat.eq_dec true (init nat)
      [Call 0 7; Call 1 7; Step 0; Step 1; Step 0; Step 1; Step 0; Step 0; Step 0; Step 0; Step 0; Step 0; Step 0;
       Step 1; Step 1; Step 1; Step 1] = Some st /\
    E nat Nat.eq_dec st 7 = [0] /\ returns_of nat st = [(7, Some 0); (7, Some 0)].
Proof.
  split; [vm_compute; reflexivity|].
  eexists. split; [vm_compute; reflexivity|]. vm_compute. auto.
Qed.
