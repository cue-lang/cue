(* C01 at any depth: contextual equivalence of expressions and its congruence rules.
   [veq v v'] says that v may be replaced by v' as a member of any conjunct group in any
   context.  Every basic law of Laws.v is a [veq] fact; [veq] is an equivalence and is
   preserved by & and by the value position of a field of a struct literal (without
   embeddings) - so the rearrangements of C01 may be applied to sub-expressions at any
   depth. *)
From Verif Require Import Core.Syntax Core.Eval Core.Laws.
From Coq Require Import List Bool Permutation.
Import ListNotations.

Section Congr.
  Variable labs : list label.
  Variable atoms : list atom.

  Definition veq (v v' : expr) : Prop :=
    forall fuel r es cs,
      evalNode labs atoms fuel (mkConj r (v :: es) :: cs) = evalNode labs atoms fuel (mkConj r (v' :: es) :: cs).

  Lemma veq_refl v : veq v v.
  Proof. intros fuel r es cs. reflexivity. Qed.

  Lemma veq_sym v v' : veq v v' -> veq v' v.
  Proof. intros H fuel r es cs. symmetry. apply H. Qed.

  Lemma veq_trans a b c : veq a b -> veq b c -> veq a c.
  Proof. intros H1 H2 fuel r es cs. rewrite H1. apply H2. Qed.

  Lemma veq_and_comm a b : veq (EAnd a b) (EAnd b a).
  Proof. intros fuel r es cs. apply eval_and_comm. Qed.

  Lemma veq_and_assoc a b c : veq (EAnd (EAnd a b) c) (EAnd a (EAnd b c)).
  Proof. intros fuel r es cs. apply eval_and_assoc. Qed.

  Lemma veq_and_idem a : veq (EAnd a a) a.
  Proof. intros fuel r es cs. apply eval_and_idem. Qed.

  Lemma veq_and_top a : veq (EAnd a ETop) a.
  Proof. intros fuel r es cs. apply eval_and_top. Qed.

  Lemma veq_decl_perm ds ds' :
    embed_free ds = true -> embed_free ds' = true -> Laws.seq ds ds' -> veq (EStruct ds) (EStruct ds').
  Proof. intros F F' S fuel r es cs. apply eval_decl_perm; auto. Qed.

  Definition erel (v v' : expr) (e e' : expr) : Prop := e = e' \/ (e = v /\ e' = v').
  Definition crel (v v' : expr) (c c' : conj) : Prop :=
    c_rec c = c_rec c' /\ Forall2 (erel v v') (c_exprs c) (c_exprs c').

  (* A function of a list that ignores the order of the list and is unchanged when the head is
     replaced by a related element is unchanged when elements anywhere are replaced by related ones:
     move each to the front, replace it, move it back. *)
  Lemma replace_anywhere {A B} (F : list A -> B) (R : A -> A -> Prop) :
    (forall l l', Permutation l l' -> F l = F l') ->
    (forall x y l, R x y -> F (x :: l) = F (y :: l)) ->
    forall l l' pre, Forall2 R l l' -> F (pre ++ l) = F (pre ++ l').
  Proof.
    intros HP HR l l' pre H. revert pre. induction H as [|x y l l' Hxy _ IH]; intros pre; [reflexivity|].
    rewrite (HP (pre ++ x :: l) (x :: pre ++ l)) by (apply Permutation_sym, Permutation_middle).
    rewrite (HR x y _ Hxy), (HP (y :: pre ++ l) ((pre ++ [y]) ++ l)).
    - rewrite (IH (pre ++ [y])), <- app_assoc. reflexivity.
    - rewrite <- app_assoc. apply Permutation_middle.
  Qed.

  Lemma eval_replace_group v v' (H : veq v v') fuel r : forall es es' pre cs,
    Forall2 (erel v v') es es' ->
    evalNode labs atoms fuel (mkConj r (pre ++ es) :: cs) = evalNode labs atoms fuel (mkConj r (pre ++ es') :: cs).
  Proof.
    intros es es' pre cs. apply (replace_anywhere (fun l => evalNode labs atoms fuel (mkConj r l :: cs))).
    - intros l l' P. apply eval_group_perm, perm_seq, P.
    - intros x y l [<-|[-> ->]]; [reflexivity | apply H].
  Qed.

  Lemma eval_replace v v' (H : veq v v') fuel : forall cs cs' pre,
    Forall2 (crel v v') cs cs' ->
    evalNode labs atoms fuel (pre ++ cs) = evalNode labs atoms fuel (pre ++ cs').
  Proof.
    intros cs cs' pre. apply (replace_anywhere (evalNode labs atoms fuel)).
    - apply eval_perm.
    - intros [r es] [r' es'] l [Er Fe]. simpl in Er, Fe. subst r'.
      exact (eval_replace_group v v' H fuel r es es' [] l Fe).
  Qed.

  Theorem veq_and_congr a a' b : veq a a' -> veq (EAnd a b) (EAnd a' b).
  Proof.
    intros H fuel r es cs. rewrite !eval_and_flatten. apply H.
  Qed.

  Lemma evalFlat_children_ext fuel fl fl' :
    n_bot fl = n_bot fl' -> n_struct fl = n_struct fl' -> n_scal fl = n_scal fl' ->
    n_closers fl = n_closers fl' -> (forall l, presence fl l = presence fl' l) ->
    (forall l f, evalFlat labs atoms f (flat_all (children fl l)) = evalFlat labs atoms f (flat_all (children fl' l))) ->
    evalFlat labs atoms fuel fl = evalFlat labs atoms fuel fl'.
  Proof.
    intros Hb Hs Hsc Hc Hp Hch. destruct fuel as [|f]; [reflexivity|]. cbn [evalFlat].
    rewrite <- Hb, <- Hs, <- Hsc, <- Hc.
    destruct (n_bot fl); [reflexivity|]. destruct (n_struct fl && negb (null (n_scal fl))); [reflexivity|].
    destruct (n_struct fl); [|reflexivity].
    f_equal; apply map_ext; intros l; rewrite <- ?Hp, <- ?(Hch l f); reflexivity.
  Qed.

  Lemma erel_refl_list v v' l : Forall2 (erel v v') l l.
  Proof. apply Forall2_same. intros e. left; reflexivity. Qed.

  Lemma Forall2_erel_app v v' a a' b b' :
    Forall2 (erel v v') a a' -> Forall2 (erel v v') b b' -> Forall2 (erel v v') (a ++ b) (a' ++ b').
  Proof. intros H1 H2. apply Forall2_app; assumption. Qed.

  (* two part lists that agree except for the values v / v' of some fields *)
  Definition frel (v v' : expr) (f f' : label * fkind * expr) : Prop :=
    fst f = fst f' /\ erel v v' (snd f) (snd f').
  Definition prel (v v' : expr) (p p' : gpart) : Prop :=
    gp_rec p = gp_rec p' /\ gp_pats p = gp_pats p' /\ Forall2 (frel v v') (gp_fields p) (gp_fields p').

  Lemma part_values_rel v v' p p' l :
    prel v v' p p' -> Forall2 (erel v v') (part_values p l) (part_values p' l).
  Proof.
    intros (_ & Hp & Hf). unfold part_values. rewrite Hp. apply Forall2_erel_app; [|apply erel_refl_list].
    induction Hf as [|f f' fs fs' [Hk He] Hf IH]; simpl; [constructor|].
    rewrite <- Hk. destruct (label_eqb (fst (fst f)) l); simpl; auto.
  Qed.

  Lemma Forall2_null {A B} (R : A -> B -> Prop) l l' : Forall2 R l l' -> null l = null l'.
  Proof. intros H. destruct H; reflexivity. Qed.

  Lemma children_rel v v' ps ps' bot scal str cl l :
    Forall2 (prel v v') ps ps' ->
    Forall2 (crel v v') (children (mkNFlat bot scal str ps cl) l) (children (mkNFlat bot scal str ps' cl) l).
  Proof.
    intros F. unfold children, open_values, rec_children. cbn [n_parts].
    assert (O : Forall2 (erel v v') (flat_map (fun p => if gp_rec p then [] else part_values p l) ps)
                                     (flat_map (fun p => if gp_rec p then [] else part_values p l) ps')).
    { induction F as [|p p' ps ps' Hp F IH]; simpl; [constructor|].
      apply Forall2_erel_app; auto. pose proof (part_values_rel v v' p p' l Hp) as PV0.
      destruct Hp as (Hr & Hrest). rewrite <- Hr.
      destruct (gp_rec p); [constructor | exact PV0]. }
    apply Forall2_app.
    - rewrite <- (Forall2_null _ _ _ O). destruct (null _); constructor; [|constructor]. split; auto.
    - clear O. induction F as [|p p' ps ps' Hp F IH]; [constructor|].
      cbn [flat_map]. apply Forall2_app; [|exact IH].
      pose proof (part_values_rel v v' p p' l Hp) as PV.
      destruct Hp as (Hr & Hrest). rewrite <- Hr. destruct (gp_rec p); [|constructor].
      rewrite <- (Forall2_null _ _ _ PV). destruct (null _); constructor; [|constructor]. split; auto.
  Qed.

  Lemma has_field_rel v v' ps ps' bot scal str cl l k :
    Forall2 (prel v v') ps ps' ->
    has_field (mkNFlat bot scal str ps cl) l k = has_field (mkNFlat bot scal str ps' cl) l k.
  Proof.
    intros F. unfold has_field. cbn [n_parts]. induction F as [|p p' ps ps' Hp F IH]; simpl; auto.
    rewrite IH. f_equal. destruct Hp as (_ & _ & Hf).
    induction Hf as [|f f' fs fs' [Hk _] Hf IHf]; simpl; auto. rewrite IHf, Hk. reflexivity.
  Qed.

  Lemma declared_field_value ds1 l k v v' ds2 :
    declared (EStruct (ds1 ++ (HField l k, v) :: ds2)) = declared (EStruct (ds1 ++ (HField l k, v') :: ds2)).
  Proof.
    cbn [declared]. induction ds1 as [|[h e] ds1 IH]; simpl; [reflexivity|]. rewrite IH. reflexivity.
  Qed.

  Lemma embed_free_field_value ds1 l k v v' ds2 :
    embed_free (ds1 ++ (HField l k, v) :: ds2) = embed_free (ds1 ++ (HField l k, v') :: ds2).
  Proof. unfold embed_free. rewrite !forallb_app. reflexivity. Qed.

  Lemma frel_refl_list v v' fs : Forall2 (frel v v') fs fs.
  Proof. apply Forall2_same. intros f. split; [reflexivity | left; reflexivity]. Qed.

  Lemma prel_refl_list v v' ps : Forall2 (prel v v') ps ps.
  Proof. apply Forall2_same. intros p. split; [reflexivity | split; [reflexivity | apply frel_refl_list]]. Qed.

  (* both groups flatten to the same node except for the value of one field of their first part;
     the children differ in that one member of one group, which [veq] lets us replace *)
  Theorem veq_field_congr v v' ds1 l k ds2 :
    veq v v' -> embed_free (ds1 ++ (HField l k, v) :: ds2) = true ->
    veq (EStruct (ds1 ++ (HField l k, v) :: ds2)) (EStruct (ds1 ++ (HField l k, v') :: ds2)).
  Proof.
    intros H F fuel r es cs.
    assert (F' : embed_free (ds1 ++ (HField l k, v') :: ds2) = true)
      by (rewrite <- (embed_free_field_value ds1 l k v v' ds2); exact F).
    unfold evalNode. rewrite !flat_all_cons, (flat_conj_lit r _ es F), (flat_conj_lit r _ es F').
    cbn [all_declared fold_right]. rewrite (declared_field_value ds1 l k v v' ds2).
    unfold nflat_app. cbn [n_bot n_scal n_struct n_parts n_closers app].
    set (rest := map _ (f_subs (flat_exprs r es)) ++ n_parts (flat_all cs)).
    assert (PR : Forall2 (prel v v')
                   (mkPart r (fields_of (ds1 ++ (HField l k, v) :: ds2) ++ f_own (flat_exprs r es))
                           (pats_of (ds1 ++ (HField l k, v) :: ds2) ++ f_ownp (flat_exprs r es)) :: rest)
                   (mkPart r (fields_of (ds1 ++ (HField l k, v') :: ds2) ++ f_own (flat_exprs r es))
                           (pats_of (ds1 ++ (HField l k, v') :: ds2) ++ f_ownp (flat_exprs r es)) :: rest)).
    { constructor; [|apply prel_refl_list]. split; [reflexivity|]. cbn [gp_pats gp_fields]. split.
      - unfold pats_of. rewrite !flat_map_app. reflexivity.
      - unfold fields_of. rewrite !flat_map_app. cbn [flat_map fst snd app].
        repeat apply Forall2_app; try apply frel_refl_list.
        constructor; [|apply frel_refl_list]. split; [reflexivity|]. right; auto. }
    apply evalFlat_children_ext; cbn [n_bot n_scal n_struct n_closers]; try reflexivity.
    - intros l0. unfold presence. rewrite !(has_field_rel v v' _ _ _ _ _ _ l0 _ PR). reflexivity.
    - intros l0 f. exact (eval_replace v v' H f _ _ [] (children_rel v v' _ _ _ _ _ _ l0 PR)).
  Qed.

  (* example of the laws reaching any depth: reordering the declarations of a struct that is
     the value of a field of a struct that is the value of a field ... *)
  Corollary veq_nested_decl_perm l k ds ds' pre post :
    embed_free ds = true -> embed_free ds' = true -> Laws.seq ds ds' ->
    embed_free (pre ++ (HField l k, EStruct ds) :: post) = true ->
    veq (EStruct (pre ++ (HField l k, EStruct ds) :: post)) (EStruct (pre ++ (HField l k, EStruct ds') :: post)).
  Proof.
    intros F F' S Fo. apply veq_field_congr; auto. apply veq_decl_perm; auto.
  Qed.
End Congr.
