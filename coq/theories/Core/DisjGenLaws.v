(* Laws of the order-free value/default semantics, proved once for the generic form of
   Core/DisjGen.v.  They need nothing about the value function [tval] except that it does not
   depend on the ORDER of the chosen disjuncts, and that [veqb] decides equality of values.
   Core/DisjLaws.v and Core/DisjLaws2.v read them for the flat disjunctions of Core/Disj.v,
   Core/NestLaws.v for disjunctions of structs. *)
From Verif Require Import Core.Syntax Core.Eval Core.Laws Core.DisjGen.
From Coq Require Import List Bool Arith Lia Permutation.
Import ListNotations.

Lemma existsb_filter {A} (f p : A -> bool) l : existsb f (filter p l) = existsb (fun x => p x && f x) l.
Proof. induction l as [|a l IH]; simpl; auto. destruct (p a); simpl; rewrite IH; reflexivity. Qed.

Lemma filter_all {A} (f : A -> bool) l : (forall x, In x l -> f x = true) -> filter f l = l.
Proof.
  induction l as [|a l IH]; simpl; auto. intros H. rewrite (H a) by auto. f_equal. apply IH. auto.
Qed.

Lemma filter_none {A} (f : A -> bool) l : (forall x, In x l -> f x = false) -> filter f l = [].
Proof.
  induction l as [|a l IH]; simpl; auto. intros H. rewrite (H a) by auto. apply IH. auto.
Qed.

Lemma filter_map_comm {A B} (f : B -> bool) (g : A -> B) l :
  filter f (map g l) = map g (filter (fun x => f (g x)) l).
Proof. induction l as [|a l IH]; simpl; auto. destruct (f (g a)); simpl; congruence. Qed.

Lemma existsb_seq_S f n : existsb f (seq 0 (S n)) = f 0 || existsb (fun i => f (S i)) (seq 0 n).
Proof. cbn [seq existsb]. rewrite <- seq_shift, existsb_map. reflexivity. Qed.

Lemma forallb_seq_S f n : forallb f (seq 0 (S n)) = f 0 && forallb (fun i => f (S i)) (seq 0 n).
Proof. cbn [seq forallb]. rewrite <- seq_shift, forallb_map. reflexivity. Qed.

Lemma Forall2_len {A B} (R : A -> B -> Prop) l l' : Forall2 R l l' -> length l = length l'.
Proof. induction 1; simpl; auto. Qed.

(* exchanging two adjacent elements of a list *)
Fixpoint sw {A} (k : nat) (t : list A) : list A :=
  match k, t with
  | 0, a :: b :: r => b :: a :: r
  | S k', a :: r => a :: sw k' r
  | _, _ => t
  end.

Definition swi (k i : nat) : nat := if i =? k then S k else if i =? S k then k else i.

Lemma sw_perm {A} k : forall t : list A, Permutation (sw k t) t.
Proof.
  induction k as [|k IH]; intros [|a [|b r]]; simpl; auto using perm_swap.
Qed.

Lemma sw_forall2 {A B} (R : A -> B -> Prop) l1 x y l2 : forall t,
  Forall2 R t (l1 ++ x :: y :: l2) -> Forall2 R (sw (length l1) t) (l1 ++ y :: x :: l2).
Proof.
  induction l1 as [|a l1 IH]; simpl; intros t H.
  - inversion H as [|c1 ? t1 ? Hc1 H1]; subst. inversion H1 as [|c2 ? t2 ? Hc2 H2]; subst.
    repeat constructor; auto.
  - inversion H as [|c1 ? t1 ? Hc1 H1]; subst. constructor; auto.
Qed.

Lemma swi_S k i : swi (S k) (S i) = S (swi k i).
Proof. unfold swi. simpl. destruct (i =? k); auto. destruct k; simpl; destruct (i =? _); auto. Qed.

Lemma nth_error_sw {A} k : forall (t : list A) i,
  k + 2 <= length t -> nth_error (sw k t) (swi k i) = nth_error t i.
Proof.
  induction k as [|k IH]; intros t i H.
  - destruct t as [|a [|b r]]; simpl in H; try lia.
    destruct i as [|[|i]]; reflexivity.
  - destruct t as [|a r]; simpl in H; try lia.
    destruct i as [|i].
    + reflexivity.
    + rewrite swi_S. cbn [sw nth_error]. apply IH. lia.
Qed.

Lemma swi_lt k n i : k + 2 <= n -> i < n -> swi k i < n.
Proof.
  intros H1 H2. unfold swi. destruct (i =? k) eqn:E1; [lia|]. destruct (i =? S k) eqn:E2; lia.
Qed.

Lemma swi_invol k i : swi k (swi k i) = i.
Proof.
  unfold swi. destruct (i =? k) eqn:E1.
  - apply Nat.eqb_eq in E1. subst. rewrite (proj2 (Nat.eqb_neq (S k) k)) by lia. rewrite Nat.eqb_refl. reflexivity.
  - destruct (i =? S k) eqn:E2.
    + apply Nat.eqb_eq in E2. subst. rewrite Nat.eqb_refl. reflexivity.
    + rewrite E1, E2. reflexivity.
Qed.

Section GenLaws.
  Variables A V : Type.
  Variable veqb : V -> V -> bool.
  Hypothesis veqb_eq : forall a b, veqb a b = true <-> a = b.
  Variable verr : V -> bool.
  Variable vacc : nat -> V -> bool.
  Variable tval : list A -> V.
  Hypothesis tval_perm : forall t t', Permutation t t' -> tval t = tval t'.

  Notation tv := (gtv A V tval).
  Notation survives := (gsurvives A V verr tval).
  Notation survivors := (gsurvivors A V verr tval).
  Notation pair_of := (gpair_of A V verr tval).
  Notation resolve := (gresolve V veqb).
  Notation accepts := (gaccepts V vacc).
  Notation values := (gvalues V veqb).
  Notation defaults := (gdefaults V veqb).
  Notation uses_marked := (guses_marked A).
  Notation eff_marked := (geff_marked A).
  Notation is_default := (gis_default A).
  Notation tuples := (gtuples A).
  Notation dedup := (gdedup V veqb).
  Notation gd := (gdisj A).

  (* a choice of one disjunct per disjunction *)
  Definition g_is_tuple (t : list (bool * A)) (ds : list gd) : Prop := Forall2 (fun c d => In c d) t ds.

  (* [tuples] lists exactly those choices *)
  Lemma g_tuples_spec ds : forall t, In t (tuples ds) <-> g_is_tuple t ds.
  Proof.
    induction ds as [|d r IH]; intros t; simpl.
    - split; [intros [<-|[]]; constructor | intros H; inversion H; auto].
    - rewrite in_flat_map. split.
      + intros (c & Hc & Ht). apply in_map_iff in Ht as (t' & <- & Ht'). constructor; auto. apply IH; auto.
      + intros H. inversion H as [|c d' t' r' Hc Ht']; subst. exists c. split; auto.
        apply in_map. apply IH. exact Ht'.
  Qed.

  Lemma g_in_survivors ds t :
    In t (survivors ds) <-> g_is_tuple t ds /\ survives t = true.
  Proof. unfold gsurvivors. rewrite filter_In, g_tuples_spec. tauto. Qed.

  Lemma g_survives_val t t' : tv t' = tv t -> survives t' = survives t.
  Proof. unfold gsurvives. intros ->. reflexivity. Qed.

  (* a correspondence of choices that keeps the value carries survivors to survivors *)
  Lemma g_survivor_lift ds ds' (P : list (bool * A) -> list (bool * A) -> Prop) :
    (forall t, g_is_tuple t ds -> exists t', g_is_tuple t' ds' /\ tv t' = tv t /\ P t t') ->
    forall t, In t (survivors ds) -> exists t', In t' (survivors ds') /\ tv t' = tv t /\ P t t'.
  Proof.
    intros H t Ht. apply g_in_survivors in Ht as [Ht Hs]. destruct (H t Ht) as (t' & Ht' & Hv & HP).
    exists t'. split; [|auto]. apply g_in_survivors. split; auto. rewrite (g_survives_val _ _ Hv). exact Hs.
  Qed.

  Lemma g_tuple_member (t : list (bool * A)) ds c :
    g_is_tuple t ds -> In c t -> exists d, In d ds /\ In c d.
  Proof.
    induction 1 as [|c0 d t0 r Hc Ht IH]; simpl; [tauto|].
    intros [<-|H]; [exists d; auto|]. destruct (IH H) as (d' & ? & ?). exists d'; auto.
  Qed.

  (* dedup: a duplicate-free list with the same elements *)
  Lemma g_mem_iff r l : gmem V veqb r l = true <-> In r l.
  Proof.
    unfold gmem. rewrite existsb_exists. split.
    - intros (x & Hx & E). apply veqb_eq in E. subst. exact Hx.
    - intros H. exists r. split; auto. apply veqb_eq. reflexivity.
  Qed.

  Lemma g_dedup_in l : forall r, In r (dedup l) <-> In r l.
  Proof using veqb_eq.
    induction l as [|a l IH]; intros r; simpl; [reflexivity|].
    destruct (gmem V veqb a l) eqn:E; simpl; rewrite IH; [|reflexivity].
    split; [right; assumption|]. intros [<-|H]; [apply g_mem_iff, E | exact H].
  Qed.

  Lemma g_dedup_nodup l : NoDup (dedup l).
  Proof.
    induction l as [|a l IH]; simpl; [constructor|].
    destruct (gmem V veqb a l) eqn:E; auto. constructor; auto.
    rewrite g_dedup_in. intros H. apply g_mem_iff in H. congruence.
  Qed.

  Lemma g_dedup_seq_perm l l' : Laws.seq l l' -> Permutation (dedup l) (dedup l').
  Proof.
    intros H. apply NoDup_Permutation; auto using g_dedup_nodup.
    intros x. rewrite !g_dedup_in. apply H.
  Qed.

  (* the outcome: what is observable of a value/default pair *)
  Definition g_same_outcome (p p' : list (V * bool)) : Prop :=
    (forall i, accepts p i = accepts p' i) /\ resolve p = resolve p'.

  Lemma g_same_outcome_refl p : g_same_outcome p p.
  Proof. split; auto. Qed.

  Lemma g_same_outcome_sym p p' : g_same_outcome p p' -> g_same_outcome p' p.
  Proof. intros [H1 H2]. split; auto. Qed.

  Lemma g_same_outcome_trans p1 p2 p3 : g_same_outcome p1 p2 -> g_same_outcome p2 p3 -> g_same_outcome p1 p3.
  Proof. intros [H1 H2] [H3 H4]. split; [intros i; rewrite H1; apply H3 | congruence]. Qed.

  (* resolution looks only at whether a duplicate-free list has no, one or more elements *)
  Lemma g_pick_perm (l l' : list V) :
    Permutation l l' ->
    match l with [] => l' = [] | [v] => l' = [v] | _ :: _ :: _ => exists a b r, l' = a :: b :: r end.
  Proof.
    intros H. pose proof (Permutation_length H) as L.
    destruct l as [|v [|w r]], l' as [|a [|b r']]; try discriminate L; auto.
    - apply Permutation_length_1 in H. congruence.
    - eauto.
  Qed.

  (* resolution depends only on the SETS of values and of default values *)
  Lemma g_resolve_ext p p' :
    Laws.seq (map fst (filter snd p)) (map fst (filter snd p')) ->
    Laws.seq (map fst p) (map fst p') -> resolve p = resolve p'.
  Proof.
    intros HD HV. apply g_dedup_seq_perm, g_pick_perm in HD, HV. unfold gresolve, gdefaults, gvalues.
    destruct (dedup (map fst (filter snd p))) as [|d [|d2 dl]].
    - rewrite HD. destruct (dedup (map fst p)) as [|v [|v2 vl]].
      + rewrite HV. reflexivity.
      + rewrite HV. reflexivity.
      + destruct HV as (a & b & r & ->). reflexivity.
    - rewrite HD. reflexivity.
    - destruct HD as (a & b & r & ->). reflexivity.
  Qed.

  Lemma g_accepts_ext p p' i : Laws.seq (map fst p) (map fst p') -> accepts p i = accepts p' i.
  Proof.
    intros H. unfold gaccepts.
    rewrite <- (existsb_map (vacc i) fst p), <- (existsb_map (vacc i) fst p').
    apply existsb_seq. exact H.
  Qed.

  (* all flags set on one side, none on the other: on both sides the resolution is the one by values *)
  Lemma g_resolve_flags_const p p' :
    (forall vd, In vd p -> snd vd = true) -> (forall vd, In vd p' -> snd vd = false) ->
    Laws.seq (map fst p) (map fst p') -> resolve p = resolve p'.
  Proof.
    intros H1 H2 HV. apply g_dedup_seq_perm, g_pick_perm in HV. unfold gresolve, gdefaults, gvalues.
    rewrite (filter_all snd p H1), (filter_none snd p' H2). cbn [map gdedup].
    destruct (dedup (map fst p)) as [|v [|v2 vl]].
    - rewrite HV. reflexivity.
    - rewrite HV. reflexivity.
    - destruct HV as (a & b & r & ->). reflexivity.
  Qed.

  (* resolution never chooses silently *)
  Theorem g_resolve_never_silent p v :
    resolve p = GChosen v ->
    (defaults p = [v]) \/ (defaults p = [] /\ values p = [v]).
  Proof.
    unfold gresolve. destruct (defaults p) as [|d [|d' ds]].
    - destruct (values p) as [|x [|y ys]]; try discriminate. intros [= ->]. right; auto.
    - intros [= ->]. left; reflexivity.
    - discriminate.
  Qed.

  Lemma g_resolve_no_defaults p v : defaults p = [] -> (resolve p = GChosen v <-> values p = [v]).
  Proof.
    intros H. unfold gresolve. rewrite H. destruct (values p) as [|a [|b l]]; split; intros E; try discriminate; congruence.
  Qed.

  Lemma g_defaults_incl_values p x : In x (defaults p) -> In x (values p).
  Proof.
    unfold gdefaults, gvalues. rewrite !g_dedup_in, !in_map_iff. intros (vd & E & H).
    apply filter_In in H as [H _]. exists vd; auto.
  Qed.

  (* a single surviving value is chosen whatever the marks *)
  Theorem g_single_value_chosen p v : values p = [v] -> resolve p = GChosen v.
  Proof.
    intros H. assert (I : forall x, In x (defaults p) -> x = v).
    { intros x Hx. apply g_defaults_incl_values in Hx. rewrite H in Hx. destruct Hx as [<-|[]]. reflexivity. }
    assert (N : NoDup (defaults p)) by apply g_dedup_nodup.
    unfold gresolve. rewrite H. revert I N. destruct (defaults p) as [|a [|b l]]; intros I N.
    - reflexivity.
    - rewrite (I a) by (left; auto). reflexivity.
    - exfalso. inversion N as [|? ? Hn _]; subst. apply Hn.
      rewrite (I a) by (simpl; auto). rewrite (I b) by (simpl; auto). left; reflexivity.
  Qed.

  Lemma g_in_pair_values (f : list (bool * A) -> bool) svs x :
    In x (map fst (map (fun t => (tv t, f t)) svs)) <-> exists t, In t svs /\ tv t = x.
  Proof.
    rewrite map_map. cbn [fst]. rewrite in_map_iff.
    split; intros (t & H1 & H2); exists t; split; assumption.
  Qed.

  Lemma g_in_pair_defaults (f : list (bool * A) -> bool) svs x :
    In x (map fst (filter snd (map (fun t => (tv t, f t)) svs))) <-> exists t, In t svs /\ f t = true /\ tv t = x.
  Proof.
    rewrite in_map_iff. split.
    - intros ([v b] & E & H). apply filter_In in H as [H Hb]. apply in_map_iff in H as (t & Et & Ht).
      cbn [fst snd] in *. injection Et as Ev Eb. exists t. subst. auto.
    - intros (t & Ht & Hd & E). exists (tv t, true). split; auto.
      apply filter_In. split; auto. apply in_map_iff. exists t. rewrite Hd. auto.
  Qed.

  (* a chosen value is the value of a surviving choice *)
  Theorem g_chosen_is_survivor ds v :
    resolve (pair_of ds) = GChosen v ->
    exists t, g_is_tuple t ds /\ survives t = true /\ tv t = v.
  Proof.
    intros H. assert (I : In v (values (pair_of ds))).
    { destruct (g_resolve_never_silent _ _ H) as [E|[_ E]]; [apply g_defaults_incl_values|]; rewrite E; left; reflexivity. }
    apply g_dedup_in, g_in_pair_values in I as (t & Ht & E). apply g_in_survivors in Ht as [Ht Hs].
    exists t. auto.
  Qed.

  (* a choice using a mark of every effectively marked disjunction: the defaults, if there is
     such a disjunction *)
  Definition g_preferred n svs (t : list (bool * A)) : bool :=
    forallb (fun i => negb (eff_marked svs i) || uses_marked i t) (seq 0 n).

  Lemma g_preferred_iff n svs t :
    g_preferred n svs t = true <-> forall i, i < n -> eff_marked svs i = true -> uses_marked i t = true.
  Proof.
    unfold g_preferred. rewrite forallb_forall. split; intros H j Hj.
    - intros Ej. specialize (H j). rewrite Ej in H. apply H. apply in_seq. lia.
    - apply in_seq in Hj. destruct (eff_marked svs j) eqn:Ej; simpl; auto. apply H; auto. lia.
  Qed.

  (* Flagging the preferred choices instead of the defaults gives the same outcome: the flags
     differ only if no disjunction is effectively marked, and then every choice is preferred and
     none is a default. *)
  Lemma g_pair_preferred ds :
    g_same_outcome (pair_of ds) (map (fun t => (tv t, g_preferred (length ds) (survivors ds) t)) (survivors ds)).
  Proof.
    unfold gpair_of, gis_default, g_preferred.
    destruct (existsb (eff_marked (survivors ds)) (seq 0 (length ds))) eqn:E; [apply g_same_outcome_refl|].
    split.
    - intros i. apply g_accepts_ext. intros x. rewrite !map_map. reflexivity.
    - symmetry. apply g_resolve_flags_const.
      + intros vd Hvd. apply in_map_iff in Hvd as (t & <- & _). apply forallb_forall. intros i Hi.
        destruct (eff_marked (survivors ds) i) eqn:Ei; auto.
        apply not_true_iff_false in E. destruct E. apply existsb_exists. eauto.
      + intros vd Hvd. apply in_map_iff in Hvd as (t & <- & _). reflexivity.
      + intros x. rewrite !map_map. reflexivity.
  Qed.

  Lemma g_outcome_ext ds ds' :
    (forall x, (exists t, In t (survivors ds) /\ tv t = x) <-> (exists t, In t (survivors ds') /\ tv t = x)) ->
    (forall x, (exists t, In t (survivors ds) /\ g_preferred (length ds) (survivors ds) t = true /\ tv t = x) <->
               (exists t, In t (survivors ds') /\ g_preferred (length ds') (survivors ds') t = true /\ tv t = x)) ->
    g_same_outcome (pair_of ds) (pair_of ds').
  Proof.
    intros HV HD. eapply g_same_outcome_trans; [apply g_pair_preferred|].
    eapply g_same_outcome_trans; [|apply g_same_outcome_sym, g_pair_preferred]. split.
    - intros i. apply g_accepts_ext. intros x. rewrite !g_in_pair_values. apply HV.
    - apply g_resolve_ext; intros x; [rewrite !g_in_pair_defaults; apply HD | rewrite !g_in_pair_values; apply HV].
  Qed.

  (* If the choices of two lists of disjunctions correspond - every choice has a counterpart on
     the other side with the same value and at least its marks, along a map of the positions
     onto those of ds' - the outcomes are equal. *)
  Lemma g_transfer ds ds' (pi : nat -> nat) :
    (forall i, i < length ds -> pi i < length ds') ->
    (forall j, j < length ds' -> exists i, i < length ds /\ pi i = j) ->
    (forall t, g_is_tuple t ds -> exists t', g_is_tuple t' ds' /\ tv t' = tv t /\
        forall i, i < length ds -> uses_marked i t = true -> uses_marked (pi i) t' = true) ->
    (forall t', g_is_tuple t' ds' -> exists t, g_is_tuple t ds /\ tv t = tv t' /\
        forall i, i < length ds -> uses_marked (pi i) t' = true -> uses_marked i t = true) ->
    g_same_outcome (pair_of ds) (pair_of ds').
  Proof.
    intros Hpi Hsurj Hf Hb.
    pose proof (g_survivor_lift ds ds' _ Hf) as F. cbv beta in F.
    pose proof (g_survivor_lift ds' ds _ Hb) as B. cbv beta in B.
    assert (E : forall i, i < length ds ->
               (eff_marked (survivors ds) i = true <-> eff_marked (survivors ds') (pi i) = true)).
    { intros i Hi. unfold geff_marked. rewrite !existsb_exists. split.
      - intros (t & Ht & Hm). destruct (F t Ht) as (t' & Ht' & _ & Hm'). exists t'. split; auto.
      - intros (t' & Ht' & Hm). destruct (B t' Ht') as (t & Ht & _ & Hm'). exists t. split; auto. }
    apply g_outcome_ext; intros x.
    - split.
      + intros (t & Ht & <-). destruct (F t Ht) as (t' & Ht' & Hv & _). exists t'. auto.
      + intros (t' & Ht' & <-). destruct (B t' Ht') as (t & Ht & Hv & _). exists t; auto.
    - split.
      + intros (t & Ht & Hd & <-). destruct (F t Ht) as (t' & Ht' & Hv & Hm). exists t'.
        split; [exact Ht'|]. split; [|exact Hv].
        rewrite g_preferred_iff in Hd. apply g_preferred_iff.
        intros j Hj Ej. destruct (Hsurj j Hj) as (i & Hi & <-). apply Hm; auto. apply Hd; auto. apply E; auto.
      + intros (t' & Ht' & Hd & <-). destruct (B t' Ht') as (t & Ht & Hv & Hm). exists t.
        split; [exact Ht|]. split; [|exact Hv].
        rewrite g_preferred_iff in Hd. apply g_preferred_iff.
        intros i Hi Ei. apply Hm; auto. apply Hd; [apply Hpi; auto | apply E; auto].
  Qed.

  Lemma g_sw_val k t : tv (sw k t) = tv t.
  Proof. unfold gtv. apply tval_perm. apply Permutation_map. apply sw_perm. Qed.

  Lemma g_uses_marked_sw k (t : list (bool * A)) i :
    k + 2 <= length t -> uses_marked (swi k i) (sw k t) = uses_marked i t.
  Proof. intros H. unfold guses_marked. rewrite nth_error_sw by exact H. reflexivity. Qed.

  Theorem g_operand_swap l1 x y l2 :
    g_same_outcome (pair_of (l1 ++ y :: x :: l2)) (pair_of (l1 ++ x :: y :: l2)).
  Proof.
    assert (L : forall a b : gd, length (l1 ++ a :: b :: l2) = length l1 + 2 + length l2)
      by (intros; rewrite app_length; simpl; lia).
    apply (g_transfer _ _ (swi (length l1))).
    - intros i Hi. rewrite L in *. apply swi_lt; lia.
    - intros j Hj. exists (swi (length l1) j). rewrite L in *. split; [apply swi_lt; lia | apply swi_invol].
    - intros t Ht. exists (sw (length l1) t). split; [apply sw_forall2; exact Ht|]. split; [apply g_sw_val|].
      intros i Hi Hm. rewrite g_uses_marked_sw; auto. apply Forall2_len in Ht. rewrite Ht, L. lia.
    - intros t' Ht'. exists (sw (length l1) t'). split; [apply sw_forall2; exact Ht'|]. split; [apply g_sw_val|].
      intros i Hi Hm. rewrite <- (swi_invol (length l1) i). rewrite g_uses_marked_sw; auto.
      apply Forall2_len in Ht'. rewrite Ht', L. lia.
  Qed.

  Theorem g_operand_order_independent ds ds' :
    Permutation ds ds' -> g_same_outcome (pair_of ds) (pair_of ds').
  Proof.
    intros H. induction H using Permutation_ind_transp.
    - apply g_same_outcome_refl.
    - apply g_operand_swap.
    - eapply g_same_outcome_trans; eassumption.
  Qed.

  Lemma g_is_tuple_seq t ds ds' :
    Forall2 (fun d d' : gd => forall c, In c d <-> In c d') ds ds' -> g_is_tuple t ds -> g_is_tuple t ds'.
  Proof.
    intros H. revert t. induction H as [|d d' r r' Hd Hr IH]; intros t Ht.
    - inversion Ht. constructor.
    - inversion Ht as [|c ? t0 ? Hc Ht0]; subst. constructor; [apply Hd; exact Hc | apply IH; exact Ht0].
  Qed.

  (* only the SET of disjuncts of every disjunction matters *)
  Theorem g_disjuncts_as_sets ds ds' :
    Forall2 (fun d d' : gd => forall c, In c d <-> In c d') ds ds' ->
    g_same_outcome (pair_of ds) (pair_of ds').
  Proof.
    intros H.
    assert (H' : Forall2 (fun d d' : gd => forall c, In c d <-> In c d') ds' ds).
    { clear -H. induction H as [|d d' r r' Hd Hr IH]; constructor; [intros c; symmetry; apply Hd | exact IH]. }
    pose proof (Forall2_len _ _ _ H) as L.
    apply (g_transfer ds ds' (fun i => i)).
    - intros i. rewrite L. auto.
    - intros j Hj. exists j. rewrite L. auto.
    - intros t Ht. exists t. split; [eapply g_is_tuple_seq; eauto|]. split; auto.
    - intros t Ht. exists t. split; [eapply g_is_tuple_seq; eauto|]. split; auto.
  Qed.

  Lemma g_disjunct_as_set l1 d d' l2 :
    (forall c, In c d <-> In c d') -> g_same_outcome (pair_of (l1 ++ d :: l2)) (pair_of (l1 ++ d' :: l2)).
  Proof.
    intros H. apply g_disjuncts_as_sets. apply Forall2_app; [apply Forall2_same; intros d0 c0; tauto|].
    constructor; [exact H | apply Forall2_same; intros d0 c0; tauto].
  Qed.

  Corollary g_disjunct_order_independent l1 d d' l2 :
    Permutation d d' -> g_same_outcome (pair_of (l1 ++ d :: l2)) (pair_of (l1 ++ d' :: l2)).
  Proof. intros H. apply g_disjunct_as_set, perm_seq, H. Qed.

  Corollary g_duplicate_disjunct l1 d c l2 :
    In c d -> g_same_outcome (pair_of (l1 ++ (d ++ [c]) :: l2)) (pair_of (l1 ++ d :: l2)).
  Proof.
    intros H. apply g_disjunct_as_set. intros c'. rewrite in_app_iff. simpl.
    split; [intros [?|[<-|[]]]; auto | auto].
  Qed.

  (* a copy of a disjunct carrying at most its mark (an unmarked copy of a marked disjunct,
     or an exact copy) changes nothing *)
  Theorem g_weaker_copy_irrelevant d r m m' e :
    In (m, e) d -> implb m' m = true ->
    g_same_outcome (pair_of ((d ++ [(m', e)]) :: r)) (pair_of (d :: r)).
  Proof.
    intros Hin Himp.
    apply (g_transfer _ _ (fun i => i)); cbn [length].
    - auto.
    - intros j Hj. exists j. auto.
    - intros t Ht. inversion Ht as [|c ? t0 ? Hc Ht0]; subst. apply in_app_iff in Hc as [Hc|[<-|[]]].
      + exists (c :: t0). split; [constructor; auto|]. split; auto.
      + exists ((m, e) :: t0). split; [constructor; auto|]. split; [reflexivity|].
        intros [|i] _; unfold guses_marked; simpl; auto. intros ->. destruct m; auto.
    - intros t Ht. inversion Ht as [|c ? t0 ? Hc Ht0]; subst. exists (c :: t0).
      split; [constructor; auto; apply in_or_app; auto|]. split; auto.
  Qed.

  (* an eliminated disjunct (one that fails with every choice of the others) *)
  Theorem g_eliminated_disjunct_irrelevant d c r :
    (forall t, g_is_tuple t r -> survives (c :: t) = false) ->
    pair_of ((d ++ [c]) :: r) = pair_of (d :: r).
  Proof.
    intros H. unfold gpair_of.
    assert (S : survivors ((d ++ [c]) :: r) = survivors (d :: r)).
    { unfold gsurvivors. cbn [gtuples]. rewrite flat_map_app, filter_app. cbn [flat_map]. rewrite app_nil_r.
      assert (Z : filter survives (map (cons c) (tuples r)) = []).
      { apply filter_none. intros t Ht. apply in_map_iff in Ht as (t0 & <- & Ht0). apply H. apply g_tuples_spec. exact Ht0. }
      rewrite Z, app_nil_r. reflexivity. }
    rewrite S. reflexivity.
  Qed.

  (* acceptance is the union over the choices, provided errors accept nothing *)
  Theorem g_accept_is_union ds i :
    (forall v, verr v = true -> vacc i v = false) ->
    accepts (pair_of ds) i = existsb (fun t => vacc i (tv t)) (tuples ds).
  Proof.
    intros HE. unfold gaccepts, gpair_of, gsurvivors. rewrite existsb_map, existsb_filter. cbn [fst].
    apply existsb_ext. intros t. unfold gsurvives.
    destruct (verr (tv t)) eqn:E; simpl; auto. symmetry. apply HE. exact E.
  Qed.

  Lemma g_no_marks_uses ds t i :
    forallb (fun d => negb (ghas_marks A d)) ds = true -> g_is_tuple t ds -> uses_marked i t = false.
  Proof.
    intros H Ht. unfold guses_marked. destruct (nth_error t i) as [[m e]|] eqn:E; auto.
    apply nth_error_In in E. destruct (g_tuple_member _ _ _ Ht E) as (d & Hd & Hc).
    rewrite forallb_forall in H. specialize (H d Hd). unfold ghas_marks in H. destruct m; auto.
    apply negb_true_iff in H.
    assert (X : existsb fst d = true) by (apply existsb_exists; exists (true, e); auto). congruence.
  Qed.

  Theorem g_no_marks_no_defaults ds :
    forallb (fun d => negb (ghas_marks A d)) ds = true ->
    defaults (pair_of ds) = [] /\
    forall v, resolve (pair_of ds) = GChosen v <-> values (pair_of ds) = [v].
  Proof.
    intros H. assert (D : defaults (pair_of ds) = []).
    { unfold gdefaults. rewrite filter_none; [reflexivity|].
      intros vd Hvd. unfold gpair_of in Hvd. apply in_map_iff in Hvd as (t & <- & Ht). cbn [snd].
      destruct (is_default _ _ t) eqn:Ed; auto. unfold gis_default in Ed. apply andb_prop in Ed as [Ei _].
      apply existsb_exists in Ei as (i & _ & Ei).
      unfold geff_marked in Ei. apply existsb_exists in Ei as (s & Hs & Hm). apply g_in_survivors in Hs as [Hs _].
      rewrite (g_no_marks_uses ds s i H Hs) in Hm. discriminate. }
    split; auto. intros v. apply g_resolve_no_defaults. exact D.
  Qed.

  (* no disjunctions: the value of the empty choice, or no value when that is an error *)
  Theorem g_no_disjunctions :
    (forall i v, verr v = true -> vacc i v = false) ->
    let v := tval [] in
    resolve (pair_of []) = (if verr v then GNoValue else GChosen v) /\
    forall i, accepts (pair_of []) i = vacc i v.
  Proof.
    intros HE v. unfold gpair_of, gsurvivors, gsurvives, gtv. cbn [gtuples filter map]. fold v.
    destruct (verr v) eqn:E; cbn [negb map].
    - split; [reflexivity|]. intros i. symmetry. apply HE, E.
    - split; [reflexivity|]. intros i. apply orb_false_r.
  Qed.

  Definition g_unmark (d : gd) : gd := map (fun c => (false, snd c)) d.
  Definition um_head (t : list (bool * A)) : list (bool * A) :=
    match t with c :: t0 => (false, snd c) :: t0 | [] => [] end.

  Lemma um_head_tuple d r t :
    forallb fst d = true -> g_is_tuple t (d :: r) ->
    g_is_tuple (um_head t) (g_unmark d :: r) /\ uses_marked 0 t = true.
  Proof.
    intros Hd Ht. inversion Ht as [|c ? t0 ? Hc Ht0]; subst. split.
    - simpl. constructor; auto. unfold g_unmark. apply in_map_iff. exists c. auto.
    - unfold guses_marked. simpl. destruct c as [m e]. rewrite forallb_forall in Hd. apply (Hd (m, e) Hc).
  Qed.

  Lemma um_head_val t : tv (um_head t) = tv t.
  Proof. destruct t as [|[m e] t0]; reflexivity. Qed.

  Lemma um_head_marks t i : uses_marked (S i) (um_head t) = uses_marked (S i) t.
  Proof. destruct t; reflexivity. Qed.

  Lemma um_head_mark0 t : uses_marked 0 (um_head t) = false.
  Proof. destruct t; reflexivity. Qed.

  Lemma um_head_surj d r t' :
    g_is_tuple t' (g_unmark d :: r) -> exists t, g_is_tuple t (d :: r) /\ um_head t = t'.
  Proof.
    intros Ht. inversion Ht as [|c' ? t0 ? Hc Ht0]; subst. unfold g_unmark in Hc.
    apply in_map_iff in Hc as (c & <- & Hc).
    exists (c :: t0). split; [constructor; auto | reflexivity].
  Qed.

  (* rule M: a disjunction all of whose disjuncts are marked behaves as the unmarked one: every
     survivor uses a mark of d, and [g_unmark d] is not effectively marked, so the same choices
     are preferred on both sides. *)
  Theorem g_marks_on_every_disjunct d r :
    forallb fst d = true ->
    g_same_outcome (pair_of (d :: r)) (pair_of (g_unmark d :: r)).
  Proof.
    intros Hd.
    assert (S1 : forall t, In t (survivors (d :: r)) ->
                 In (um_head t) (survivors (g_unmark d :: r)) /\ uses_marked 0 t = true).
    { intros t Ht. apply g_in_survivors in Ht as [Ht Hs]. destruct (um_head_tuple d r t Hd Ht) as [X Y].
      split; auto. apply g_in_survivors. split; auto.
      rewrite (g_survives_val t (um_head t)); auto. apply um_head_val. }
    assert (S2 : forall t', In t' (survivors (g_unmark d :: r)) ->
                 exists t, In t (survivors (d :: r)) /\ um_head t = t').
    { intros t' Ht'. apply g_in_survivors in Ht' as [Ht' Hs].
      destruct (um_head_surj d r t' Ht') as (t & Ht & <-).
      exists t. split; auto. apply g_in_survivors. split; auto.
      rewrite <- (g_survives_val t (um_head t)); auto. apply um_head_val. }
    assert (E1 : forall i, eff_marked (survivors (g_unmark d :: r)) (S i) = true <->
                           eff_marked (survivors (d :: r)) (S i) = true).
    { intros i. unfold geff_marked. rewrite !existsb_exists. split.
      - intros (t' & Ht' & Hm). destruct (S2 t' Ht') as (t & Ht & <-). exists t.
        rewrite um_head_marks in Hm. auto.
      - intros (t & Ht & Hm). exists (um_head t). rewrite um_head_marks. split; auto. apply S1; auto. }
    assert (E0 : eff_marked (survivors (g_unmark d :: r)) 0 = false).
    { unfold geff_marked. destruct (existsb _ _) eqn:X; auto. apply existsb_exists in X as (t' & Ht' & Hm).
      destruct (S2 t' Ht') as (t & _ & <-). rewrite um_head_mark0 in Hm. discriminate. }
    assert (HV : forall x, (exists t, In t (survivors (d :: r)) /\ tv t = x) <->
                           (exists t, In t (survivors (g_unmark d :: r)) /\ tv t = x)).
    { intros x. split.
      - intros (t & Ht & <-). exists (um_head t). split; [apply S1; auto | apply um_head_val].
      - intros (t' & Ht' & <-). destruct (S2 t' Ht') as (t & Ht & <-). exists t. split; auto.
        symmetry; apply um_head_val. }
    apply g_outcome_ext; [exact HV|]. intros x. cbn [length]. split.
    - intros (t & Ht & Hdf & <-). exists (um_head t). split; [apply S1; auto|]. split; [|apply um_head_val].
      rewrite g_preferred_iff in Hdf. apply g_preferred_iff.
      intros [|j] Hj Ej; [congruence|]. rewrite um_head_marks. apply Hdf; auto. apply E1; auto.
    - intros (t' & Ht' & Hdf & <-). destruct (S2 t' Ht') as (t & Ht & <-). exists t. split; auto.
      split; [|symmetry; apply um_head_val].
      rewrite g_preferred_iff in Hdf. apply g_preferred_iff.
      intros [|j] Hj Ej; [apply S1; auto|]. rewrite <- um_head_marks. apply Hdf; auto. apply E1; auto.
  Qed.

  Corollary g_marks_on_every_disjunct_at l1 d l2 :
    forallb fst d = true ->
    g_same_outcome (pair_of (l1 ++ d :: l2)) (pair_of (l1 ++ g_unmark d :: l2)).
  Proof.
    intros H. eapply g_same_outcome_trans; [apply g_operand_order_independent; symmetry; apply Permutation_middle|].
    eapply g_same_outcome_trans; [apply g_marks_on_every_disjunct; exact H|].
    apply g_operand_order_independent. apply Permutation_middle.
  Qed.

  Theorem g_all_marked_as_unmarked l2 : forall l1,
    Forall (fun d => forallb fst d = true) l2 ->
    g_same_outcome (pair_of (l1 ++ l2)) (pair_of (l1 ++ map g_unmark l2)).
  Proof.
    induction l2 as [|d l2 IH]; intros l1 H; simpl.
    - apply g_same_outcome_refl.
    - inversion H as [|? ? Hd Hr]; subst.
      eapply g_same_outcome_trans; [apply g_marks_on_every_disjunct_at; exact Hd|].
      specialize (IH (l1 ++ [g_unmark d]) Hr). rewrite <- !app_assoc in IH. exact IH.
  Qed.

  (* marks never change the value (only the default) *)
  Lemma g_strip_tuple ds ds' :
    Forall2 (fun d d' : gd => map snd d = map snd d') ds ds' ->
    forall t, g_is_tuple t ds -> exists t', g_is_tuple t' ds' /\ map snd t' = map snd t.
  Proof.
    induction 1 as [|d d' r r' Hd Hr IH]; intros t Ht.
    - inversion Ht. exists []. split; [constructor | reflexivity].
    - inversion Ht as [|c ? t0 ? Hc Ht0]; subst. destruct (IH t0 Ht0) as (t0' & Ht0' & E).
      assert (X : In (snd c) (map snd d')) by (rewrite <- Hd; apply in_map; exact Hc).
      apply in_map_iff in X as (c' & Ec & Hc'). exists (c' :: t0'). split; [constructor; auto|].
      simpl. congruence.
  Qed.

  Theorem g_marks_never_change_the_value ds ds' :
    Forall2 (fun d d' : gd => map snd d = map snd d') ds ds' ->
    (forall i, accepts (pair_of ds) i = accepts (pair_of ds') i) /\
    Permutation (values (pair_of ds)) (values (pair_of ds')).
  Proof.
    intros H.
    assert (G : forall a b, Forall2 (fun d d' : gd => map snd d = map snd d') a b ->
                forall x, In x (map fst (pair_of a)) -> In x (map fst (pair_of b))).
    { intros a b Hab x. unfold gpair_of. rewrite !g_in_pair_values. intros (t & Ht & <-). apply g_in_survivors in Ht as [Ht Hs].
      destruct (g_strip_tuple a b Hab t Ht) as (t' & Ht' & E).
      assert (X : tv t' = tv t) by (unfold gtv; rewrite E; reflexivity).
      exists t'. split; [|exact X]. apply g_in_survivors. split; auto. rewrite (g_survives_val _ _ X). exact Hs. }
    assert (SQ : Laws.seq (map fst (pair_of ds)) (map fst (pair_of ds'))).
    { intros x. split; apply G; [exact H|]. clear -H. induction H; constructor; auto. }
    split.
    - intros i. apply g_accepts_ext. exact SQ.
    - unfold gvalues. apply g_dedup_seq_perm. exact SQ.
  Qed.
End GenLaws.

(* two value functions that agree give the same value/default pair *)
Lemma g_pair_ext A V verr (tval tval' : list A -> V) ds :
  (forall t, tval t = tval' t) -> gpair_of A V verr tval ds = gpair_of A V verr tval' ds.
Proof.
  intros H.
  assert (S : gsurvivors A V verr tval ds = gsurvivors A V verr tval' ds).
  { unfold gsurvivors. apply filter_ext. intros t. unfold gsurvives, gtv. rewrite H. reflexivity. }
  unfold gpair_of. rewrite S. apply map_ext. intros t. unfold gtv. rewrite H. reflexivity.
Qed.

(* an operand is a one-disjunct disjunction *)
Section Singleton.
  Variables A V : Type.
  Variable verr : V -> bool.
  Variable tval : list A -> V.

  Lemma g_eff_marked_cons0 (e : A) svs : geff_marked A (map (cons (false, e)) svs) 0 = false.
  Proof. unfold geff_marked. induction svs as [|s svs IH]; simpl; auto. Qed.

  Lemma g_eff_marked_consS (c : bool * A) svs i : geff_marked A (map (cons c) svs) (S i) = geff_marked A svs i.
  Proof. unfold geff_marked. rewrite existsb_map. reflexivity. Qed.

  Lemma g_is_default_cons_unmarked n svs (e : A) t :
    gis_default A (S n) (map (cons (false, e)) svs) ((false, e) :: t) = gis_default A n svs t.
  Proof.
    unfold gis_default. rewrite existsb_seq_S, forallb_seq_S, g_eff_marked_cons0. cbn [orb negb andb].
    f_equal.
    - apply existsb_ext. intros i. apply g_eff_marked_consS.
    - apply forallb_ext. intros i. rewrite g_eff_marked_consS. reflexivity.
  Qed.

  (* the unmarked disjunction [e] may as well be unified into every choice *)
  Theorem g_singleton_disjunction_is_operand e r :
    gpair_of A V verr tval ([(false, e)] :: r) = gpair_of A V verr (fun t => tval (e :: t)) r.
  Proof.
    assert (S : gsurvivors A V verr tval ([(false, e)] :: r) =
                map (cons (false, e)) (gsurvivors A V verr (fun t => tval (e :: t)) r)).
    { unfold gsurvivors. cbn [gtuples flat_map]. rewrite app_nil_r, filter_map_comm. reflexivity. }
    unfold gpair_of. rewrite S, map_map. cbn [length]. apply map_ext. intros t.
    rewrite g_is_default_cons_unmarked. reflexivity.
  Qed.
End Singleton.
