(* Theorems about the order-free disjunction/default semantics (C04).  Core/Disj.v is the
   instance of Core/DisjGen.v whose disjuncts are expressions, whose values are result trees
   and in which the value of a choice is the evaluation of the plain operands together with
   the chosen disjuncts; its definitions unfold to the generic ones, so the laws of
   Core/DisjGenLaws.v apply as they stand.  Only [resolve] returns a type of its own. *)
From Verif Require Import Core.Syntax Core.Eval Core.Laws Core.Disj Core.DisjGen Core.DisjGenLaws.
From Coq Require Import List Bool Permutation.
Import ListNotations.

Lemma list_eqb_eq {A} (eqb : A -> A -> bool) :
  (forall a b, eqb a b = true <-> a = b) -> forall x y, list_eqb eqb x y = true <-> x = y.
Proof.
  intros H. induction x as [|a x IH]; intros [|b y]; simpl; split; try discriminate; auto.
  - intros E. apply andb_prop in E as [E1 E2]. apply H in E1. apply IH in E2. congruence.
  - intros [= -> ->]. apply andb_true_intro. split; [apply H; reflexivity | apply IH; reflexivity].
Qed.

Lemma list_eqb_bool_eq x y : list_eqb Bool.eqb x y = true <-> x = y.
Proof. apply list_eqb_eq, eqb_true_iff. Qed.

Lemma fpres_eqb_eq a b : fpres_eqb a b = true <-> a = b.
Proof. destruct a, b; simpl; split; congruence. Qed.

Lemma res_eqb_true : forall a b, res_eqb a b = true -> a = b.
Proof.
  fix IH 1. intros a b.
  destruct a as [| |k1 a1 p1|f1 o1], b as [| |k2 a2 p2|f2 o2]; simpl; try discriminate; try reflexivity.
  - intros H. apply andb_prop in H as [H H3]. apply andb_prop in H as [H1 H2].
    apply list_eqb_bool_eq in H1, H2, H3. subst. reflexivity.
  - intros H. apply andb_prop in H as [H1 H2]. apply list_eqb_bool_eq in H2. subst o2. f_equal.
    revert f2 H1. induction f1 as [|[p r] f1 IHf]; intros [|[q s] f2]; simpl; intros H; try discriminate; try reflexivity.
    apply andb_prop in H as [H H3]. apply andb_prop in H as [H1 H2].
    apply fpres_eqb_eq in H1. apply IH in H2. apply IHf in H3. subst. reflexivity.
Qed.

Lemma res_eqb_refl : forall a, res_eqb a a = true.
Proof.
  fix IH 1. intros [| |k a p|f o]; simpl; try reflexivity.
  - rewrite !(proj2 (list_eqb_bool_eq _ _) eq_refl). reflexivity.
  - rewrite (proj2 (list_eqb_bool_eq o o) eq_refl), andb_true_r.
    induction f as [|[p r] f IHf]; [reflexivity|].
    rewrite (proj2 (fpres_eqb_eq p p) eq_refl), IH, IHf. reflexivity.
Qed.

Lemma res_eqb_eq a b : res_eqb a b = true <-> a = b.
Proof. split; [apply res_eqb_true | intros ->; apply res_eqb_refl]. Qed.

Definition resolution_of (r : gresolution res) : resolution :=
  match r with GChosen v => Chosen v | GAmbiguous => Ambiguous | GNoValue => NoValue end.

Lemma resolve_gen p : resolve p = resolution_of (gresolve res res_eqb p).
Proof.
  unfold resolve, gresolve. change (gdefaults res res_eqb p) with (defaults p).
  change (gvalues res res_eqb p) with (values p).
  destruct (defaults p) as [|d [|d' l]]; [destruct (values p) as [|v [|v' l]]|..]; reflexivity.
Qed.

Lemma resolve_chosen_gen p v : resolve p = Chosen v -> gresolve res res_eqb p = GChosen v.
Proof. rewrite resolve_gen. destruct (gresolve res res_eqb p); simpl; congruence. Qed.

Section DisjLaws.
  Variable labs : list label.
  Variable atoms : list atom.
  Variable fuel : nat.

  Notation tuple_val := (tuple_val labs atoms fuel).
  Notation survives := (survives labs atoms fuel).
  Notation survivors := (survivors labs atoms fuel).
  Notation pair_of := (pair_of labs atoms fuel).

  (* the value function at which Core/DisjGen.v gives Core/Disj.v *)
  Definition choice_val (plain es : list expr) : res := evalNode labs atoms fuel [mkConj false (plain ++ es)].

  Lemma choice_val_perm plain es es' : Permutation es es' -> choice_val plain es = choice_val plain es'.
  Proof. intros H. apply eval_group_perm, perm_seq, Permutation_app_head, H. Qed.

  Lemma pair_of_gen plain ds : pair_of plain ds = gpair_of expr res res_err (choice_val plain) ds.
  Proof. reflexivity. Qed.

  (* [g_is_tuple] at expressions, under the name the statements of C04 use *)
  Definition is_tuple (t : list (bool * expr)) (ds : list disj) : Prop :=
    Forall2 (fun c d => In c d) t ds.

  Lemma res_accepts_err i r : res_err r = true -> res_accepts i r = false.
  Proof. destruct r; simpl; try reflexivity; discriminate. Qed.

  (* the value is the union of the disjuncts distributed over & *)
  Theorem accept_is_union plain ds i :
    accepts (pair_of plain ds) i =
    existsb (fun t => res_accepts i (tuple_val plain t)) (tuples ds).
  Proof. exact (g_accept_is_union expr res res_err res_accepts (choice_val plain) ds i (res_accepts_err i)). Qed.

  (* resolution never chooses silently *)
  Theorem resolve_never_silent p v :
    resolve p = Chosen v ->
    (defaults p = [v]) \/ (defaults p = [] /\ values p = [v]).
  Proof. intros H. exact (g_resolve_never_silent res res_eqb p v (resolve_chosen_gen p v H)). Qed.

  Lemma mem_res_in r l : mem_res r l = true -> exists r', In r' l /\ res_eqb r r' = true.
  Proof. unfold mem_res. rewrite existsb_exists. intros (x & H1 & H2). eauto. Qed.

  (* a failed disjunct (bottom) never survives, whatever the other choices *)
  Theorem bottom_disjunct_fails plain t m :
    fuel <> 0 -> In (m, EBot) t -> survives plain t = false.
  Proof.
    intros Hf Hin. unfold Disj.survives, Disj.tuple_val, evalNode.
    destruct fuel as [|f]; [congruence|]. cbn [evalFlat].
    assert (B : n_bot (flat_all [mkConj false (plain ++ map snd t)]) = true).
    { rewrite fa_bot. cbn [existsb]. rewrite orb_false_r. unfold flat_conj. cbn [n_bot c_rec c_exprs].
      rewrite fe_bot. apply existsb_exists. exists EBot. split; [|reflexivity].
      apply in_or_app. right. apply in_map_iff. exists (m, EBot). auto. }
    rewrite B. reflexivity.
  Qed.

End DisjLaws.
