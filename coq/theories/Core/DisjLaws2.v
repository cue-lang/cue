(* The outcome of a value/default pair of Core/Disj.v (acceptance of every probe atom, resolution),
   and how the outcome laws of Core/DisjGenLaws.v are read for it (C04). *)
From Verif Require Import Core.Syntax Core.Eval Core.Laws Core.Disj Core.DisjLaws Core.DisjGen Core.DisjGenLaws.
From Coq Require Import List Bool Permutation.
Import ListNotations.

(* [g_same_outcome] with the resolution of Core/Disj.v, under the name the statements of C04 use *)
Definition same_outcome (p p' : list (res * bool)) : Prop :=
  (forall i, accepts p i = accepts p' i) /\ resolve p = resolve p'.

Lemma same_outcome_sym p p' : same_outcome p p' -> same_outcome p' p.
Proof. intros [H1 H2]. split; auto. Qed.

Lemma same_outcome_gen p p' : g_same_outcome res res_eqb res_accepts p p' -> same_outcome p p'.
Proof. intros [HA HR]. split; [exact HA | rewrite !resolve_gen, HR; reflexivity]. Qed.

(* ... with the pairs written as instances of Core/DisjGen.v, so that a law of Core/DisjGenLaws.v
   applies to what is left and only asks for its hypotheses *)
Lemma flat_outcome labs atoms fuel plain ds ds' :
  g_same_outcome res res_eqb res_accepts
    (gpair_of expr res res_err (choice_val labs atoms fuel plain) ds)
    (gpair_of expr res res_err (choice_val labs atoms fuel plain) ds') ->
  same_outcome (pair_of labs atoms fuel plain ds) (pair_of labs atoms fuel plain ds').
Proof. apply same_outcome_gen. Qed.

Lemma resolve_no_defaults p v : defaults p = [] -> (resolve p = Chosen v <-> values p = [v]).
Proof.
  intros H. split; intros E.
  - apply (g_resolve_no_defaults res res_eqb p v H), resolve_chosen_gen, E.
  - rewrite resolve_gen, (proj2 (g_resolve_no_defaults res res_eqb p v H) E). reflexivity.
Qed.

Section DisjLaws2.
  Variable labs : list label.
  Variable atoms : list atom.
  Variable fuel : nat.

  Notation pair_of := (pair_of labs atoms fuel).

  Theorem operand_order_independent plain ds ds' :
    Permutation ds ds' -> same_outcome (pair_of plain ds) (pair_of plain ds').
  Proof.
    intros H. apply flat_outcome, g_operand_order_independent; [apply res_eqb_eq | apply choice_val_perm | exact H].
  Qed.

  (* [g_unmark] at expressions, under the name the statements of C04 use *)
  Definition unmark (d : disj) : disj := map (fun c => (false, snd c)) d.

  (* the plain operands: only their set matters *)
  Theorem plain_operands_as_set plain plain' ds :
    Laws.seq plain plain' -> pair_of plain ds = pair_of plain' ds.
  Proof.
    intros H. apply (g_pair_ext expr res res_err (choice_val labs atoms fuel plain) (choice_val labs atoms fuel plain')).
    intros t. apply eval_group_perm, Laws.seq_app; [exact H | apply Laws.seq_refl].
  Qed.
End DisjLaws2.

