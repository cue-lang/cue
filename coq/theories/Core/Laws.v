(* C01 for CoreCUE: the value of a node depends only on the SET of what its
   conjunct groups contribute - not on order, grouping of open groups, repetition,
   nesting of &, [& _], or the order of declarations in a struct literal. *)
From Verif Require Import Core.Syntax Core.Eval.
From Coq Require Import List Bool Permutation.
Import ListNotations.

(* two lists with the same elements (lists as sets); other files write [Laws.seq], since [seq] also names
   [List.seq] *)
Definition seq {A} (l l' : list A) : Prop := forall x, In x l <-> In x l'.

Lemma seq_refl {A} (l : list A) : seq l l.
Proof. intros x; tauto. Qed.

Lemma seq_sym {A} (l l' : list A) : seq l l' -> seq l' l.
Proof. intros H x; specialize (H x); tauto. Qed.

Lemma seq_trans {A} (l1 l2 l3 : list A) : seq l1 l2 -> seq l2 l3 -> seq l1 l3.
Proof. intros H1 H2 x; specialize (H1 x); specialize (H2 x); tauto. Qed.

Lemma seq_app {A} (a a' b b' : list A) : seq a a' -> seq b b' -> seq (a ++ b) (a' ++ b').
Proof. intros H1 H2 x. rewrite !in_app_iff, (H1 x), (H2 x). tauto. Qed.

Lemma seq_app_comm {A} (a b : list A) : seq (a ++ b) (b ++ a).
Proof. intros x. rewrite !in_app_iff. tauto. Qed.

Lemma seq_app_idem {A} (a : list A) : seq (a ++ a) a.
Proof. intros x. rewrite in_app_iff. tauto. Qed.

Lemma seq_flat_map {A B} (f : A -> list B) l l' : seq l l' -> seq (flat_map f l) (flat_map f l').
Proof.
  intros H y. rewrite !in_flat_map. split; intros (x & Hx & Hy); exists x; split; auto; apply H; auto.
Qed.

Lemma seq_flat_map_ext {A B} (f g : A -> list B) l :
  (forall x, In x l -> seq (f x) (g x)) -> seq (flat_map f l) (flat_map g l).
Proof.
  intros H y. rewrite !in_flat_map. split; intros (x & Hx & Hy); exists x; split; auto; apply (H x Hx); auto.
Qed.

Lemma perm_seq {A} (l l' : list A) : Permutation l l' -> seq l l'.
Proof. intros H x. split; apply Permutation_in; [exact H | apply Permutation_sym, H]. Qed.

Lemma bool_eq_iff (a b : bool) : (a = true <-> b = true) -> a = b.
Proof.
  destruct a, b; intros [H1 H2]; auto; try (symmetry; auto; fail).
Qed.

Lemma existsb_seq {A} (f : A -> bool) l l' : seq l l' -> existsb f l = existsb f l'.
Proof.
  intros H. apply bool_eq_iff. rewrite !existsb_exists.
  split; intros (x & Hx & Hf); exists x; split; auto; apply H; auto.
Qed.

Lemma forallb_seq {A} (f : A -> bool) l l' : seq l l' -> forallb f l = forallb f l'.
Proof.
  intros H. apply bool_eq_iff. rewrite !forallb_forall.
  split; intros Hf x Hx; apply Hf, H, Hx.
Qed.

Lemma existsb_ext {A} (f g : A -> bool) l : (forall x, f x = g x) -> existsb f l = existsb g l.
Proof. intros H. induction l as [|a l IH]; simpl; auto. rewrite H, IH. reflexivity. Qed.

Lemma forallb_ext {A} (f g : A -> bool) l : (forall x, f x = g x) -> forallb f l = forallb g l.
Proof. intros H. induction l as [|a l IH]; simpl; auto. rewrite H, IH. reflexivity. Qed.

Lemma existsb_map {A B} (f : B -> bool) (g : A -> B) l : existsb f (map g l) = existsb (fun x => f (g x)) l.
Proof. induction l as [|a l IH]; simpl; auto. rewrite IH. reflexivity. Qed.

Lemma forallb_map {A B} (f : B -> bool) (g : A -> B) l : forallb f (map g l) = forallb (fun x => f (g x)) l.
Proof. induction l as [|a l IH]; simpl; auto. rewrite IH. reflexivity. Qed.

Lemma flat_map_nil {A B} (f : A -> list B) l : (forall x, In x l -> f x = []) -> flat_map f l = [].
Proof.
  induction l as [|a l IH]; intros H; [reflexivity|]. cbn [flat_map].
  rewrite (H a) by (left; reflexivity). apply IH. intros x Hx. apply H. right. exact Hx.
Qed.

Lemma existsb_incl {A} (f : A -> bool) l l' : incl l l' -> existsb f l = true -> existsb f l' = true.
Proof. intros H E. apply existsb_exists in E as (x & Hx & E). apply existsb_exists. exists x. auto. Qed.

Lemma forallb_incl {A} (f : A -> bool) l l' : incl l l' -> forallb f l' = true -> forallb f l = true.
Proof. intros H E. rewrite forallb_forall in *. auto. Qed.

Lemma flat_map_incl {A B} (f : A -> list B) l l' : incl l l' -> incl (flat_map f l) (flat_map f l').
Proof. intros H y Hy. apply in_flat_map in Hy as (x & Hx & Hy). apply in_flat_map. exists x. auto. Qed.

Lemma Forall2_same {A} (R : A -> A -> Prop) l : (forall x, R x x) -> Forall2 R l l.
Proof. intros H. induction l; constructor; auto. Qed.

Lemma null_seq {A} (l l' : list A) : seq l l' -> null l = null l'.
Proof.
  intros H. destruct l as [|a l], l' as [|b l']; simpl; auto.
  - destruct (proj2 (H b)); simpl; auto.
  - destruct (proj1 (H a)); simpl; auto.
Qed.

Lemma existsb_flat_map {A B} (f : B -> bool) (g : A -> list B) l :
  existsb f (flat_map g l) = existsb (fun x => existsb f (g x)) l.
Proof. induction l as [|a l IH]; simpl; auto. rewrite existsb_app, IH. reflexivity. Qed.

Lemma forallb_flat_map {A B} (f : B -> bool) (g : A -> list B) l :
  forallb f (flat_map g l) = forallb (fun x => forallb f (g x)) l.
Proof. induction l as [|a l IH]; simpl; auto. rewrite forallb_app, IH. reflexivity. Qed.

Lemma map_ext_seq_eq {A B} (f g : A -> B) l : (forall x, In x l -> f x = g x) -> map f l = map g l.
Proof. intros H. apply map_ext_in. exact H. Qed.

Lemma allows_union a b l : allows (al_union a b) l = allows a l || allows b l.
Proof.
  unfold allows, al_union; simpl. rewrite !existsb_app.
  destruct (al_open a), (al_open b), (existsb (label_eqb l) (al_labels a)),
    (existsb (label_eqb l) (al_labels b)); simpl; auto;
    destruct l; simpl; rewrite ?existsb_app; auto;
    destruct (existsb (memN s) (al_pats a)); simpl; auto.
Qed.

Lemma allows_empty l : allows al_empty l = false.
Proof. unfold allows, al_empty; simpl. destruct l; reflexivity. Qed.

Lemma allows_all_declared es l :
  allows (all_declared es) l = existsb (fun e => allows (declared e) l) es.
Proof.
  induction es as [|e es IH]; simpl; [apply allows_empty|]. rewrite allows_union, IH. reflexivity.
Qed.

Definition closers_eq (c c' : list allowset) : Prop := forall l, allowed c l = allowed c' l.

Lemma allowed_app c1 c2 l :
  allowed (c1 ++ c2) l = is_special l || (forallb (fun a => allows a l) c1 && forallb (fun a => allows a l) c2).
Proof. unfold allowed. rewrite forallb_app. reflexivity. Qed.

Lemma closers_eq_app c1 c1' c2 c2' :
  closers_eq c1 c1' -> closers_eq c2 c2' -> closers_eq (c1 ++ c2) (c1' ++ c2').
Proof.
  intros H1 H2 l. specialize (H1 l). specialize (H2 l). rewrite !allowed_app.
  unfold allowed in H1, H2. destruct (is_special l); simpl in *; auto. rewrite H1, H2. reflexivity.
Qed.

Lemma closers_eq_seq c c' : seq c c' -> closers_eq c c'.
Proof. intros H l. unfold allowed. rewrite (forallb_seq _ _ _ H). reflexivity. Qed.

Lemma flat_exprs_cons r e es :
  flat_exprs r (e :: es) = flat_app (flatten r al_empty e) (flat_exprs r es).
Proof. reflexivity. Qed.

Lemma flat_exprs_app r es1 es2 :
  let a := flat_exprs r es1 in let b := flat_exprs r es2 in let c := flat_exprs r (es1 ++ es2) in
  f_bot c = f_bot a || f_bot b /\ f_struct c = f_struct a || f_struct b /\
  f_scal c = f_scal a ++ f_scal b /\ f_own c = f_own a ++ f_own b /\ f_ownp c = f_ownp a ++ f_ownp b /\
  f_subs c = f_subs a ++ f_subs b /\ f_closers c = f_closers a ++ f_closers b.
Proof.
  induction es1 as [|e es1 IH]; simpl.
  - repeat split; reflexivity.
  - destruct IH as (H1 & H2 & H3 & H4 & H5 & H6 & H7). simpl in *.
    rewrite H1, H2, H3, H4, H5, H6, H7, !orb_assoc, !app_assoc. repeat split; reflexivity.
Qed.

Section Components.
  Variable r : bool.

  Lemma fe_bot es : f_bot (flat_exprs r es) = existsb (fun e => f_bot (flatten r al_empty e)) es.
  Proof. induction es as [|e es IH]; simpl; auto. rewrite IH. reflexivity. Qed.

  Lemma fe_struct es : f_struct (flat_exprs r es) = existsb (fun e => f_struct (flatten r al_empty e)) es.
  Proof. induction es as [|e es IH]; simpl; auto. rewrite IH. reflexivity. Qed.

  Lemma fe_scal es : f_scal (flat_exprs r es) = flat_map (fun e => f_scal (flatten r al_empty e)) es.
  Proof. induction es as [|e es IH]; simpl; auto. rewrite IH. reflexivity. Qed.

  Lemma fe_own es : f_own (flat_exprs r es) = flat_map (fun e => f_own (flatten r al_empty e)) es.
  Proof. induction es as [|e es IH]; simpl; auto. rewrite IH. reflexivity. Qed.

  Lemma fe_ownp es : f_ownp (flat_exprs r es) = flat_map (fun e => f_ownp (flatten r al_empty e)) es.
  Proof. induction es as [|e es IH]; simpl; auto. rewrite IH. reflexivity. Qed.

  Lemma fe_subs es : f_subs (flat_exprs r es) = flat_map (fun e => f_subs (flatten r al_empty e)) es.
  Proof. induction es as [|e es IH]; simpl; auto. rewrite IH. reflexivity. Qed.

  Lemma fe_closers es : f_closers (flat_exprs r es) = flat_map (fun e => f_closers (flatten r al_empty e)) es.
  Proof. induction es as [|e es IH]; simpl; auto. rewrite IH. reflexivity. Qed.
End Components.

Lemma fa_bot cs : n_bot (flat_all cs) = existsb (fun c => n_bot (flat_conj c)) cs.
Proof. induction cs as [|c cs IH]; simpl; auto. rewrite IH. reflexivity. Qed.

Lemma fa_struct cs : n_struct (flat_all cs) = existsb (fun c => n_struct (flat_conj c)) cs.
Proof. induction cs as [|c cs IH]; simpl; auto. rewrite IH. reflexivity. Qed.

Lemma fa_scal cs : n_scal (flat_all cs) = flat_map (fun c => n_scal (flat_conj c)) cs.
Proof. induction cs as [|c cs IH]; simpl; auto. rewrite IH. reflexivity. Qed.

Lemma fa_parts cs : n_parts (flat_all cs) = flat_map (fun c => n_parts (flat_conj c)) cs.
Proof. induction cs as [|c cs IH]; simpl; auto. rewrite IH. reflexivity. Qed.

Lemma fa_closers cs : n_closers (flat_all cs) = flat_map (fun c => n_closers (flat_conj c)) cs.
Proof. induction cs as [|c cs IH]; simpl; auto. rewrite IH. reflexivity. Qed.

(* [neq], the central relation of this file: two flattened nodes that the evaluator cannot tell apart
   (the "n" is for node, as in [nflat]; [nle] below is the corresponding inclusion).  Its shape follows
   [children]: what the OPEN parts of a node give to a label is handed down as one group, so open parts
   are compared only through the union of their fields and patterns ([ofields], [opats]) - how the
   declarations were grouped is immaterial.  Every recursively closed part is handed down as a group of
   its own and closed as a unit, so closed parts are matched one by one ([pseq]: each has a partner with
   the same fields and patterns as sets, [peq]).  Scalars and closers count as sets; of the closers only
   which labels they allow. *)
Definition peq (p p' : gpart) : Prop :=
  gp_rec p = gp_rec p' /\ seq (gp_fields p) (gp_fields p') /\ seq (gp_pats p) (gp_pats p').

Definition pseq (ps ps' : list gpart) : Prop :=
  (forall p, In p ps -> exists p', In p' ps' /\ peq p p') /\
  (forall p', In p' ps' -> exists p, In p ps /\ peq p p').

Definition open_parts (fl : nflat) : list gpart := filter (fun p => negb (gp_rec p)) (n_parts fl).
Definition rec_parts (fl : nflat) : list gpart := filter gp_rec (n_parts fl).
Definition ofields (fl : nflat) := flat_map gp_fields (open_parts fl).
Definition opats (fl : nflat) := flat_map gp_pats (open_parts fl).

Record neq (fl fl' : nflat) : Prop := {
  q_bot : n_bot fl = n_bot fl';
  q_struct : n_struct fl = n_struct fl';
  q_scal : seq (n_scal fl) (n_scal fl');
  q_closers : closers_eq (n_closers fl) (n_closers fl');
  q_of : seq (ofields fl) (ofields fl');
  q_op : seq (opats fl) (opats fl');
  q_rec : pseq (rec_parts fl) (rec_parts fl') }.

Lemma peq_refl p : peq p p.
Proof. repeat split; auto. Qed.

Lemma pseq_refl ps : pseq ps ps.
Proof. split; intros p Hp; exists p; split; auto; apply peq_refl. Qed.

Lemma peq_sym p p' : peq p p' -> peq p' p.
Proof. intros (A & B & C). split; [auto|split; [apply seq_sym, B | apply seq_sym, C]]. Qed.

Lemma pseq_app a a' b b' : pseq a a' -> pseq b b' -> pseq (a ++ b) (a' ++ b').
Proof.
  intros [A1 A2] [B1 B2]. split; intros p Hp; apply in_app_or in Hp as [Hp|Hp].
  - destruct (A1 p Hp) as (q & Hq & E). exists q. split; auto. apply in_or_app; auto.
  - destruct (B1 p Hp) as (q & Hq & E). exists q. split; auto. apply in_or_app; auto.
  - destruct (A2 p Hp) as (q & Hq & E). exists q. split; auto. apply in_or_app; auto.
  - destruct (B2 p Hp) as (q & Hq & E). exists q. split; auto. apply in_or_app; auto.
Qed.

Lemma pseq_single p p' : peq p p' -> pseq [p] [p'].
Proof.
  intros E. split; intros q [<-|[]]; eexists; (split; [left; reflexivity | exact E]).
Qed.

Lemma pseq_map_seq {A} (f : A -> gpart) l l' : seq l l' -> pseq (map f l) (map f l').
Proof.
  intros H. split; intros p Hp; apply in_map_iff in Hp as (x & <- & Hx); exists (f x);
    (split; [apply in_map, H, Hx | apply peq_refl]).
Qed.

Lemma neq_refl fl : neq fl fl.
Proof. constructor; auto using seq_refl, pseq_refl. intros l; reflexivity. Qed.

Lemma neq_sym fl fl' : neq fl fl' -> neq fl' fl.
Proof.
  intros [A B C D E F [G1 G2]]. constructor.
  - auto. - auto. - apply seq_sym, C.
  - intros l. symmetry. apply D.
  - apply seq_sym, E. - apply seq_sym, F.
  - split.
    + intros p Hp. destruct (G2 p Hp) as (p0 & H0 & E0). exists p0. split; auto using peq_sym.
    + intros p Hp. destruct (G1 p Hp) as (p0 & H0 & E0). exists p0. split; auto using peq_sym.
Qed.

Lemma peq_trans p q r : peq p q -> peq q r -> peq p r.
Proof. intros (A & B & C) (A' & B' & C'). split; [congruence | split; eapply seq_trans; eassumption]. Qed.

Lemma open_parts_app a b : open_parts (nflat_app a b) = open_parts a ++ open_parts b.
Proof. unfold open_parts; simpl. apply filter_app. Qed.

Lemma rec_parts_app a b : rec_parts (nflat_app a b) = rec_parts a ++ rec_parts b.
Proof. unfold rec_parts; simpl. apply filter_app. Qed.

(* what [neq] compares, one aspect at a time.  A node shows an aspect or not; [nle fl fl'], the order behind
   [neq], says that fl' shows whatever fl shows ([neq] is [nle] in both directions: [neq_nle], [nle_antisym]).
   [nflat_app] is the join of this order and [flat_all] a join over the groups ([shows_app], [shows_flat_all]).
   Fields and patterns are shown by membership, a recursively closed part up to [peq]. *)
Inductive aspect :=
| ABot | AStruct | AScal (c : sconstr) | ADeny (l : label)
| AField (f : label * fkind * expr) | APat (q : list N * expr) | ARec (p : gpart).

Definition shows (fl : nflat) (a : aspect) : Prop :=
  match a with
  | ABot => n_bot fl = true
  | AStruct => n_struct fl = true
  | AScal c => In c (n_scal fl)
  | ADeny l => allowed (n_closers fl) l = false
  | AField f => In f (ofields fl)
  | APat q => In q (opats fl)
  | ARec p => exists p', In p' (rec_parts fl) /\ peq p p'
  end.

Definition nle (fl fl' : nflat) : Prop := forall a, shows fl a -> shows fl' a.

Lemma nle_allowed fl fl' l : nle fl fl' -> allowed (n_closers fl') l = true -> allowed (n_closers fl) l = true.
Proof.
  intros Q E. destruct (allowed (n_closers fl) l) eqn:D; [reflexivity|]. rewrite (Q (ADeny l) D) in E. discriminate.
Qed.

Lemma nle_rec fl fl' p : nle fl fl' -> In p (rec_parts fl) -> exists p', In p' (rec_parts fl') /\ peq p p'.
Proof. intros Q Hp. apply (Q (ARec p)). exists p. split; [exact Hp | apply peq_refl]. Qed.

Lemma neq_nle fl fl' : neq fl fl' -> nle fl fl'.
Proof.
  intros Q [| |c|l|f|q|p]; cbn [shows].
  - rewrite (q_bot _ _ Q). auto.
  - rewrite (q_struct _ _ Q). auto.
  - apply (q_scal _ _ Q).
  - rewrite (q_closers _ _ Q l). auto.
  - apply (q_of _ _ Q).
  - apply (q_op _ _ Q).
  - intros (p0 & Hp0 & E). destruct (proj1 (q_rec _ _ Q) p0 Hp0) as (p' & Hp' & E').
    exists p'. split; [exact Hp' | eapply peq_trans; eassumption].
Qed.

Lemma nle_antisym fl fl' : nle fl fl' -> nle fl' fl -> neq fl fl'.
Proof.
  intros A B. constructor.
  - apply bool_eq_iff. split; [apply (A ABot) | apply (B ABot)].
  - apply bool_eq_iff. split; [apply (A AStruct) | apply (B AStruct)].
  - intros c. split; [apply (A (AScal c)) | apply (B (AScal c))].
  - intros l. apply bool_eq_iff. split; apply nle_allowed; assumption.
  - intros f. split; [apply (A (AField f)) | apply (B (AField f))].
  - intros q. split; [apply (A (APat q)) | apply (B (APat q))].
  - split; [intros p; apply nle_rec, A|]. intros p' Hp'. destruct (nle_rec _ _ p' B Hp') as (p & Hp & E).
    exists p. split; [exact Hp | apply peq_sym, E].
Qed.

Lemma shows_app x y a : shows (nflat_app x y) a <-> shows x a \/ shows y a.
Proof.
  destruct a as [| |c|l|f|q|p]; cbn [shows nflat_app n_bot n_struct n_scal n_closers].
  - apply orb_true_iff.
  - apply orb_true_iff.
  - apply in_app_iff.
  - rewrite allowed_app. unfold allowed.
    destruct (is_special l), (forallb _ (n_closers x)), (forallb _ (n_closers y)); cbn; intuition congruence.
  - unfold ofields. rewrite open_parts_app, flat_map_app. apply in_app_iff.
  - unfold opats. rewrite open_parts_app, flat_map_app. apply in_app_iff.
  - rewrite rec_parts_app. split.
    + intros (p' & Hp' & E). apply in_app_or in Hp' as [H|H]; [left|right]; exists p'; auto.
    + intros [(p' & H & E)|(p' & H & E)]; exists p'; (split; [apply in_or_app; auto | exact E]).
Qed.

Lemma nle_app x x' y y' : nle x x' -> nle y y' -> nle (nflat_app x y) (nflat_app x' y').
Proof. intros A B a. rewrite !shows_app. intros [H|H]; [left; apply A, H | right; apply B, H]. Qed.

Lemma shows_flat_all cs a : shows (flat_all cs) a <-> exists c, In c cs /\ shows (flat_conj c) a.
Proof.
  induction cs as [|c cs IH].
  - split; [|intros (c & [] & _)]. intros H. exfalso. revert H. destruct a as [| |c|l|f|q|p]; cbn; try discriminate; auto.
    + unfold allowed. cbn. rewrite orb_true_r. discriminate.
    + intros (p' & [] & _).
  - change (flat_all (c :: cs)) with (nflat_app (flat_conj c) (flat_all cs)). rewrite shows_app, IH. split.
    + intros [H|(c' & Hc' & H)]; [exists c | exists c']; cbn [In]; auto.
    + intros (c' & [<-|Hc'] & H); [left; exact H | right; exists c'; auto].
Qed.

(* what reads a node monotonically along [nle] reads it alike on [neq] nodes *)
Lemma neq_seq_of_nle {B} (obs : nflat -> list B) :
  (forall fl fl', nle fl fl' -> incl (obs fl) (obs fl')) -> forall fl fl', neq fl fl' -> seq (obs fl) (obs fl').
Proof. intros H fl fl' Q x. split; apply H, neq_nle; [exact Q | apply neq_sym, Q]. Qed.

Definition ceq (c c' : conj) : Prop := c_rec c = c_rec c' /\ seq (c_exprs c) (c_exprs c').

Definition ceqs (cs cs' : list conj) : Prop :=
  (forall c, In c cs -> exists c', In c' cs' /\ ceq c c') /\
  (forall c', In c' cs' -> exists c, In c cs /\ ceq c c').

Lemma ceq_refl c : ceq c c.
Proof. split; auto using seq_refl. Qed.

Lemma ceq_sym c c' : ceq c c' -> ceq c' c.
Proof. intros [A B]. split; [auto | apply seq_sym, B]. Qed.

Lemma part_values_in p l v :
  In v (part_values p l) <->
  (exists f, In f (gp_fields p) /\ label_eqb (fst (fst f)) l = true /\ snd f = v) \/
  (exists q, In q (gp_pats p) /\ pat_matches (fst q) l = true /\ snd q = v).
Proof.
  unfold part_values. rewrite in_app_iff, !in_flat_map. split.
  - intros [(f & Hf & Hv)|(q & Hq & Hv)].
    + left. exists f. destruct (label_eqb (fst (fst f)) l); simpl in Hv; [|tauto].
      destruct Hv as [<-|[]]. auto.
    + right. exists q. destruct (pat_matches (fst q) l); simpl in Hv; [|tauto].
      destruct Hv as [<-|[]]. auto.
  - intros [(f & Hf & Hl & <-)|(q & Hq & Hl & <-)].
    + left. exists f. rewrite Hl. simpl; auto.
    + right. exists q. rewrite Hl. simpl; auto.
Qed.

Lemma part_values_peq p p' l : peq p p' -> seq (part_values p l) (part_values p' l).
Proof.
  intros (_ & Hf & Hp) v. rewrite !part_values_in. split.
  - intros [(f & H1 & H2)|(q & H1 & H2)]; [left; exists f | right; exists q]; split; auto; [apply Hf | apply Hp]; auto.
  - intros [(f & H1 & H2)|(q & H1 & H2)]; [left; exists f | right; exists q]; split; auto; [apply Hf | apply Hp]; auto.
Qed.

Lemma open_values_parts fl l :
  open_values fl l = flat_map (fun p => part_values p l) (open_parts fl).
Proof.
  unfold open_values, open_parts. induction (n_parts fl) as [|p ps IH]; simpl; auto.
  destruct (gp_rec p); simpl; rewrite IH; reflexivity.
Qed.

Lemma open_values_in fl l v :
  In v (open_values fl l) <->
  (exists f, In f (ofields fl) /\ label_eqb (fst (fst f)) l = true /\ snd f = v) \/
  (exists q, In q (opats fl) /\ pat_matches (fst q) l = true /\ snd q = v).
Proof.
  rewrite open_values_parts, in_flat_map. unfold ofields, opats. split.
  - intros (p & Hp & Hv). apply part_values_in in Hv as [(f & H1 & H2)|(q & H1 & H2)].
    + left. exists f. split; auto. apply in_flat_map. eauto.
    + right. exists q. split; auto. apply in_flat_map. eauto.
  - intros [(f & H1 & H2)|(q & H1 & H2)]; apply in_flat_map in H1 as (p & Hp & Hin); exists p; split; auto;
      apply part_values_in; [left; exists f | right; exists q]; auto.
Qed.

Lemma open_values_nle fl fl' l : nle fl fl' -> incl (open_values fl l) (open_values fl' l).
Proof.
  intros Q v. rewrite !open_values_in.
  intros [(f & H1 & H2)|(q & H1 & H2)]; [left; exists f | right; exists q]; split; auto;
    [apply (Q (AField f)) | apply (Q (APat q))]; auto.
Qed.

Lemma open_values_neq fl fl' l : neq fl fl' -> seq (open_values fl l) (open_values fl' l).
Proof. apply (neq_seq_of_nle (fun fl => open_values fl l)). intros a b. apply open_values_nle. Qed.

Lemma rec_children_in fl l c :
  In c (rec_children fl l) <->
  exists p, In p (rec_parts fl) /\ null (part_values p l) = false /\ c = mkConj true (part_values p l).
Proof.
  unfold rec_children, rec_parts. rewrite in_flat_map. split.
  - intros (p & Hp & Hc). destruct (gp_rec p) eqn:Er; [|destruct Hc].
    destruct (null (part_values p l)) eqn:En; [destruct Hc|]. destruct Hc as [<-|[]].
    exists p. split; [apply filter_In; auto | auto].
  - intros (p & Hp & Hn & ->). apply filter_In in Hp as [Hp Hr]. exists p. split; auto.
    rewrite Hr, Hn. simpl; auto.
Qed.

Lemma rec_children_le fl fl' l :
  (forall p, In p (rec_parts fl) -> exists p', In p' (rec_parts fl') /\ peq p p') ->
  forall c, In c (rec_children fl l) -> exists c', In c' (rec_children fl' l) /\ ceq c c'.
Proof.
  intros H c Hc. apply rec_children_in in Hc as (p & Hp & Hn & ->).
  destruct (H p Hp) as (p' & Hp' & E). pose proof (part_values_peq p p' l E) as S.
  exists (mkConj true (part_values p' l)). split; [|split; auto].
  apply rec_children_in. exists p'. split; auto. split; auto. rewrite <- (null_seq _ _ S). exact Hn.
Qed.

Lemma rec_children_neq fl fl' l : neq fl fl' -> ceqs (rec_children fl l) (rec_children fl' l).
Proof.
  intros Q. split; [apply rec_children_le, (q_rec _ _ Q)|]. intros c' Hc'.
  destruct (rec_children_le fl' fl l (proj1 (q_rec _ _ (neq_sym _ _ Q))) c' Hc') as (c & Hc & E).
  exists c. split; [exact Hc | apply ceq_sym, E].
Qed.

Definition all_fields (fl : nflat) := flat_map gp_fields (n_parts fl).

Lemma has_field_all fl l k :
  has_field fl l k =
  existsb (fun f => label_eqb (fst (fst f)) l && fk_is (snd (fst f)) k) (all_fields fl).
Proof. unfold has_field, all_fields. rewrite existsb_flat_map. reflexivity. Qed.

Lemma all_fields_in fl f :
  In f (all_fields fl) <-> In f (ofields fl) \/ exists p, In p (rec_parts fl) /\ In f (gp_fields p).
Proof.
  unfold all_fields, ofields, open_parts, rec_parts. rewrite !in_flat_map. split.
  - intros (p & Hp & Hf). destruct (gp_rec p) eqn:E.
    + right. exists p. split; auto. apply filter_In; auto.
    + left. exists p. split; auto. apply filter_In. rewrite E; auto.
  - intros [(p & Hp & Hf)|(p & Hp & Hf)]; apply filter_In in Hp as [Hp _]; eauto.
Qed.

Lemma all_fields_nle fl fl' : nle fl fl' -> incl (all_fields fl) (all_fields fl').
Proof.
  intros Q f Hf. apply all_fields_in in Hf as [Hf|(p & Hp & Hf)]; apply all_fields_in.
  - left. apply (Q (AField f)). exact Hf.
  - right. destruct (nle_rec _ _ p Q Hp) as (p' & Hp' & (_ & E & _)). exists p'. split; [exact Hp'|]. apply E. exact Hf.
Qed.

Lemma has_field_nle fl fl' l k : nle fl fl' -> has_field fl l k = true -> has_field fl' l k = true.
Proof. intros Q. rewrite !has_field_all. apply existsb_incl, all_fields_nle, Q. Qed.

Lemma all_fields_neq fl fl' : neq fl fl' -> seq (all_fields fl) (all_fields fl').
Proof. apply (neq_seq_of_nle all_fields), all_fields_nle. Qed.

Lemma presence_neq fl fl' l : neq fl fl' -> presence fl l = presence fl' l.
Proof.
  intros Q. unfold presence. rewrite !has_field_all.
  rewrite !(existsb_seq _ _ _ (all_fields_neq _ _ Q)). reflexivity.
Qed.

Lemma filter_map_const_true {A} (f : A -> gpart) l :
  (forall x, gp_rec (f x) = true) -> filter gp_rec (map f l) = map f l /\
  filter (fun p => negb (gp_rec p)) (map f l) = [].
Proof.
  intros H. induction l as [|a l [IH1 IH2]]; simpl; auto. rewrite (H a). simpl. rewrite IH1, IH2. auto.
Qed.

Lemma flat_conj_parts c :
  let fl := flat_exprs (c_rec c) (c_exprs c) in
  let subs := map (fun s => mkPart true (fst s) (snd s)) (f_subs fl) in
  open_parts (flat_conj c) = (if c_rec c then [] else [mkPart false (f_own fl) (f_ownp fl)]) /\
  rec_parts (flat_conj c) = (if c_rec c then [mkPart true (f_own fl) (f_ownp fl)] else []) ++ subs.
Proof.
  unfold open_parts, rec_parts, flat_conj; simpl.
  destruct (filter_map_const_true (fun s => mkPart true (fst s) (snd s))
              (f_subs (flat_exprs (c_rec c) (c_exprs c)))) as [E1 E2]; [reflexivity|].
  rewrite E1, E2. destruct (c_rec c); simpl; auto.
Qed.

Lemma flat_conj_neq_of r es es' :
  f_bot (flat_exprs r es) = f_bot (flat_exprs r es') ->
  f_struct (flat_exprs r es) = f_struct (flat_exprs r es') ->
  seq (f_scal (flat_exprs r es)) (f_scal (flat_exprs r es')) ->
  seq (f_own (flat_exprs r es)) (f_own (flat_exprs r es')) ->
  seq (f_ownp (flat_exprs r es)) (f_ownp (flat_exprs r es')) ->
  seq (f_subs (flat_exprs r es)) (f_subs (flat_exprs r es')) ->
  closers_eq (f_closers (flat_exprs r es)) (f_closers (flat_exprs r es')) ->
  existsb own_lit es = existsb own_lit es' ->
  (forall l, allows (all_declared es) l = allows (all_declared es') l) ->
  neq (flat_conj (mkConj r es)) (flat_conj (mkConj r es')).
Proof.
  intros Hb Hs Hsc Sown Sownp Ssubs Hcl Hlit Hdecl.
  destruct (flat_conj_parts (mkConj r es)) as [O1 R1]. destruct (flat_conj_parts (mkConj r es')) as [O2 R2].
  simpl in O1, R1, O2, R2.
  constructor.
  - exact Hb.
  - exact Hs.
  - exact Hsc.
  - unfold flat_conj; simpl. apply closers_eq_app; [|exact Hcl].
    rewrite Hlit. destruct (r && existsb own_lit es'); [|intros l; reflexivity].
    intros l. unfold allowed; simpl. rewrite Hdecl. reflexivity.
  - unfold ofields. rewrite O1, O2. destruct r; simpl; [apply seq_refl|]. rewrite !app_nil_r. exact Sown.
  - unfold opats. rewrite O1, O2. destruct r; simpl; [apply seq_refl|]. rewrite !app_nil_r. exact Sownp.
  - rewrite R1, R2. apply pseq_app; [|apply pseq_map_seq, Ssubs].
    destruct r; [|apply pseq_refl]. apply pseq_single. split; [reflexivity|]. split; assumption.
Qed.

Lemma flat_conj_ceq c c' : ceq c c' -> neq (flat_conj c) (flat_conj c').
Proof.
  destruct c as [r es], c' as [r' es']. intros [Er Es]. simpl in Er, Es. subst r'.
  apply flat_conj_neq_of.
  - rewrite !fe_bot. apply existsb_seq, Es.
  - rewrite !fe_struct. apply existsb_seq, Es.
  - rewrite !fe_scal. apply seq_flat_map, Es.
  - rewrite !fe_own. apply seq_flat_map, Es.
  - rewrite !fe_ownp. apply seq_flat_map, Es.
  - rewrite !fe_subs. apply seq_flat_map, Es.
  - apply closers_eq_seq. rewrite !fe_closers. apply seq_flat_map, Es.
  - apply existsb_seq, Es.
  - intros l. rewrite !allows_all_declared. apply existsb_seq, Es.
Qed.

Lemma open_parts_all cs : open_parts (flat_all cs) = flat_map (fun c => open_parts (flat_conj c)) cs.
Proof.
  unfold open_parts. rewrite fa_parts. induction cs as [|c cs IH]; cbn [flat_map filter]; auto.
  rewrite filter_app, IH. reflexivity.
Qed.

Lemma rec_parts_all cs : rec_parts (flat_all cs) = flat_map (fun c => rec_parts (flat_conj c)) cs.
Proof.
  unfold rec_parts. rewrite fa_parts. induction cs as [|c cs IH]; cbn [flat_map filter]; auto.
  rewrite filter_app, IH. reflexivity.
Qed.

Lemma flat_map_flat_map {A B C} (f : A -> list B) (g : B -> list C) l :
  flat_map g (flat_map f l) = flat_map (fun x => flat_map g (f x)) l.
Proof. induction l as [|a l IH]; simpl; auto. rewrite flat_map_app, IH. reflexivity. Qed.

(* an open group is the join of its parts *)
Lemma flat_conj_open_app es1 es2 :
  neq (flat_conj (mkConj false (es1 ++ es2))) (nflat_app (flat_conj (mkConj false es1)) (flat_conj (mkConj false es2))).
Proof.
  destruct (flat_exprs_app false es1 es2) as (H1 & H2 & H3 & H4 & H5 & H6 & H7).
  destruct (flat_conj_parts (mkConj false (es1 ++ es2))) as [O R].
  destruct (flat_conj_parts (mkConj false es1)) as [O1 R1].
  destruct (flat_conj_parts (mkConj false es2)) as [O2 R2]. simpl in *.
  constructor.
  - simpl. exact H1.
  - simpl. exact H2.
  - simpl. rewrite H3. apply seq_refl.
  - simpl. rewrite H7. intros l; reflexivity.
  - unfold ofields. rewrite open_parts_app, O, O1, O2. simpl. rewrite !app_nil_r, H4. apply seq_refl.
  - unfold opats. rewrite open_parts_app, O, O1, O2. simpl. rewrite !app_nil_r, H5. apply seq_refl.
  - rewrite rec_parts_app, R, R1, R2. simpl. rewrite H6, map_app. apply pseq_refl.
Qed.

(* group lists: every group of cs is found in cs', recursively closed groups unchanged,
   open groups possibly with more members *)
Definition cle_group (c c' : conj) : Prop :=
  c_rec c = c_rec c' /\
  if c_rec c then seq (c_exprs c) (c_exprs c') else incl (c_exprs c) (c_exprs c').

Definition cle (cs cs' : list conj) : Prop :=
  forall c, In c cs -> exists c', In c' cs' /\ cle_group c c'.

Lemma cle_group_refl c : cle_group c c.
Proof. split; [reflexivity|]. destruct (c_rec c); [apply seq_refl | apply incl_refl]. Qed.

Lemma cle_app cs extra : cle cs (cs ++ extra).
Proof. intros c Hc. exists c. split; [apply in_or_app; auto | apply cle_group_refl]. Qed.

Lemma flat_conj_cle_group c c' : cle_group c c' -> nle (flat_conj c) (flat_conj c').
Proof.
  destruct c as [r es], c' as [r' es']. intros [Er H]. cbn [c_rec c_exprs] in Er, H. subst r'.
  destruct r.
  - apply neq_nle, flat_conj_ceq. split; auto.
  - (* es' has the members of es ++ es', whose node is the join of those of es and of es' *)
    assert (S : ceq (mkConj false (es ++ es')) (mkConj false es')).
    { split; [reflexivity|]. intros x. cbn [c_exprs]. rewrite in_app_iff. split; [intros [X|X]|]; auto. }
    intros a Ha. apply (neq_nle _ _ (flat_conj_ceq _ _ S)), (neq_nle _ _ (neq_sym _ _ (flat_conj_open_app es es'))).
    apply shows_app. left. exact Ha.
Qed.

Lemma flat_all_cle cs cs' : cle cs cs' -> nle (flat_all cs) (flat_all cs').
Proof.
  intros H a. rewrite !shows_flat_all. intros (c & Hc & Ha). destruct (H c Hc) as (c' & Hc' & Q).
  exists c'. split; [exact Hc' | apply (flat_conj_cle_group _ _ Q), Ha].
Qed.

Lemma ceq_cle_group c c' : ceq c c' -> cle_group c c'.
Proof. intros [Er Es]. split; [exact Er|]. destruct (c_rec c); [exact Es | intros x; apply Es]. Qed.

Lemma ceqs_cle cs cs' : ceqs cs cs' -> cle cs cs' /\ cle cs' cs.
Proof.
  intros [H1 H2]. split; intros c Hc.
  - destruct (H1 c Hc) as (c' & Hc' & E). exists c'. split; [exact Hc' | apply ceq_cle_group, E].
  - destruct (H2 c Hc) as (c' & Hc' & E). exists c'. split; [exact Hc' | apply ceq_cle_group, ceq_sym, E].
Qed.

Lemma flat_all_ceqs cs cs' : ceqs cs cs' -> neq (flat_all cs) (flat_all cs').
Proof. intros H. destruct (ceqs_cle _ _ H) as [A B]. apply nle_antisym; apply flat_all_cle; assumption. Qed.

Lemma children_cle fl fl' l : nle fl fl' -> cle (children fl l) (children fl' l).
Proof.
  intros Q c Hc. unfold children in Hc. apply in_app_or in Hc as [Hc|Hc].
  - destruct (open_values fl l) as [|v vs] eqn:E; [destruct Hc|]. destruct Hc as [<-|[]].
    exists (mkConj false (open_values fl' l)). split.
    + unfold children. apply in_or_app. left.
      pose proof (open_values_nle fl fl' l Q v) as X. rewrite E in X. specialize (X (or_introl eq_refl)).
      destruct (open_values fl' l); [destruct X | left; reflexivity].
    + split; [reflexivity|]. cbn [c_rec c_exprs]. rewrite <- E. apply open_values_nle, Q.
  - destruct (rec_children_le fl fl' l (fun p => nle_rec fl fl' p Q) c Hc) as (c' & Hc' & E).
    exists c'. split; [apply in_or_app; right; exact Hc' | apply ceq_cle_group, E].
Qed.

Lemma scalar_bottom_incl scs scs' : incl scs scs' -> scalar_bottom scs = true -> scalar_bottom scs' = true.
Proof.
  unfold scalar_bottom. intros H E. apply orb_true_iff in E as [E|E]; apply orb_true_iff; [left|right].
  - apply negb_true_iff in E. apply negb_true_iff. apply not_true_is_false. intros X.
    apply existsb_exists in X as (k & Hk & X). apply (forallb_incl _ _ _ H) in X.
    assert (Y : existsb (fun k => forallb (sc_kind_ok k) scs) all_kinds = true) by (apply existsb_exists; eauto).
    congruence.
  - apply existsb_exists in E as (c & Hc & E). apply existsb_exists. exists c. split; [auto|].
    destruct c as [a| | | | | |]; try discriminate. apply negb_true_iff in E. apply negb_true_iff.
    apply not_true_is_false. intros X. apply (forallb_incl _ _ _ H) in X. congruence.
Qed.

Lemma scalar_bottom_seq scs scs' : seq scs scs' -> scalar_bottom scs = scalar_bottom scs'.
Proof.
  intros H. apply bool_eq_iff. split; apply scalar_bottom_incl; intros c Hc; apply H, Hc.
Qed.

Section Master.
  Variable labs : list label.
  Variable atoms : list atom.

  Lemma children_neq fl fl' l :
    neq fl fl' -> ceqs (children fl l) (children fl' l).
  Proof.
    intros Q. unfold children.
    pose proof (open_values_neq fl fl' l Q) as So. pose proof (rec_children_neq fl fl' l Q) as [R1 R2].
    rewrite <- (null_seq _ _ So).
    split.
    - intros c Hc. apply in_app_or in Hc as [Hc|Hc].
      + destruct (null (open_values fl l)); [destruct Hc|]. destruct Hc as [<-|[]].
        exists (mkConj false (open_values fl' l)). split; [apply in_or_app; left; left; reflexivity|].
        split; auto.
      + destruct (R1 c Hc) as (c' & Hc' & E). exists c'. split; auto. apply in_or_app; auto.
    - intros c' Hc'. apply in_app_or in Hc' as [Hc'|Hc'].
      + destruct (null (open_values fl l)); [destruct Hc'|]. destruct Hc' as [<-|[]].
        exists (mkConj false (open_values fl l)). split; [apply in_or_app; left; left; reflexivity|].
        split; auto.
      + destruct (R2 c' Hc') as (c & Hc & E). exists c. split; auto. apply in_or_app; auto.
  Qed.

  Theorem evalFlat_neq fuel : forall fl fl', neq fl fl' -> evalFlat labs atoms fuel fl = evalFlat labs atoms fuel fl'.
  Proof.
    induction fuel as [|f IH]; intros fl fl' Q; [reflexivity|]. cbn [evalFlat].
    rewrite <- (q_bot _ _ Q), <- (q_struct _ _ Q), <- (null_seq _ _ (q_scal _ _ Q)).
    destruct (n_bot fl); [reflexivity|].
    destruct (n_struct fl && negb (null (n_scal fl))); [reflexivity|].
    assert (CH : forall l, evalFlat labs atoms f (flat_all (children fl l)) =
                           evalFlat labs atoms f (flat_all (children fl' l))).
    { intros l. apply IH. apply flat_all_ceqs. apply children_neq. exact Q. }
    destruct (n_struct fl).
    - f_equal.
      + apply map_ext. intros l. rewrite <- (presence_neq _ _ l Q), <- (q_closers _ _ Q l), <- (CH l). reflexivity.
      + apply map_ext. intros l. rewrite <- (q_closers _ _ Q l), <- (CH l). reflexivity.
    - rewrite <- (scalar_bottom_seq _ _ (q_scal _ _ Q)). destruct (scalar_bottom (n_scal fl)); [reflexivity|].
      f_equal; apply map_ext; intros x; [apply forallb_seq | apply forallb_seq | apply existsb_seq]; apply (q_scal _ _ Q).
  Qed.

  Theorem evalNode_ceqs fuel cs cs' : ceqs cs cs' -> evalNode labs atoms fuel cs = evalNode labs atoms fuel cs'.
  Proof. intros H. unfold evalNode. apply evalFlat_neq, flat_all_ceqs, H. Qed.

  Lemma ceqs_of_seq cs cs' : seq cs cs' -> ceqs cs cs'.
  Proof.
    intros H. split; intros c Hc; exists c; split; auto using ceq_refl; apply H; exact Hc.
  Qed.

  (* C01: permutation of the conjuncts (declarations of a field, files of a package) *)
  Theorem eval_perm fuel cs cs' :
    Permutation cs cs' -> evalNode labs atoms fuel cs = evalNode labs atoms fuel cs'.
  Proof. intros H. apply evalNode_ceqs, ceqs_of_seq, perm_seq, H. Qed.

  (* C01: unifying with a repeated conjunct (v & v) *)
  Theorem eval_dup fuel c cs :
    evalNode labs atoms fuel (c :: c :: cs) = evalNode labs atoms fuel (c :: cs).
  Proof.
    apply evalNode_ceqs, ceqs_of_seq. intros x; simpl; tauto.
  Qed.

  (* C01: order and repetition of the operands of & inside one declaration *)
  Theorem eval_group_perm fuel r es es' cs :
    seq es es' ->
    evalNode labs atoms fuel (mkConj r es :: cs) = evalNode labs atoms fuel (mkConj r es' :: cs).
  Proof.
    intros H. apply evalNode_ceqs. split; intros c [<-|Hc].
    - exists (mkConj r es'). split; [left; reflexivity | split; auto].
    - exists c. split; [right; exact Hc | apply ceq_refl].
    - exists (mkConj r es). split; [left; reflexivity | split; auto using seq_sym].
    - exists c. split; [right; exact Hc | apply ceq_refl].
  Qed.
End Master.

Lemma nflat_app_neq a a' b b' : neq a a' -> neq b b' -> neq (nflat_app a b) (nflat_app a' b').
Proof. intros A B. apply nle_antisym; apply nle_app; apply neq_nle; auto using neq_sym. Qed.

Lemma flat_all_cons c cs : flat_all (c :: cs) = nflat_app (flat_conj c) (flat_all cs).
Proof. reflexivity. Qed.

Section Laws.
  Variable labs : list label.
  Variable atoms : list atom.

  Lemma eval_head_neq fuel c c' cs :
    neq (flat_conj c) (flat_conj c') ->
    evalNode labs atoms fuel (c :: cs) = evalNode labs atoms fuel (c' :: cs).
  Proof.
    intros H. unfold evalNode. rewrite !flat_all_cons. apply evalFlat_neq.
    apply nflat_app_neq; [exact H | apply neq_refl].
  Qed.

  Lemma flat_app_assoc a b c : flat_app (flat_app a b) c = flat_app a (flat_app b c).
  Proof. unfold flat_app; simpl. rewrite !orb_assoc, !app_assoc. reflexivity. Qed.

  Lemma flat_app_empty_l a : flat_app flat_empty a = a.
  Proof. destruct a; reflexivity. Qed.

  Lemma al_union_assoc a b c : al_union (al_union a b) c = al_union a (al_union b c).
  Proof. unfold al_union; simpl. rewrite !orb_assoc, !app_assoc. reflexivity. Qed.

  Lemma al_union_empty_l a : al_union al_empty a = a.
  Proof. destruct a; reflexivity. Qed.

  (* C01: (a & b) & rest  =  a & b & rest: grouping of & is immaterial *)
  Theorem eval_and_flatten fuel r a b es cs :
    evalNode labs atoms fuel (mkConj r (EAnd a b :: es) :: cs) =
    evalNode labs atoms fuel (mkConj r (a :: b :: es) :: cs).
  Proof.
    apply eval_head_neq.
    assert (E : flat_conj (mkConj r (EAnd a b :: es)) = flat_conj (mkConj r (a :: b :: es))).
    { unfold flat_conj; cbn [c_rec c_exprs]. rewrite !flat_exprs_cons. cbn [flatten].
      rewrite flat_app_assoc. cbn [all_declared fold_right declared existsb own_lit].
      rewrite al_union_assoc, orb_assoc. reflexivity. }
    rewrite E. apply neq_refl.
  Qed.

  (* C01: commutation of & *)
  Corollary eval_and_comm fuel r a b es cs :
    evalNode labs atoms fuel (mkConj r (EAnd a b :: es) :: cs) =
    evalNode labs atoms fuel (mkConj r (EAnd b a :: es) :: cs).
  Proof.
    rewrite !eval_and_flatten. apply eval_group_perm. intros x; simpl; tauto.
  Qed.

  (* C01: re-association of & *)
  Corollary eval_and_assoc fuel r a b c es cs :
    evalNode labs atoms fuel (mkConj r (EAnd (EAnd a b) c :: es) :: cs) =
    evalNode labs atoms fuel (mkConj r (EAnd a (EAnd b c) :: es) :: cs).
  Proof.
    rewrite !eval_and_flatten.
    rewrite (eval_group_perm labs atoms fuel r (a :: EAnd b c :: es) (EAnd b c :: a :: es)) by (intros x; simpl; tauto).
    rewrite eval_and_flatten. apply eval_group_perm. intros x; simpl; tauto.
  Qed.

  (* C01: v & v *)
  Corollary eval_and_idem fuel r a es cs :
    evalNode labs atoms fuel (mkConj r (EAnd a a :: es) :: cs) =
    evalNode labs atoms fuel (mkConj r (a :: es) :: cs).
  Proof. rewrite eval_and_flatten. apply eval_group_perm. intros x; simpl; tauto. Qed.

  (* C01: v & _ *)
  Theorem eval_top fuel r es cs :
    evalNode labs atoms fuel (mkConj r (ETop :: es) :: cs) = evalNode labs atoms fuel (mkConj r es :: cs).
  Proof.
    apply eval_head_neq.
    assert (E : flat_conj (mkConj r (ETop :: es)) = flat_conj (mkConj r es)).
    { unfold flat_conj; cbn [c_rec c_exprs]. rewrite flat_exprs_cons. cbn [flatten].
      rewrite flat_app_empty_l. cbn [all_declared fold_right declared existsb own_lit].
      rewrite al_union_empty_l. reflexivity. }
    rewrite E. apply neq_refl.
  Qed.

  Corollary eval_and_top fuel r a es cs :
    evalNode labs atoms fuel (mkConj r (EAnd a ETop :: es) :: cs) =
    evalNode labs atoms fuel (mkConj r (a :: es) :: cs).
  Proof.
    rewrite eval_and_flatten.
    rewrite (eval_group_perm labs atoms fuel r (a :: ETop :: es) (ETop :: a :: es)) by (intros x; simpl; tauto).
    apply eval_top.
  Qed.

  (* a declaration [x: _] adds nothing *)
  Theorem eval_top_decl fuel cs :
    evalNode labs atoms fuel (mkConj false [ETop] :: cs) = evalNode labs atoms fuel cs.
  Proof.
    unfold evalNode. rewrite flat_all_cons. apply evalFlat_neq.
    constructor.
    - reflexivity.
    - reflexivity.
    - simpl. apply seq_refl.
    - intros l. reflexivity.
    - unfold ofields, open_parts; simpl. apply seq_refl.
    - unfold opats, open_parts; simpl. apply seq_refl.
    - unfold rec_parts; simpl. apply pseq_refl.
  Qed.

  (* C01: splitting [x: a & b] into two declarations of x (and merging them back) *)
  Theorem eval_split_decl fuel es1 es2 cs :
    evalNode labs atoms fuel (mkConj false (es1 ++ es2) :: cs) =
    evalNode labs atoms fuel (mkConj false es1 :: mkConj false es2 :: cs).
  Proof.
    unfold evalNode. rewrite !flat_all_cons. apply evalFlat_neq.
    pose proof (nflat_app_neq _ _ (flat_all cs) (flat_all cs) (flat_conj_open_app es1 es2) (neq_refl _)) as Q.
    assert (A : nflat_app (nflat_app (flat_conj (mkConj false es1)) (flat_conj (mkConj false es2))) (flat_all cs) =
                nflat_app (flat_conj (mkConj false es1)) (nflat_app (flat_conj (mkConj false es2)) (flat_all cs))).
    { unfold nflat_app. cbn [n_bot n_scal n_struct n_parts n_closers].
      rewrite <- !orb_assoc, <- !app_assoc. reflexivity. }
    rewrite <- A. exact Q.
  Qed.

  (* the root-level version the property text mentions: x: a & b   vs   x: a, x: b *)
  Corollary eval_split_and fuel a b cs :
    evalNode labs atoms fuel (mkConj false [EAnd a b] :: cs) =
    evalNode labs atoms fuel (mkConj false [a] :: mkConj false [b] :: cs).
  Proof. rewrite eval_and_flatten. apply (eval_split_decl fuel [a] [b]). Qed.
End Laws.

(* the declaration loop of [flatten] on a literal, named *)
Definition lit_go (rec merge : bool) (extra : allowset) :=
  fix go (before : allowset) (ds : list (dhead * expr)) : flat :=
    match ds with
    | [] => flat_empty
    | (h, e') :: r =>
      let rest := go (al_union before (decl_declared (h, e'))) r in
      match h with
      | HField l k => flat_app (mkFlat false [] true [(l, k, e')] [] [] []) rest
      | HPattern p => flat_app (mkFlat false [] true [] [(p, e')] [] []) rest
      | HEllipsis => flat_app (mkFlat false [] true [] [] [] []) rest
      | HEmbed =>
        let ex := al_union (al_union before (decls_declared r)) extra in
        match e' with
        | ERefDef b =>
          if merge
          then flat_app (with_closer (al_union (declared b) ex) (flatten true ex b)) rest
          else flat_app (flatten rec ex e') rest
        | _ => flat_app (flatten merge ex e') rest
        end
      end
    end.

Lemma flatten_struct_eq rec extra ds :
  flatten rec extra (EStruct ds) =
  let sealed := negb rec && reaches_def (EStruct ds) && negb (reaches_open_def (EStruct ds)) in
  let body := lit_go rec (rec || sealed) extra al_empty ds in
  let body := mkFlat (f_bot body) (f_scal body) (f_struct body || own_struct ds)
                     (f_own body) (f_ownp body) (f_subs body) (f_closers body) in
  if sealed then seal body else body.
Proof. reflexivity. Qed.

Lemma flat_app_empty_r a : flat_app a flat_empty = a.
Proof. destruct a; unfold flat_app; simpl. rewrite !orb_false_r, !app_nil_r. reflexivity. Qed.

Lemma al_union_empty_r a : al_union a al_empty = a.
Proof. destruct a; unfold al_union; simpl. rewrite orb_false_r, !app_nil_r. reflexivity. Qed.

Definition simple_embed (e : expr) : bool :=
  match e with ERefDef _ | EClose _ | EScalar _ => true | _ => false end.

(* a flat is its components, also with [|| false] on the struct flag as the literal's loop leaves it *)
Lemma flat_eta F :
  mkFlat (f_bot F) (f_scal F) (f_struct F || false) (f_own F) (f_ownp F) (f_subs F) (f_closers F) = F.
Proof. destruct F; simpl. rewrite orb_false_r. reflexivity. Qed.

Lemma flatten_sole_embed e :
  simple_embed e = true ->
  flatten false al_empty (EStruct [(HEmbed, e)]) = flatten false al_empty e.
Proof.
  intros H. rewrite flatten_struct_eq. cbv zeta.
  cbn [lit_go own_struct existsb is_embed fst negb orb decls_declared fold_right].
  change (al_union (al_union al_empty al_empty) al_empty) with al_empty.
  destruct e; try discriminate H; cbn [reaches_def reaches_open_def negb andb orb].
  - rewrite flat_app_empty_r. apply flat_eta.
  - rewrite flat_app_empty_r. apply flat_eta.
  - (* a closed definition seals the literal and merges with it; an open one is flattened as it stands *)
    destruct (al_open (declared e)); cbn [negb andb orb]; rewrite flat_app_empty_r.
    + apply flat_eta.
    + cbn [flatten]. destruct (flatten true al_empty e). cbn. rewrite orb_false_r. reflexivity.
Qed.

Section SoleEmbed.
  Variable labs : list label.
  Variable atoms : list atom.

  (* C01: in an open group, {e} with a definition reference, close() or a scalar as sole embedding is e *)
  Theorem eval_sole_embed fuel e es cs :
    simple_embed e = true ->
    evalNode labs atoms fuel (mkConj false (EStruct [(HEmbed, e)] :: es) :: cs) =
    evalNode labs atoms fuel (mkConj false (e :: es) :: cs).
  Proof.
    intros H. apply eval_head_neq.
    assert (E : flat_conj (mkConj false (EStruct [(HEmbed, e)] :: es)) = flat_conj (mkConj false (e :: es))).
    { unfold flat_conj; cbn [c_rec c_exprs andb]. rewrite !flat_exprs_cons, (flatten_sole_embed e H). reflexivity. }
    rewrite E. apply neq_refl.
  Qed.
End SoleEmbed.

Definition embed_free (ds : list (dhead * expr)) : bool :=
  forallb (fun d => negb (is_embed (fst d))) ds.

Definition fields_of (ds : list (dhead * expr)) : list (label * fkind * expr) :=
  flat_map (fun d => match fst d with HField l k => [(l, k, snd d)] | _ => [] end) ds.

Definition pats_of (ds : list (dhead * expr)) : list (list N * expr) :=
  flat_map (fun d => match fst d with HPattern p => [(p, snd d)] | _ => [] end) ds.

Lemma reaches_def_embed_free ds : embed_free ds = true -> reaches_def (EStruct ds) = false.
Proof.
  cbn [reaches_def]. induction ds as [|[h e] ds IH]; simpl; auto.
  intros H. apply andb_true_iff in H as [Hh Hr]. destruct h; simpl in *; try discriminate; auto.
Qed.

Lemma lit_go_embed_free rec merge extra ds : forall before,
  embed_free ds = true ->
  lit_go rec merge extra before ds = mkFlat false [] (negb (null ds)) (fields_of ds) (pats_of ds) [] [].
Proof.
  induction ds as [|[h e] ds IH]; intros before H; [reflexivity|].
  simpl in H. apply andb_true_iff in H as [Hh Hr]. cbn [lit_go].
  destruct h; simpl in Hh; try discriminate; cbv zeta; rewrite (IH _ Hr); reflexivity.
Qed.

Lemma flatten_embed_free r x ds :
  embed_free ds = true ->
  flatten r x (EStruct ds) = mkFlat false [] true (fields_of ds) (pats_of ds) [] [].
Proof.
  intros H. rewrite flatten_struct_eq, (reaches_def_embed_free ds H), andb_false_r. cbv zeta. cbn [andb].
  rewrite (lit_go_embed_free _ _ _ ds _ H). destruct ds; reflexivity.
Qed.

Lemma allows_declared_struct ds l :
  allows (declared (EStruct ds)) l = existsb (fun d => allows (decl_declared d) l) ds.
Proof.
  cbn [declared]. induction ds as [|[h e] ds IH]; [apply allows_empty|].
  cbn [existsb]. rewrite <- IH. rewrite allows_union. unfold decl_declared; simpl. destruct h; reflexivity.
Qed.

Lemma flat_conj_lit r ds es :
  embed_free ds = true ->
  let F := flat_exprs r es in
  flat_conj (mkConj r (EStruct ds :: es)) =
  mkNFlat (f_bot F) (f_scal F) true
          (mkPart r (fields_of ds ++ f_own F) (pats_of ds ++ f_ownp F) :: map (fun s => mkPart true (fst s) (snd s)) (f_subs F))
          ((if r then [all_declared (EStruct ds :: es)] else []) ++ f_closers F).
Proof.
  intros H. unfold flat_conj. cbn [c_rec c_exprs existsb own_lit orb].
  rewrite flat_exprs_cons, (flatten_embed_free r al_empty ds H), andb_true_r. reflexivity.
Qed.

Section DeclPerm.
  Variable labs : list label.
  Variable atoms : list atom.

  (* C01: reordering (or repeating) the declarations of a struct literal without embeddings *)
  Theorem eval_decl_perm fuel r ds ds' es cs :
    embed_free ds = true -> embed_free ds' = true -> seq ds ds' ->
    evalNode labs atoms fuel (mkConj r (EStruct ds :: es) :: cs) =
    evalNode labs atoms fuel (mkConj r (EStruct ds' :: es) :: cs).
  Proof.
    intros F F' S. apply eval_head_neq. apply flat_conj_neq_of;
      rewrite ?flat_exprs_cons, ?(flatten_embed_free r al_empty ds F), ?(flatten_embed_free r al_empty ds' F');
      cbn [flat_app f_bot f_struct f_scal f_own f_ownp f_subs f_closers app orb].
    - reflexivity.
    - reflexivity.
    - apply seq_refl.
    - apply seq_app; [apply seq_flat_map, S | apply seq_refl].
    - apply seq_app; [apply seq_flat_map, S | apply seq_refl].
    - apply seq_refl.
    - intros l; reflexivity.
    - reflexivity.
    - intros l. cbn [all_declared fold_right]. rewrite !allows_union, !allows_declared_struct.
      rewrite (existsb_seq _ _ _ S). reflexivity.
  Qed.
End DeclPerm.
