(* NestCUE (Core/Nest.v) meets the hypotheses of Core/DisjGenLaws.v - [aval_eqb] decides equality
   and the value of a conjunction of terms does not depend on their order - so the C04 laws hold
   one level up, for disjunctions of structs whose fields hold disjunctions (Properties/C04.v);
   with them the C01 laws for the conjunction of terms (Properties/C01.v). *)
From Verif Require Import Core.Syntax Core.Eval Core.Laws Core.Disj Core.DisjLaws Core.DisjLaws2 Core.Nest.
From Coq Require Import List Bool Permutation.
Import ListNotations.

Lemma resolution_eqb_eq a b : resolution_eqb a b = true <-> a = b.
Proof.
  destruct a, b; simpl; split; try discriminate; try reflexivity.
  - intros H. apply res_eqb_eq in H. congruence.
  - intros [= ->]. apply res_eqb_eq. reflexivity.
Qed.

Lemma fout_eqb_eq a b : fout_eqb a b = true <-> a = b.
Proof.
  destruct a as [p [r l]], b as [q [s m]]. unfold fout_eqb. cbn [fst snd]. split.
  - intros H. apply andb_prop in H as [H H3]. apply andb_prop in H as [H1 H2].
    apply eqb_prop in H1. apply resolution_eqb_eq in H2. apply list_eqb_bool_eq in H3. congruence.
  - intros [= -> -> ->]. rewrite eqb_reflx, (proj2 (resolution_eqb_eq s s) eq_refl),
      (proj2 (list_eqb_bool_eq m m) eq_refl). reflexivity.
Qed.

Lemma aval_eqb_eq a b : aval_eqb a b = true <-> a = b.
Proof.
  destruct a, b; simpl; split; try discriminate; try reflexivity.
  - intros H. apply res_eqb_eq in H. congruence.
  - intros [= ->]. apply res_eqb_eq. reflexivity.
  - intros H. apply (list_eqb_eq fout_eqb fout_eqb_eq) in H. congruence.
  - intros [= ->]. apply (list_eqb_eq fout_eqb fout_eqb_eq). reflexivity.
Qed.

Lemma Permutation_concat {A} (t t' : list (list A)) : Permutation t t' -> Permutation (concat t) (concat t').
Proof.
  induction 1; simpl; auto.
  - apply Permutation_app_head. assumption.
  - rewrite !app_assoc. apply Permutation_app_tail. apply Permutation_app_comm.
  - eapply Permutation_trans; eassumption.
Qed.

Lemma perm_null {A} (l l' : list A) : Permutation l l' -> null l = null l'.
Proof. intros H. apply Permutation_length in H. destruct l, l'; simpl in *; auto; discriminate. Qed.

Section NestLaws.
  Variable labs : list label.
  Variable atoms : list atom.
  Variable fuel : nat.

  Notation alt_val := (alt_val labs atoms fuel).
  Notation field_out := (field_out labs atoms fuel).
  Notation field_row := (field_row labs atoms fuel).
  Notation nest_tval := (nest_tval labs atoms fuel).
  Notation nest_pair := (nest_pair labs atoms fuel).
  Notation pair_of := (pair_of labs atoms fuel).

  Lemma lits_perm ts ts' : Permutation ts ts' -> Permutation (lits ts) (lits ts').
  Proof. apply Permutation_flat_map. Qed.

  Lemma scals_perm ts ts' : Permutation ts ts' -> Permutation (scals ts) (scals ts').
  Proof. apply Permutation_flat_map. Qed.

  Lemma field_vals_perm ts ts' l : Permutation ts ts' -> Permutation (field_vals ts l) (field_vals ts' l).
  Proof. intros H. unfold field_vals. apply Permutation_flat_map. apply lits_perm. exact H. Qed.

  (* the outcome of a field depends only on the SET of plain operands and the multiset of disjunctions *)
  Lemma field_out_ext pl pl' ds ds' :
    Laws.seq pl pl' -> Permutation ds ds' ->
    (let p := pair_of pl ds in (resolve p, map (accepts p) (seq 0 (length atoms)))) =
    (let p := pair_of pl' ds' in (resolve p, map (accepts p) (seq 0 (length atoms)))).
  Proof.
    intros Hp Hd. cbv zeta.
    rewrite (plain_operands_as_set labs atoms fuel pl pl' ds Hp).
    destruct (operand_order_independent labs atoms fuel pl' ds ds' Hd) as [HA HR].
    rewrite HR. f_equal. apply map_ext. intros i. apply HA.
  Qed.

  Lemma field_row_perm ts ts' l : Permutation ts ts' -> field_row ts l = field_row ts' l.
  Proof.
    intros H. pose proof (field_vals_perm ts ts' l H) as HF. unfold Nest.field_row, Nest.field_out. f_equal.
    - f_equal. apply perm_null. exact HF.
    - apply field_out_ext.
      + apply perm_seq. unfold f_plain. apply Permutation_flat_map. exact HF.
      + unfold f_disjs. apply Permutation_flat_map. exact HF.
  Qed.

  Theorem alt_val_perm ts ts' : Permutation ts ts' -> alt_val ts = alt_val ts'.
  Proof.
    intros H. unfold Nest.alt_val.
    pose proof (lits_perm _ _ H) as HL. pose proof (scals_perm _ _ H) as HS.
    assert (E : evalNode labs atoms fuel [mkConj false (scals ts)] = evalNode labs atoms fuel [mkConj false (scals ts')])
      by (apply eval_group_perm; apply perm_seq; exact HS).
    assert (R : map (field_row ts) labs = map (field_row ts') labs)
      by (apply map_ext; intros l; apply field_row_perm; exact H).
    destruct (lits ts) as [|a la] eqn:E1, (lits ts') as [|b lb] eqn:E2.
    - rewrite E. reflexivity.
    - apply Permutation_length in HL. discriminate.
    - apply Permutation_length in HL. discriminate.
    - rewrite (perm_null _ _ HS), R. reflexivity.
  Qed.

  Lemma nest_tval_perm plain t t' : Permutation t t' -> nest_tval plain t = nest_tval plain t'.
  Proof. intros H. unfold Nest.nest_tval. apply alt_val_perm. apply Permutation_app_head. apply Permutation_concat. exact H. Qed.

  (* a present field whose value/default pair has no value left fails the row test of [alt_val] *)
  Lemma row_failed_in ts l :
    In l labs -> null (field_vals ts l) = false ->
    resolve (pair_of (f_plain ts l) (f_disjs ts l)) = NoValue ->
    existsb row_failed (map (field_row ts) labs) = true.
  Proof.
    intros Hl Hn Hr. apply existsb_exists. exists (field_row ts l). split; [apply in_map; exact Hl|].
    unfold row_failed, Nest.field_row, Nest.field_out. cbn [fst snd]. rewrite Hn, Hr. reflexivity.
  Qed.

  (* a conjunction of terms that contains bottom is an error: next to a literal any scalar term is; without
     literals the scalar terms are evaluated as one group, read below as a choice of unmarked disjuncts, one
     of them bottom *)
  Lemma bot_term_fails ts : fuel <> 0 -> In TBot ts -> alt_val ts = AErr.
  Proof.
    intros Hf Hin. unfold Nest.alt_val.
    assert (HB : In EBot (scals ts)).
    { unfold scals. apply in_flat_map. exists TBot. split; [exact Hin | left; reflexivity]. }
    destruct (lits ts) as [|a la].
    - pose proof (bottom_disjunct_fails labs atoms fuel [] (map (fun e => (false, e)) (scals ts)) false Hf) as X.
      unfold Disj.survives, Disj.tuple_val in X. cbn [app] in X. rewrite map_map in X. cbn [snd] in X. rewrite map_id in X.
      rewrite negb_false_iff in X. cbv zeta. rewrite X; [reflexivity|].
      apply in_map_iff. exists EBot. auto.
    - destruct (scals ts); [destruct HB | reflexivity].
  Qed.
End NestLaws.
