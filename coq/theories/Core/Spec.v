(* C05, declaratively: when does a set of conjuncts (schemas and a data struct)
   unify to a concrete, error-free value?  [admits] reads like the property:
     - every field PRESENT in the result (declared regular by any conjunct) is allowed
       by EVERY closer of the node (named field, matching pattern or "...", embeddings
       widen; hidden/definition labels are never restricted),
     - every constraint that applies to a present field (declared values of any kind and
       matching patterns, from every conjunct) is satisfied, recursively,
     - every required field is present,
     - optional constraints on absent fields do not matter,
     - a scalar position holds one atom that satisfies every constraint.
   [admission] shows that the evaluator's result tree is concrete and error free
   exactly in that case. *)
From Verif Require Import Core.Syntax Core.Eval Core.Laws.
From Coq Require Import List Bool.
Import ListNotations.

Section Spec.
  Variable labs : list label.
  Variable atoms : list atom.

  Fixpoint admits (fuel : nat) (fl : nflat) : bool :=
    match fuel with
    | O => false
    | S f =>
      negb (n_bot fl) &&
      if n_struct fl then
        null (n_scal fl) &&
        forallb (fun l => match presence fl l with
                          | PAbsent | POptional => true
                          | PRequired => false
                          | PRegular => allowed (n_closers fl) l && admits f (flat_all (children fl l))
                          end) labs
      else
        existsb (fun a => existsb (is_atom_c a) (n_scal fl) && forallb (ssat a) (n_scal fl)) atoms
    end.

  Definition res_ok (r : res) : bool := negb (res_err r) && res_concrete r.

  Lemma ssat_kind_ok a c : ssat a c = true -> sc_kind_ok (atom_kind a) c = true.
  Proof.
    destruct c as [b| k | z | z | z | z | z]; simpl.
    - intros H. apply atom_eqb_eq in H. subst b. destruct a; reflexivity.
    - destruct a, k; simpl; auto.
    - destruct a; try discriminate; reflexivity.
    - destruct a; try discriminate; reflexivity.
    - destruct a; try discriminate; reflexivity.
    - destruct a; try discriminate; reflexivity.
    - destruct a; try discriminate; reflexivity.
  Qed.

  Lemma atom_kind_in_all a : In (atom_kind a) all_kinds.
  Proof. destruct a; simpl; auto. Qed.

  Lemma scalar_ok scs :
    negb (scalar_bottom scs) && existsb (fun b => b) (map (fun a => existsb (is_atom_c a) scs) atoms) =
    existsb (fun a => existsb (is_atom_c a) scs && forallb (ssat a) scs) atoms.
  Proof.
    apply bool_eq_iff. rewrite andb_true_iff, negb_true_iff, !existsb_exists. split.
    - intros [Hb (b & Hb1 & Hb2)]. apply in_map_iff in Hb1 as (a & <- & Ha).
      exists a. split; auto. rewrite Hb2. simpl.
      unfold scalar_bottom in Hb. apply orb_false_iff in Hb as [_ Hb].
      apply existsb_exists in Hb2 as (c & Hc & Hac). destruct c as [a'| | | | | |]; try discriminate.
      apply atom_eqb_eq in Hac. subst a'.
      destruct (forallb (ssat a) scs) eqn:E; auto.
      assert (X : existsb (fun c => match c with SAtom a0 => negb (forallb (ssat a0) scs) | _ => false end) scs = true).
      { apply existsb_exists. exists (SAtom a). split; auto. rewrite E. reflexivity. }
      congruence.
    - intros (a & Ha & H). apply andb_true_iff in H as [H1 H2]. split.
      + unfold scalar_bottom. apply orb_false_iff. split.
        * apply negb_false_iff. apply existsb_exists. exists (atom_kind a). split; [apply atom_kind_in_all|].
          apply forallb_forall. intros c Hc. apply ssat_kind_ok. rewrite forallb_forall in H2. auto.
        * apply not_true_is_false. intros X. apply existsb_exists in X as (c & Hc & X).
          destruct c as [b| | | | | |]; try discriminate. apply negb_true_iff in X.
          rewrite forallb_forall in H2. pose proof (H2 _ Hc) as E. simpl in E. apply atom_eqb_eq in E. subst b.
          assert (forallb (ssat a) scs = true) by (apply forallb_forall; auto). congruence.
      + exists true. split; auto. apply in_map_iff. exists a. split; auto.
  Qed.

  Lemma negb_existsb_forallb {A} (e c : A -> bool) l :
    negb (existsb e l) && forallb c l = forallb (fun x => negb (e x) && c x) l.
  Proof.
    induction l as [|a l IH]; simpl; auto. rewrite <- IH.
    destruct (e a), (c a), (existsb e l), (forallb c l); reflexivity.
  Qed.

  (* C05: the evaluator's result is concrete and error free exactly when the conjuncts admit *)
  Theorem admission fuel : forall fl, res_ok (evalFlat labs atoms fuel fl) = admits fuel fl.
  Proof.
    induction fuel as [|f IH]; intros fl; [reflexivity|].
    cbn [evalFlat admits]. destruct (n_bot fl); [reflexivity|]. cbn [negb andb].
    destruct (n_struct fl) eqn:Es.
    - cbn [andb]. destruct (null (n_scal fl)) eqn:En; cbn [negb andb]; [|reflexivity].
      unfold res_ok, res_err. cbn [res_err_aux res_concrete].
      rewrite existsb_map, forallb_map, negb_existsb_forallb.
      apply forallb_ext. intros l.
      specialize (IH (flat_all (children fl l))). unfold res_ok, res_err in IH.
      destruct (presence fl l) eqn:Ep; cbn [fst snd res_err_aux res_concrete negb andb]; auto.
      + apply andb_false_r.
      + destruct (allowed (n_closers fl) l); cbn [res_err_aux res_concrete andb orb negb]; auto.
    - destruct (scalar_bottom (n_scal fl)) eqn:Eb.
      + unfold res_ok; cbn. symmetry. rewrite <- scalar_ok, Eb. reflexivity.
      + unfold res_ok, res_err. cbn [res_err_aux res_concrete negb andb]. rewrite <- scalar_ok, Eb. reflexivity.
  Qed.

  Definition admits_conjs (fuel : nat) (cs : list conj) : bool := admits fuel (flat_all cs).

  Corollary admission_conjs fuel cs :
    res_ok (evalNode labs atoms fuel cs) = admits_conjs fuel cs.
  Proof. apply admission. Qed.

  Lemma admits_struct_inv f fl :
    admits (S f) fl = true -> n_struct fl = true ->
    n_bot fl = false /\ null (n_scal fl) = true /\
    forall l, In l labs ->
      match presence fl l with
      | PRequired => False
      | PRegular => allowed (n_closers fl) l = true /\ admits f (flat_all (children fl l)) = true
      | _ => True
      end.
  Proof.
    cbn [admits]. intros H Hs. rewrite Hs in H.
    apply andb_true_iff in H as [Hb H]. apply andb_true_iff in H as [Hn H].
    split; [apply negb_true_iff, Hb|]. split; [exact Hn|].
    intros l Hl. rewrite forallb_forall in H. specialize (H l Hl).
    destruct (presence fl l); [exact I | exact I | discriminate H | apply andb_true_iff, H].
  Qed.

  Theorem closed_never_gains fuel cs l :
    In l labs -> presence (flat_all cs) l = PRegular -> allowed (n_closers (flat_all cs)) l = false ->
    n_struct (flat_all cs) = true ->
    res_ok (evalNode labs atoms fuel cs) = false.
  Proof.
    intros Hl Hp Ha Hs. rewrite admission_conjs. unfold admits_conjs.
    destruct fuel as [|f]; [reflexivity|]. apply not_true_is_false. intros H.
    destruct (admits_struct_inv f _ H Hs) as (_ & _ & Hall). specialize (Hall l Hl).
    rewrite Hp in Hall. destruct Hall as [Ha' _]. congruence.
  Qed.

  (* an open struct (no closed scope at the node) never rejects a field for its label *)
  Theorem open_never_rejects closers l : closers = [] -> allowed closers l = true.
  Proof. intros ->. unfold allowed. simpl. apply orb_true_r. Qed.

  Theorem required_must_be_present fuel cs l :
    In l labs -> presence (flat_all cs) l = PRequired -> n_struct (flat_all cs) = true ->
    res_ok (evalNode labs atoms fuel cs) = false.
  Proof.
    intros Hl Hp Hs. rewrite admission_conjs. unfold admits_conjs.
    destruct fuel as [|f]; [reflexivity|]. apply not_true_is_false. intros H.
    destruct (admits_struct_inv f _ H Hs) as (_ & _ & Hall). specialize (Hall l Hl).
    rewrite Hp in Hall. exact Hall.
  Qed.
End Spec.
