(* What the clauses of C05 (Properties/C05.v) are proved from: where the pieces of a conjunct end
   up in the flattened node, what a node hands to its children, the closers of literals with
   embedded definitions, and that errors are monotone along [nle] (Core/Laws.v). *)
From Verif Require Import Core.Syntax Core.Eval Core.Laws Core.Spec.
From Coq Require Import List Bool Permutation.
Import ListNotations.

Lemma fk_is_refl k : fk_is k k = true.
Proof. destruct k; reflexivity. Qed.

Lemma part_values_single r l k e l' :
  part_values (mkPart r [(l, k, e)] []) l' = if label_eqb l l' then [e] else [].
Proof.
  unfold part_values. cbn [gp_fields gp_pats flat_map fst snd]. rewrite !app_nil_r. reflexivity.
Qed.

Lemma has_field_intro fl p l k v :
  In p (n_parts fl) -> In (l, k, v) (gp_fields p) -> has_field fl l k = true.
Proof.
  intros Hp Hf. unfold has_field. apply existsb_exists. exists p. split; [exact Hp|].
  apply existsb_exists. exists (l, k, v). split; [exact Hf|]. cbn [fst snd].
  rewrite label_eqb_refl, fk_is_refl. reflexivity.
Qed.

Lemma closer_rejects closers a l :
  In a closers -> allows a l = false -> is_special l = false -> allowed closers l = false.
Proof.
  intros Ha Hl Hs. unfold allowed. rewrite Hs. cbn [orb].
  apply not_true_is_false. intros H. rewrite forallb_forall in H. specialize (H a Ha). congruence.
Qed.

Lemma flat_conj_open_lit ds :
  embed_free ds = true ->
  flat_conj (mkConj false [EStruct ds]) =
  mkNFlat false [] true [mkPart false (fields_of ds) (pats_of ds)] [].
Proof.
  intros H. rewrite (flat_conj_lit false ds [] H). cbn. rewrite !app_nil_r. reflexivity.
Qed.

Lemma lit_struct cs g ds :
  In g cs -> In (EStruct ds) (c_exprs g) -> embed_free ds = true -> n_struct (flat_all cs) = true.
Proof.
  intros Hg He Hf. rewrite fa_struct. apply existsb_exists. exists g. split; [exact Hg|].
  unfold flat_conj. cbn [n_struct]. rewrite fe_struct. apply existsb_exists.
  exists (EStruct ds). split; [exact He|]. rewrite (flatten_embed_free _ _ ds Hf). reflexivity.
Qed.

Lemma in_fields_of ds l k v : In (HField l k, v) ds -> In (l, k, v) (fields_of ds).
Proof.
  intros H. unfold fields_of. apply in_flat_map. exists (HField l k, v). split; [exact H|]. left. reflexivity.
Qed.

Lemma fields_of_in ds f : In f (fields_of ds) -> exists d, In d ds /\ snd d = snd f.
Proof.
  unfold fields_of. intros H. apply in_flat_map in H as ([h e] & Hd & Hf). exists (h, e). split; [exact Hd|].
  destruct h; cbn [fst snd] in Hf; try (destruct Hf; fail). destruct Hf as [<-|[]]. reflexivity.
Qed.

Lemma pats_of_in ds q : In q (pats_of ds) -> exists d, In d ds /\ snd d = snd q.
Proof.
  unfold pats_of. intros H. apply in_flat_map in H as ([h e] & Hd & Hf). exists (h, e). split; [exact Hd|].
  destruct h; cbn [fst snd] in Hf; try (destruct Hf; fail). destruct Hf as [<-|[]]. reflexivity.
Qed.

Lemma lit_field_part cs g ds l k v :
  In g cs -> In (EStruct ds) (c_exprs g) -> embed_free ds = true -> In (HField l k, v) ds ->
  exists p, In p (n_parts (flat_all cs)) /\ In (l, k, v) (gp_fields p).
Proof.
  intros Hg He Hf Hd.
  exists (mkPart (c_rec g) (f_own (flat_exprs (c_rec g) (c_exprs g))) (f_ownp (flat_exprs (c_rec g) (c_exprs g)))).
  split.
  - rewrite fa_parts. apply in_flat_map. exists g. split; [exact Hg|]. unfold flat_conj. cbn [n_parts]. left. reflexivity.
  - cbn [gp_fields]. rewrite fe_own. apply in_flat_map. exists (EStruct ds). split; [exact He|].
    rewrite (flatten_embed_free _ _ ds Hf). cbn [f_own]. apply in_fields_of. exact Hd.
Qed.

Lemma flatten_refdef r x b :
  flatten r x (ERefDef b) = with_closer (al_union (declared b) x) (seal (flatten true x b)).
Proof. reflexivity. Qed.

Lemma flatten_close r x b :
  flatten r x (EClose b) = with_closer (al_union (declared b) x) (flatten r x b).
Proof. reflexivity. Qed.

(* a definition (with a literal body) anywhere in a group contributes one recursively
   closed part holding all its fields and patterns, and a closer for what it declares *)
Lemma def_part cs g ds :
  In g cs -> In (ERefDef (EStruct ds)) (c_exprs g) -> embed_free ds = true ->
  In (mkPart true (fields_of ds) (pats_of ds)) (n_parts (flat_all cs)).
Proof.
  intros Hg He Hf. rewrite fa_parts. apply in_flat_map. exists g. split; [exact Hg|].
  unfold flat_conj. cbn [n_parts]. right. apply in_map_iff.
  exists (fields_of ds, pats_of ds). split; [reflexivity|].
  rewrite fe_subs. apply in_flat_map. exists (ERefDef (EStruct ds)). split; [exact He|].
  rewrite flatten_refdef, (flatten_embed_free _ _ ds Hf). cbn. left. reflexivity.
Qed.

Lemma in_f_closers_n_closers cs g e a :
  In g cs -> In e (c_exprs g) -> In a (f_closers (flatten (c_rec g) al_empty e)) ->
  In a (n_closers (flat_all cs)).
Proof.
  intros Hg He Ha. rewrite fa_closers. apply in_flat_map. exists g. split; [exact Hg|].
  unfold flat_conj. cbn [n_closers]. apply in_or_app. right.
  rewrite fe_closers. apply in_flat_map. exists e. split; [exact He | exact Ha].
Qed.

Lemma def_closer cs g b :
  In g cs -> In (ERefDef b) (c_exprs g) ->
  In (al_union (declared b) al_empty) (n_closers (flat_all cs)).
Proof.
  intros Hg He. apply (in_f_closers_n_closers cs g (ERefDef b)); auto.
  rewrite flatten_refdef. cbn [with_closer f_closers]. left. reflexivity.
Qed.

Lemma close_closer cs g b :
  In g cs -> In (EClose b) (c_exprs g) ->
  In (al_union (declared b) al_empty) (n_closers (flat_all cs)).
Proof.
  intros Hg He. apply (in_f_closers_n_closers cs g (EClose b)); auto.
  rewrite flatten_close. cbn [with_closer f_closers]. left. reflexivity.
Qed.

(* a recursively closed group with a literal of its own is closed by what the group declares *)
Lemma rec_group_closer cs g :
  In g cs -> c_rec g = true -> existsb own_lit (c_exprs g) = true ->
  In (all_declared (c_exprs g)) (n_closers (flat_all cs)).
Proof.
  intros Hg Hr Hl. rewrite fa_closers. apply in_flat_map. exists g. split; [exact Hg|].
  unfold flat_conj. cbn [n_closers]. rewrite Hr, Hl. cbn [andb]. left. reflexivity.
Qed.

(* the groups of a child: exactly the declared values and the matching patterns *)
Lemma children_values fl l v :
  (exists c, In c (children fl l) /\ In v (c_exprs c)) <->
  (exists p, In p (n_parts fl) /\ In v (part_values p l)).
Proof.
  unfold children. split.
  - intros (c & Hc & Hv). apply in_app_or in Hc as [Hc|Hc].
    + destruct (null (open_values fl l)); [destruct Hc|]. destruct Hc as [<-|[]]. cbn [c_exprs] in Hv.
      unfold open_values in Hv. apply in_flat_map in Hv as (p & Hp & Hv). exists p. split; [exact Hp|].
      destruct (gp_rec p); [destruct Hv | exact Hv].
    + apply rec_children_in in Hc as (p & Hp & _ & ->). cbn [c_exprs] in Hv.
      unfold rec_parts in Hp. apply filter_In in Hp as [Hp _]. eauto.
  - intros (p & Hp & Hv). destruct (gp_rec p) eqn:Er.
    + exists (mkConj true (part_values p l)). split; [|exact Hv]. apply in_or_app. right.
      apply rec_children_in. exists p. split; [apply filter_In; auto|]. split; [|reflexivity].
      destruct (part_values p l); [destruct Hv | reflexivity].
    + assert (Ho : In v (open_values fl l)).
      { unfold open_values. apply in_flat_map. exists p. split; [exact Hp|]. rewrite Er. exact Hv. }
      exists (mkConj false (open_values fl l)). split; [|exact Ho]. apply in_or_app. left.
      destruct (open_values fl l); [destruct Ho | left; reflexivity].
Qed.

Lemma children_rec_or_open fl l c :
  In c (children fl l) -> c = mkConj false (open_values fl l) \/ c_rec c = true.
Proof.
  unfold children. intros Hc. apply in_app_or in Hc as [Hc|Hc].
  - destruct (null (open_values fl l)); [destruct Hc|]. destruct Hc as [<-|[]]. left. reflexivity.
  - apply rec_children_in in Hc as (p & _ & _ & ->). right. reflexivity.
Qed.

Lemma rec_part_child fl p l :
  In p (n_parts fl) -> gp_rec p = true -> null (part_values p l) = false ->
  In (mkConj true (part_values p l)) (children fl l).
Proof.
  intros Hp Hr Hn. unfold children. apply in_or_app. right. apply rec_children_in.
  exists p. split; [apply filter_In; auto | auto].
Qed.

(* a regular field of a literal of some group is present, and its value reaches the child *)
Lemma lit_field_present cs g ds l v :
  In g cs -> In (EStruct ds) (c_exprs g) -> embed_free ds = true -> In (HField l FRegular, v) ds ->
  n_struct (flat_all cs) = true /\ presence (flat_all cs) l = PRegular /\
  exists c, In c (children (flat_all cs) l) /\ In v (c_exprs c).
Proof.
  intros Hg He Hf Hd. destruct (lit_field_part cs g ds l FRegular v Hg He Hf Hd) as (p & Hp & Hpf).
  split; [apply (lit_struct cs g ds); auto|]. split.
  - unfold presence. rewrite (has_field_intro _ p _ _ _ Hp Hpf). reflexivity.
  - apply children_values. exists p. split; [exact Hp|]. apply part_values_in. left.
    exists (l, FRegular, v). cbn [fst snd]. rewrite label_eqb_refl. auto.
Qed.

Lemma scal_in_flat_all cs g c : In g cs -> In (EScalar c) (c_exprs g) -> In c (n_scal (flat_all cs)).
Proof.
  intros Hg He. rewrite fa_scal. apply in_flat_map. exists g. split; [exact Hg|].
  unfold flat_conj. cbn [n_scal]. rewrite fe_scal. apply in_flat_map. exists (EScalar c). split; [exact He|].
  left. reflexivity.
Qed.

(* field lookup in a result tree (the fields are reported in the order of the universe) *)
Fixpoint lookup_field (ls : list label) (fs : list (fpres * res)) (l : label) : option (fpres * res) :=
  match ls, fs with
  | l' :: ls', x :: fs' => if label_eqb l' l then Some x else lookup_field ls' fs' l
  | _, _ => None
  end.

Lemma lookup_field_map (F : label -> fpres * res) ls l :
  In l ls -> lookup_field ls (map F ls) l = Some (F l).
Proof.
  induction ls as [|a ls IH]; intros H; [destruct H|]. cbn [map lookup_field].
  destruct (label_eqb a l) eqn:E.
  - apply label_eqb_eq in E. subst. reflexivity.
  - destruct H as [->|H]; [|auto]. rewrite label_eqb_refl in E. discriminate.
Qed.

(* the group {l?: e} *)
Definition opt_conj (l : label) (e : expr) : conj := mkConj false [EStruct [(HField l FOptional, e)]].

Lemma flat_conj_opt l e :
  flat_conj (opt_conj l e) = mkNFlat false [] true [mkPart false [(l, FOptional, e)] []] [].
Proof. reflexivity. Qed.

Lemma has_field_opt fl l e l' k :
  has_field (nflat_app (flat_conj (opt_conj l e)) fl) l' k =
  (label_eqb l l' && fk_is FOptional k) || has_field fl l' k.
Proof.
  rewrite flat_conj_opt. unfold has_field. cbn [nflat_app n_parts app existsb gp_fields fst snd].
  rewrite orb_false_r. reflexivity.
Qed.

Lemma children_opt_other fl l e l' :
  label_eqb l l' = false ->
  children (nflat_app (flat_conj (opt_conj l e)) fl) l' = children fl l'.
Proof.
  intros E. rewrite flat_conj_opt. unfold children, open_values, rec_children.
  cbn [nflat_app n_parts app flat_map gp_rec]. rewrite part_values_single, E. reflexivity.
Qed.

Section Present.
  Variable labs : list label.
  Variable atoms : list atom.

  Definition field_at (r : res) (l : label) : option (fpres * res) :=
    match r with RStruct fs _ => lookup_field labs fs l | _ => None end.

End Present.

Lemma rec_group_parts g p : c_rec g = true -> In p (n_parts (flat_conj g)) -> gp_rec p = true.
Proof.
  intros Hr. unfold flat_conj. cbn [n_parts]. rewrite Hr. intros [<-|Hp]; [reflexivity|].
  apply in_map_iff in Hp as (s & <- & _). reflexivity.
Qed.

Fixpoint descend (cs : list conj) (path : list label) : list conj :=
  match path with
  | [] => cs
  | l :: path' => descend (children (flat_all cs) l) path'
  end.

(* no definition and no close() at the level of e itself (nested field values are arbitrary) *)
Fixpoint plain (e : expr) : bool :=
  match e with
  | ETop | EBot | EScalar _ => true
  | EAnd a b => plain a && plain b
  | EStruct ds => embed_free ds
  | EClose _ | ERefDef _ => false
  end.

Lemma plain_flat r x e : plain e = true -> f_closers (flatten r x e) = [] /\ f_subs (flatten r x e) = [].
Proof.
  induction e as [| |c|a IHa b IHb|ds|e _|e _]; cbn [plain]; intros H; try discriminate; try (split; reflexivity).
  - apply andb_true_iff in H as [Ha Hb]. destruct (IHa Ha) as [A1 A2]. destruct (IHb Hb) as [B1 B2].
    cbn [flatten flat_app f_closers f_subs]. rewrite A1, A2, B1, B2. split; reflexivity.
  - rewrite (flatten_embed_free r x ds H). split; reflexivity.
Qed.

(* a literal, or close() of a literal, whose field values are plain *)
Definition one_level (e : expr) : bool :=
  match e with
  | EStruct ds | EClose (EStruct ds) => embed_free ds && forallb (fun d => plain (snd d)) ds
  | _ => false
  end.

Lemma one_level_flat e :
  one_level e = true ->
  exists ds, forallb (fun d => plain (snd d)) ds = true /\
             f_own (flatten false al_empty e) = fields_of ds /\
             f_ownp (flatten false al_empty e) = pats_of ds /\
             f_subs (flatten false al_empty e) = [].
Proof.
  destruct e as [| |c|a b|ds|e|e]; cbn [one_level]; try discriminate.
  - intros H. apply andb_true_iff in H as [Hf Hp]. exists ds.
    rewrite (flatten_embed_free _ _ ds Hf). auto.
  - destruct e as [| |c|a b|ds|e|e]; try discriminate.
    intros H. apply andb_true_iff in H as [Hf Hp]. exists ds.
    rewrite flatten_close, (flatten_embed_free _ _ ds Hf). auto.
Qed.

Definition open_plain (fl : nflat) : Prop :=
  forall p, In p (n_parts fl) ->
    gp_rec p = false /\ (forall f, In f (gp_fields p) -> plain (snd f) = true) /\
    (forall q, In q (gp_pats p) -> plain (snd q) = true).

Lemma open_plain_children_open fl l : open_plain fl -> n_closers (flat_all (children fl l)) = [].
Proof.
  intros H. unfold children.
  assert (R : rec_children fl l = []).
  { unfold rec_children. apply flat_map_nil. intros p Hp. destruct (H p Hp) as [-> _]. reflexivity. }
  rewrite R, app_nil_r. destruct (null (open_values fl l)); [reflexivity|].
  cbn [flat_all fold_right nflat_app n_closers nflat_empty]. rewrite app_nil_r.
  unfold flat_conj. cbn [n_closers c_rec c_exprs andb app]. rewrite fe_closers.
  apply flat_map_nil. intros v Hv. apply plain_flat.
  unfold open_values in Hv. apply in_flat_map in Hv as (p & Hp & Hv). destruct (H p Hp) as (Hr & Hfs & Hps).
  rewrite Hr in Hv. apply part_values_in in Hv as [(f & Hf & _ & <-)|(q & Hq & _ & <-)]; auto.
Qed.

Lemma one_level_open_plain cs :
  (forall g, In g cs -> c_rec g = false /\ forall e, In e (c_exprs g) -> one_level e = true) ->
  open_plain (flat_all cs).
Proof.
  intros H p Hp. rewrite fa_parts in Hp. apply in_flat_map in Hp as (g & Hg & Hp).
  destruct (H g Hg) as [Hr Hes]. unfold flat_conj in Hp. cbn [n_parts] in Hp. rewrite Hr in Hp.
  assert (Sb : f_subs (flat_exprs false (c_exprs g)) = []).
  { rewrite fe_subs. apply flat_map_nil. intros e He. destruct (one_level_flat e (Hes e He)) as (ds & _ & _ & _ & X). exact X. }
  rewrite Sb in Hp. cbn [map] in Hp. destruct Hp as [<-|[]]. cbn [gp_rec gp_fields gp_pats].
  split; [reflexivity|]. split.
  - intros f Hf. rewrite fe_own in Hf. apply in_flat_map in Hf as (e & He & Hf).
    destruct (one_level_flat e (Hes e He)) as (ds & Hpl & E1 & _ & _). rewrite E1 in Hf.
    apply fields_of_in in Hf as (d & Hd & <-). rewrite forallb_forall in Hpl. apply Hpl. exact Hd.
  - intros q Hq. rewrite fe_ownp in Hq. apply in_flat_map in Hq as (e & He & Hq).
    destruct (one_level_flat e (Hes e He)) as (ds & Hpl & _ & E2 & _). rewrite E2 in Hq.
    apply pats_of_in in Hq as (d & Hd & <-). rewrite forallb_forall in Hpl. apply Hpl. exact Hd.
Qed.

Lemma f_closers_app a b : f_closers (flat_app a b) = f_closers a ++ f_closers b.
Proof. reflexivity. Qed.

Lemma closers_single r e :
  n_closers (flat_all [mkConj r [e]]) =
  (if r && own_lit e then [al_union (declared e) al_empty] else []) ++ f_closers (flatten r al_empty e).
Proof.
  cbn [flat_all fold_right nflat_app n_closers nflat_empty]. rewrite app_nil_r.
  unfold flat_conj. cbn [n_closers c_rec c_exprs existsb flat_exprs fold_right all_declared].
  rewrite orb_false_r, f_closers_app, app_nil_r. reflexivity.
Qed.

Lemma allowed_single a l : allowed [a] l = is_special l || allows a l.
Proof. unfold allowed. cbn [forallb]. rewrite andb_true_r. reflexivity. Qed.

Lemma allows_decls_declared ds l :
  allows (decls_declared ds) l = existsb (fun d => allows (decl_declared d) l) ds.
Proof.
  induction ds as [|d ds IH]; cbn [decls_declared fold_right existsb]; [apply allows_empty|].
  fold (decls_declared ds). rewrite allows_union, IH. reflexivity.
Qed.

(* every embedding of the literal is a definition whose body is a literal without embeddings *)
Definition def_embeds (ds : list (dhead * expr)) : bool :=
  forallb (fun d => match d with
                    | (HEmbed, ERefDef (EStruct ds0)) => embed_free ds0
                    | (HEmbed, _) => false
                    | _ => true
                    end) ds.

Lemma f_closers_if (m : bool) a b r :
  f_closers (if m then flat_app a r else flat_app b r) = f_closers (if m then a else b) ++ f_closers r.
Proof. destruct m; reflexivity. Qed.

(* an embedded definition with a literal body gives one closer, whether or not it merges with the
   enclosing literal: what it declares, widened by [ex] *)
Lemma embedded_def_closers (rec merge : bool) ex ds0 :
  embed_free ds0 = true ->
  f_closers (if merge then with_closer (al_union (declared (EStruct ds0)) ex) (flatten true ex (EStruct ds0))
             else flatten rec ex (ERefDef (EStruct ds0))) =
  [al_union (declared (EStruct ds0)) ex].
Proof.
  intros H. destruct merge; [|rewrite flatten_refdef]; cbn [with_closer f_closers seal];
    rewrite (flatten_embed_free _ _ ds0 H); reflexivity.
Qed.

(* d: the embedded definition declares l; b, x, e: [before], a later declaration, [extra] do; f: no
   embedding follows.  The closer of this embedding allows l iff one of d, b, x, e; so do the closers
   of the later embeddings, if there are any. *)
Lemma closer_absorbs d b x e f : (d || (b || x || e)) && (f || (b || d || x || e)) = b || (d || x) || e.
Proof. destruct d, b, x, e, f; reflexivity. Qed.

(* Each embedded definition brings one closer: what it declares, widened by what all the OTHER
   declarations of the literal declare (the ones before it, the ones after it) and by [extra].
   So every closer of the literal allows exactly what the literal as a whole declares. *)
Lemma lit_go_closers rec merge extra l ds : forall before,
  def_embeds ds = true ->
  forallb (fun a => allows a l) (f_closers (lit_go rec merge extra before ds)) =
  embed_free ds || (allows before l || existsb (fun d => allows (decl_declared d) l) ds || allows extra l).
Proof.
  induction ds as [|[h e] ds IH]; intros before W; [reflexivity|].
  cbn [def_embeds forallb] in W. apply andb_true_iff in W as [Wh Wr]. fold (def_embeds ds) in Wr.
  cbn [lit_go embed_free forallb existsb fst is_embed]. fold (embed_free ds).
  destruct h as [l0 k|p| |]; cbv zeta.
  (* a field, a pattern, an ellipsis: no closer; what it declares joins [before] for the rest *)
  - rewrite f_closers_app. cbn [f_closers app negb andb]. rewrite (IH _ Wr), allows_union, !orb_assoc. reflexivity.
  - rewrite f_closers_app. cbn [f_closers app negb andb]. rewrite (IH _ Wr), allows_union, !orb_assoc. reflexivity.
  - rewrite f_closers_app. cbn [f_closers app negb andb]. rewrite (IH _ Wr), allows_union, !orb_assoc. reflexivity.
  (* an embedded definition: its closer, then those of the rest *)
  - destruct e as [| | | | | |[| | | |ds0| |]]; try discriminate Wh.
    rewrite f_closers_if, (embedded_def_closers _ _ _ ds0 Wh). cbn [app forallb].
    rewrite (IH _ Wr), !allows_union, allows_decls_declared.
    unfold decl_declared. cbn [fst snd is_embed negb andb orb].
    change (declared (ERefDef (EStruct ds0))) with (declared (EStruct ds0)).
    apply closer_absorbs.
Qed.

(* which labels a literal with embedded definitions admits: with at least one embedding, exactly
   what the literal declares, through its embeddings and by its own declarations *)
Theorem def_embeds_allowed ds l :
  def_embeds ds = true ->
  allowed (n_closers (flat_all [mkConj false [EStruct ds]])) l =
  is_special l || embed_free ds || existsb (fun d => allows (decl_declared d) l) ds.
Proof.
  intros W. rewrite closers_single, flatten_struct_eq. cbv zeta. cbn [andb app].
  set (sealed := negb false && _ && _). unfold allowed. rewrite <- orb_assoc. f_equal.
  transitivity (forallb (fun a => allows a l) (f_closers (lit_go false (false || sealed) al_empty al_empty ds))).
  - destruct sealed; reflexivity.
  - rewrite (lit_go_closers _ _ _ l ds al_empty W), !allows_empty, orb_false_r. reflexivity.
Qed.

Definition embed_lit (pre : list (dhead * expr)) (ds0 : list (dhead * expr)) (post : list (dhead * expr)) : expr :=
  EStruct (pre ++ (HEmbed, ERefDef (EStruct ds0)) :: post).

Lemma embed_free_def_embeds ds : embed_free ds = true -> def_embeds ds = true.
Proof.
  unfold embed_free, def_embeds. intros H. rewrite forallb_forall in *. intros [h e] Hd. specialize (H _ Hd).
  destruct h; try reflexivity. discriminate H.
Qed.

(* the literal {pre..., #E, post...}: what #E declares and what the literal's own declarations
   declare - nothing else *)
Theorem embedding_widens pre ds0 post l :
  embed_free pre = true -> embed_free post = true -> embed_free ds0 = true ->
  allowed (n_closers (flat_all [mkConj false [embed_lit pre ds0 post]])) l =
  is_special l || allows (declared (EStruct ds0)) l ||
  existsb (fun d => allows (decl_declared d) l) (pre ++ post).
Proof.
  intros Hpre Hpost H0. unfold embed_lit. rewrite def_embeds_allowed.
  - unfold embed_free. rewrite forallb_app, !existsb_app. cbn [forallb existsb fst is_embed negb andb].
    rewrite andb_false_r. unfold decl_declared at 2. cbn [fst snd orb declared].
    destruct (is_special l), (existsb _ pre), (allows _ l), (existsb _ post); reflexivity.
  - unfold def_embeds. rewrite forallb_app. cbn [forallb]. fold (def_embeds pre) (def_embeds post).
    rewrite (embed_free_def_embeds pre Hpre), (embed_free_def_embeds post Hpost), H0. reflexivity.
Qed.

(* the closers of further conjuncts only restrict *)
Lemma allowed_cons g cs l :
  allowed (n_closers (flat_all (g :: cs))) l =
  allowed (n_closers (flat_all [g])) l && allowed (n_closers (flat_all cs)) l.
Proof.
  cbn [flat_all fold_right nflat_app n_closers nflat_empty]. rewrite app_nil_r, allowed_app. unfold allowed.
  destruct (is_special l), (forallb _ (n_closers (flat_conj g))), (forallb _ _); reflexivity.
Qed.

Lemma ellipsis_declared_open ds x l : In (HEllipsis, x) ds -> allows (declared (EStruct ds)) l = true.
Proof.
  intros H. rewrite allows_declared_struct. apply existsb_exists. exists (HEllipsis, x). split; [exact H|].
  reflexivity.
Qed.

(* errors are monotone: more conjuncts never repair a failing unification *)
Section Monotone.
  Variable labs : list label.
  Variable atoms : list atom.

  Theorem evalFlat_err_mono fuel : forall fl fl',
    nle fl fl' -> res_err (evalFlat labs atoms fuel fl) = true -> res_err (evalFlat labs atoms fuel fl') = true.
  Proof.
    unfold res_err. induction fuel as [|f IH]; intros fl fl' Q; [auto|]. cbn [evalFlat].
    destruct (n_bot fl') eqn:Eb'; [reflexivity|].
    destruct (n_bot fl) eqn:Eb; [rewrite (Q ABot Eb) in Eb'; discriminate|].
    destruct (n_struct fl') eqn:Es'.
    - cbn [andb]. destruct (null (n_scal fl')) eqn:En'; [|reflexivity]. cbn [negb].
      assert (En : n_scal fl = []).
      { pose proof (fun c => Q (AScal c)) as I. cbn [shows] in I. destruct (n_scal fl') ; [|discriminate].
        destruct (n_scal fl) as [|c r]; [reflexivity|]. destruct (I c (or_introl eq_refl)). }
      rewrite En. cbn [null negb andb]. rewrite andb_false_r.
      destruct (n_struct fl) eqn:Es.
      + cbn [res_err_aux]. rewrite !existsb_map. intros E. apply existsb_exists in E as (l & Hl & E).
        apply existsb_exists. exists l. split; [exact Hl|].
        assert (P : presence fl l = PRegular \/ presence fl l = PRequired)
          by (destruct (presence fl l); cbn [fst] in E; try discriminate; auto).
        assert (P' : presence fl' l = PRegular \/ presence fl' l = PRequired).
        { unfold presence in *.
          destruct (has_field fl l FRegular) eqn:H1.
          - rewrite (has_field_nle _ _ _ _ Q H1). auto.
          - destruct (has_field fl l FRequired) eqn:H2.
            + rewrite (has_field_nle _ _ _ _ Q H2). destruct (has_field fl' l FRegular); auto.
            + destruct (has_field fl l FOptional); destruct P; discriminate. }
        assert (V : res_err_aux (if allowed (n_closers fl') l
                                 then evalFlat labs atoms f (flat_all (children fl' l)) else RBot) = true).
        { destruct (allowed (n_closers fl') l) eqn:A'; [|reflexivity].
          rewrite (nle_allowed _ _ l Q A') in E.
          apply (IH (flat_all (children fl l))); [apply flat_all_cle, children_cle, Q|].
          destruct P as [P|P]; rewrite P in E; exact E. }
        destruct P' as [P'|P']; rewrite P'; exact V.
      + cbn. discriminate.
    - assert (Es : n_struct fl = false)
        by (destruct (n_struct fl) eqn:X; [rewrite (Q AStruct X) in Es'; discriminate | reflexivity]).
      rewrite Es. cbn [andb].
      destruct (scalar_bottom (n_scal fl)) eqn:B; [|cbn; discriminate].
      rewrite (scalar_bottom_incl _ _ (fun c => Q (AScal c)) B). reflexivity.
  Qed.

End Monotone.
