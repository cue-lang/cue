(* CoreCUE: the fragment of CUE on which the evaluator properties (C01, C04,
   C05, ...) are stated.  Disjunction-free expressions; disjunctions are added
   on top in Core/Disj.v.

   - scalars: atoms (int, string, bool, null), basic types, integer bounds
   - &, top, bottom
   - struct literals with regular / optional (?) / required (!) fields,
     pattern constraints, "...", embeddings
   - close(e), and references to definitions, represented as [ERefDef body]
     (the harness inlines the acyclic definition body; the constructor records
     that the body was reached through a definition, which closes recursively)

   Labels and strings are identified by numbers; a pattern constraint is
   represented by the set of regular-label ids it matches (computed by the
   harness with Go's regexp over the label universe of the program, which
   contains a fresh label standing for "any other label"). *)
From Coq Require Export List ZArith NArith Bool.
Export ListNotations.

Inductive label := LReg (s : N) | LHid (s : N) | LDef (s : N).

Inductive fkind := FRegular | FRequired | FOptional.

Inductive atom := AInt (z : Z) | AStr (s : N) | ABool (b : bool) | ANull.

Inductive skind := KInt | KStr | KBool | KNull | KStruct | KFloat.

Inductive sconstr :=
| SAtom (a : atom)
| SKind (k : skind)          (* int, string, bool, null *)
| SGt (z : Z) | SGe (z : Z) | SLt (z : Z) | SLe (z : Z) | SNe (z : Z).  (* bounds with an int operand *)

Inductive dhead :=
| HField (l : label) (k : fkind)
| HPattern (p : list N)      (* ids of the regular labels the pattern matches *)
| HEllipsis
| HEmbed.

Inductive expr :=
| ETop
| EBot
| EScalar (c : sconstr)
| EAnd (a b : expr)
| EStruct (ds : list (dhead * expr))   (* HEllipsis carries a dummy ETop *)
| EClose (e : expr)
| ERefDef (e : expr).

(* a conjunct group: the expressions that one closedness scope contributes to a
   node, plus whether that scope is a definition (closed recursively).  The
   top-level declarations of a field are singleton groups with c_rec = false;
   all the values a definition body gives to a field (field declarations and
   matching patterns) form ONE group with c_rec = true and are closed together. *)
Record conj := mkConj { c_rec : bool; c_exprs : list expr }.

Definition label_eqb (a b : label) : bool :=
  match a, b with
  | LReg x, LReg y | LHid x, LHid y | LDef x, LDef y => N.eqb x y
  | _, _ => false
  end.

Lemma label_eqb_eq a b : label_eqb a b = true <-> a = b.
Proof.
  destruct a, b; simpl; rewrite ?N.eqb_eq; split; congruence.
Qed.

Lemma label_eqb_refl l : label_eqb l l = true.
Proof. apply label_eqb_eq. reflexivity. Qed.

Definition atom_eqb (a b : atom) : bool :=
  match a, b with
  | AInt x, AInt y => Z.eqb x y
  | AStr x, AStr y => N.eqb x y
  | ABool x, ABool y => Bool.eqb x y
  | ANull, ANull => true
  | _, _ => false
  end.

Lemma atom_eqb_eq a b : atom_eqb a b = true <-> a = b.
Proof.
  destruct a, b; simpl; rewrite ?Z.eqb_eq, ?N.eqb_eq, ?eqb_true_iff; split; congruence.
Qed.

Lemma atom_eqb_refl a : atom_eqb a a = true.
Proof. apply atom_eqb_eq. reflexivity. Qed.

Definition skind_eqb (a b : skind) : bool :=
  match a, b with
  | KInt, KInt | KStr, KStr | KBool, KBool | KNull, KNull | KStruct, KStruct | KFloat, KFloat => true
  | _, _ => false
  end.

Definition is_special (l : label) : bool :=
  match l with LReg _ => false | _ => true end.

(* scalar satisfaction (the set semantics) *)
Definition atom_kind (a : atom) : skind :=
  match a with AInt _ => KInt | AStr _ => KStr | ABool _ => KBool | ANull => KNull end.

Definition ssat (a : atom) (c : sconstr) : bool :=
  match c with
  | SAtom b => atom_eqb a b
  | SKind k => skind_eqb (atom_kind a) k
  | SGt z => match a with AInt x => Z.ltb z x | _ => false end
  | SGe z => match a with AInt x => Z.leb z x | _ => false end
  | SLt z => match a with AInt x => Z.ltb x z | _ => false end
  | SLe z => match a with AInt x => Z.leb x z | _ => false end
  | SNe z => match a with AInt x => negb (Z.eqb x z) | _ => false end
  end.

(* kinds a constraint admits (struct never) *)
Definition sc_kind_ok (k : skind) (c : sconstr) : bool :=
  match c with
  | SAtom a => skind_eqb (atom_kind a) k
  | SKind k' => skind_eqb k' k
  | _ => skind_eqb KInt k || skind_eqb KFloat k   (* a bound with a numeric operand admits any number *)
  end.

Definition all_kinds : list skind := [KInt; KStr; KBool; KNull; KStruct; KFloat].
