(* Correctness of the model of cycle.go: checkCycle reports an error iff the
   dependency graph has a cycle, and the fuel used by the controller model is
   always sufficient. *)
From Verif Require Import Flow.Model.
From Coq Require Import List Bool Arith PeanoNat Lia.
Import ListNotations.

Lemma mem_In : forall x l, mem x l = true <-> In x l.
Proof.
  intros x l. unfold mem. rewrite existsb_exists. split.
  - intros [y [Hy E]]. apply Nat.eqb_eq in E. subst. exact Hy.
  - intros H. exists x. split; auto. apply Nat.eqb_refl.
Qed.

Lemma mem_false : forall x l, mem x l = false <-> ~ In x l.
Proof.
  intros x l. rewrite <- mem_In. destruct (mem x l); split; intros; congruence.
Qed.

Section Cycle.
  Variable dp : nat -> list nat.

  (* a non-empty walk along dependency edges *)
  Inductive path : nat -> nat -> Prop :=
  | path1 : forall x y, In y (dp x) -> path x y
  | pathS : forall x z y, In z (dp x) -> path z y -> path x y.

  Lemma path_trans : forall x y z, path x y -> path y z -> path x z.
  Proof.
    intros x y z H. induction H; intros H2.
    - eapply pathS; eauto.
    - eapply pathS; eauto.
  Qed.

  Lemma path_inv : forall x y, path x y -> exists d, In d (dp x) /\ (d = y \/ path d y).
  Proof. intros x y H. inversion H; subst; eauto. Qed.

  Definition has_cycle (ts : list nat) : Prop := exists t, In t ts /\ path t t.

  (* the tasks of ts only depend on tasks of ts *)
  Definition closed (ts : list nat) : Prop := forall x, In x ts -> incl (dp x) ts.

  Lemma path_closed : forall ts, closed ts -> forall x y, path x y -> In x ts -> In y ts.
  Proof.
    intros ts Hc x y H. induction H; intros Hx.
    - apply (Hc x Hx); auto.
    - apply IHpath. apply (Hc x Hx); auto.
  Qed.

  (* the loop of isCyclic over t.depTasks, with [st'] the stack including t *)
  Definition scan (f : nat) (st' : list nat) : list nat -> option bool :=
    fix scan (ds : list nat) : option bool :=
      match ds with
      | [] => Some false
      | d :: r =>
        if mem d st' then Some true
        else match is_cyclic dp f st' d with
             | Some true => Some true
             | Some false => scan r
             | None => None
             end
      end.

  Lemma is_cyclic_S : forall f st t, is_cyclic dp (S f) st t = scan f (t :: st) (dp t).
  Proof. reflexivity. Qed.

  (* isCyclic returns true only if a dependency path from t leads back onto the
     stack (t included) or into a cycle *)
  Lemma is_cyclic_sound : forall f st t,
    is_cyclic dp f st t = Some true ->
    exists y, path t y /\ (In y (t :: st) \/ path y y).
  Proof.
    induction f as [|f IH]; intros st t H; [discriminate|].
    rewrite is_cyclic_S in H.
    assert (G : forall ds, incl ds (dp t) -> scan f (t :: st) ds = Some true ->
                exists y, path t y /\ (In y (t :: st) \/ path y y)).
    { induction ds as [|d r IHr]; intros Hin Hs; [discriminate|].
      assert (Hd : In d (dp t)) by (apply Hin; left; auto).
      assert (Hr : incl r (dp t)) by (intros z Hz; apply Hin; right; auto).
      cbn [scan] in Hs. destruct (mem d (t :: st)) eqn:Em.
      - apply mem_In in Em. exists d. split; [apply path1; auto | left; auto].
      - destruct (is_cyclic dp f (t :: st) d) as [[|]|] eqn:Ec; try discriminate.
        + destruct (IH _ _ Ec) as [y [Hp [Hy | Hy]]].
          * destruct Hy as [Hy | Hy].
            -- subst y. exists d. split; [apply path1; auto | right; auto].
            -- exists y. split; [eapply pathS; eauto | left; auto].
          * exists y. split; [eapply pathS; eauto | right; auto].
        + apply IHr; auto. }
    apply (G (dp t)); auto. apply incl_refl.
  Qed.

  (* isCyclic returns false only if no dependency path from t leads back onto the
     stack or into a cycle *)
  Lemma is_cyclic_complete : forall f st t,
    is_cyclic dp f st t = Some false ->
    forall y, path t y -> ~ In y (t :: st) /\ ~ path y y.
  Proof.
    induction f as [|f IH]; intros st t H; [discriminate|].
    rewrite is_cyclic_S in H.
    assert (G : forall ds, scan f (t :: st) ds = Some false ->
      forall d, In d ds -> ~ In d (t :: st) /\ is_cyclic dp f (t :: st) d = Some false).
    { induction ds as [|d r IHr]; intros Hs d' Hd'; [destruct Hd'|].
      cbn [scan] in Hs. destruct (mem d (t :: st)) eqn:Em; [discriminate|].
      destruct (is_cyclic dp f (t :: st) d) as [[|]|] eqn:Ec; try discriminate.
      destruct Hd' as [-> | Hd'].
      - split; auto. apply mem_false; auto.
      - apply IHr; auto. }
    specialize (G _ H).
    intros y Hp. apply path_inv in Hp. destruct Hp as [d [Hd Hy]].
    destruct (G d Hd) as [Hnd Hcd].
    pose proof (IH _ _ Hcd) as Hall.
    destruct Hy as [-> | Hy].
    - split; auto. intros Hc. destruct (Hall y Hc) as [Hn _]. apply Hn. left; auto.
    - destruct (Hall y Hy) as [Hn1 Hn2]. split; auto.
      intros Hi. apply Hn1. right; auto.
  Qed.

  (* the recursion depth is bounded by the number of tasks not on the stack *)
  Lemma is_cyclic_fuel : forall ts, closed ts -> forall f st t,
    NoDup (t :: st) -> incl (t :: st) ts -> length ts <= f + length st ->
    is_cyclic dp f st t <> None.
  Proof.
    intros ts Hc. induction f as [|f IH]; intros st t Hnd Hin Hlen.
    - exfalso. pose proof (NoDup_incl_length Hnd Hin) as L. simpl in L, Hlen. lia.
    - rewrite is_cyclic_S.
      assert (G : forall ds, incl ds ts -> scan f (t :: st) ds <> None).
      { induction ds as [|d r IHr]; intros Hds; [discriminate|].
        cbn [scan]. destruct (mem d (t :: st)) eqn:Em; [discriminate|].
        apply mem_false in Em.
        assert (Hne : is_cyclic dp f (t :: st) d <> None).
        { apply IH.
          - constructor; auto.
          - intros z [<- | Hz]; [apply Hds; left; auto | apply Hin; auto].
          - simpl. simpl in Hlen. lia. }
        destruct (is_cyclic dp f (t :: st) d) as [[|]|]; try congruence.
        apply IHr. intros z Hz. apply Hds. right; auto. }
      apply G. apply Hc. apply Hin. left; auto.
  Qed.

  (* checkCycle stops at the first task for which isCyclic does not return false *)
  Lemma check_cycle_from_spec : forall f ts,
    match check_cycle_from dp f ts with
    | Some false => forall t, In t ts -> is_cyclic dp f [] t = Some false
    | r => exists t, In t ts /\ is_cyclic dp f [] t = r
    end.
  Proof.
    induction ts as [|t r IH]; cbn [check_cycle_from]; [intros t []|].
    destruct (is_cyclic dp f [] t) as [[|]|] eqn:E; try (exists t; split; [left|]; auto).
    destruct (check_cycle_from dp f r) as [[|]|]; try (destruct IH as [u [Hu Eu]]; exists u; split; [right|]; auto).
    intros u [<- | Hu]; auto.
  Qed.

  (* fuel sufficiency: with one unit of fuel per task (the controller model uses
     one more) the checker always returns an answer *)
  Theorem check_cycle_fuel_sufficient : forall ts f,
    closed ts -> length ts <= f -> check_cycle_from dp f ts <> None.
  Proof.
    intros ts f Hc Hf H. pose proof (check_cycle_from_spec f ts) as Sp. rewrite H in Sp.
    destruct Sp as [t [Ht E]]. revert E. apply (is_cyclic_fuel ts Hc).
    - constructor; [intros []| constructor].
    - intros z [<- | []]. auto.
    - simpl. lia.
  Qed.

  (* with any sufficient fuel an error is reported iff there is a cycle *)
  Theorem check_cycle_from_correct : forall ts f, closed ts -> length ts <= f ->
    (check_cycle_from dp f ts = Some true /\ has_cycle ts) \/
    (check_cycle_from dp f ts = Some false /\ ~ has_cycle ts).
  Proof.
    intros ts f Hc Hf. pose proof (check_cycle_from_spec f ts) as Sp.
    destruct (check_cycle_from dp f ts) as [[|]|] eqn:E.
    - left. split; auto. destruct Sp as [t [Ht Ec]].
      apply is_cyclic_sound in Ec. destruct Ec as [y [Hp [[<- | []] | Hy]]].
      + exists t. split; auto.
      + exists y. split; auto. apply (path_closed ts Hc t y Hp Ht).
    - right. split; auto. intros [t [Ht Hp]].
      apply (proj2 (is_cyclic_complete _ _ _ (Sp t Ht) t Hp)). exact Hp.
    - exfalso. revert E. apply check_cycle_fuel_sufficient; auto.
  Qed.

  (* with the fuel the controller model uses *)
  Theorem check_cycle_correct : forall ts, closed ts ->
    (check_cycle dp ts = Some true /\ has_cycle ts) \/
    (check_cycle dp ts = Some false /\ ~ has_cycle ts).
  Proof. intros ts Hc. apply check_cycle_from_correct; auto. Qed.

  Corollary check_cycle_false_iff : forall ts, closed ts ->
    (check_cycle dp ts = Some false <-> ~ has_cycle ts).
  Proof.
    intros ts Hc. destruct (check_cycle_correct ts Hc) as [[-> H] | [-> H]]; split; intros; auto.
    - discriminate.
    - contradiction.
  Qed.
End Cycle.

(* paths are monotone in the edge relation; the checker depends only on the
   extension of [dp] *)
Lemma path_incl : forall dp dp', (forall x y, In y (dp x) -> In y (dp' x)) ->
  forall x y, path dp x y -> path dp' x y.
Proof. intros dp dp' E x y H. induction H; [apply path1 | eapply pathS]; eauto. Qed.

Lemma has_cycle_ext : forall dp dp' ts, (forall x, dp x = dp' x) ->
  has_cycle dp ts -> has_cycle dp' ts.
Proof.
  intros dp dp' ts E [t [Ht Hp]]. exists t. split; auto.
  apply (path_incl dp); auto. intros x y. rewrite E. auto.
Qed.

Lemma is_cyclic_ext : forall dp dp', (forall x, dp x = dp' x) ->
  forall f st t, is_cyclic dp f st t = is_cyclic dp' f st t.
Proof.
  intros dp dp' E. induction f as [|f IH]; intros st t; auto.
  rewrite !is_cyclic_S, <- E. induction (dp t) as [|d r IHr]; auto.
  cbn [scan]. rewrite IH, IHr. reflexivity.
Qed.

Lemma check_cycle_ext : forall dp dp' ts, (forall x, dp x = dp' x) ->
  check_cycle dp ts = check_cycle dp' ts.
Proof.
  intros dp dp' ts E. unfold check_cycle. generalize (S (length ts)) as f. intros f.
  induction ts as [|t r IH]; auto. cbn [check_cycle_from].
  rewrite (is_cyclic_ext dp dp' E), IH. reflexivity.
Qed.
