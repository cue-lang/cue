(* The discovery of Flow/Discover.v reports only tasks that a chain of references leads to
   ([Reach]), and never more than the Spec reading; the workflow [wf_of_run] built from a run
   reproduces the accumulated discoveries as activations in the sense of Model.act. *)
From Coq Require Import List Bool Arith PeanoNat Lia.
Import ListNotations.
From Verif Require Import Flow.Model Flow.CycleProofs Flow.Ops Flow.Discover.

Inductive Reach (cfg : config) (res : list nat) : fpath -> nat -> Prop :=
| R_task : forall r d, task_at cfg res r = Some d -> Reach cfg res r d
| R_via : forall r r' d,
    task_at cfg res r = None ->
    In r' (snd (next cfg res r)) ->
    Reach cfg res r' d ->
    Reach cfg res r d.

(* task t refers to task d in the configuration with results res *)
Definition Refers (cfg : config) (res : list nat) (t d : nat) : Prop :=
  d <> t /\
  exists e r, In e cfg /\ active res e = true /\ is_task_id t e = true /\
              In r (item_refs (e_item e)) /\ Reach cfg res r d.

Lemma reach_sound : forall fuel cfg res vis r d,
  In d (reach fuel cfg res vis r) -> Reach cfg res r d.
Proof.
  induction fuel as [|f IH]; intros cfg res vis r d H; cbn [reach] in H.
  - contradiction.
  - destruct (task_at cfg res r) as [d'|] eqn:E.
    + destruct H as [->|[]]. now apply R_task.
    + destruct (memp (fst (next cfg res r)) vis); [contradiction|].
      apply in_flat_map in H. destruct H as [r' [Hin Hd]].
      eapply R_via; eauto.
Qed.

Theorem discover_sound : forall fuel cfg res t d,
  In d (discover fuel cfg res t) -> Refers cfg res t d.
Proof.
  intros fuel cfg res t d H. unfold discover in H.
  destruct (find _ cfg) as [e|] eqn:E; [|contradiction].
  apply find_some in E. destruct E as [Hin Hb].
  apply andb_true_iff in Hb. destruct Hb as [Ha Ht].
  apply filter_In in H. destruct H as [H Hne].
  apply negb_true_iff, Nat.eqb_neq in Hne.
  apply in_flat_map in H. destruct H as [r [Hr Hd]].
  split; [exact Hne|].
  exists e, r. repeat split; auto. eapply reach_sound; eauto.
Qed.

(* a task never depends on itself (addDep) *)
Theorem discover_irrefl : forall fuel cfg res t, ~ In t (discover fuel cfg res t).
Proof.
  intros fuel cfg res t H. apply discover_sound in H. destruct H as [H _]. now apply H.
Qed.

(* the implementation's discovery never finds more than the Spec asks for *)
Lemma reach_incl_spec : forall fuel cfg res vis r d,
  In d (reach fuel cfg res vis r) -> In d (reach_spec fuel cfg res vis r).
Proof.
  induction fuel as [|f IH]; intros cfg res vis r d H; cbn [reach reach_spec] in *.
  - contradiction.
  - destruct (task_at cfg res r); [exact H|].
    destruct (memp (fst (next cfg res r)) vis); [contradiction|].
    apply in_or_app. right.
    apply in_flat_map in H. destruct H as [r' [Hin Hd]].
    apply in_flat_map. exists r'. split; auto.
Qed.

(* [first_idx] finds the first configuration of a run with a given property; read as
   an activation ([act_of_idx]) it is visible from that configuration on *)

Lemma find_seq_some : forall (p : nat -> bool) n a j,
  find p (seq a n) = Some j ->
  a <= j < a + n /\ p j = true /\ forall i, a <= i < j -> p i = false.
Proof.
  induction n as [|n IH]; intros a j H; cbn in H.
  - discriminate.
  - destruct (p a) eqn:E.
    + inversion H; subst. repeat split; try lia; auto.
    + apply IH in H. destruct H as [Hr [Hp Hm]]. repeat split; try lia; auto.
      intros i Hi. destruct (Nat.eq_dec i a) as [->|Hne]; [exact E|]. apply Hm. lia.
Qed.

Lemma find_seq_none : forall (p : nat -> bool) n a,
  find p (seq a n) = None -> forall i, a <= i < a + n -> p i = false.
Proof. intros p n a H i Hi. apply (find_none _ _ H). apply in_seq. exact Hi. Qed.

Lemma nodup_nth_firstn : forall (cs : list nat) k j,
  NoDup cs -> k < length cs -> (In (nth k cs 0) (firstn j cs) <-> k < j).
Proof.
  induction cs as [|a cs IH]; intros k j Hnd Hk; cbn in Hk.
  - lia.
  - inversion Hnd as [|x l Hnin Hnd']; subst.
    destruct j as [|j]; cbn [firstn].
    + split; [intros []|lia].
    + destruct k as [|k]; cbn [nth].
      * split; [lia|]. intros _. now left.
      * split.
        -- intros [Heq|Hin].
           ++ exfalso. apply Hnin. rewrite Heq. apply nth_In. lia.
           ++ apply IH in Hin; auto; lia.
        -- intros Hlt. right. apply IH; auto; lia.
Qed.

Lemma act_of_idx_spec : forall cs j0 j,
  NoDup cs -> j0 <= length cs ->
  (act (firstn j cs) (act_of_idx cs j0) = true <-> j0 <= j).
Proof.
  intros cs j0 j Hnd Hj0. destruct j0 as [|k]; cbn [act_of_idx act].
  - split; [lia|reflexivity].
  - rewrite mem_In. rewrite nodup_nth_firstn by (auto; lia). lia.
Qed.

(* [l res] a list computed in the configuration with results [res] *)
Lemma first_idx_act : forall (l : list nat -> list nat) x cs j,
  NoDup cs -> j <= length cs ->
  ((exists j0, first_idx (fun res => mem x (l res)) cs = Some j0 /\
               act (firstn j cs) (act_of_idx cs j0) = true)
   <-> exists i, i <= j /\ In x (l (firstn i cs))).
Proof.
  intros l x cs j Hnd Hj. unfold first_idx. split.
  - intros [j0 [Hf Ha]]. apply find_seq_some in Hf. destruct Hf as [Hr [Hp _]].
    apply act_of_idx_spec in Ha; auto; try lia. exists j0. split; auto. now apply mem_In.
  - intros [i [Hi Hfi]]. apply mem_In in Hfi.
    destruct (find (fun j1 => mem x (l (firstn j1 cs))) (seq 0 (S (length cs)))) as [j0|] eqn:E.
    + exists j0. split; [reflexivity|].
      pose proof (find_seq_some _ _ _ _ E) as [Hr [Hp Hm]].
      apply act_of_idx_spec; auto; try lia.
      destruct (le_lt_dec j0 i) as [Hle|Hlt]; [lia|].
      rewrite (Hm i) in Hfi by lia. discriminate.
    + pose proof (find_seq_none _ _ _ E i) as Hn. cbn beta in Hn.
      rewrite Hn in Hfi by lia. discriminate.
Qed.

Lemma nth_error_map_seq : forall (A : Type) (f : nat -> A) n t,
  t < n -> nth_error (map f (seq 0 n)) t = Some (f t).
Proof.
  intros A f n t H. apply map_nth_error.
  rewrite (nth_error_nth' _ 0) by (rewrite seq_length; exact H).
  rewrite seq_nth by exact H. reflexivity.
Qed.

Lemma wf_of_run_length : forall cfg cs, length (wf_of_run cfg cs) = ntasks cfg.
Proof. intros. unfold wf_of_run. now rewrite map_length, seq_length. Qed.

Lemma deps_wf_of_run : forall cfg cs t,
  t < ntasks cfg -> deps (wf_of_run cfg cs) t = run_deps cfg cs t.
Proof.
  intros cfg cs t H. unfold deps, wf_of_run. now rewrite nth_error_map_seq.
Qed.

Lemma trig_wf_of_run : forall cfg cs t,
  t < ntasks cfg -> trig (wf_of_run cfg cs) t = run_trig cfg cs t.
Proof.
  intros cfg cs t H. unfold trig, wf_of_run. now rewrite nth_error_map_seq.
Qed.

(* the references of task t in the workflow of a run: every task that some
   configuration of the run discovers for t, activated at the first such configuration *)
Lemma run_deps_In : forall cfg cs t d a,
  In (d, a) (run_deps cfg cs t) <->
  d < ntasks cfg /\
  exists j0, first_idx (fun res => mem d (discover (dfuel cfg) cfg res t)) cs = Some j0 /\
             a = act_of_idx cs j0.
Proof.
  intros cfg cs t d a. unfold run_deps. rewrite in_flat_map. split.
  - intros [d' [Hs Hin]]. apply in_seq in Hs.
    destruct (first_idx _ cs) as [j0|] eqn:E; [|contradiction].
    destruct Hin as [Heq|[]]. inversion Heq; subst. split; [lia|]. eauto.
  - intros [Hd [j0 [E ->]]]. exists d. split; [apply in_seq; lia|]. rewrite E. now left.
Qed.

(* The dependency sets the controller model computes from the workflow of a run are
   exactly the ACCUMULATED discoveries (addDep never removes) over the configurations
   the run went through. *)
Theorem kdeps_wf_of_run : forall cfg cs j t d,
  NoDup cs -> j <= length cs -> t < ntasks cfg ->
  (In d (kdeps (wf_of_run cfg cs) (firstn j cs) t) <->
   d <> t /\ d < ntasks cfg /\
   exists i, i <= j /\ In d (discover (dfuel cfg) cfg (firstn i cs) t)).
Proof.
  intros cfg cs j t d Hnd Hj Ht. rewrite kdeps_In, deps_wf_of_run by exact Ht.
  pose proof (first_idx_act (fun res => discover (dfuel cfg) cfg res t) d cs j Hnd Hj) as F.
  split.
  - intros [a [Hin [Hne Hact]]]. apply run_deps_In in Hin. destruct Hin as [Hd [j0 [E ->]]].
    split; auto. split; auto. apply F. eauto.
  - intros [Hne [Hd Hi]]. destruct (proj2 F Hi) as [j0 [Hf Ha]].
    exists (act_of_idx cs j0). split; auto. apply run_deps_In. eauto.
Qed.

(* a task exists for the controller model exactly from the first configuration of the
   run that contains it *)
Theorem trig_wf_of_run_active : forall cfg cs j t,
  NoDup cs -> j <= length cs -> t < ntasks cfg ->
  (In t cs -> exists i, i <= length cs /\ In t (tasks_at cfg (firstn i cs))) ->
  (act (firstn j cs) (trig (wf_of_run cfg cs) t) = true <->
   exists i, i <= j /\ In t (tasks_at cfg (firstn i cs))).
Proof.
  intros cfg cs j t Hnd Hj Ht Hex. rewrite trig_wf_of_run by exact Ht. unfold run_trig.
  pose proof (first_idx_act (tasks_at cfg) t cs j Hnd Hj) as HF.
  destruct (first_idx (fun res => mem t (tasks_at cfg res)) cs) as [j0|] eqn:E.
  - rewrite <- HF. split; [eauto|]. intros [j1 [Hj1 Ha]]. inversion Hj1; subst. exact Ha.
  - split.
    + (* t completed, hence exists in some configuration of the run: first_idx finds one *)
      intros Ha. cbn [act] in Ha. apply mem_In in Ha.
      assert (Hin : In t cs) by (rewrite <- (firstn_skipn j cs); apply in_or_app; now left).
      destruct (proj2 (first_idx_act (tasks_at cfg) t cs (length cs) Hnd (le_n _)) (Hex Hin))
        as [j1 [Hj1 _]].
      rewrite E in Hj1. discriminate.
    + intros Hi. destruct (proj2 HF Hi) as [j1 [Hj1 _]]. discriminate.
Qed.

Lemma discovered_in_run_deps : forall cfg cs t d i,
  i <= length cs -> d < ntasks cfg ->
  In d (discover (dfuel cfg) cfg (firstn i cs) t) ->
  exists a, In (d, a) (run_deps cfg cs t).
Proof.
  intros cfg cs t d i Hi Hd Hin.
  destruct (first_idx (fun res => mem d (discover (dfuel cfg) cfg res t)) cs) as [j0|] eqn:E.
  - exists (act_of_idx cs j0). apply run_deps_In. eauto.
  - exfalso. pose proof (find_seq_none _ _ _ E i) as Hn. cbn beta in Hn.
    apply mem_In in Hin. rewrite Hn in Hin by lia. discriminate.
Qed.

(* the configuration and the execution that refute the Spec reading of a reference to
   an enclosing struct (Properties/C18.v, C18_enclosing_reference_refuted):
   root: { t0: task; g0: { t1: task {d: t0.out} }; t2: task {e: g0} } *)
Definition encl_cfg : config :=
  [ mkEntry [0; 100] None (ITask 0 []);
    mkEntry [0; 200; 101] None (ITask 1 [[0; 100; 1]]);
    mkEntry [0; 102] None (ITask 2 [[0; 200]]) ].

Definition encl_tr : list label :=
  [Dispatch 0; Complete 0 true; Dispatch 1; Dispatch 2; Complete 2 true].

(* root: { t0: task (spawns t1, t2 into mid0); mid0: {t1: task; t2: task {d: t5.out}};
           t5: task; t3: task {e: mid0}; t4: task {d: mid0.t1.out}; a1: mid0.t2.out;
           t6: task {d: a1}; t7: task {for k, x in mid0 {(k): x.out}} }  (harness --probe) *)
Definition dyn_cfg : config :=
  [ mkEntry [0; 1] None (ITask 0 []);
    mkEntry [0; 2; 3] (Some 0) (ITask 1 []);
    mkEntry [0; 2; 4] (Some 0) (ITask 2 [[0; 5; 11]]);
    mkEntry [0; 5] None (ITask 5 []);
    mkEntry [0; 6] None (ITask 3 [[0; 2]]);
    mkEntry [0; 7] None (ITask 4 [[0; 2; 3; 11]]);
    mkEntry [0; 8] None (IRef [[0; 2; 4; 11]]);
    mkEntry [0; 9] None (ITask 6 [[0; 8]]);
    mkEntry [0; 10] None (ITask 7 [[0; 2]; [0; 2; 3; 11]; [0; 2; 4; 11]]) ].

(* discovery is NOT monotone in the results (a reference into a task that does not exist
   yet is reported on the enclosing struct and leads to the spawning task; once the task
   exists it leads there): the accumulation by addDep matters, wf_of_run keeps it *)
Example ex_discover_dynamic :
  discover (dfuel dyn_cfg) dyn_cfg [] 4 = [0; 0] /\
  discover (dfuel dyn_cfg) dyn_cfg [0] 4 = [1] /\
  tasks_at dyn_cfg [] = [0; 5; 3; 4; 6; 7] /\
  tasks_at dyn_cfg [0] = [0; 1; 2; 5; 3; 4; 6; 7] /\
  kdeps (wf_of_run dyn_cfg [5; 0]) [5; 0] 4 = [0; 1] /\
  kdeps (wf_of_run dyn_cfg [5; 0]) [5; 0] 7 = [0; 1; 2; 5] /\
  kdeps (wf_of_run dyn_cfg [5; 0]) [5; 0] 3 = [0; 5].
Proof. repeat split; vm_compute; reflexivity. Qed.
