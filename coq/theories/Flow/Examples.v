(* Non-vacuity: the hypotheses of the C18 theorems are met by concrete workflows
   and executions, and the side condition of start_after_deps is necessary. *)
From Verif Require Import Flow.Model Flow.CycleProofs Flow.Spec Flow.Ops Flow.Invariant Flow.Proofs.
From Coq Require Import List Bool Arith PeanoNat.
Import ListNotations.

(* 0 <- {1, 2} ; 1 spawns the late task 4 (which refers to 0); 3 waits for 2 and
   for the whole group spawned by 1 (hence for 1, and for 4 once it exists) *)
Definition ex_w : workflow :=
  [ mkTask [] None;
    mkTask [(0, None)] None;
    mkTask [(0, None)] None;
    mkTask [(1, None); (2, None); (4, Some 1); (0, Some 1)] None;
    mkTask [(0, None)] (Some 1) ].

Example ex_w_wf : wf_known ex_w /\ wf_trig ex_w /\ wf_closed ex_w /\ acyclic ex_w.
Proof.
  assert (K : wf_known ex_w) by (apply wf_known_b_sound; vm_compute; reflexivity).
  split; [exact K|]. split; [|split].
  - apply wf_trig_b_sound; vm_compute; reflexivity.
  - apply wf_closed_b_sound; vm_compute; reflexivity.
  - apply acyclic_b_sound; auto.
Qed.

Definition ex_tr1 : list label :=
  [Dispatch 0; Complete 0 true; Dispatch 1; Dispatch 2; Complete 1 true; Dispatch 4;
   Complete 2 true; Complete 4 true; Dispatch 3; Complete 3 true].

Definition ex_tr2 : list label :=
  [Dispatch 0; Complete 0 true; Dispatch 2; Dispatch 1; Complete 2 true; Complete 1 true;
   Dispatch 4; Complete 4 true; Dispatch 3; Complete 3 true].

Definition summary (w : workflow) (tr : list label) : option (outcome * list nat) :=
  match run w tr with Some s => Some (outcome_of s, results s) | None => None end.

(* two different completion orders, both accepted, both run every task once *)
Example ex_run1 : summary ex_w ex_tr1 = Some (OutOk, [0; 1; 2; 4; 3]).
Proof. vm_compute. reflexivity. Qed.

Example ex_run2 : summary ex_w ex_tr2 = Some (OutOk, [0; 2; 1; 4; 3]).
Proof. vm_compute. reflexivity. Qed.

(* the late task exists only after its trigger completed, and the task waiting
   for the group then depends on it *)
Example ex_late_appears :
  match run ex_w [Dispatch 0; Complete 0 true; Dispatch 1; Dispatch 2] with
  | Some s => (known s, Dp s 3) | None => ([], []) end = ([0; 1; 2; 3], [1; 2]) /\
  match run ex_w [Dispatch 0; Complete 0 true; Dispatch 1; Dispatch 2; Complete 1 true] with
  | Some s => (known s, Dp s 3) | None => ([], []) end = ([0; 1; 2; 3; 4], [1; 2; 4; 0]).
Proof. split; vm_compute; reflexivity. Qed.

(* starting a task whose dependencies have not all completed is not an execution *)
Example ex_reject_early_start :
  summary ex_w [Dispatch 0; Complete 0 true; Dispatch 1; Dispatch 2; Complete 1 true; Dispatch 4; Dispatch 3] = None.
Proof. vm_compute. reflexivity. Qed.

(* nor is running a task twice, or completing a task while a Ready task has not been dispatched *)
Example ex_reject_twice :
  summary ex_w [Dispatch 0; Complete 0 true; Dispatch 1; Dispatch 2; Dispatch 1] = None /\
  summary ex_w [Dispatch 0; Complete 0 true; Dispatch 1; Complete 1 true] = None.
Proof. split; vm_compute; reflexivity. Qed.

(* a failure ends the run; nothing can follow *)
Example ex_failure :
  summary ex_w [Dispatch 0; Complete 0 true; Dispatch 1; Dispatch 2; Complete 1 false] = Some (OutFailed, [0]) /\
  summary ex_w [Dispatch 0; Complete 0 true; Dispatch 1; Dispatch 2; Complete 1 false; Complete 2 true] = None.
Proof. split; vm_compute; reflexivity. Qed.

Example ex_cancel :
  summary ex_w [Dispatch 0; Complete 0 true; Dispatch 1; Dispatch 2; Cancel] = Some (OutCancelled, [0]).
Proof. vm_compute. reflexivity. Qed.

(* a cycle among the initial tasks is reported before anything runs *)
Definition ex_cyc : workflow := [ mkTask [(1, None)] None; mkTask [(2, None)] None; mkTask [(0, None)] None ].

Example ex_cycle_reported : summary ex_cyc [] = Some (OutCycle, []) /\ summary ex_cyc [Dispatch 0] = None.
Proof. split; vm_compute; reflexivity. Qed.

Example ex_cyc_has_cycle : has_cycle (full_deps ex_cyc) (all_tasks ex_cyc).
Proof.
  exists 0. split; [vm_compute; auto|].
  apply (pathS _ 0 1 0); [vm_compute; auto|].
  apply (pathS _ 1 2 0); [vm_compute; auto|].
  apply path1. vm_compute; auto.
Qed.

(* a cycle that only closes once a late task exists is reported when it appears:
   0 spawns 2; 1 waits for the group spawned by 0; 2 refers to 1 *)
Definition ex_latecyc : workflow :=
  [ mkTask [] None; mkTask [(0, None); (2, Some 0)] None; mkTask [(1, None)] (Some 0) ].

Example ex_late_cycle_reported :
  summary ex_latecyc [Dispatch 0] = Some (OutUnfinished, []) /\
  summary ex_latecyc [Dispatch 0; Complete 0 true] = Some (OutCycle, [0]).
Proof. split; vm_compute; reflexivity. Qed.

(* the cycle checker itself *)
Example ex_check_cycle :
  check_cycle (fun i => nth i [[1; 2]; [2]; []] []) [0; 1; 2] = Some false /\
  check_cycle (fun i => nth i [[1; 2]; [2]; [0]] []) [0; 1; 2] = Some true /\
  check_cycle (fun i => nth i [[0]] []) [0] = Some true.
Proof. repeat split; vm_compute; reflexivity. Qed.

(* wf_closed is necessary for start_after_deps: a task that waits for a group it
   spawns itself starts before the members of that group exist *)
Definition ex_selfgroup : workflow := [ mkTask [(1, Some 0)] None; mkTask [] (Some 0) ].

Example start_after_deps_needs_closed :
  wf_known ex_selfgroup /\ wf_closed_b ex_selfgroup = false /\
  summary ex_selfgroup [Dispatch 0] = Some (OutUnfinished, []) /\
  In (1, Some 0) (deps ex_selfgroup 0).
Proof.
  split; [apply wf_known_b_sound; vm_compute; reflexivity|].
  split; [vm_compute; reflexivity|]. split; [vm_compute; reflexivity|]. vm_compute; auto.
Qed.

Example ex_start_after_deps :
  forall tr1 tr2 s, run ex_w (tr1 ++ Dispatch 3 :: tr2) = Some s ->
  In (Complete 1 true) tr1 /\ In (Complete 2 true) tr1 /\ In (Complete 4 true) tr1.
Proof.
  intros tr1 tr2 s H.
  destruct ex_w_wf as [_ [_ [C _]]].
  destruct (start_after_deps ex_w C tr1 3 tr2 s H) as [s1 [s2 [_ [_ [_ [_ Hd]]]]]].
  repeat split.
  - apply (Hd 1 None); [vm_compute; auto | discriminate].
  - apply (Hd 2 None); [vm_compute; auto | discriminate].
  - apply (Hd 4 (Some 1)); [vm_compute; auto | discriminate].
Qed.
