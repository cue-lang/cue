(* The invariant of the controller model: holds in the initial state and is
   preserved by every step, for every workflow (no side conditions except where
   stated).  Two lemmas carry the proof: [inv_same] for the operations that leave
   alone what Inv reads, up to started tasks moving on (freeze, Dispatch, a failed
   completion, Cancel, updateTaskValue), and [inv_refresh] for initTasks followed by
   markReady, with which both [init] and a successful completion end. *)
From Verif Require Import Flow.Model Flow.CycleProofs Flow.Spec Flow.Ops.
From Coq Require Import List Bool Arith PeanoNat Lia.
Import ListNotations.

(* i_known: the tasks the controller has created are those that exist given the results so far.
   i_fresh, i_view: for a task that has not started, depTasks and t.v are those of the current
   configuration (kdeps of the results so far; the view counts all of them).
   i_sub: depTasks only holds references that are visible, never the task itself.
   i_started: past Waiting, every depTask has delivered its result.
   i_wait: markReady has run - a Waiting task has a dependency that is not done.
   i_acyc: checkCycle has passed; it speaks of cycles among [known] only, which is where
   depTasks lead when every referenced task exists as soon as the reference does (wf_known). *)
Record Inv (w : workflow) (s : cstate) : Prop := {
  i_nodup : NoDup (known s);
  i_known : forall x, In x (known s) <-> x < length w /\ act (results s) (trig w x) = true;
  i_unknown : forall x, ~ In x (known s) -> info s x = info0;
  i_res_nodup : NoDup (results s);
  i_res : forall x, In x (results s) <-> In x (known s) /\ St s x = Terminated true;
  i_cseq : cseq s = length (results s);
  i_vseq : vseq s = cseq s;
  i_failed : forall x, St s x = Terminated false -> stop s = Some StopFailed;
  i_fresh : forall x, In x (known s) -> le_readyb (St s x) = true -> Dp s x = kdeps w (results s) x;
  i_sub : forall x d, In d (Dp s x) ->
          exists a, In (d, a) (deps w x) /\ d <> x /\ act (results s) a = true;
  i_started : forall x d, waitingb (St s x) = false -> In d (Dp s x) -> In d (results s);
  i_view : forall x, In x (known s) -> le_readyb (St s x) = true -> Vw s x = vseq s;
  i_wait : stop s = None -> forall x, In x (known s) -> waitingb (St s x) = true -> task_ready s x = false;
  i_acyc : wf_known w -> stop s = None -> ~ has_cycle (Dp s) (known s) }.

Lemma St_unknown : forall w s x, Inv w s -> ~ In x (known s) -> St s x = Waiting.
Proof. intros w s x I H. unfold St. rewrite (i_unknown w s I x H). reflexivity. Qed.

Lemma Dp_unknown : forall w s x, Inv w s -> ~ In x (known s) -> Dp s x = [].
Proof. intros w s x I H. unfold Dp. rewrite (i_unknown w s I x H). reflexivity. Qed.

(* depTasks only contains existing tasks *)
Lemma Dp_closed : forall w s, wf_known w -> Inv w s -> closed (Dp s) (known s).
Proof.
  intros w s K I x Hx d Hd.
  destruct (i_sub w s I x d Hd) as [a [H1 [H2 H3]]].
  destruct (K x d a H1) as [Hlt Htr].
  apply (i_known w s I). split; auto.
  destruct Htr as [-> | ->]; auto.
Qed.

(* a task that has started moves on without producing a result *)
Definition advances (a b : tstate) : Prop :=
  a = b \/ (a = Ready /\ b = Running) \/ (a = Running /\ b = Terminated false).

(* Inv reads the state only through [known], [results], the two counters, [stop],
   the projections St and Dp, and - for tasks that have not started - Vw.  It
   survives started tasks moving on, and a stop reason being recorded. *)
Lemma inv_same : forall w s s', Inv w s ->
  known s' = known s -> results s' = results s -> cseq s' = cseq s -> vseq s' = vseq s ->
  (stop s' = None -> stop s = None) ->
  (forall x, St s' x = Terminated false -> stop s' = Some StopFailed) ->
  (forall x, advances (St s x) (St s' x)) -> (forall x, Dp s' x = Dp s x) ->
  (forall x, le_readyb (St s' x) = true -> Vw s' x = Vw s x) ->
  (forall x, ~ In x (known s) -> info s' x = info0) ->
  Inv w s'.
Proof.
  intros w s s' I Hk Hr Hc Hv HN HF ES ED EV EU.
  assert (EL : forall x, le_readyb (St s' x) = true -> St s' x = St s x).
  { intros x H. destruct (ES x) as [E | [[_ E] | [_ E]]]; auto; rewrite E in H; discriminate. }
  assert (ET : stop s' = None -> forall x, task_ready s' x = task_ready s x).
  { intros Hs x. rewrite !task_ready_St, ED. apply forallb_ext. intros d.
    destruct (ES d) as [E | [[E1 E2] | [_ E]]]; [rewrite E; auto | rewrite E1, E2; auto |].
    rewrite (HF d E) in Hs. discriminate. }
  pose proof I as [ND KN UN RN RE CS VS FL FR SU ST VI WA AC].
  constructor; rewrite ?Hk, ?Hr, ?Hc, ?Hv; auto.
  - (* i_res *) intros x. rewrite RE.
    destruct (ES x) as [E | [[E1 E2] | [E1 E2]]]; rewrite ?E, ?E1, ?E2; [tauto | |];
      split; intros [_ H]; discriminate.
  - (* i_fresh *) intros x Hx Hle. rewrite ED. rewrite (EL x Hle) in Hle. apply (i_fresh w s I x Hx Hle).
  - (* i_sub *) intros x d. rewrite ED. apply (i_sub w s I).
  - (* i_started *) intros x d Hw. rewrite ED. apply (i_started w s I).
    destruct (ES x) as [E | [[E _] | [E _]]]; rewrite E; auto.
  - (* i_view *) intros x Hx Hle. rewrite (EV x Hle). rewrite (EL x Hle) in Hle. apply (i_view w s I x Hx Hle).
  - (* i_wait *) intros Hs x Hx Hw. rewrite (ET Hs).
    assert (Hle : le_readyb (St s' x) = true) by (destruct (St s' x); auto; discriminate).
    rewrite (EL x Hle) in Hw. apply (i_wait w s I (HN Hs) x Hx Hw).
  - (* i_acyc *) intros K Hs Hc'. apply (i_acyc w s I K (HN Hs)).
    eapply has_cycle_ext; [|exact Hc']. exact ED.
Qed.

Lemma inv_freeze : forall w n s, Inv w s -> Inv w (freeze n s).
Proof.
  intros w n s I. apply (inv_same w s); auto; intros x;
    rewrite ?St_freeze, ?Dp_freeze, ?Vw_freeze, ?info_freeze; auto.
  - apply (i_failed w s I).
  - left. reflexivity.
  - apply (i_unknown w s I).
Qed.

Lemma inv_cancel : forall w s,
  Inv w s -> stop s = None ->
  Inv w (mkState (known s) (info s) (results s) (cseq s) (vseq s) (views s) (Some StopCancelled)).
Proof.
  intros w s I Hs. apply (inv_same w s); auto.
  - intros x H. change (St s x = Terminated false) in H.
    rewrite (i_failed w s I x H) in Hs. discriminate.
  - intros x. left. reflexivity.
  - apply (i_unknown w s I).
Qed.

Lemma inv_dispatch : forall w s t,
  Inv w s -> In t (known s) -> St s t = Ready -> Inv w (dispatch s t).
Proof.
  intros w s t I Ht HR.
  pose proof (i_vseq w s I) as Hseq. pose proof (d_St s t Hseq) as HSt.
  apply (inv_same w s); auto.
  - apply (d_known s t Hseq).
  - apply (d_results s t Hseq).
  - apply (d_cseq s t Hseq).
  - apply (d_vseq s t Hseq).
  - rewrite (d_stop s t Hseq). auto.
  - intros x. rewrite HSt, (d_stop s t Hseq).
    destruct (Nat.eqb x t); [discriminate | apply (i_failed w s I)].
  - intros x. rewrite HSt. destruct (Nat.eqb_spec x t) as [-> | _]; [right; left; auto | left; auto].
  - apply (d_Dp s t Hseq).
  - intros x. rewrite HSt. unfold Vw. destruct (Nat.eqb_spec x t) as [-> | Hne]; [discriminate|].
    rewrite (d_info_other s t Hseq x Hne). reflexivity.
  - intros x Hx. rewrite (d_info_other s t Hseq); [apply (i_unknown w s I x Hx) | intros ->; auto].
Qed.

Lemma inv_complete_fail : forall w s t,
  Inv w s -> stop s = None -> In t (known s) -> St s t = Running -> Inv w (complete_fail s t).
Proof.
  intros w s t I Hs Ht HR. apply (inv_same w s); auto.
  - intros x. rewrite cf_St. destruct (Nat.eqb_spec x t) as [-> | _]; [right; right; auto | left; auto].
  - apply cf_Dp.
  - intros x _. apply cf_Vw.
  - intros x Hx. rewrite cf_info_other; [apply (i_unknown w s I x Hx) | intros ->; auto].
Qed.

(* any_ready / any_running / any_waiting = false, read task by task *)
Lemma any_false : forall (p : tinfo -> bool) s x,
  existsb (fun t => p (info s t)) (known s) = false -> In x (known s) -> p (info s x) = false.
Proof. intros p s x H Hx. rewrite existsb_false_forall in H. apply (H x Hx). Qed.

(* [init] and [complete_ok] both end with initTasks followed by markReady, which
   establish Inv from less: what Inv says about the dependencies and views of tasks
   that have not started is recomputed, [known] may lag behind [results], and no
   task is Ready (so that no started task has its dependencies recomputed). *)
Record Pre (w : workflow) (s : cstate) : Prop := {
  p_nodup : NoDup (known s);
  p_known : forall x, In x (known s) -> x < length w /\ act (results s) (trig w x) = true;
  p_unknown : forall x, ~ In x (known s) -> info s x = info0;
  p_res_nodup : NoDup (results s);
  p_res : forall x, In x (results s) <-> In x (known s) /\ St s x = Terminated true;
  p_cseq : cseq s = length (results s);
  p_vseq : vseq s = cseq s;
  p_sub : forall x d, In d (Dp s x) ->
          exists a, In (d, a) (deps w x) /\ d <> x /\ act (results s) a = true;
  p_started : forall x d, waitingb (St s x) = false -> In d (Dp s x) -> In d (results s);
  p_done : forall x, doneb (St s x) = true -> In x (results s);
  p_noready : forall x, St s x <> Ready }.

Section Refresh.
  Variable w : workflow.
  Variable s : cstate.
  Hypothesis P : Pre w s.

  Let nw := appear w (results s) (known s).
  Let s4 := init_tasks w s.
  Let s' := mark_ready s4.

  Lemma rf_new : forall x, In x nw <-> x < length w /\ ~ In x (known s) /\ act (results s) (trig w x) = true.
  Proof. intros x. apply appear_spec. Qed.

  Lemma rf_new_waiting : forall x, In x nw -> St s x = Waiting.
  Proof.
    intros x Hx. apply rf_new in Hx. unfold St. rewrite (p_unknown w s P x); [reflexivity | tauto].
  Qed.

  (* initTasks changes no task state: a new task was Waiting, as an unknown one *)
  Lemma rf_St_init_tasks : forall x, St s4 x = St s x.
  Proof.
    intros x. unfold s4. rewrite it_St. fold nw. destruct (mem x nw) eqn:E; auto.
    apply mem_In, rf_new_waiting in E. auto.
  Qed.

  Lemma rf_St : forall x,
    St s' x = St s x \/ (St s x = Waiting /\ St s' x = Ready /\ task_ready s4 x = true).
  Proof.
    intros x. unfold s'. rewrite mr_St, rf_St_init_tasks.
    destruct (mem x (known s4) && waitingb (St s x) && task_ready s4 x) eqn:E; auto.
    right. apply andb_prop in E. destruct E as [E E3]. apply andb_prop in E. destruct E as [_ E2].
    destruct (St s x); try discriminate. auto.
  Qed.

  (* the tasks whose t.v and dependencies initTasks recomputes *)
  Definition refreshed (x : nat) : bool := mem x nw || (mem x (known s) && le_readyb (St s x)).

  Lemma rf_Dp : forall x, Dp s' x = if refreshed x then kdeps w (results s) x else Dp s x.
  Proof. intros x. unfold s'. rewrite mr_Dp. apply it_Dp. Qed.

  Lemma rf_Vw : forall x, Vw s' x = if refreshed x then vseq s else Vw s x.
  Proof. intros x. unfold s'. rewrite mr_Vw. apply it_Vw. Qed.

  Lemma rf_refreshed : forall x, In x (known s ++ nw) -> le_readyb (St s' x) = true -> refreshed x = true.
  Proof.
    intros x Hx Hle.
    assert (H : le_readyb (St s x) = true).
    { destruct (rf_St x) as [E | [E _]]; rewrite E in *; auto. }
    unfold refreshed. apply in_app_iff in Hx.
    destruct Hx as [Hx | Hx]; apply mem_In in Hx; rewrite Hx, ?H; auto. apply orb_true_r.
  Qed.

  Lemma rf_not_refreshed : forall x, waitingb (St s x) = false -> refreshed x = false.
  Proof.
    intros x H. unfold refreshed. destruct (mem x nw) eqn:E.
    - apply mem_In, rf_new_waiting in E. rewrite E in H. discriminate.
    - pose proof (p_noready w s P x). simpl.
      destruct (St s x); try discriminate; try congruence; apply andb_false_r.
  Qed.

  Theorem inv_refresh : Inv w s'.
  Proof.
    assert (Hsub : forall x d, In d (Dp s' x) ->
              exists a, In (d, a) (deps w x) /\ d <> x /\ act (results s) a = true).
    { intros x d Hd. rewrite rf_Dp in Hd. destruct (refreshed x).
      - apply kdeps_In in Hd. exact Hd.
      - apply (p_sub w s P x d Hd). }
    constructor; change (known s') with (known s ++ nw); change (results s') with (results s).
    - (* i_nodup *) apply NoDup_app_intro.
      + apply (p_nodup w s P).
      + apply appear_nodup.
      + intros x Hx Hn. apply rf_new in Hn. tauto.
    - (* i_known *) intros x. rewrite in_app_iff, rf_new. split.
      + intros [Hx | Hx]; [apply (p_known w s P x Hx) | tauto].
      + intros [H1 H2]. destruct (in_dec Nat.eq_dec x (known s)); auto.
    - (* i_unknown *) intros x Hx. rewrite in_app_iff in Hx. unfold s', mark_ready. cbn [info].
      replace (mem x (known s4)) with false
        by (symmetry; apply mem_false; intros H; apply in_app_iff in H; tauto).
      unfold s4, init_tasks. cbn [info andb]. fold nw.
      replace (mem x nw) with false by (symmetry; apply mem_false; tauto).
      replace (mem x (known s)) with false by (symmetry; apply mem_false; tauto).
      apply (p_unknown w s P). tauto.
    - (* i_res_nodup *) apply (p_res_nodup w s P).
    - (* i_res *) intros x. rewrite (p_res w s P), in_app_iff. split.
      + intros [Hx HT]. split; auto. destruct (rf_St x) as [E | [E _]]; congruence.
      + intros [Hx HT]. destruct (rf_St x) as [E | [_ [E _]]]; [|congruence].
        rewrite E in HT. split; auto. destruct Hx as [Hx | Hx]; auto.
        apply rf_new_waiting in Hx. congruence.
    - (* i_cseq *) apply (p_cseq w s P).
    - (* i_vseq *) apply (p_vseq w s P).
    - (* i_failed *) intros x HT. exfalso. destruct (rf_St x) as [E | [_ [E _]]]; [|congruence].
      rewrite E in HT. assert (D : doneb (St s x) = true) by (rewrite HT; reflexivity).
      apply (p_done w s P), (p_res w s P) in D. destruct D. congruence.
    - (* i_fresh *) intros x Hx Hle. rewrite rf_Dp, (rf_refreshed x Hx Hle). reflexivity.
    - (* i_sub *) exact Hsub.
    - (* i_started *) intros x d Hw Hd. destruct (rf_St x) as [E | [_ [E R]]].
      + rewrite E in Hw. rewrite rf_Dp, (rf_not_refreshed x Hw) in Hd.
        apply (p_started w s P x d Hw Hd).
      + (* Ready since markReady: its dependencies are done *)
        rewrite task_ready_St, forallb_forall in R.
        apply (p_done w s P). rewrite <- rf_St_init_tasks. apply R.
        unfold s' in Hd. rewrite mr_Dp in Hd. exact Hd.
    - (* i_view *) intros x Hx Hle. rewrite rf_Vw, (rf_refreshed x Hx Hle). reflexivity.
    - (* i_wait *) intros _ x Hx Hw. unfold s' in *. rewrite mr_task_ready. rewrite mr_St in Hw.
      apply mem_In in Hx. change (known s ++ nw) with (known s4) in Hx. rewrite Hx in Hw.
      destruct (waitingb (St s4 x)) eqn:EB; simpl in Hw.
      + destruct (task_ready s4 x); auto.
      + rewrite EB in Hw. discriminate.
    - (* i_acyc *) intros K Hst. change (stop s') with (stop s4) in Hst. unfold s4 in Hst.
      rewrite it_stop in Hst. fold s4 in Hst.
      destruct (check_cycle (fun t => Dp s4 t) (known s4)) as [[|]|] eqn:E;
        try (destruct (stop s); discriminate).
      intros Hc. apply (has_cycle_ext _ (fun t => Dp s4 t)) in Hc; [|intros x; apply mr_Dp].
      revert Hc. apply (check_cycle_false_iff (fun t => Dp s4 t) (known s4)); auto.
      intros x Hx d Hd. rewrite <- (mr_Dp s4) in Hd.
      destruct (Hsub x d Hd) as [a [H1 [H2 H3]]]. destruct (K x d a H1) as [Hlt Htr].
      change (In d (known s ++ nw)). apply in_app_iff.
      destruct (in_dec Nat.eq_dec d (known s)) as [Hdk | Hdk]; auto.
      right. apply rf_new. repeat split; auto. destruct Htr as [-> | ->]; auto.
  Qed.
End Refresh.

Lemma pre_empty : forall w, Pre w empty_state.
Proof.
  intros w. constructor; simpl; try tauto; try discriminate; constructor.
Qed.

Lemma inv_init : forall w, Inv w (init w).
Proof. intros w. apply inv_freeze, inv_refresh, pre_empty. Qed.

Section InvCompleteOk.
  Variable w : workflow.
  Variable s : cstate.
  Variable t : nat.
  Hypothesis I : Inv w s.
  Hypothesis Hs : stop s = None.
  Hypothesis Hnr : any_ready s = false.
  Hypothesis Ht : In t (known s).
  Hypothesis HR : St s t = Running.

  Lemma pre_completed : Pre w (co_pre s t).
  Proof.
    pose proof (co_pre_St s t) as HS. pose proof (co_pre_Dp s t) as HD.
    assert (Ht_res : ~ In t (results s)).
    { intros H. apply (i_res w s I) in H. destruct H as [_ H]. rewrite HR in H. discriminate. }
    constructor; cbn [co_pre update_task_results known results cseq vseq].
    - (* p_nodup *) apply (i_nodup w s I).
    - (* p_known *) intros x Hx. apply (i_known w s I) in Hx. destruct Hx. split; auto. apply act_mono; auto.
    - (* p_unknown *) intros x Hx. unfold co_pre, update_task_results, upd. cbn [info].
      destruct (Nat.eqb_spec x t) as [-> | _]; [contradiction|]. apply (i_unknown w s I x Hx).
    - (* p_res_nodup *) apply NoDup_snoc; auto. apply (i_res_nodup w s I).
    - (* p_res *) intros x. rewrite in_app_iff, HS. destruct (Nat.eqb_spec x t) as [-> | Hne].
      + split; auto. intros _. right. left. auto.
      + rewrite (i_res w s I). split; auto. intros [H | [H | []]]; [exact H | congruence].
    - (* p_cseq *) rewrite app_length, (i_cseq w s I). simpl. lia.
    - (* p_vseq *) reflexivity.
    - (* p_sub *) intros x d. rewrite HD. intros Hd.
      destruct (i_sub w s I x d Hd) as [a [H1 [H2 H3]]]. exists a. repeat split; auto.
      apply act_mono; auto.
    - (* p_started *) intros x d. rewrite HS, HD. intros Hw Hd. apply in_app_iff. left.
      apply (i_started w s I x d); auto.
      destruct (Nat.eqb_spec x t) as [-> | _]; auto. rewrite HR. reflexivity.
    - (* p_done *) intros x. rewrite HS, in_app_iff. destruct (Nat.eqb_spec x t) as [-> | _]; [simpl; auto|].
      intros Hd. left. destruct (St s x) as [| | |[|]] eqn:E; try discriminate.
      + apply (i_res w s I). split; auto.
        destruct (in_dec Nat.eq_dec x (known s)) as [Hk | Hk]; auto.
        rewrite (St_unknown w s x I Hk) in E. discriminate.
      + rewrite (i_failed w s I x E) in Hs. discriminate.
    - (* p_noready *) intros x. rewrite HS. destruct (Nat.eqb_spec x t); [discriminate|]. intros H.
      destruct (in_dec Nat.eq_dec x (known s)) as [Hx | Hx].
      + pose proof (any_false is_ready_st s x Hnr Hx) as R. rewrite is_ready_St, H in R. discriminate.
      + rewrite (St_unknown w s x I Hx) in H. discriminate.
  Qed.

  (* updateTaskValue, which complete_ok runs between initTasks and markReady, changes no
     task state *)
  Lemma cok_St : forall x,
    St (complete_ok w s t) x = St (mark_ready (init_tasks w (co_pre s t))) x.
  Proof.
    intros x. rewrite (co_unfold w s t (i_vseq w s I)). apply mr_utv_St. reflexivity.
  Qed.

  Lemma inv_complete_ok : Inv w (complete_ok w s t).
  Proof.
    pose proof (inv_refresh w _ pre_completed) as IR.
    rewrite (co_unfold w s t (i_vseq w s I)).
    set (s4 := init_tasks w (co_pre s t)) in *.
    assert (Hq : vseq s4 = cseq s4) by reflexivity.
    assert (Hne : forall x, le_readyb (St (mark_ready s4) x) = true \/ ~ In x (known (mark_ready s4)) -> x <> t).
    { intros x H ->. destruct H as [H | H].
      - destruct (rf_St w _ pre_completed t) as [E | [E _]]; fold s4 in E;
          rewrite co_pre_St, Nat.eqb_refl in E; [rewrite E in H|]; discriminate.
      - apply H. apply (i_known w _ IR). apply (i_known w s I) in Ht. destruct Ht. split; auto.
        apply act_mono; auto. }
    assert (ES : forall x, St (mark_ready (update_task_value s4 t)) x = St (mark_ready s4) x).
    { intros x. apply mr_utv_St; auto. }
    apply (inv_same w (mark_ready s4)); auto.
    - exact (utv_known s4 t Hq).
    - exact (utv_results s4 t Hq).
    - exact (utv_cseq s4 t Hq).
    - exact (utv_vseq s4 t Hq).
    - intros H. rewrite <- H. symmetry. exact (utv_stop s4 t Hq).
    - intros x. rewrite ES. intros H. rewrite <- (i_failed w _ IR x H). exact (utv_stop s4 t Hq).
    - intros x. left. symmetry. apply ES.
    - intros x. apply mr_utv_Dp; auto.
    - intros x Hle. rewrite ES in Hle. unfold Vw. rewrite mr_utv_info; auto.
    - intros x Hx. rewrite mr_utv_info; auto. apply (i_unknown w _ IR x Hx).
  Qed.
End InvCompleteOk.
