(* Effect of each controller operation of Flow/Model.v on the projections through
   which the invariant reads the state (task state, depTasks, view).  The functions
   [info] of two states are compared pointwise: the operations nest [upd], so the
   states themselves are equal only extensionally.  updateTaskValue is simple when
   c.inst is up to date ([vseq s = cseq s]), which holds between steps. *)
From Verif Require Import Flow.Model Flow.CycleProofs.
From Coq Require Import List Bool Arith PeanoNat Lia.
Import ListNotations.

Lemma NoDup_app_intro : forall (l1 l2 : list nat),
  NoDup l1 -> NoDup l2 -> (forall x, In x l1 -> ~ In x l2) -> NoDup (l1 ++ l2).
Proof.
  induction l1 as [|a l1 IH]; intros l2 H1 H2 Hd; simpl; auto.
  inversion H1; subst. constructor.
  - rewrite in_app_iff. intros [H | H]; auto. apply (Hd a); simpl; auto.
  - apply IH; auto. intros x Hx. apply Hd. simpl; auto.
Qed.

Lemma NoDup_snoc : forall (l : list nat) x, NoDup l -> ~ In x l -> NoDup (l ++ [x]).
Proof.
  intros. apply NoDup_app_intro; auto.
  - constructor; auto. constructor.
  - intros y Hy [<- | []]. auto.
Qed.

Lemma existsb_false_forall : forall (A : Type) (f : A -> bool) l,
  existsb f l = false <-> forall x, In x l -> f x = false.
Proof.
  intros A f l. induction l as [|a l IH]; simpl.
  - split; auto. intros _ x [].
  - rewrite orb_false_iff, IH. split.
    + intros [Ha Hl] x [<- | Hx]; auto.
    + intros H. split; auto.
Qed.

Lemma forallb_ext : forall (A : Type) (f g : A -> bool) l,
  (forall x, f x = g x) -> forallb f l = forallb g l.
Proof. intros A f g l H. induction l; simpl; auto. rewrite H, IHl. auto. Qed.

Lemma tab_eq : forall n f x, tab n f x = f x.
Proof.
  intros n f x. unfold tab. destruct (Nat.ltb x n) eqn:E; auto.
  apply Nat.ltb_lt in E.
  rewrite (nth_indep _ info0 (f 0)) by (rewrite map_length, seq_length; auto).
  rewrite map_nth. rewrite seq_nth by auto. reflexivity.
Qed.

Lemma info_freeze : forall n s x, info (freeze n s) x = info s x.
Proof. intros. unfold freeze. cbn [info]. apply tab_eq. Qed.

(* overwriting t's record with one that agrees with it on a field leaves that
   field as it was, for every task *)
Lemma upd_proj : forall (A : Type) (g : tinfo -> A) f t v x,
  g v = g (f t) -> g (upd f t v x) = g (f x).
Proof. intros A g f t v x H. unfold upd. destruct (Nat.eqb_spec x t) as [-> | _]; auto. Qed.

Definition St (s : cstate) (x : nat) : tstate := ti_state (info s x).
Definition Dp (s : cstate) (x : nat) : list nat := ti_deps (info s x).
Definition Vw (s : cstate) (x : nat) : nat := ti_view (info s x).

Definition waitingb (st : tstate) := match st with Waiting => true | _ => false end.
Definition readyb (st : tstate) := match st with Ready => true | _ => false end.
Definition runningb (st : tstate) := match st with Running => true | _ => false end.
Definition doneb (st : tstate) := match st with Terminated _ => true | _ => false end.
Definition le_readyb (st : tstate) := match st with Waiting | Ready => true | _ => false end.

Lemma is_waiting_St : forall s x, is_waiting (info s x) = waitingb (St s x). Proof. reflexivity. Qed.
Lemma is_ready_St : forall s x, is_ready_st (info s x) = readyb (St s x). Proof. reflexivity. Qed.
Lemma is_running_St : forall s x, is_running (info s x) = runningb (St s x). Proof. reflexivity. Qed.
Lemma is_done_St : forall s x, is_done (info s x) = doneb (St s x). Proof. reflexivity. Qed.
Lemma le_ready_St : forall s x, le_ready (info s x) = le_readyb (St s x). Proof. reflexivity. Qed.

Lemma task_ready_St : forall s x,
  task_ready s x = forallb (fun d => doneb (St s d)) (Dp s x).
Proof. reflexivity. Qed.

Lemma St_freeze : forall n s x, St (freeze n s) x = St s x.
Proof. intros. unfold St. rewrite info_freeze. auto. Qed.
Lemma Dp_freeze : forall n s x, Dp (freeze n s) x = Dp s x.
Proof. intros. unfold Dp. rewrite info_freeze. auto. Qed.
Lemma Vw_freeze : forall n s x, Vw (freeze n s) x = Vw s x.
Proof. intros. unfold Vw. rewrite info_freeze. auto. Qed.

Lemma act_mono : forall res t a, act res a = true -> act (res ++ [t]) a = true.
Proof.
  intros res t [p|]; simpl; auto. rewrite !mem_In, in_app_iff. auto.
Qed.

Lemma kdeps_In : forall w res x d,
  In d (kdeps w res x) <-> exists a, In (d, a) (deps w x) /\ d <> x /\ act res a = true.
Proof.
  intros. unfold kdeps. rewrite in_map_iff. split.
  - intros [[d' a] [E H]]. simpl in E. subst d'. apply filter_In in H. destruct H as [H1 H2].
    simpl in H2. apply andb_prop in H2. destruct H2 as [H2 H3].
    exists a. repeat split; auto. apply negb_true_iff, Nat.eqb_neq in H3. auto.
  - intros [a [H1 [H2 H3]]]. exists (d, a). split; auto. apply filter_In. split; auto.
    simpl. rewrite H3. simpl. apply negb_true_iff, Nat.eqb_neq. auto.
Qed.

Lemma update_value_eq : forall s, vseq s = cseq s -> update_value s = (false, s).
Proof. intros s H. unfold update_value. rewrite H, Nat.eqb_refl. auto. Qed.

Lemma update_value_neq : forall s, vseq s <> cseq s ->
  update_value s = (true, mkState (known s) (info s) (results s) (cseq s) (cseq s) (views s) (stop s)).
Proof.
  intros s H. unfold update_value. destruct (Nat.eqb (vseq s) (cseq s)) eqn:E; auto.
  apply Nat.eqb_eq in E. contradiction.
Qed.

Section UTV.
  Variable s : cstate.
  Variable t : nat.
  Hypothesis Hseq : vseq s = cseq s.

  Let s' := update_task_value s t.

  Lemma utv_cases :
    s' = s \/
    s' = mkState (known s)
                 (upd (info s) t (mkInfo (ti_state (info s t)) (ti_deps (info s t)) (ti_cseq (info s t))
                                         (Some (required s t)) (vseq s)))
                 (results s) (cseq s) (vseq s) (views s) (stop s).
  Proof.
    unfold s', update_task_value.
    destruct (match ti_vseq (info s t) with Some q => Nat.eqb q (required s t) | None => false end); auto.
    right. rewrite (update_value_eq s Hseq). simpl.
    destruct (Nat.ltb (vseq s) (required s t)); reflexivity.
  Qed.

  Lemma utv_known : known s' = known s.
  Proof. destruct utv_cases as [-> | ->]; auto. Qed.
  Lemma utv_results : results s' = results s.
  Proof. destruct utv_cases as [-> | ->]; auto. Qed.
  Lemma utv_stop : stop s' = stop s.
  Proof. destruct utv_cases as [-> | ->]; auto. Qed.
  Lemma utv_views : views s' = views s.
  Proof. destruct utv_cases as [-> | ->]; auto. Qed.
  Lemma utv_cseq : cseq s' = cseq s.
  Proof. destruct utv_cases as [-> | ->]; auto. Qed.
  Lemma utv_vseq : vseq s' = vseq s.
  Proof. destruct utv_cases as [-> | ->]; auto. Qed.

  Lemma utv_St : forall x, St s' x = St s x.
  Proof.
    intros x. destruct utv_cases as [-> | ->]; auto. apply (upd_proj _ ti_state). reflexivity.
  Qed.

  Lemma utv_Dp : forall x, Dp s' x = Dp s x.
  Proof.
    intros x. destruct utv_cases as [-> | ->]; auto. apply (upd_proj _ ti_deps). reflexivity.
  Qed.

  Lemma utv_info_other : forall x, x <> t -> info s' x = info s x.
  Proof.
    intros x Hx. destruct utv_cases as [-> | ->]; auto.
    unfold upd. cbn [info]. destruct (Nat.eqb_spec x t); [contradiction | reflexivity].
  Qed.

  Lemma utv_task_ready : forall x, task_ready s' x = task_ready s x.
  Proof.
    intros x. rewrite !task_ready_St, utv_Dp. apply forallb_ext. intros d. rewrite utv_St. reflexivity.
  Qed.

  Lemma utv_Vw_self : Vw s' t = Vw s t \/ Vw s' t = vseq s.
  Proof.
    destruct utv_cases as [-> | ->]; auto.
    right. unfold Vw, upd. cbn [info]. rewrite Nat.eqb_refl. auto.
  Qed.
End UTV.

Lemma mr_St : forall s x,
  St (mark_ready s) x =
  if mem x (known s) && waitingb (St s x) && task_ready s x then Ready else St s x.
Proof.
  intros. unfold St, mark_ready. cbn [info]. rewrite is_waiting_St. unfold St.
  destruct (mem x (known s) && waitingb (ti_state (info s x)) && task_ready s x); auto.
Qed.

Lemma mr_Dp : forall s x, Dp (mark_ready s) x = Dp s x.
Proof.
  intros. unfold Dp, mark_ready. cbn [info].
  destruct (mem x (known s) && is_waiting (info s x) && task_ready s x); auto.
Qed.

Lemma mr_Vw : forall s x, Vw (mark_ready s) x = Vw s x.
Proof.
  intros. unfold Vw, mark_ready. cbn [info].
  destruct (mem x (known s) && is_waiting (info s x) && task_ready s x); auto.
Qed.

Lemma mr_doneb : forall s x, doneb (St (mark_ready s) x) = doneb (St s x).
Proof.
  intros. rewrite mr_St.
  destruct (mem x (known s) && waitingb (St s x) && task_ready s x) eqn:E; auto.
  apply andb_prop in E. destruct E as [E _]. apply andb_prop in E. destruct E as [_ E].
  destruct (St s x); simpl in *; congruence.
Qed.

Lemma mr_task_ready : forall s x, task_ready (mark_ready s) x = task_ready s x.
Proof.
  intros. rewrite !task_ready_St. rewrite mr_Dp.
  apply forallb_ext. intros d. apply mr_doneb.
Qed.

(* markReady does not look at what updateTaskValue changes *)
Lemma mr_utv_St : forall s t x, vseq s = cseq s ->
  St (mark_ready (update_task_value s t)) x = St (mark_ready s) x.
Proof.
  intros s t x H. rewrite !mr_St, (utv_known s t H), (utv_St s t H), (utv_task_ready s t H). reflexivity.
Qed.

Lemma mr_utv_Dp : forall s t x, vseq s = cseq s ->
  Dp (mark_ready (update_task_value s t)) x = Dp (mark_ready s) x.
Proof. intros s t x H. rewrite !mr_Dp. apply (utv_Dp s t H). Qed.

Lemma mr_utv_info : forall s t x, vseq s = cseq s -> x <> t ->
  info (mark_ready (update_task_value s t)) x = info (mark_ready s) x.
Proof.
  intros s t x H Hx. unfold mark_ready. cbn [info].
  rewrite (utv_known s t H), (utv_task_ready s t H), (utv_info_other s t H x Hx). reflexivity.
Qed.

Lemma appear_spec : forall w res kn x,
  In x (appear w res kn) <-> x < length w /\ ~ In x kn /\ act res (trig w x) = true.
Proof.
  intros. unfold appear. rewrite filter_In, in_seq, andb_true_iff, negb_true_iff, mem_false.
  split; intros H; intuition lia.
Qed.

Lemma appear_nodup : forall w res kn, NoDup (appear w res kn).
Proof. intros. unfold appear. apply NoDup_filter. apply seq_NoDup. Qed.

Section InitTasks.
  Variable w : workflow.
  Variable s : cstate.
  Let nw := appear w (results s) (known s).
  Let s' := init_tasks w s.

  Lemma it_known : known s' = known s ++ nw. Proof. reflexivity. Qed.
  Lemma it_results : results s' = results s. Proof. reflexivity. Qed.
  Lemma it_views : views s' = views s. Proof. reflexivity. Qed.
  Lemma it_cseq : cseq s' = cseq s. Proof. reflexivity. Qed.
  Lemma it_vseq : vseq s' = vseq s. Proof. reflexivity. Qed.

  Lemma it_St : forall x, St s' x = if mem x nw then Waiting else St s x.
  Proof.
    intros x. unfold St, s', init_tasks. cbn [info]. fold nw.
    destruct (mem x nw); auto.
    destruct (mem x (known s) && le_ready (info s x)); auto.
  Qed.

  Lemma it_Dp : forall x,
    Dp s' x = if mem x nw || (mem x (known s) && le_readyb (St s x))
              then kdeps w (results s) x else Dp s x.
  Proof.
    intros x. unfold Dp, s', init_tasks. cbn [info]. fold nw. rewrite le_ready_St.
    destruct (mem x nw); auto.
    destruct (mem x (known s) && le_readyb (St s x)); auto.
  Qed.

  Lemma it_Vw : forall x,
    Vw s' x = if mem x nw || (mem x (known s) && le_readyb (St s x))
              then vseq s else Vw s x.
  Proof.
    intros x. unfold Vw, s', init_tasks. cbn [info]. fold nw. rewrite le_ready_St.
    destruct (mem x nw); auto.
    destruct (mem x (known s) && le_readyb (St s x)); auto.
  Qed.

  Lemma it_stop :
    stop s' = match check_cycle (fun t => Dp s' t) (known s') with
              | Some false => stop s
              | _ => match stop s with Some r => Some r | None => Some StopCycle end
              end.
  Proof. reflexivity. Qed.
End InitTasks.

Section Dispatch.
  Variable s : cstate.
  Variable t : nat.
  Hypothesis Hseq : vseq s = cseq s.
  Let s1 := mkState (known s) (upd (info s) t (set_state (info s t) Running))
                    (results s) (cseq s) (vseq s) (views s) (stop s).
  Let s' := dispatch s t.

  (* [dispatch] is [update_task_value] on [s1] plus a log entry, and
     [vseq s1 = cseq s1] is [Hseq] up to conversion *)
  Lemma d_known : known s' = known s.
  Proof. exact (utv_known s1 t Hseq). Qed.
  Lemma d_results : results s' = results s.
  Proof. exact (utv_results s1 t Hseq). Qed.
  Lemma d_stop : stop s' = stop s.
  Proof. exact (utv_stop s1 t Hseq). Qed.
  Lemma d_cseq : cseq s' = cseq s.
  Proof. exact (utv_cseq s1 t Hseq). Qed.
  Lemma d_vseq : vseq s' = vseq s.
  Proof. exact (utv_vseq s1 t Hseq). Qed.

  Lemma d_St : forall x, St s' x = if Nat.eqb x t then Running else St s x.
  Proof.
    intros x. transitivity (St s1 x); [exact (utv_St s1 t Hseq x)|].
    unfold St, s1, upd. cbn [info]. destruct (Nat.eqb x t); auto.
  Qed.

  Lemma d_Dp : forall x, Dp s' x = Dp s x.
  Proof.
    intros x. transitivity (Dp s1 x); [exact (utv_Dp s1 t Hseq x)|].
    apply (upd_proj _ ti_deps). reflexivity.
  Qed.

  Lemma d_info_other : forall x, x <> t -> info s' x = info s x.
  Proof.
    intros x Hx. transitivity (info s1 x); [exact (utv_info_other s1 t Hseq x Hx)|].
    unfold s1, upd. cbn [info]. destruct (Nat.eqb_spec x t); [contradiction | reflexivity].
  Qed.

  Lemma d_Vw_self : Vw s' t = Vw s t \/ Vw s' t = vseq s.
  Proof.
    replace (Vw s t) with (Vw s1 t) by (apply (upd_proj _ ti_view); reflexivity).
    exact (utv_Vw_self s1 t Hseq).
  Qed.

  Lemma d_views : views s' = (t, firstn (Vw s' t) (results s)) :: views s.
  Proof.
    unfold s', dispatch. fold s1. cbn [views]. rewrite (utv_views s1 t Hseq).
    unfold view_of. rewrite (utv_results s1 t Hseq). reflexivity.
  Qed.
End Dispatch.

Lemma cf_St : forall s t x, St (complete_fail s t) x = if Nat.eqb x t then Terminated false else St s x.
Proof. intros. unfold St, complete_fail, upd. cbn [info]. destruct (Nat.eqb x t); auto. Qed.
Lemma cf_Dp : forall s t x, Dp (complete_fail s t) x = Dp s x.
Proof. intros. apply (upd_proj _ ti_deps). reflexivity. Qed.
Lemma cf_Vw : forall s t x, Vw (complete_fail s t) x = Vw s x.
Proof. intros. apply (upd_proj _ ti_view). reflexivity. Qed.
Lemma cf_info_other : forall s t x, x <> t -> info (complete_fail s t) x = info s x.
Proof.
  intros s t x Hx. unfold complete_fail, upd. cbn [info].
  destruct (Nat.eqb_spec x t); [contradiction | reflexivity].
Qed.

(* the state in which initTasks runs after task t has completed successfully:
   t Terminated, its result appended, c.inst recomputed *)
Definition co_pre (s : cstate) (t : nat) : cstate :=
  let s2 := update_task_results
              (mkState (known s) (upd (info s) t (set_state (info s t) (Terminated true)))
                       (results s) (cseq s) (vseq s) (views s) (stop s)) t in
  mkState (known s2) (info s2) (results s2) (cseq s2) (cseq s2) (views s2) (stop s2).

Lemma co_pre_St : forall s t x, St (co_pre s t) x = if Nat.eqb x t then Terminated true else St s x.
Proof.
  intros s t x. unfold St, co_pre, update_task_results, upd. cbn [info].
  destruct (Nat.eqb x t) eqn:E; auto. cbn [ti_state]. rewrite Nat.eqb_refl. reflexivity.
Qed.

Lemma co_pre_Dp : forall s t x, Dp (co_pre s t) x = Dp s x.
Proof.
  intros s t x. unfold Dp, co_pre, update_task_results. cbn [info].
  rewrite (upd_proj _ ti_deps) by reflexivity. apply (upd_proj _ ti_deps). reflexivity.
Qed.

Section CompleteOk.
  Variable w : workflow.
  Variable s : cstate.
  Variable t : nat.
  Hypothesis Hseq : vseq s = cseq s.

  Let s4 := init_tasks w (co_pre s t).
  Let s' := complete_ok w s t.

  Lemma co_unfold : s' = mark_ready (update_task_value s4 t).
  Proof.
    unfold s', complete_ok. rewrite update_value_neq.
    - reflexivity.
    - cbn [update_task_results vseq cseq]. rewrite Hseq. lia.
  Qed.

  Lemma co_s4_seq : vseq s4 = cseq s4. Proof. reflexivity. Qed.

  Lemma co_results : results s' = results s ++ [t].
  Proof. rewrite co_unfold. exact (utv_results s4 t co_s4_seq). Qed.
  Lemma co_views : views s' = views s.
  Proof. rewrite co_unfold. exact (utv_views s4 t co_s4_seq). Qed.

  (* checkCycle runs inside initTasks; depTasks do not change after it *)
  Lemma co_stop :
    stop s' = match check_cycle (Dp s') (known s') with
              | Some false => stop s
              | _ => match stop s with Some r => Some r | None => Some StopCycle end
              end.
  Proof.
    rewrite (check_cycle_ext (Dp s') (fun x => Dp s4 x)).
    - rewrite co_unfold. cbn [mark_ready stop known].
      rewrite (utv_stop s4 t co_s4_seq), (utv_known s4 t co_s4_seq).
      unfold s4. rewrite it_stop. reflexivity.
    - intros x. rewrite co_unfold, mr_Dp. apply (utv_Dp s4 t co_s4_seq).
  Qed.
End CompleteOk.
