(* Theorems about every execution of the controller model (any completion order
   and outcome chosen by the environment). *)
From Verif Require Import Flow.Model Flow.CycleProofs Flow.Spec Flow.Ops Flow.Invariant Flow.Discover.
From Coq Require Import List Bool Arith PeanoNat Lia Permutation.
Import ListNotations.

(* the boolean side conditions of Flow/Spec.v imply the propositional ones *)

Lemma full_deps_In : forall w x d, In d (full_deps w x) <-> exists a, In (d, a) (deps w x) /\ d <> x.
Proof.
  intros. unfold full_deps. rewrite in_map_iff. split.
  - intros [[d' a] [E H]]. simpl in E. subst d'. apply filter_In in H. destruct H as [H1 H2].
    simpl in H2. apply negb_true_iff, Nat.eqb_neq in H2. eauto.
  - intros [a [H1 H2]]. exists (d, a). split; auto. apply filter_In. split; auto.
    simpl. apply negb_true_iff, Nat.eqb_neq. auto.
Qed.

Lemma opt_eqb_eq : forall a b, opt_eqb a b = true -> a = b.
Proof.
  intros [x|] [y|]; simpl; intros H; try discriminate; auto.
  apply Nat.eqb_eq in H. subst; auto.
Qed.

Lemma deps_nil_out : forall w t, length w <= t -> deps w t = [].
Proof.
  intros w t H. unfold deps. destruct (nth_error w t) eqn:E; auto.
  apply nth_error_None in H. congruence.
Qed.

Lemma trig_none_out : forall w t, length w <= t -> trig w t = None.
Proof.
  intros w t H. unfold trig. destruct (nth_error w t) eqn:E; auto.
  apply nth_error_None in H. congruence.
Qed.

(* a check of every reference of every task covers every [In e (deps w t)] *)
Lemma forallb_deps : forall w (p : nat -> nat * option nat -> bool),
  forallb (fun t => forallb (p t) (deps w t)) (all_tasks w) = true ->
  forall t e, In e (deps w t) -> p t e = true.
Proof.
  intros w p H t e Hin. rewrite forallb_forall in H.
  destruct (Nat.lt_ge_cases t (length w)) as [Ht | Ht].
  - assert (Hs : In t (all_tasks w)) by (unfold all_tasks; apply in_seq; lia).
    specialize (H t Hs). rewrite forallb_forall in H. auto.
  - rewrite (deps_nil_out w t Ht) in Hin. destruct Hin.
Qed.

Lemma wf_known_b_sound : forall w, wf_known_b w = true -> wf_known w.
Proof.
  intros w H t d a Hin. apply (forallb_deps w _ H) in Hin. simpl in Hin.
  apply andb_prop in Hin. destruct Hin as [H1 H2]. apply Nat.ltb_lt in H1. split; auto.
  apply orb_prop in H2. destruct H2 as [H2 | H2]; apply opt_eqb_eq in H2; auto.
Qed.

Lemma wf_trig_b_sound : forall w, wf_trig_b w = true -> wf_trig w.
Proof.
  intros w H t p E. unfold wf_trig_b in H. rewrite forallb_forall in H.
  destruct (Nat.lt_ge_cases t (length w)) as [Ht | Ht].
  - assert (Hs : In t (all_tasks w)) by (unfold all_tasks; apply in_seq; lia).
    specialize (H t Hs). rewrite E in H. apply Nat.ltb_lt in H. auto.
  - rewrite (trig_none_out w t Ht) in E. discriminate.
Qed.

Lemma grounded_b_sound : forall w t f a, grounded_b w t f a = true -> grounded w t a.
Proof.
  intros w t f. induction f as [|f IH]; intros [p|] H; simpl in H; try discriminate; try constructor.
  apply andb_prop in H. destruct H as [H1 H2]. apply negb_true_iff, Nat.eqb_neq in H1.
  apply existsb_exists in H2. destruct H2 as [[d a] [Hin H2]]. simpl in H2.
  apply andb_prop in H2. destruct H2 as [H2 H3]. apply Nat.eqb_eq in H2. subst d.
  eapply g_some; eauto.
Qed.

Lemma wf_closed_b_sound : forall w, wf_closed_b w = true -> wf_closed w.
Proof.
  intros w H t d a Hin. apply (forallb_deps w _ H) in Hin. eapply grounded_b_sound; eauto.
Qed.

Lemma acyclic_b_sound : forall w, wf_known w -> acyclic_b w = true -> acyclic w.
Proof.
  intros w K H. unfold acyclic_b in H. unfold acyclic.
  apply (check_cycle_false_iff (full_deps w) (all_tasks w)).
  - intros x Hx d Hd. apply full_deps_In in Hd. destruct Hd as [a [Ha _]].
    destruct (K x d a Ha) as [Hlt _]. unfold all_tasks. apply in_seq. lia.
  - destruct (check_cycle (full_deps w) (all_tasks w)) as [[|]|]; try discriminate; auto.
Qed.

Lemma step_stopped : forall w s l r, stop s = Some r -> step w s l = None.
Proof. intros w s l r H. unfold step. rewrite H. reflexivity. Qed.

(* which steps are enabled, and the state they lead to *)
Lemma step_cases : forall w s l s', step w s l = Some s' ->
  stop s = None /\
  match l with
  | Dispatch t => In t (known s) /\ St s t = Ready /\ s' = freeze (length w) (dispatch s t)
  | Complete t ok =>
    any_ready s = false /\ In t (known s) /\ St s t = Running /\
    s' = freeze (length w) (if ok then complete_ok w s t else complete_fail s t)
  | Cancel =>
    any_ready s = false /\ any_running s = true /\
    s' = mkState (known s) (info s) (results s) (cseq s) (vseq s) (views s) (Some StopCancelled)
  end.
Proof.
  intros w s l s' H. unfold step in H. destruct (stop s); [discriminate|]. split; auto.
  destruct l as [t | t ok |].
  - destruct (mem t (known s) && is_ready_st (info s t)) eqn:E; inversion H.
    apply andb_prop in E. destruct E as [E1 E2]. apply mem_In in E1. rewrite is_ready_St in E2.
    repeat split; auto. destruct (St s t); try discriminate; auto.
  - destruct (negb (any_ready s) && mem t (known s) && is_running (info s t)) eqn:E; inversion H.
    apply andb_prop in E. destruct E as [E E3]. apply andb_prop in E. destruct E as [E1 E2].
    apply mem_In in E2. apply negb_true_iff in E1. rewrite is_running_St in E3.
    repeat split; auto. destruct (St s t); try discriminate; auto.
  - destruct (negb (any_ready s) && any_running s) eqn:E; inversion H.
    apply andb_prop in E. destruct E as [E1 E2]. apply negb_true_iff in E1. auto.
Qed.

Theorem step_inv : forall w s l s', Inv w s -> step w s l = Some s' -> Inv w s'.
Proof.
  intros w s l s' I H. destruct l as [t | t ok |].
  - apply step_cases in H. destruct H as [_ [Ht [HR ->]]].
    apply inv_freeze. apply inv_dispatch; auto.
  - apply step_cases in H. destruct H as [Hs [Hnr [Ht [HR ->]]]].
    apply inv_freeze. destruct ok.
    + apply inv_complete_ok; auto.
    + apply inv_complete_fail; auto.
  - apply step_cases in H. destruct H as [Hs [_ [_ ->]]]. apply inv_cancel; auto.
Qed.

Lemma run_from_app : forall w l1 l2 s,
  run_from w s (l1 ++ l2) =
  match run_from w s l1 with Some s' => run_from w s' l2 | None => None end.
Proof.
  intros w l1. induction l1 as [|l r IH]; intros l2 s; simpl; auto.
  destruct (step w s l); auto.
Qed.

(* an event of an execution: the state it happens in, its step, and the rest *)
Lemma run_mid : forall w tr1 l tr2 s, run w (tr1 ++ l :: tr2) = Some s ->
  exists s1 s2, run w tr1 = Some s1 /\ step w s1 l = Some s2 /\ run_from w s2 tr2 = Some s.
Proof.
  intros w tr1 l tr2 s. unfold run. rewrite run_from_app.
  destruct (run_from w (init w) tr1) as [s1|]; [|discriminate]. simpl.
  destruct (step w s1 l) as [s2|] eqn:E; [|discriminate]. intros H. exists s1, s2. auto.
Qed.

Lemma run_ind : forall w (P : list label -> cstate -> Prop),
  P [] (init w) ->
  (forall tr s l s', run w tr = Some s -> P tr s -> step w s l = Some s' -> P (tr ++ [l]) s') ->
  forall tr s, run w tr = Some s -> P tr s.
Proof.
  intros w P H0 HS tr. induction tr as [|l tr IH] using rev_ind; intros s H.
  - unfold run in H. simpl in H. inversion H. subst. auto.
  - apply run_mid in H. destruct H as [s0 [s1 [H1 [E [= <-]]]]]. eapply HS; eauto.
Qed.

Theorem run_inv : forall w tr s, run w tr = Some s -> Inv w s.
Proof.
  intros w. apply (run_ind w (fun _ s => Inv w s)).
  - apply inv_init.
  - intros tr s l s' _ I H. eapply step_inv; eauto.
Qed.

(* A step moves one task: Dispatch t takes t from Ready to Running, Complete t ok
   from Running to Terminated ok; after a successful completion other Waiting
   tasks may have become Ready (new tasks are Waiting or Ready). *)
Lemma step_St : forall w s l s', Inv w s -> step w s l = Some s' ->
  match l with
  | Dispatch t => St s t = Ready /\ forall x, St s' x = if Nat.eqb x t then Running else St s x
  | Complete t ok => St s t = Running /\ St s' t = Terminated ok /\
      forall x, x <> t -> St s' x = St s x \/ (St s x = Waiting /\ St s' x = Ready)
  | Cancel => forall x, St s' x = St s x
  end.
Proof.
  intros w s l s' I H. destruct l as [t | t [|] |].
  - apply step_cases in H. destruct H as [_ [_ [HR ->]]]. split; auto.
    intros x. rewrite St_freeze. apply d_St. apply (i_vseq w s I).
  - apply step_cases in H. destruct H as [Hs [Hnr [Ht [HR ->]]]].
    pose proof (rf_St w _ (pre_completed w s t I Hs Hnr Ht HR)) as C.
    split; auto. split; [|intros x Hne]; rewrite St_freeze, (cok_St w s t I).
    + destruct (C t) as [-> | [E _]]; rewrite co_pre_St, Nat.eqb_refl in *; [reflexivity | discriminate].
    + destruct (C x) as [-> | [E [-> _]]]; rewrite co_pre_St in *;
        destruct (Nat.eqb_spec x t); try contradiction; auto.
  - apply step_cases in H. destruct H as [_ [_ [_ [HR ->]]]].
    split; auto. split; [|intros x Hne; left]; rewrite St_freeze, cf_St.
    + rewrite Nat.eqb_refl. reflexivity.
    + destruct (Nat.eqb_spec x t); [contradiction | reflexivity].
  - apply step_cases in H. destruct H as [_ [_ [_ ->]]]. reflexivity.
Qed.

Lemma label_eqb_eq : forall a b, label_eqb a b = true <-> a = b.
Proof.
  intros [x | x o |] [y | y p |]; simpl; split; intros H; try discriminate; auto.
  - apply Nat.eqb_eq in H. subst; auto.
  - inversion H. apply Nat.eqb_refl.
  - apply andb_prop in H. destruct H as [H1 H2]. apply Nat.eqb_eq in H1. apply eqb_prop in H2. subst; auto.
  - inversion H. rewrite Nat.eqb_refl, eqb_reflx. auto.
Qed.

Lemma count_app : forall l tr1 tr2, count l (tr1 ++ tr2) = count l tr1 + count l tr2.
Proof. intros. unfold count. rewrite filter_app, app_length. auto. Qed.

Lemma count_snoc : forall l tr l',
  count l (tr ++ [l']) = count l tr + (if label_eqb l l' then 1 else 0).
Proof. intros. rewrite count_app. unfold count. simpl. destruct (label_eqb l l'); reflexivity. Qed.

Lemma count_pos_In : forall l tr, 1 <= count l tr <-> In l tr.
Proof.
  intros l tr. unfold count. induction tr as [|a r IH]; simpl.
  - split; [lia | intros []].
  - destruct (label_eqb l a) eqn:E; simpl.
    + apply label_eqb_eq in E. subst. split; auto. lia.
    + rewrite IH. split; auto. intros [-> | H]; auto.
      rewrite (proj2 (label_eqb_eq l l) eq_refl) in E. discriminate.
Qed.

Lemma completions_app : forall a b, completions (a ++ b) = completions a ++ completions b.
Proof. induction a as [|[x | x [|] |] a IH]; intros b; simpl; auto. rewrite IH. reflexivity. Qed.

Lemma completions_In : forall tr x, In x (completions tr) <-> In (Complete x true) tr.
Proof.
  induction tr as [|[y | y [|] |] tr IH]; intros x; simpl; rewrite ?IH; [tauto | | | |];
    split; auto; intros [H | H]; auto; try discriminate.
  - subst. auto.
  - inversion H. auto.
Qed.

Lemma init_le_ready : forall w x, le_readyb (St (init w) x) = true.
Proof.
  intros w x. unfold init. rewrite St_freeze.
  destruct (rf_St w _ (pre_empty w) x) as [-> | [_ [-> _]]]; reflexivity.
Qed.

Lemma init_results : forall w, results (init w) = [].
Proof. reflexivity. Qed.

Lemma init_views : forall w, views (init w) = [].
Proof. reflexivity. Qed.

(* what a step appends to the results, and the stop reason after it *)
Lemma step_frame : forall w s l s', Inv w s -> step w s l = Some s' ->
  results s' = results s ++ match l with Complete x true => [x] | _ => [] end /\
  stop s' = match l with
            | Dispatch _ => None
            | Complete _ false => Some StopFailed
            | Cancel => Some StopCancelled
            | Complete _ true =>
              match check_cycle (Dp s') (known s') with Some false => None | _ => Some StopCycle end
            end.
Proof.
  intros w s l s' I H. pose proof (i_vseq w s I) as Hseq.
  apply step_cases in H. destruct H as [Hs H]. destruct l as [t | t [|] |].
  - destruct H as [_ [_ ->]]. cbn [freeze results stop].
    rewrite (d_results s t Hseq), (d_stop s t Hseq), app_nil_r. auto.
  - destruct H as [_ [_ [_ ->]]]. cbn [freeze results stop known].
    rewrite (co_results w s t Hseq), (co_stop w s t Hseq), Hs. split; auto.
    erewrite check_cycle_ext; [reflexivity|]. intros x. symmetry. apply Dp_freeze.
  - destruct H as [_ [_ [_ ->]]]. cbn [freeze results stop complete_fail]. rewrite app_nil_r. auto.
  - destruct H as [_ [_ ->]]. cbn [results stop]. rewrite app_nil_r. auto.
Qed.

Record TInv (tr : list label) (s : cstate) : Prop := {
  t_res : results s = completions tr;
  t_disp : forall x, count (Dispatch x) tr = if le_readyb (St s x) then 0 else 1;
  t_comp : forall x, count (Complete x true) tr + count (Complete x false) tr =
                     if doneb (St s x) then 1 else 0 }.

Theorem run_tinv : forall w tr s, run w tr = Some s -> TInv tr s.
Proof.
  intros w. apply (run_ind w TInv).
  - constructor.
    + reflexivity.
    + intros x. rewrite init_le_ready. reflexivity.
    + intros x. pose proof (init_le_ready w x) as H. destruct (St (init w) x); simpl in *; auto; discriminate.
  - intros tr s l s' Hrun T H. pose proof (run_inv w tr s Hrun) as I.
    pose proof (step_St w s l s' I H) as HS.
    constructor.
    + rewrite (proj1 (step_frame w s l s' I H)), completions_app, (t_res tr s T). reflexivity.
    + intros x. rewrite count_snoc, (t_disp tr s T x).
      destruct l as [t | t ok |]; cbn [label_eqb].
      * destruct HS as [HR HS]. rewrite HS.
        destruct (Nat.eqb_spec x t) as [-> | _]; [rewrite HR; reflexivity | lia].
      * destruct HS as [HR [HT HO]].
        destruct (Nat.eq_dec x t) as [-> | Hne]; [rewrite HT, HR; reflexivity|].
        destruct (HO x Hne) as [E | [E1 E2]]; [rewrite E; lia | rewrite E1, E2; reflexivity].
      * rewrite HS. lia.
    + intros x. rewrite !count_snoc. pose proof (t_comp tr s T x) as C.
      destruct l as [t | t ok |]; cbn [label_eqb].
      * destruct HS as [HR HS]. rewrite HS.
        destruct (Nat.eqb_spec x t) as [-> | _]; [rewrite HR in C; simpl in *|]; lia.
      * destruct HS as [HR [HT HO]]. destruct (Nat.eqb_spec x t) as [-> | Hne].
        -- rewrite HT. rewrite HR in C. destruct ok; simpl in *; lia.
        -- simpl. destruct (HO x Hne) as [E | [E1 E2]]; [rewrite E; lia|].
           rewrite E1 in C. rewrite E2. simpl in *. lia.
      * rewrite HS. lia.
Qed.

Theorem at_most_once : forall w tr s, run w tr = Some s ->
  forall x, count (Dispatch x) tr <= 1 /\
            count (Complete x true) tr + count (Complete x false) tr <= 1.
Proof.
  intros w tr s H x. pose proof (run_tinv w tr s H) as T. split.
  - rewrite (t_disp tr s T x). destruct (le_readyb (St s x)); lia.
  - rewrite (t_comp tr s T x). destruct (doneb (St s x)); lia.
Qed.

Theorem complete_after_dispatch : forall w tr1 x ok tr2 s,
  run w (tr1 ++ Complete x ok :: tr2) = Some s -> In (Dispatch x) tr1.
Proof.
  intros w tr1 x ok tr2 s H.
  apply run_mid in H. destruct H as [s1 [s2 [H1 [E _]]]].
  apply step_cases in E. destruct E as [_ [_ [_ [HR _]]]].
  pose proof (run_tinv w tr1 s1 H1) as T. pose proof (t_disp tr1 s1 T x) as D.
  rewrite HR in D. simpl in D. apply count_pos_In. lia.
Qed.

(* When a task is Ready, every grounded reference it makes - late ones included - is
   visible, and the task it leads to has completed successfully. *)
Lemma ready_deps_done : forall w s t, Inv w s -> In t (known s) -> St s t = Ready ->
  forall d a, In (d, a) (deps w t) -> grounded w t a -> d <> t -> In d (results s).
Proof.
  intros w s t I Ht HR.
  assert (Hfresh : Dp s t = kdeps w (results s) t).
  { apply (i_fresh w s I t Ht). rewrite HR. reflexivity. }
  assert (Hdone : forall d, In d (kdeps w (results s) t) -> In d (results s)).
  { intros d Hd. apply (i_started w s I t d); [rewrite HR; reflexivity | rewrite Hfresh; auto]. }
  assert (G : forall a, grounded w t a -> act (results s) a = true).
  { intros a Ha. induction Ha as [| p a Hne Hin _ IH]; [reflexivity|].
    simpl. apply mem_In. apply Hdone. apply kdeps_In. exists a. auto. }
  intros d a Hin Hg Hne. apply Hdone. apply kdeps_In. exists a. auto.
Qed.

Lemma dispatch_view : forall w s t s', Inv w s -> step w s (Dispatch t) = Some s' ->
  views s' = (t, results s) :: views s /\ view_of s' t = results s.
Proof.
  intros w s t s' I H. pose proof (i_vseq w s I) as Hseq.
  apply step_cases in H. destruct H as [_ [Ht [HR ->]]].
  assert (HV : Vw (dispatch s t) t = length (results s)).
  { rewrite <- (i_cseq w s I), <- Hseq.
    destruct (d_Vw_self s t Hseq) as [E | E]; rewrite E; auto.
    apply (i_view w s I t Ht). rewrite HR. reflexivity. }
  split.
  - cbn [freeze views]. rewrite (d_views s t Hseq), HV, firstn_all. reflexivity.
  - unfold view_of. rewrite info_freeze. cbn [freeze results]. rewrite (d_results s t Hseq).
    change (ti_view (info (dispatch s t) t)) with (Vw (dispatch s t) t).
    rewrite HV. apply firstn_all.
Qed.

(* In every execution, when task t is started every task it refers to has
   completed successfully earlier in the trace, and all those results are part of
   the configuration t sees (t.v was looked up in a c.inst that contains them). *)
Theorem start_after_deps : forall w, wf_closed w ->
  forall tr1 t tr2 s, run w (tr1 ++ Dispatch t :: tr2) = Some s ->
  exists s1 s2, run w tr1 = Some s1 /\ step w s1 (Dispatch t) = Some s2 /\
    views s2 = (t, results s1) :: views s1 /\ view_of s2 t = results s1 /\
    forall d a, In (d, a) (deps w t) -> d <> t ->
      In (Complete d true) tr1 /\ In d (view_of s2 t).
Proof.
  intros w C tr1 t tr2 s H.
  apply run_mid in H. destruct H as [s1 [s2 [H1 [E _]]]].
  pose proof (run_inv w tr1 s1 H1) as I.
  destruct (dispatch_view w s1 t s2 I E) as [V1 V2].
  exists s1, s2. repeat split; auto; rewrite ?V2;
    apply step_cases in E; destruct E as [_ [Ht [HR _]]].
  - apply completions_In. rewrite <- (t_res tr1 s1 (run_tinv w tr1 s1 H1)).
    apply (ready_deps_done w s1 t I Ht HR d a); auto. apply (C t d a); auto.
  - apply (ready_deps_done w s1 t I Ht HR d a); auto. apply (C t d a); auto.
Qed.

(* a task that has been started: each task it refers to was started and has
   completed successfully *)
Lemma dispatched_dep : forall w, wf_closed w -> forall tr s x y, run w tr = Some s ->
  In (Dispatch x) tr -> In y (full_deps w x) -> In (Complete y true) tr /\ In (Dispatch y) tr.
Proof.
  intros w C tr s x y H HD Hy. apply in_split in HD. destruct HD as [tr1 [tr2 ->]].
  destruct (start_after_deps w C tr1 x tr2 s H) as [s1 [s2 [_ [_ [_ [_ Hd]]]]]].
  apply full_deps_In in Hy. destruct Hy as [a [Ha Hne]]. destruct (Hd y a Ha Hne) as [Hc _].
  split; [apply in_app_iff; auto|].
  apply in_split in Hc. destruct Hc as [u1 [u2 ->]]. rewrite <- app_assoc in H. simpl in H.
  apply in_app_iff. left. apply in_app_iff. left. eapply complete_after_dispatch; eauto.
Qed.

(* a task that (transitively) depends on a failed task is never started, neither
   before nor after the failure *)
Theorem failure_blocks_dependants : forall w, wf_closed w ->
  forall tr s d x, run w tr = Some s -> In (Complete d false) tr ->
  depends_on w x d -> ~ In (Dispatch x) tr.
Proof.
  intros w C tr s d x H Hf Hdep. unfold depends_on in Hdep.
  induction Hdep as [x y Hy | x z y Hz _ IH]; intros HD.
  - destruct (dispatched_dep w C tr s x y H HD Hy) as [Hc _].
    destruct (at_most_once w _ s H y) as [_ Hm].
    apply count_pos_In in Hc. apply count_pos_In in Hf. lia.
  - apply IH; auto. apply (dispatched_dep w C tr s x z H HD Hz).
Qed.

(* In a finite graph, a non-empty set of nodes each of which has a successor
   inside the set contains a cycle: follow successors from a node of the set,
   keeping the nodes passed so far (all reachable from the current one); either
   the current node is among them, or the list grows beyond the number of nodes. *)
Lemma succ_closed_cycle : forall dp (A : nat -> Prop) ts,
  (forall x, A x -> In x ts) ->
  (forall x, A x -> exists y, In y (dp x) /\ A y) ->
  (exists x, A x) -> has_cycle dp ts.
Proof.
  intros dp A ts Hin Hsucc [x0 Hx0].
  assert (W : forall n x, A x -> has_cycle dp ts \/
            exists l, length l = n /\ NoDup l /\ incl l ts /\ forall z, In z l -> z = x \/ path dp x z).
  { induction n as [|n IH]; intros x Hx.
    - right. exists []. repeat split; [constructor | intros z [] | intros z []].
    - destruct (Hsucc x Hx) as [y [Hy Ay]]. destruct (IH y Ay) as [C | [l [L [ND [Hl R]]]]]; auto.
      assert (R' : forall z, In z l -> path dp x z).
      { intros z Hz. destruct (R z Hz) as [-> | P]; [apply path1 | eapply pathS]; eauto. }
      destruct (in_dec Nat.eq_dec x l) as [Hxl | Hxl].
      + left. exists x. split; auto.
      + right. exists (x :: l). simpl. repeat split; auto.
        * constructor; auto.
        * intros z [<- | Hz]; auto.
        * intros z [<- | Hz]; auto. }
  destruct (W (S (length ts)) x0 Hx0) as [C | [l [L [ND [Hl _]]]]]; auto.
  pose proof (NoDup_incl_length ND Hl). lia.
Qed.

(* The "deadlock" branch of runLoop is unreachable: whenever no task is Ready or
   Running (and no error has been recorded), no task is Waiting either.  Holds
   for every workflow, cyclic ones included: a cycle is reported by checkCycle
   before anything can wait on it. *)
Theorem no_deadlock : forall w, wf_known w ->
  forall tr s, run w tr = Some s -> stop s = None ->
  any_ready s = false -> any_running s = false -> any_waiting s = false.
Proof.
  intros w K tr s H Hs Hr Hn.
  pose proof (run_inv w tr s H) as I.
  destruct (any_waiting s) eqn:Hw; auto. exfalso.
  apply existsb_exists in Hw. destruct Hw as [x0 [Hx0 Wx0]]. rewrite is_waiting_St in Wx0.
  apply (i_acyc w s I K Hs).
  apply (succ_closed_cycle (Dp s) (fun x => In x (known s) /\ waitingb (St s x) = true) (known s)).
  - intros x [Hx _]. auto.
  - intros x [Hx Wx].
    pose proof (i_wait w s I Hs x Hx Wx) as R. rewrite task_ready_St in R.
    assert (E : exists d, In d (Dp s x) /\ doneb (St s d) = false).
    { clear - R. induction (Dp s x) as [|d r IH]; simpl in R; [discriminate|].
      destruct (doneb (St s d)) eqn:E.
      - simpl in R. destruct (IH R) as [d' [H1 H2]]. exists d'. split; auto. right; auto.
      - exists d. split; auto. left; auto. }
    destruct E as [d [Hd Nd]]. exists d. split; auto.
    assert (Hdk : In d (known s)) by (apply (Dp_closed w s K I x Hx d Hd)).
    split; auto.
    pose proof (any_false is_ready_st s d Hr Hdk) as R1. rewrite is_ready_St in R1.
    pose proof (any_false is_running s d Hn Hdk) as R2. rewrite is_running_St in R2.
    destruct (St s d); simpl in *; try discriminate; auto.
  - exists x0. auto.
Qed.

Lemma init_stop : forall w,
  stop (init w) = match check_cycle (Dp (init w)) (known (init w)) with
                  | Some false => None | _ => Some StopCycle end.
Proof.
  intros w. unfold init at 1. cbn [freeze mark_ready stop]. rewrite it_stop.
  cbn [empty_state stop].
  erewrite check_cycle_ext; [reflexivity|].
  intros x. cbv beta. unfold init. rewrite Dp_freeze, mr_Dp. reflexivity.
Qed.

Lemma Dp_path_full : forall w s, Inv w s -> forall x y, path (Dp s) x y -> path (full_deps w) x y.
Proof.
  intros w s I. apply path_incl. intros x y Hy.
  destruct (i_sub w s I x y Hy) as [a [H1 [H2 _]]]. apply full_deps_In. eauto.
Qed.

Lemma known_all_tasks : forall w s x, Inv w s -> In x (known s) -> In x (all_tasks w).
Proof.
  intros w s x I Hx. apply (i_known w s I) in Hx. unfold all_tasks. apply in_seq. lia.
Qed.

(* in an acyclic workflow checkCycle never reports an error *)
Lemma acyclic_check_false : forall w s, wf_known w -> acyclic w -> Inv w s ->
  check_cycle (Dp s) (known s) = Some false.
Proof.
  intros w s K A I. apply check_cycle_false_iff.
  - apply (Dp_closed w s K I).
  - intros [t [Ht Hp]]. apply A. exists t. split.
    + apply (known_all_tasks w s t I Ht).
    + apply (Dp_path_full w s I). auto.
Qed.

Theorem acyclic_never_stops : forall w, wf_known w -> acyclic w ->
  forall tr s, run w tr = Some s -> all_ok tr -> stop s = None.
Proof.
  intros w K A. apply (run_ind w (fun tr s => all_ok tr -> stop s = None)).
  - intros _. rewrite init_stop. rewrite (acyclic_check_false w (init w) K A (inv_init w)). auto.
  - intros tr s l s' Hrun IH H Hok.
    pose proof (run_inv w tr s Hrun) as I.
    rewrite (proj2 (step_frame w s l s' I H)).
    assert (Hl : is_fail_or_cancel l = false) by (apply Hok; apply in_app_iff; right; left; auto).
    destruct l as [t | t [|] |]; simpl in Hl; try discriminate; auto.
    rewrite (acyclic_check_false w s' K A (step_inv w s _ s' I H)). auto.
Qed.

Lemma sum_change : forall (f g : nat -> nat) l t, NoDup l -> In t l ->
  (forall x, x <> t -> g x = f x) -> f t = S (g t) ->
  list_sum (map f l) = S (list_sum (map g l)).
Proof.
  intros f g l t. induction l as [|a l IH]; intros ND Hin Hext Ht; [destruct Hin|].
  inversion ND; subst. simpl. destruct Hin as [-> | Hin].
  - rewrite Ht. simpl. f_equal. f_equal. f_equal.
    apply map_ext_in. intros x Hx. symmetry. apply Hext. intros ->. auto.
  - rewrite (IH H2 Hin Hext Ht). rewrite (Hext a) by (intros ->; auto). lia.
Qed.

Lemma sum_const : forall (f : nat -> nat) c l, (forall x, In x l -> f x = c) ->
  list_sum (map f l) = c * length l.
Proof.
  intros f c l. induction l as [|a l IH]; intros H; simpl; [lia|].
  rewrite H by (left; auto). rewrite IH by (intros; apply H; right; auto). lia.
Qed.

Lemma measure_init : forall w, measure w (init w) = 2 * length w.
Proof.
  intros w. unfold measure. rewrite (sum_const _ 2).
  - unfold all_tasks. rewrite seq_length. auto.
  - intros x _. pose proof (init_le_ready w x) as H. unfold St in H.
    destruct (ti_state (info (init w) x)); simpl in *; auto; discriminate.
Qed.

(* every Dispatch and every successful completion lowers the measure by exactly one *)
Lemma measure_step : forall w s l s', Inv w s -> step w s l = Some s' ->
  is_fail_or_cancel l = false -> measure w s = S (measure w s').
Proof.
  intros w s l s' I H Hl. pose proof (step_St w s l s' I H) as HS.
  (* the task of the label loses one unit of weight, the others keep theirs *)
  assert (W : exists t, In t (known s) /\ weight (St s t) = S (weight (St s' t)) /\
                        forall x, x <> t -> weight (St s' x) = weight (St s x)).
  { destruct l as [t | t [|] |]; simpl in Hl; try discriminate; exists t;
      apply step_cases in H.
    - destruct H as [_ [Ht _]]. destruct HS as [HR HS]. split; auto. split.
      + rewrite HS, Nat.eqb_refl, HR. reflexivity.
      + intros x Hne. rewrite HS. destruct (Nat.eqb_spec x t); [contradiction | reflexivity].
    - destruct H as [_ [_ [Ht _]]]. destruct HS as [HR [E Ho]]. split; auto. split.
      + rewrite E, HR. reflexivity.
      + intros x Hne. destruct (Ho x Hne) as [E1 | [E1 E2]]; [rewrite E1 | rewrite E1, E2]; auto. }
  destruct W as [t [Ht [Wt Wo]]]. unfold measure. apply (sum_change _ _ _ t); auto.
  - apply seq_NoDup.
  - apply (known_all_tasks w s t I Ht).
Qed.

Theorem measure_accounting : forall w tr s, run w tr = Some s -> all_ok tr ->
  length tr + measure w s = 2 * length w.
Proof.
  intros w. apply (run_ind w (fun tr s => all_ok tr -> length tr + measure w s = 2 * length w)).
  - intros _. rewrite measure_init. simpl. lia.
  - intros tr s l s' Hrun IH H Hok.
    assert (Hl : is_fail_or_cancel l = false) by (apply Hok; apply in_app_iff; right; left; auto).
    assert (Hok' : all_ok tr) by (intros l0 Hl0; apply Hok; apply in_app_iff; auto).
    rewrite app_length. simpl.
    rewrite (measure_step w s l s' (run_inv w tr s Hrun) H Hl) in IH. specialize (IH Hok'). lia.
Qed.

Lemma all_known_when_done : forall w s, wf_trig w -> Inv w s ->
  (forall x, In x (known s) -> St s x = Terminated true) ->
  forall x, x < length w -> In x (known s).
Proof.
  intros w s T I Hall x. induction x as [x IH] using lt_wf_ind. intros Hx.
  apply (i_known w s I). split; auto.
  destruct (trig w x) as [p|] eqn:E; [|reflexivity].
  simpl. apply mem_In. apply (i_res w s I).
  assert (Hp : p < x) by (apply (T x p E)).
  assert (Hk : In p (known s)) by (apply IH; lia). split; auto.
Qed.

(* When no error is recorded and no task is Ready or Running, every task of the
   workflow has been dispatched exactly once and has completed successfully. *)
Lemma all_done_when_idle : forall w, wf_known w -> wf_trig w ->
  forall tr s, run w tr = Some s -> stop s = None ->
  any_ready s = false -> any_running s = false ->
  measure w s = 0 /\
  forall x, x < length w ->
    In x (results s) /\ count (Dispatch x) tr = 1 /\ count (Complete x true) tr = 1.
Proof.
  intros w K T tr s H Hs Hr Hn.
  pose proof (run_inv w tr s H) as I. pose proof (run_tinv w tr s H) as TI.
  pose proof (no_deadlock w K tr s H Hs Hr Hn) as Hw.
  assert (Hall : forall x, In x (known s) -> St s x = Terminated true).
  { intros x Hx.
    pose proof (any_false is_ready_st s x Hr Hx) as R1. rewrite is_ready_St in R1.
    pose proof (any_false is_running s x Hn Hx) as R2. rewrite is_running_St in R2.
    pose proof (any_false is_waiting s x Hw Hx) as R3. rewrite is_waiting_St in R3.
    destruct (St s x) as [| | |[|]] eqn:E; simpl in *; try discriminate; auto.
    rewrite (i_failed w s I x E) in Hs. discriminate. }
  pose proof (all_known_when_done w s T I Hall) as Hk.
  split.
  - unfold measure. rewrite (sum_const _ 0); [lia|].
    intros x Hx. unfold all_tasks in Hx. apply in_seq in Hx.
    change (weight (St s x) = 0). rewrite (Hall x) by (apply Hk; lia). reflexivity.
  - intros x Hx. pose proof (Hall x (Hk x Hx)) as E.
    assert (Hres : In x (results s)) by (apply (i_res w s I); split; auto).
    split; auto. split.
    + rewrite (t_disp tr s TI x), E. reflexivity.
    + destruct (at_most_once w tr s H x) as [_ Hm].
      rewrite (t_res tr s TI) in Hres. apply completions_In, count_pos_In in Hres. lia.
Qed.

(* A reachable state of a failure-free run is never stuck: either a Ready task
   can be dispatched, or a Running task can complete, or every task of the
   workflow has been dispatched exactly once and has completed successfully. *)
Theorem progress : forall w, wf_known w -> wf_trig w ->
  forall tr s, run w tr = Some s -> stop s = None ->
  (exists x, step w s (Dispatch x) <> None) \/
  (exists x, step w s (Complete x true) <> None) \/
  (measure w s = 0 /\
   forall x, x < length w ->
     In x (results s) /\ count (Dispatch x) tr = 1 /\ count (Complete x true) tr = 1).
Proof.
  intros w K T tr s H Hs.
  destruct (any_ready s) eqn:Hr.
  { left. apply existsb_exists in Hr. destruct Hr as [x [Hx Rx]]. exists x.
    unfold step. rewrite Hs. apply mem_In in Hx. rewrite Hx, Rx. discriminate. }
  destruct (any_running s) eqn:Hn.
  { right. left. apply existsb_exists in Hn. destruct Hn as [x [Hx Rx]]. exists x.
    unfold step. rewrite Hs, Hr. apply mem_In in Hx. rewrite Hx, Rx. discriminate. }
  right. right. apply (all_done_when_idle w K T tr s H Hs Hr Hn).
Qed.

(* In an acyclic workflow, when no task fails and the
   context is not cancelled, under ANY completion order: no error is ever
   recorded, the state is never stuck before every task has run, and the measure
   [2 * not started + running] decreases by one with every event, so every
   execution reaches the state where all tasks have run after exactly
   2 * (number of tasks) events. *)
Theorem all_run_when_acyclic_ok : forall w, wf_known w -> wf_trig w -> acyclic w ->
  forall tr s, run w tr = Some s -> all_ok tr ->
  stop s = None /\
  length tr + measure w s = 2 * length w /\
  ((exists x, step w s (Dispatch x) <> None) \/
   (exists x, step w s (Complete x true) <> None) \/
   (length tr = 2 * length w /\
    forall x, x < length w ->
      In x (results s) /\ count (Dispatch x) tr = 1 /\ count (Complete x true) tr = 1)).
Proof.
  intros w K T A tr s H Hok.
  pose proof (acyclic_never_stops w K A tr s H Hok) as Hs.
  pose proof (measure_accounting w tr s H Hok) as Hm.
  split; auto. split; auto.
  destruct (progress w K T tr s H Hs) as [P | [P | [P1 P2]]]; auto.
  right. right. split; auto. lia.
Qed.

Theorem results_are_ok_completions : forall w tr s, run w tr = Some s ->
  results s = completions tr /\ NoDup (results s).
Proof.
  intros w tr s H. split.
  - apply (t_res tr s (run_tinv w tr s H)).
  - apply (i_res_nodup w s (run_inv w tr s H)).
Qed.

Lemma fold_left_perm : forall (C : Type) (merge : C -> nat -> C),
  (forall c a b, merge (merge c a) b = merge (merge c b) a) ->
  forall l1 l2, Permutation l1 l2 -> forall c, fold_left merge l1 c = fold_left merge l2 c.
Proof.
  intros C merge Hc l1 l2 P. induction P; intros c; simpl; auto.
  - rewrite Hc. reflexivity.
  - rewrite IHP1. apply IHP2.
Qed.

(* The configuration is the initial one merged with the results in arrival order.
   Two executions in which the same tasks completed successfully merge the same
   multiset of results; hence, for any merge operation for which the order of two
   results does not matter, the same final configuration. *)
Theorem final_config_order_free : forall w tr1 tr2 s1 s2,
  run w tr1 = Some s1 -> run w tr2 = Some s2 ->
  (forall x, In (Complete x true) tr1 <-> In (Complete x true) tr2) ->
  Permutation (results s1) (results s2) /\
  forall (C : Type) (merge : C -> nat -> C) (c0 : C),
    (forall c a b, merge (merge c a) b = merge (merge c b) a) ->
    fold_left merge (results s1) c0 = fold_left merge (results s2) c0.
Proof.
  intros w tr1 tr2 s1 s2 H1 H2 Hsame.
  destruct (results_are_ok_completions w tr1 s1 H1) as [E1 N1].
  destruct (results_are_ok_completions w tr2 s2 H2) as [E2 N2].
  assert (P : Permutation (results s1) (results s2)).
  { apply NoDup_Permutation; auto. intros x. rewrite E1, E2, !completions_In. apply Hsame. }
  split; auto. intros C merge c0 Hc. apply fold_left_perm; auto.
Qed.
