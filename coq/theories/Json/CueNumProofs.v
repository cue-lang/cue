(* C10 - every JSON number text is a CUE number literal (optionally preceded by
   a unary minus) with the same coefficient, exponent and int/float kind. *)
From Verif Require Import Json.Model Json.Cue Json.Data Json.NumProofs.
From Coq Require Import Lia ZifyN ZifyNat ZifyBool.

(* the scanner state after reading the first byte of s, with buffer b *)
Definition reading (b : bytes) (e : bool) (s : bytes) : pst :=
  pn_step {| p_src := s; p_ch := 0; p_buf := b; p_err := e |}.

Lemma step_reading : forall st, pn_step st = reading (p_buf st) (p_err st) (p_src st).
Proof. intros [s c b e]. reflexivity. Qed.

Lemma step_push : forall c st, pn_step (push c st) = reading (p_buf st ++ [c]) (p_err st) (p_src st).
Proof. intros c [s ch b e]. reflexivity. Qed.

Lemma reading_nil : forall b e, reading b e [] = {| p_src := []; p_ch := 0; p_buf := b; p_err := e |}.
Proof. reflexivity. Qed.

Lemma reading_plain : forall b c s, c <> 46 -> c <> 0 ->
  reading b false (c :: s) = {| p_src := s; p_ch := c; p_buf := b; p_err := false |}.
Proof.
  intros b c s H1 H2. unfold reading, pn_step, pn_next. cbn [p_src p_buf p_err fst].
  destruct (N.eqb_spec c 46); [contradiction|]. destruct (N.eqb_spec c 0); [contradiction|]. reflexivity.
Qed.

Lemma reading_dot : forall b s,
  reading b false (46 :: s) =
  {| p_src := s; p_ch := 46; p_buf := match b with [] => [48] | _ => b end ++ [46]; p_err := false |}.
Proof. intros [|x b] s; reflexivity. Qed.

Lemma push_reading_plain : forall b c x s, x <> 46 -> x <> 0 ->
  push c (reading b false (x :: s)) = reading (b ++ [c]) false (x :: s).
Proof. intros. rewrite !reading_plain by assumption. reflexivity. Qed.

Definition stop_head (s : bytes) : bool :=
  match s with c :: _ => negb (is_digit c) && negb (c =? 95) && negb (c =? 0) | [] => true end.

Lemma digit_val_digit : forall d, is_digit d = true -> digit_val d <? 10 = true.
Proof. intros d H. unfold is_digit in H. unfold digit_val. rewrite H. lia. Qed.

Lemma digit_val_stop : forall c, is_digit c = false -> c <> 95 -> digit_val c <? 10 = false.
Proof.
  intros c H H'. unfold is_digit in H. unfold digit_val. rewrite H.
  destruct (N.eqb_spec c 95); [contradiction|].
  destruct ((97 <=? c) && (c <=? 102)) eqn:E1; [lia|].
  destruct ((65 <=? c) && (c <=? 70)) eqn:E2; [lia|reflexivity].
Qed.

Lemma p_ch_reading : forall b s, stop_head s = true ->
  digit_val (p_ch (reading b false s)) <? 10 = false.
Proof.
  intros b [|c s] H; [reflexivity|]. cbn [stop_head] in H.
  assert (Hc : p_ch (reading b false (c :: s)) = c) by reflexivity. rewrite Hc.
  apply digit_val_stop; unfold is_digit in *; lia.
Qed.

Lemma scan_digits : forall ds fuel tail b last has,
  (length ds < fuel)%nat -> last <> 95 -> forallb is_digit ds = true -> stop_head tail = true ->
  scan_mantissa fuel 10 (reading b false (ds ++ tail)) last has =
  (reading (b ++ ds) false tail, has || negb (match ds with [] => true | _ => false end)).
Proof.
  induction ds as [|d ds IH]; intros fuel tail b last has Hf Hl Hd Ht.
  - destruct fuel as [|f]; [cbn in Hf; lia|]. cbn [app scan_mantissa].
    rewrite p_ch_reading by assumption. destruct (N.eqb_spec last 95); [contradiction|].
    rewrite app_nil_r, orb_false_r. reflexivity.
  - cbn [forallb] in Hd. apply andb_true_iff in Hd. destruct Hd as [Hd Hds].
    destruct fuel as [|f]; [cbn in Hf; lia|].
    assert (d <> 46 /\ d <> 0 /\ d <> 95) as (N46 & N0 & N95) by (unfold is_digit in Hd; lia).
    cbn [app]. rewrite reading_plain by assumption. cbn [scan_mantissa p_ch].
    rewrite digit_val_digit by assumption.
    destruct (N.eqb_spec d 95); [contradiction|]. rewrite andb_false_r. cbn [negb].
    rewrite step_push. cbn [p_buf p_err p_src].
    rewrite IH; [|cbn [length] in Hf; lia|assumption|assumption|assumption].
    rewrite <- app_assoc. cbn [app negb]. rewrite orb_true_r. reflexivity.
Qed.

Lemma scan_m_digits : forall ds tail b, forallb is_digit ds = true -> stop_head tail = true ->
  scan_m 10 (reading b false (ds ++ tail)) =
  (reading (b ++ ds) false tail, negb (match ds with [] => true | _ => false end)).
Proof.
  intros ds tail b Hd Ht. unfold scan_m.
  rewrite scan_digits; [reflexivity| |discriminate|assumption|assumption].
  destruct ds as [|d ds].
  - cbn [app length]. lia.
  - cbn [forallb] in Hd. apply andb_true_iff in Hd. destruct Hd as [Hd _].
    cbn [app]. rewrite reading_plain by (unfold is_digit in Hd; lia). cbn [p_src length].
    rewrite app_length. lia.
Qed.

Lemma scan_m_digits_end : forall ds b, forallb is_digit ds = true ->
  scan_m 10 (reading b false ds) =
  (reading (b ++ ds) false [], negb (match ds with [] => true | _ => false end)).
Proof.
  intros ds b Hd. pose proof (scan_m_digits ds [] b Hd eq_refl) as H.
  rewrite app_nil_r in H. exact H.
Qed.

Definition finished (b : bytes) : pst := {| p_src := []; p_ch := 0; p_buf := b; p_err := false |}.

(* the exponent text as ParseNum copies it into the buffer: the marker lower-cased *)
Definition exp_buf (etxt : bytes) : bytes := match etxt with [] => [] | _ :: r => 101 :: r end.
Definition is_some (e : option Z) : bool := match e with Some _ => true | None => false end.

Lemma pn_exponent_shape : forall etxt e b isf, exp_shape etxt e ->
  pn_exponent isf (reading b false etxt) = SOk 10 (isf || is_some e) (finished (b ++ exp_buf etxt)).
Proof.
  intros etxt e b isf H. destruct H as [|ee sg d ds Hee Hsg Hd].
  - rewrite reading_nil. unfold pn_exponent, pn_exit. cbn [p_ch is_mul]. cbn.
    rewrite app_nil_r, orb_false_r. reflexivity.
  - cbn [is_some exp_buf]. rewrite orb_true_r.
    assert (Hd0 : is_digit d = true) by apply (andb_prop _ _ Hd). unfold is_digit in Hd0.
    unfold pn_exponent. rewrite (reading_plain b ee) by lia. cbn [p_ch].
    replace (is_mul ee) with false by (destruct Hee; subst; reflexivity).
    replace ((ee =? 101) || (ee =? 69)) with true by (destruct Hee; subst; reflexivity).
    rewrite step_reading. cbn [p_src p_buf p_err].
    (* e goes into the buffer, then the sign if there is one *)
    set (s1 := push 101 (reading b false (sg ++ d :: ds))).
    assert (Hsign : (if (p_ch s1 =? 45) || (p_ch s1 =? 43) then pn_step (push (p_ch s1) s1) else s1)
                    = reading (b ++ 101 :: sg) false (d :: ds)).
    { subst s1. destruct Hsg as [->|[->| ->]]; cbn [app].
      - rewrite push_reading_plain, reading_plain by lia. cbn [p_ch].
        destruct (N.eqb_spec d 45); [lia|]. destruct (N.eqb_spec d 43); [lia|]. reflexivity.
      - rewrite (reading_plain b 43) by lia. cbn. rewrite <- app_assoc. reflexivity.
      - rewrite (reading_plain b 45) by lia. cbn. rewrite <- app_assoc. reflexivity. }
    rewrite Hsign, scan_m_digits_end by assumption. cbn [negb].
    rewrite reading_nil. unfold pn_exit. cbn [p_ch N.eqb of_exit]. unfold finished.
    rewrite <- app_assoc. reflexivity.
Qed.

Lemma exp_shape_stop : forall etxt e, exp_shape etxt e -> stop_head etxt = true.
Proof. intros etxt e H. inversion H as [|ee sg d ds [->| ->]]; subst; reflexivity. Qed.

Lemma exp_shape_not_dot : forall etxt e b, exp_shape etxt e -> p_ch (reading b false etxt) =? 46 = false.
Proof. intros etxt e b H. inversion H as [|ee sg d ds [->| ->]]; subst; reflexivity. Qed.

Definition nonempty (l : bytes) : bool := match l with [] => false | _ => true end.

Lemma pn_fraction_shape : forall ftxt fp etxt e b isf, b <> [] ->
  frac_shape ftxt fp -> exp_shape etxt e ->
  pn_fraction isf (reading b false (ftxt ++ etxt)) =
  SOk 10 (isf || nonempty fp || is_some e) (finished (b ++ ftxt ++ exp_buf etxt)).
Proof.
  intros ftxt fp etxt e b isf Hb Hf He. inversion Hf as [|d ds Hd]; subst.
  - cbn [app nonempty]. unfold pn_fraction. rewrite (exp_shape_not_dot _ _ _ He).
    rewrite (pn_exponent_shape _ _ _ _ He). rewrite orb_false_r. reflexivity.
  - cbn [app nonempty]. unfold pn_fraction. rewrite reading_dot. cbn [p_ch]. change (46 =? 46) with true. cbv iota.
    rewrite step_reading. cbn [p_buf p_err p_src].
    destruct b as [|b0 b']; [contradiction|].
    change (d :: ds ++ etxt) with ((d :: ds) ++ etxt).
    rewrite scan_m_digits by (assumption || apply (exp_shape_stop _ _ He)).
    rewrite (pn_exponent_shape _ _ _ _ He). cbn [orb]. rewrite orb_true_r. cbn [orb].
    rewrite <- !app_assoc. reflexivity.
Qed.

Lemma scan_m_stop : forall base s, digit_val (p_ch s) <? base = false -> scan_m base s = (s, false).
Proof.
  intros base s H. unfold scan_m. cbn [scan_mantissa]. rewrite H. reflexivity.
Qed.

(* "0" directly followed by an exponent: ParseNum supplies the buffer's "0" itself *)
Lemma parse_num_zero_exp : forall ee rest, ee = 101 \/ ee = 69 ->
  parse_num (48 :: ee :: rest) =
  match pn_exponent false (reading [48] false (ee :: rest)) with
  | SErr => PNErr
  | SOther => PNOther
  | SOk base isf s =>
    if p_err s then PNErr
    else match p_src s with
         | _ :: _ => PNErr
         | [] => PNOk base isf (match p_buf s with [] => [48] | b => b end)
         end
  end.
Proof. intros ee rest [->| ->]; reflexivity. Qed.

(* ParseNum on the unsigned text of a JSON number: accepted, decimal, float iff a
   fraction or an exponent is present, and the buffer is the text with e lower-cased *)
Lemma parse_num_json : forall n ftxt etxt, wf_num n = true ->
  frac_shape ftxt (jfrac n) -> exp_shape etxt (jexp n) ->
  parse_num (jint n ++ ftxt ++ etxt) =
  PNOk 10 (negb (jnum_is_int n)) (jint n ++ ftxt ++ exp_buf etxt).
Proof.
  intros [neg ip fp e] ftxt etxt Hwf Hf He.
  destruct (wf_num_inv _ Hwf) as (d & ds & Ei & Hd & Hds & _ & Hlz).
  replace (negb (jnum_is_int _)) with (nonempty fp || is_some e) by (destruct fp, e; reflexivity).
  cbn [jint jfrac jexp] in *. subst ip.
  assert (Hip : forallb is_digit (d :: ds) = true) by (cbn [forallb]; rewrite Hd; exact Hds).
  destruct (N.eqb_spec d 48) as [->|N48].
  - destruct ds as [|d1 ds]; [|cbn in Hlz; discriminate].
    inversion Hf as [|f0 fs Hfd]; subst.
    + inversion He as [|ee sg x xs Hee Hsg Hx]; subst.
      * reflexivity.
      * cbn [app]. rewrite (parse_num_zero_exp _ _ Hee), (pn_exponent_shape _ _ [48] false He). reflexivity.
    + (* 0.ddd *)
      unfold parse_num. cbn -[scan_m pn_fraction pn_exponent].
      rewrite scan_m_stop by reflexivity. cbn -[pn_fraction pn_exponent scan_m].
      unfold pn_fraction. cbn -[pn_exponent scan_m].
      change (scan_m 10 _) with (scan_m 10 (reading [48; 46] false ((f0 :: fs) ++ etxt))).
      rewrite scan_m_digits by (assumption || apply (exp_shape_stop _ _ He)).
      rewrite (pn_exponent_shape _ _ _ _ He). reflexivity.
  - assert (d <> 46 /\ d <> 0 /\ d <> 45 /\ d <> 43) as (N46 & N0 & N45 & N43) by (unfold is_digit in Hd; lia).
    assert (Hstop : stop_head (ftxt ++ etxt) = true).
    { inversion Hf; subst; [apply (exp_shape_stop _ _ He)|reflexivity]. }
    unfold parse_num. cbn [app pn_next p_src p_buf p_err].
    destruct (N.eqb_spec d 46); [contradiction|]. destruct (N.eqb_spec d 0); [contradiction|].
    cbn [negb orb p_ch]. destruct (N.eqb_spec d 45); [contradiction|]. destruct (N.eqb_spec d 43); [contradiction|].
    destruct (N.eqb_spec d 46); [contradiction|].
    cbn [p_ch]. destruct (N.eqb_spec d 46); [contradiction|]. cbv beta iota zeta.
    rewrite <- (reading_plain [] d (ds ++ ftxt ++ etxt) N46 N0).
    unfold scan_number.
    assert (Hch : p_ch (reading [] false (d :: ds ++ ftxt ++ etxt)) = d) by (rewrite reading_plain by assumption; reflexivity).
    rewrite Hch. destruct (N.eqb_spec d 48); [contradiction|].
    change (d :: ds ++ ftxt ++ etxt) with ((d :: ds) ++ ftxt ++ etxt).
    rewrite scan_m_digits by assumption. cbn [negb app].
    rewrite (pn_fraction_shape ftxt fp etxt e (d :: ds) false ltac:(discriminate) Hf He).
    reflexivity.
Qed.

Lemma split_at_app : forall c a b, ~ In c a -> split_at c (a ++ c :: b) = (a, Some b).
Proof.
  induction a as [|x a IH]; intros b H.
  - cbn [app split_at]. rewrite N.eqb_refl. reflexivity.
  - cbn [app split_at]. destruct (N.eqb_spec x c) as [->|].
    + exfalso. apply H. left. reflexivity.
    + rewrite IH; [reflexivity|]. intro Hi. apply H. right. assumption.
Qed.

Lemma split_at_none : forall c a, ~ In c a -> split_at c a = (a, None).
Proof.
  induction a as [|x a IH]; intros H; [reflexivity|].
  cbn [split_at]. destruct (N.eqb_spec x c) as [->|].
  - exfalso. apply H. left. reflexivity.
  - rewrite IH; [reflexivity|]. intro Hi. apply H. right. assumption.
Qed.

Lemma digits_not_in : forall c ds, forallb is_digit ds = true -> is_digit c = false -> ~ In c ds.
Proof.
  intros c ds H Hc Hi. rewrite forallb_forall in H. specialize (H _ Hi). congruence.
Qed.

Lemma parse_int32_shape : forall sg d ds,
  (sg = [] \/ sg = [43] \/ sg = [45]) -> forallb is_digit (d :: ds) = true ->
  parse_int32 (sg ++ d :: ds) =
  let z := if match sg with [45] => true | _ => false end
           then (- Z.of_N (digits_val (d :: ds)))%Z else Z.of_N (digits_val (d :: ds)) in
  if ((-2147483648 <=? z) && (z <=? 2147483647))%Z then Some z else None.
Proof.
  intros sg d ds Hsg Hd.
  assert (Hd0 : is_digit d = true) by (cbn in Hd; apply andb_true_iff in Hd; tauto).
  assert (d <> 45 /\ d <> 43) as [N45 N43] by (unfold is_digit in Hd0; lia).
  unfold parse_int32. destruct Hsg as [->|[->| ->]]; cbn [app].
  - destruct (N.eqb_spec d 45); [contradiction|]. destruct (N.eqb_spec d 43); [contradiction|].
    rewrite Hd. reflexivity.
  - change (43 =? 45) with false. change (43 =? 43) with true. cbv iota. rewrite Hd. reflexivity.
  - change (45 =? 45) with true. cbv iota. rewrite Hd. reflexivity.
Qed.

(* strconv.ParseInt's int32 is wider than apd's exponent range *)
Lemma num_in_range_int32 : forall neg ip fp e,
  ((-2147483648 <=? e) && (e <=? 2147483647))%Z = false ->
  num_in_range {| jneg := neg; jint := ip; jfrac := fp; jexp := Some e |} = false.
Proof.
  intros neg ip fp e H. unfold num_in_range. cbn [jexp].
  destruct (Z.leb_spec e max_exponent); [|reflexivity].
  destruct (Z.leb_spec (- max_exponent) e); [unfold max_exponent in *; lia|reflexivity].
Qed.

Lemma set_exponent_snoc_0 : forall c xs, set_exponent c (xs ++ [0%Z]) = set_exponent c xs.
Proof.
  intros c xs. unfold set_exponent. rewrite forallb_app, fold_left_app.
  cbn [forallb fold_left]. rewrite Z.add_0_r.
  change ((0 <=? max_exponent)%Z && (- max_exponent <=? 0)%Z && true) with true.
  rewrite andb_true_r. reflexivity.
Qed.

(* setExponent on an exponent and a fraction length is the range test of the number *)
Lemma set_exponent_exp_frac : forall ip fp e,
  set_exponent (digits_val (ip ++ fp)) [e; (- Z.of_nat (length fp))%Z] =
  if num_in_range {| jneg := false; jint := ip; jfrac := fp; jexp := Some e |}
  then Some (e - Z.of_nat (length fp))%Z else None.
Proof.
  intros ip fp e. unfold set_exponent, num_in_range. cbn [jint jfrac jexp forallb fold_left].
  generalize (Z.of_nat (length (N_digits (digits_val (ip ++ fp))))). intro nd.
  assert (Hfl : (0 <= Z.of_nat (length fp))%Z) by lia. revert Hfl.
  generalize (Z.of_nat (length fp)). intros fl Hfl.
  replace (0 + e + - fl)%Z with (e - fl)%Z by lia.
  assert (H1 : (- fl <=? max_exponent)%Z = true) by (unfold max_exponent; lia).
  assert (H2 : (- max_exponent <=? - fl)%Z = (fl <=? max_exponent)%Z) by lia.
  rewrite H1, H2, andb_true_r. cbn [andb].
  destruct (e <=? max_exponent)%Z, (- max_exponent <=? e)%Z, (fl <=? max_exponent)%Z; reflexivity.
Qed.

(* SetString once the sign and the exponent text (parsed into exps1) are split off *)
Definition apd_mantissa (mant : bytes) (exps1 : list Z) : option dec :=
  let '(ip, fopt) := split_at 46 mant in
  let digits := ip ++ match fopt with Some f => f | None => [] end in
  let exps := exps1 ++ match fopt with Some f => [(- Z.of_nat (length f))%Z] | None => [] end in
  match digits with
  | [] => None
  | _ =>
    if forallb is_digit digits then
      match set_exponent (digits_val digits) exps with
      | Some e => Some {| dneg := false; dcoeff := digits_val digits; dexp := e |}
      | None => None
      end
    else None
  end.

Lemma apd_mantissa_nil : forall mant, apd_mantissa mant [] = apd_mantissa mant [0%Z].
Proof. intros mant. unfold apd_mantissa. destruct (split_at 46 mant). reflexivity. Qed.

Lemma apd_mantissa_json : forall ip ftxt fp e,
  ip <> [] -> forallb is_digit (ip ++ fp) = true -> frac_shape ftxt fp ->
  apd_mantissa (ip ++ ftxt) [e] =
  if num_in_range {| jneg := false; jint := ip; jfrac := fp; jexp := Some e |}
  then Some {| dneg := false; dcoeff := digits_val (ip ++ fp); dexp := (e - Z.of_nat (length fp))%Z |}
  else None.
Proof.
  intros ip ftxt fp e Hne Hd Hf. unfold apd_mantissa.
  assert (H46 : ~ In 46 ip).
  { rewrite forallb_app in Hd. apply digits_not_in; [apply (andb_prop _ _ Hd)|reflexivity]. }
  assert (Hnil : ip ++ fp <> []) by (destruct ip; [contradiction|discriminate]).
  pose proof (set_exponent_exp_frac ip fp e) as Hse.
  destruct Hf as [|f0 fs _].
  - rewrite (app_nil_r ip) in Hd, Hse |- *. rewrite split_at_none by assumption. rewrite !app_nil_r, Hd.
    rewrite <- set_exponent_snoc_0. change ([e] ++ [0%Z]) with [e; (- Z.of_nat (length (@nil N)))%Z].
    rewrite Hse. destruct ip; [contradiction|]. destruct (num_in_range _); reflexivity.
  - rewrite split_at_app by assumption. rewrite Hd.
    change ([e] ++ [(- Z.of_nat (length (f0 :: fs)))%Z]) with [e; (- Z.of_nat (length (f0 :: fs)))%Z].
    rewrite Hse.
    destruct (ip ++ f0 :: fs); [contradiction|]. destruct (num_in_range _); reflexivity.
Qed.

Lemma apd_json : forall n ftxt etxt, wf_num n = true ->
  frac_shape ftxt (jfrac n) -> exp_shape etxt (jexp n) ->
  apd_set_string (jint n ++ ftxt ++ exp_buf etxt) =
  if num_in_range n
  then Some {| dneg := false; dcoeff := dcoeff (jnum_dec n); dexp := dexp (jnum_dec n) |}
  else None.
Proof.
  intros [neg ip fp e] ftxt etxt Hwf Hf He.
  destruct (wf_num_inv _ Hwf) as (d & ds & Ei & Hd & Hds & Hfp & _).
  unfold jnum_dec. cbn [jint jfrac jexp jneg dcoeff dexp] in *. subst ip.
  assert (Hip : forallb is_digit (d :: ds) = true) by (cbn [forallb]; rewrite Hd; exact Hds).
  assert (Hall : forallb is_digit ((d :: ds) ++ fp) = true) by (rewrite forallb_app, Hip; exact Hfp).
  assert (H101 : ~ In 101 ((d :: ds) ++ ftxt)).
  { intro Hi. apply in_app_or in Hi. destruct Hi as [Hi|Hi].
    - apply (digits_not_in 101 _ Hip eq_refl Hi).
    - destruct Hf as [|f0 fs Hfd]; [destruct Hi|]. destruct Hi as [Hi|Hi]; [discriminate|].
      apply (digits_not_in 101 _ Hfd eq_refl Hi). }
  assert (E45 : d =? 45 = false) by (clear - Hd; unfold is_digit in Hd; lia).
  assert (E43 : d =? 43 = false) by (clear - Hd; unfold is_digit in Hd; lia).
  unfold apd_set_string. cbn [app]. rewrite E45, E43. cbn [orb]. rewrite E45, E43. cbn [orb].
  change (d :: ds ++ ftxt ++ exp_buf etxt) with ((d :: ds) ++ ftxt ++ exp_buf etxt).
  destruct He as [|ee sg x xs _ Hsg Hx]; cbn [exp_buf].
  - rewrite app_nil_r, split_at_none by assumption.
    exact (eq_trans (apd_mantissa_nil _) (apd_mantissa_json (d :: ds) ftxt fp 0 ltac:(discriminate) Hall Hf)).
  - rewrite app_assoc, split_at_app by assumption.
    rewrite (parse_int32_shape sg x xs Hsg Hx). cbv zeta.
    set (ez := if match sg with [45] => true | _ => false end then _ else _).
    destruct ((-2147483648 <=? ez) && (ez <=? 2147483647))%Z eqn:E32.
    + exact (apd_mantissa_json (d :: ds) ftxt fp ez ltac:(discriminate) Hall Hf).
    + rewrite num_in_range_int32 by assumption. reflexivity.
Qed.

Definition cue_dec_of (n : jnum) : dec :=
  {| dneg := jneg n && negb (dcoeff (jnum_dec n) =? 0);
     dcoeff := dcoeff (jnum_dec n); dexp := dexp (jnum_dec n) |}.

(* how cue reads a JSON number text: as a decimal literal after an optional unary minus,
   int exactly when there is neither fraction nor exponent; inside apd's exponent range
   with the coefficient and exponent as written, outside it as an error *)
Theorem cue_read_json_number : forall t n, parse_number t = Some (n, []) ->
  cue_read_number t = if num_in_range n then Some (jnum_is_int n, cue_dec_of n) else None.
Proof.
  intros t n H. destruct (parse_number_inv _ _ _ H) as (ftxt & etxt & -> & Hwf & Hf & He).
  unfold num_text. rewrite app_nil_r.
  pose proof (parse_num_json _ _ _ Hwf Hf He) as Hp.
  pose proof (apd_json _ _ _ Hwf Hf He) as Ha.
  destruct (wf_num_inv n Hwf) as (d & ds & Ei & Hd & _).
  assert (Hhead : match jint n ++ ftxt ++ etxt with c :: _ => c =? 45 | [] => false end = false)
    by (rewrite Ei; unfold is_digit in Hd; cbn [app]; lia).
  unfold cue_read_number, cue_dec_of. destruct (jneg n); cbn [app].
  - change (45 =? 45) with true. cbv iota. rewrite Hp, Ha. change (10 =? 10) with true. cbv iota.
    destruct (num_in_range n); [|reflexivity]. rewrite negb_involutive. reflexivity.
  - destruct (jint n ++ ftxt ++ etxt) as [|c r] eqn:E; [rewrite Ei in E; discriminate|].
    rewrite Hhead, Hp, Ha. change (10 =? 10) with true. cbv iota.
    destruct (num_in_range n); [|reflexivity]. rewrite negb_involutive, andb_false_l. reflexivity.
Qed.

Theorem json_number_is_cue_number : forall t n,
  parse_number t = Some (n, []) -> num_in_range n = true ->
  cue_read_number t = Some (jnum_is_int n, cue_dec_of n).
Proof. intros t n H Hr. rewrite (cue_read_json_number _ _ H), Hr. reflexivity. Qed.
