(* C10 - JSON string literals read by the transcription of cue/literal.Unquote:
   on a literal that the RFC 8259 reader accepts, Unquote returns the UTF-8 text of
   the string value exactly when the strict reader accepts it too, and fails
   otherwise (the literal then has an unpaired surrogate escape). *)
From Verif Require Import Json.Model Json.Cue Json.Utf8Proofs Json.StringProofs Json.Refine.
From Coq Require Import Lia ZifyN ZifyNat ZifyBool.

Lemma hexn4_hex4 : forall s, hexn 4 s 0 = hex4 s.
Proof.
  intros [|a [|b [|c [|d r]]]]; cbn [hexn hex4];
    repeat match goal with |- context [hexval ?x] => destruct (hexval x) end;
    reflexivity.
Qed.

Lemma match_scons : forall (A : Type) c o (a b : A),
  match scons c o with Some _ => a | None => b end = match o with Some _ => a | None => b end.
Proof. intros A c [[l t]|] a b; reflexivity. Qed.

Lemma simple_escape_cue : forall e x t, simple_escape e = Some x ->
  unquote_char (92 :: e :: t) = UCRune x false t /\ x < 128.
Proof.
  intros e x t H. unfold simple_escape in H. cbn [unquote_char].
  change (92 =? 34) with false. change (128 <=? 92) with false. change (negb (92 =? 92)) with false.
  cbv iota.
  repeat match type of H with
  | (if ?a =? ?b then _ else _) = _ => destruct (N.eqb_spec a b); [subst; inversion H; subst; split; [reflexivity|lia]|]
  end. discriminate.
Qed.

Lemma high_not_low : forall u, is_high u = true -> is_low u = false.
Proof. intros u H. unfold is_high, is_low in *. lia. Qed.

Lemma unquote_char_u : forall r u r2, hex4 r = Some (u, r2) ->
  unquote_char (92 :: 117 :: r) = UCRune u true r2.
Proof.
  intros r u r2 H. change (unquote_char (92 :: 117 :: r))
    with (match hexn 4 r 0 with Some (v, t') => UCRune v true t' | None => UCErr end).
  rewrite hexn4_hex4, H. reflexivity.
Qed.

(* One iteration, seen from both sides.  Where the RFC 8259 reader makes a step on
   (c :: r), c not the closing quote, either unquoteChar returns a rune x that is no
   surrogate and both readers continue after it, or the text starts with a \u escape
   of a surrogate. *)
Lemma unquote_char_step : forall f c r v, parse_str Std (S f) (c :: r) = Some (v, []) -> c <> 34 ->
  (exists x mb ss, unquote_char (c :: r) = UCRune x mb ss /\ c <> 13 /\ c <> 10 /\
     is_high x = false /\ is_low x = false /\ (if mb then utf8_encode x else [x]) = utf8_encode x /\
     forall m, rej_bom m = false -> parse_str m (S f) (c :: r) = scons x (parse_str m f ss)) \/
  (exists r1 u r2, r = 117 :: r1 /\ c = 92 /\ hex4 r1 = Some (u, r2) /\ is_high u || is_low u = true).
Proof.
  intros f c r v H N34. cbn [parse_str] in H.
  destruct (N.eqb_spec c 34); [contradiction|].
  destruct (N.eqb_spec c 92) as [->|N92].
  { destruct r as [|e r1]; [discriminate|].
    destruct (N.eqb_spec e 117) as [->|N117].
    - destruct (hex4 r1) as [[u r2]|] eqn:Eh; [|discriminate].
      destruct (is_high u || is_low u) eqn:Es; [right; exists r1, u, r2; auto|left].
      apply orb_false_elim in Es. destruct Es as [Ehi Elo].
      exists u, true, r2. rewrite (unquote_char_u r1 u r2 Eh), Ehi, Elo.
      repeat split; try discriminate. intros m _. rewrite parse_str_u, Eh, Ehi, Elo. reflexivity.
    - left. destruct (simple_escape e) as [x|] eqn:Es; [|discriminate].
      destruct (simple_escape_cue e x r1 Es) as [-> Hx]. exists x, false, r1.
      repeat split; try discriminate; try (unfold is_high, is_low; lia).
      + symmetry. apply encode_ascii. assumption.
      + intros m _. cbn [parse_str]. change (92 =? 34) with false. change (92 =? 92) with true.
        cbv iota. destruct (N.eqb_spec e 117); [contradiction|]. rewrite Es. reflexivity. }
  destruct (N.ltb_spec c 32) as [L32|G32]; [discriminate|]. left.
  destruct (N.ltb_spec c 128) as [L128|G128].
  { exists c, false, r. cbn [unquote_char].
    destruct (N.eqb_spec c 34); [contradiction|]. destruct (N.leb_spec 128 c); [lia|].
    destruct (N.eqb_spec c 92); [contradiction|]. cbn [negb]. destruct (N.eqb_spec c 0); [lia|].
    repeat split; try (unfold is_high, is_low; lia).
    - symmetry. apply encode_ascii. assumption.
    - intros m _. cbn [parse_str]. destruct (N.eqb_spec c 34); [contradiction|].
      destruct (N.eqb_spec c 92); [contradiction|]. destruct (N.ltb_spec c 32); [lia|].
      destruct (N.ltb_spec c 128); [reflexivity|lia]. }
  destruct (utf8_decode (c :: r)) as [[cp r']|] eqn:Ed; [|discriminate].
  exists cp, true, r'. cbn [unquote_char].
  destruct (N.eqb_spec c 34); [contradiction|]. destruct (N.leb_spec 128 c); [|lia]. rewrite Ed.
  destruct (scalar_not_surr cp (proj1 (decode_inv _ _ _ Ed))) as [Ehi Elo].
  repeat split; try assumption; try lia.
  intros m Hm. cbn [parse_str]. destruct (N.eqb_spec c 34); [contradiction|].
  destruct (N.eqb_spec c 92); [contradiction|]. destruct (N.ltb_spec c 32); [lia|].
  destruct (N.ltb_spec c 128); [lia|]. rewrite Ed, Hm. reflexivity.
Qed.

(* what follows an unpaired high surrogate cannot complete a pair *)
Lemma after_high_fails : forall f r2 v' acc f2 c1,
  parse_str Std f r2 = Some (v', []) -> low_escape r2 = None ->
  match r2 with
  | [] => UPanic
  | _ =>
    match unquote_char r2 with
    | UCOther => UOther
    | UCRune cl _ ss2 =>
      if is_low cl then cue_uq_loop f2 ss2 (acc ++ utf8_encode (combine_surr c1 cl)) else UErr
    | _ => UErr
    end
  end = UErr.
Proof.
  intros f r2 v' acc f2 c1 H Hl. destruct f as [|f]; [discriminate|].
  destruct r2 as [|c r]; [discriminate|].
  destruct (N.eqb_spec c 34) as [->|N34].
  { cbn [unquote_char]. change (34 =? 34) with true. cbv iota. destruct r; reflexivity. }
  destruct (unquote_char_step f c r v' H N34)
    as [(x & mb & ss & -> & _ & _ & _ & -> & _)|(r1 & u & r3 & -> & -> & Eh & _)]; [reflexivity|].
  rewrite (unquote_char_u r1 u r3 Eh). unfold low_escape in Hl.
  change ((92 =? 92) && (117 =? 117)) with true in Hl. cbv iota in Hl. rewrite Eh in Hl.
  destruct (is_low u); [discriminate|reflexivity].
Qed.

(* the slow path: the loop of QuoteInfo.Unquote follows the RFC 8259 reader, and fails
   exactly where the strict reader does *)
Lemma cue_loop_std : forall fuel s v, parse_str Std fuel s = Some (v, []) ->
  forall fuel2 acc, (fuel <= fuel2)%nat ->
  cue_uq_loop fuel2 s acc =
  match parse_str Strict fuel s with Some _ => UOk (acc ++ utf8_encode_all v) | None => UErr end.
Proof.
  induction fuel as [|f IH]; intros s v H fuel2 acc Hf; [discriminate|].
  destruct fuel2 as [|f2]; [lia|]. assert (Hf' : (f <= f2)%nat) by lia.
  destruct s as [|c r]; [discriminate|].
  destruct (N.eqb_spec c 34) as [->|N34].
  { cbn [parse_str] in H |- *. change (34 =? 34) with true in *. cbv iota in *.
    inversion H; subst. cbn [cue_uq_loop]. change (34 =? 13) with false. change (34 =? 10) with false.
    cbv iota. cbn [unquote_char]. change (34 =? 34) with true. cbv iota.
    cbn [utf8_encode_all flat_map]. rewrite app_nil_r. reflexivity. }
  destruct (unquote_char_step f c r v H N34)
    as [(x & mb & ss & Eu & N13 & N10 & Ehi & Elo & Eenc & Hstep)|(r1 & u & r2 & -> & -> & Eh & Es)].
  - rewrite (Hstep Std eq_refl) in H. apply scons_inv in H. destruct H as (v' & -> & H).
    rewrite (Hstep Strict eq_refl), match_scons. cbn [cue_uq_loop].
    destruct (N.eqb_spec c 13); [contradiction|]. destruct (N.eqb_spec c 10); [contradiction|].
    rewrite Eu, Ehi, Elo. cbn [orb].
    assert (Hgo : (if mb then cue_uq_loop f2 ss (acc ++ utf8_encode x)
                   else cue_uq_loop f2 ss (acc ++ [x])) = cue_uq_loop f2 ss (acc ++ utf8_encode x))
      by (destruct mb; [|rewrite Eenc]; reflexivity).
    rewrite Hgo, (IH _ _ H f2 _ Hf'). cbn [utf8_encode_all flat_map]. rewrite app_assoc. reflexivity.
  - rewrite parse_str_u, Eh in H |- *. cbn [cue_uq_loop].
    change (92 =? 13) with false. change (92 =? 10) with false. cbv iota.
    rewrite (unquote_char_u r1 u r2 Eh), Es.
    cbn [rej_lone Std Strict] in *.
    destruct (is_low u) eqn:Elo.
    + destruct (is_high u) eqn:Ehi; [rewrite (high_not_low u Ehi) in Elo; discriminate|reflexivity].
    + rewrite orb_false_r in Es. rewrite Es in *.
      destruct (low_escape r2) as [[l r3]|] eqn:El.
      * apply scons_inv in H. destruct H as (v' & -> & H). rewrite match_scons.
        apply low_escape_inv in El. destruct El as (r' & -> & Eh2 & Elow).
        rewrite (unquote_char_u r' l r3 Eh2), Elow, (IH _ _ H f2 _ Hf').
        cbn [utf8_encode_all flat_map]. rewrite app_assoc. reflexivity.
      * apply scons_inv in H. destruct H as (v' & -> & H).
        apply (after_high_fails f r2 v' acc f2 u H El).
Qed.

(* the fast path: a simple body is the UTF-8 text of the value, and has no escape, so
   the strict reader accepts it too *)
Lemma parse_str_simple : forall f s v, parse_str Std f s = Some (v, []) ->
  forall f2, is_simple f2 (removelast s) = true -> (length s <= f2)%nat ->
  removelast s = utf8_encode_all v /\ parse_str Strict f s = Some (v, []).
Proof.
  induction f as [|f IH]; intros s v H f2 Hs Hf; [discriminate|].
  destruct (parse_str_step_inv _ _ _ _ _ H) as [[-> ->]|(pre & r' & x & v' & -> & -> & Hp & Hnl & Hsc & Hpre)].
  - split; reflexivity.
  - assert (Hr' : r' <> []) by (intros ->; rewrite parse_str_nil in Hp; discriminate).
    rewrite removelast_app in Hs |- * by assumption.
    destruct f2 as [|f2]; [destruct pre; [destruct r'; [contradiction|]|]; cbn in Hf; lia|].
    destruct Hpre as [[t ->]|(-> & H32 & H34 & H92)]; [discriminate|].
    rewrite parse_str_raw_step by (assumption || discriminate).
    assert (Hs' : is_simple f2 (removelast r') = true).
    { destruct (N.ltb_spec x 128) as [Lx|Gx].
      - rewrite encode_ascii in Hs by assumption. cbn [app is_simple] in Hs.
        destruct (N.ltb_spec x 128); [|lia].
        destruct ((x =? 34) || (x =? 92) || (x =? 0)); [discriminate|]. exact Hs.
      - destruct (encode_high x Gx) as (b & t & Eb & Hb1 & Hb2).
        pose proof (decode_encode x (removelast r') Hsc) as Hd.
        rewrite Eb in Hs, Hd. cbn [app is_simple] in Hs, Hd.
        destruct (N.ltb_spec b 128); [lia|]. rewrite Hd in Hs.
        destruct (x =? 65533); [discriminate|]. exact Hs. }
    rewrite app_length in Hf. pose proof (encode_length x).
    destruct (IH _ _ Hp f2 Hs' ltac:(lia)) as [-> ->]. split; reflexivity.
Qed.

Theorem cue_unquote_json_string : forall t v, json_unescape t = Some v ->
  cue_unquote t =
  match json_unescape_gen Strict t with Some _ => UOk (utf8_encode_all v) | None => UErr end.
Proof.
  intros t v H. unfold json_unescape, json_unescape_gen in *.
  destruct t as [|c s]; [discriminate|].
  destruct (N.eqb_spec c 34) as [->|]; [|discriminate].
  destruct (parse_str Std (length s) s) as [[v0 rest]|] eqn:Ep; [|discriminate].
  destruct rest; [|discriminate]. inversion H; subst v0; clear H.
  transitivity (match parse_str Strict (length s) s with
                | Some _ => UOk (utf8_encode_all v) | None => UErr end).
  2: { destruct (parse_str Strict (length s) s) as [p|] eqn:Es; [|reflexivity].
       rewrite (parse_str_mono _ _ strict_le_std _ _ _ Es) in Ep. inversion Ep. reflexivity. }
  destruct (parse_str_shape _ _ _ _ Ep) as [[body Hbody] Hnl].
  assert (Hlast : last_is 34 (34 :: s) = true).
  { unfold last_is. rewrite Hbody. change (34 :: body ++ [34]) with ((34 :: body) ++ [34]).
    rewrite rev_app_distr. reflexivity. }
  assert (Hnonl : existsb (N.eqb 10) s = false).
  { destruct (existsb (N.eqb 10) s) eqn:E; [|reflexivity]. exfalso.
    apply existsb_exists in E. destruct E as (x & Hin & Hx). apply N.eqb_eq in Hx. subst.
    apply Hnl. assumption. }
  assert (Hfinal : (if is_simple (length s) (removelast s) then UOk (removelast s)
                    else cue_uq_loop (S (length s)) s []) =
                   match parse_str Strict (length s) s with
                   | Some _ => UOk (utf8_encode_all v) | None => UErr end).
  { destruct (is_simple (length s) (removelast s)) eqn:Es.
    - destruct (parse_str_simple _ _ _ Ep (length s) Es (le_n _)) as [-> ->]. reflexivity.
    - apply (cue_loop_std _ _ _ Ep). lia. }
  rewrite <- Hfinal. unfold cue_unquote. change (34 =? 35) with false. change (34 =? 39) with false.
  change (negb (34 =? 34)) with false. cbv iota.
  destruct s as [|c1 [|c2 [|c3 s3]]].
  - rewrite parse_str_nil in Ep. discriminate.
  - rewrite Hlast. cbn [negb]. rewrite Hnonl. reflexivity.
  - rewrite Hlast. cbn [negb]. rewrite Hnonl. reflexivity.
  - assert (Hc1 : c1 =? 34 = false).
    { destruct (N.eqb_spec c1 34) as [->|]; [|reflexivity]. exfalso.
      cbn [length parse_str] in Ep. change (34 =? 34) with true in Ep. cbv iota in Ep. discriminate. }
    rewrite Hc1. cbn [andb]. rewrite Hlast. cbn [negb]. rewrite Hnonl. reflexivity.
Qed.

Theorem strict_refines_std : forall t v,
  json_unescape_gen Strict t = Some v -> json_unescape t = Some v.
Proof. exact (unescape_mono Strict Std strict_le_std). Qed.

Theorem json_string_is_cue_string : forall t v,
  json_unescape_gen Strict t = Some v -> cue_unquote t = UOk (utf8_encode_all v).
Proof.
  intros t v H. rewrite (cue_unquote_json_string t v (strict_refines_std t v H)), H. reflexivity.
Qed.

Corollary json_string_cue_same_value : forall t v,
  json_unescape_gen Strict t = Some v ->
  json_unescape t = Some v /\ cue_unquote t = UOk (utf8_encode_all v).
Proof.
  intros t v H. split; [apply strict_refines_std|apply json_string_is_cue_string]; assumption.
Qed.
