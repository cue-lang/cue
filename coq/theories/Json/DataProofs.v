(* C10 - Spec vs Impl at the data level: without repeated member names and inside
   apd's exponent range, what /repo makes of a JSON value is the JSON value. *)
From Verif Require Import Json.Model Json.Cue Json.Data Json.NumProofs Json.RoundTrip
  Json.CueNumProofs.
From Coq Require Import Lia ZifyN ZifyNat ZifyBool.

Lemma key_eqb_spec : forall a b, key_eqb a b = true <-> a = b.
Proof.
  induction a as [|x a IH]; intros [|y b]; cbn [key_eqb]; split; intro H; try discriminate; try reflexivity.
  - apply andb_true_iff in H. destruct H as [Hx H]. apply N.eqb_eq in Hx. apply IH in H. subst. reflexivity.
  - inversion H; subst. rewrite N.eqb_refl. cbn [andb]. apply IH. reflexivity.
Qed.

Lemma key_eqb_false : forall a b, key_eqb a b = false -> a <> b.
Proof. intros a b H E. apply key_eqb_spec in E. congruence. Qed.

Definition fresh (k : list N) (l : list (list N * data)) : Prop :=
  forall kv, In kv l -> key_eqb k (fst kv) = false.

Lemma merge_in_fresh : forall k d l, fresh k l -> merge_in k d l = Some (l ++ [(k, d)]).
Proof.
  induction l as [|[k' d'] l IH]; intro H; [reflexivity|].
  cbn [merge_in]. pose proof (H (k', d') (or_introl eq_refl)) as Hk. cbn [fst] in Hk. rewrite Hk.
  rewrite IH; [reflexivity|]. intros kv Hi. apply H. right. assumption.
Qed.

Lemma set_last_fresh : forall k d l, fresh k l -> set_last k d l = l ++ [(k, d)].
Proof.
  induction l as [|[k' d'] l IH]; intro H; [reflexivity|].
  cbn [set_last]. pose proof (H (k', d') (or_introl eq_refl)) as Hk. cbn [fst] in Hk. rewrite Hk.
  rewrite IH; [reflexivity|]. intros kv Hi. apply H. right. assumption.
Qed.

Lemma existsb_key_false : forall k r, existsb (key_eqb k) r = false ->
  forall k', In k' r -> key_eqb k k' = false.
Proof.
  intros k r H k' Hi. destruct (key_eqb k k') eqn:E; [|reflexivity].
  assert (existsb (key_eqb k) r = true); [|congruence].
  apply existsb_exists. exists k'. auto.
Qed.

Lemma key_eqb_sym : forall a b, key_eqb a b = key_eqb b a.
Proof. intros a b. apply eq_true_iff_eq. rewrite !key_eqb_spec. split; congruence. Qed.

(* both folds are the identity on lists without repeated names *)
Lemma folds_nodup : forall ps acc,
  has_dup (map fst ps) = false ->
  (forall p, In p ps -> fresh (fst p) acc) ->
  fold_left (fun a p => match a with Some l => merge_in (fst p) (snd p) l | None => None end) ps (Some acc)
    = Some (acc ++ ps) /\
  fold_left (fun a p => set_last (fst p) (snd p) a) ps acc = acc ++ ps.
Proof.
  induction ps as [|[k d] ps IH]; intros acc Hd Hf.
  - cbn. rewrite app_nil_r. auto.
  - cbn [map fst has_dup] in Hd. apply orb_false_iff in Hd. destruct Hd as [Hk Hd].
    cbn [fold_left fst snd].
    assert (Hfk : fresh k acc) by (apply (Hf (k, d)); left; reflexivity).
    rewrite merge_in_fresh, set_last_fresh by assumption.
    assert (Hf' : forall p, In p ps -> fresh (fst p) (acc ++ [(k, d)])).
    { intros p Hp kv Hi. apply in_app_or in Hi. destruct Hi as [Hi|[<-|[]]].
      - apply (Hf p (or_intror Hp)). assumption.
      - cbn [fst]. rewrite key_eqb_sym. apply (existsb_key_false k (map fst ps) Hk).
        apply in_map. assumption. }
    destruct (IH (acc ++ [(k, d)]) Hd Hf') as [H1 H2].
    rewrite H1, H2, <- !app_assoc. auto.
Qed.

Lemma opt_all_map_some : forall (A B : Type) (f : A -> option B) (g : A -> B) l,
  Forall (fun x => f x = Some (g x)) l -> opt_all (map f l) = Some (map g l).
Proof.
  intros A B f g l H. induction H as [|x l Hx H IH]; [reflexivity|].
  cbn [map opt_all]. rewrite Hx, IH. reflexivity.
Qed.

Lemma cue_num_spec : forall n, wf_num n = true -> num_in_range n = true -> cue_num n = Some (spec_num n).
Proof.
  intros n Hwf Hr. unfold cue_num.
  pose proof (parse_number_print n [] Hwf eq_refl) as Hp. rewrite app_nil_r in Hp.
  rewrite (json_number_is_cue_number _ _ Hp Hr). reflexivity.
Qed.

Theorem cue_data_spec_when : forall v, wf_value v = true -> dup_keys v = false ->
  nums_in_range v = true -> cue_data v = Some (spec_data v).
Proof.
  apply (jvalue_nested_ind (fun v => wf_value v = true -> dup_keys v = false -> nums_in_range v = true ->
                               cue_data v = Some (spec_data v))); try (intros; reflexivity).
  - intros n Hwf _ Hr. cbn [wf_value nums_in_range] in *. cbn [cue_data spec_data].
    apply cue_num_spec; assumption.
  - intros l HF Hwf Hd Hr. cbn [wf_value dup_keys nums_in_range] in *. cbn [cue_data spec_data].
    rewrite (opt_all_map_some _ _ cue_data spec_data); [reflexivity|].
    rewrite Forall_forall in *. intros x Hx. apply (HF x Hx).
    + rewrite forallb_forall in Hwf. auto.
    + destruct (dup_keys x) eqn:E; [|reflexivity].
      assert (existsb dup_keys l = true) by (apply existsb_exists; eauto). congruence.
    + rewrite forallb_forall in Hr. auto.
  - intros l HF Hwf Hd Hr. cbn [wf_value dup_keys nums_in_range] in *. cbn [cue_data spec_data].
    apply orb_false_iff in Hd. destruct Hd as [Hdk Hdv].
    rewrite (opt_all_map_some _ _ (fun kv => option_map (pair (fst kv)) (cue_data (snd kv)))
               (fun kv => (fst kv, spec_data (snd kv)))).
    + set (ps := map (fun kv => (fst kv, spec_data (snd kv))) l).
      assert (Hk : map fst ps = map fst l).
      { subst ps. rewrite map_map. apply map_ext. reflexivity. }
      assert (Hnd : has_dup (map fst ps) = false) by (rewrite Hk; assumption).
      destruct (folds_nodup ps [] Hnd ltac:(intros p _ kv [])) as [H1 H2].
      unfold merge_all, dedup_last. rewrite H1, H2. reflexivity.
    + rewrite Forall_forall in *. intros kv Hkv. rewrite (HF kv Hkv); [reflexivity| | |].
      * rewrite forallb_forall in Hwf. specialize (Hwf kv Hkv). apply andb_true_iff in Hwf. tauto.
      * destruct (dup_keys (snd kv)) eqn:E; [|reflexivity].
        assert (existsb (fun kv => dup_keys (snd kv)) l = true) by (apply existsb_exists; eauto). congruence.
      * rewrite forallb_forall in Hr. auto.
Qed.

(* F12: repeated member names - the faithful model rejects or merges *)
Definition doc_dup_conflict : bytes := [123; 34; 97; 34; 58; 49; 44; 34; 97; 34; 58; 50; 125].
Definition doc_dup_merge : bytes :=
  [123; 34; 97; 34; 58; 123; 34; 98; 34; 58; 49; 125; 44; 34; 97; 34; 58; 123; 34; 99; 34; 58; 50; 125; 125].
