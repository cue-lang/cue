(* C10 - non-vacuity: the hypotheses of the theorems are met by concrete,
   non-trivial values/texts, and the conclusions are what one expects. *)
From Verif Require Import Json.Model Json.Cue Json.Data Json.StringProofs Json.NumProofs Json.RoundTrip
  Json.CueStrProofs Json.CueNumProofs Json.FormatProofs Json.DataProofs Json.Reject Json.Refine.
From Coq Require Import String Ascii.

Definition b (s : string) : bytes := map N_of_ascii (list_ascii_of_string s).
Open Scope string_scope.

(* a value with every constructor, a repeated name, an empty name, U+2028, U+FEFF, a non-BMP
   code point, controls, -0 and a big exponent *)
Definition ex_value : jvalue :=
  JObj [([97], JArr [JNum {| jneg := true; jint := [48]; jfrac := []; jexp := None |};
                      JNum {| jneg := false; jint := [49]; jfrac := [53; 48]; jexp := Some (-400)%Z |};
                      JBool true; JBool false; JNull;
                      JStr [0; 9; 10; 34; 92; 47; 127; 233; 0x2028; 0xFEFF; 0x1F600; 0x10FFFF]]);
        ([], JObj []);
        ([97], JArr [])].

Example ex_value_wf : wf_value ex_value = true.
Proof. reflexivity. Qed.

Example ex_value_roundtrip : json_parse (json_print ex_value) = Some ex_value.
Proof. vm_compute. reflexivity. Qed.

Example ex_value_printed :
  json_print (JArr [JStr [9; 34; 0x2028; 60]; JNum {| jneg := true; jint := [49]; jfrac := []; jexp := Some 5%Z |}])
  = b "[""\t\""\u2028<"",-1e5]".
Proof. vm_compute. reflexivity. Qed.

(* white space, every escape form, a surrogate pair, nested containers *)
Example ex_parse :
  json_parse (b " { ""kA\n"" : [ 1 , -2.50E+3 , ""😀\/"" ] , """" : { } } ")
  = Some (JObj [([107; 65; 10], JArr [JNum {| jneg := false; jint := [49]; jfrac := []; jexp := None |};
                                      JNum {| jneg := true; jint := [50]; jfrac := [53; 48]; jexp := Some 3%Z |};
                                      JStr [0x1F600; 47]]);
                ([], JObj [])]).
Proof. vm_compute. reflexivity. Qed.

(* string theorem: the strict reader accepts this literal, so Unquote reads the same bytes *)
Example ex_string_hyp :
  json_unescape_gen Strict (b """a\n😀é\""\\\/""") = Some [97; 10; 0x1F600; 233; 34; 92; 47].
Proof. vm_compute. reflexivity. Qed.

Example ex_string_cue :
  cue_unquote (b """a\n😀é\""\\\/""") = UOk [97; 10; 0xF0; 0x9F; 0x98; 0x80; 0xC3; 0xA9; 34; 92; 47].
Proof. vm_compute. reflexivity. Qed.

(* the fast path of Unquote is exercised too *)
Example ex_string_simple : cue_unquote (b """plain text""") = UOk (b "plain text").
Proof. vm_compute. reflexivity. Qed.

(* CUE accepts more than JSON: \a *)
Example ex_string_cue_only : cue_unquote (b """\a""") = UOk [7] /\ json_unescape (b """\a""") = None.
Proof. split; vm_compute; reflexivity. Qed.

(* number theorem hypotheses *)
Example ex_number_hyp :
  exists n, parse_number (b "-12.50E+2") = Some (n, []) /\ num_in_range n = true /\
            jnum_is_int n = false /\ cue_dec_of n = {| dneg := true; dcoeff := 1250; dexp := 0 |}.
Proof. eexists. split; [vm_compute; reflexivity|]. repeat split; vm_compute; reflexivity. Qed.

Example ex_number_cue : cue_read_number (b "-12.50E+2") = Some (false, {| dneg := true; dcoeff := 1250; dexp := 0 |}).
Proof. vm_compute. reflexivity. Qed.

Example ex_number_big : cue_read_number (b "1e400") = Some (false, {| dneg := false; dcoeff := 1; dexp := 400 |}).
Proof. vm_compute. reflexivity. Qed.

Example ex_number_negzero : cue_read_number (b "-0") = Some (true, {| dneg := false; dcoeff := 0; dexp := 0 |}).
Proof. vm_compute. reflexivity. Qed.

(* outside apd's exponent range the literal is an error; the limit itself is accepted *)
Example ex_number_range :
  cue_read_number (b "1e100001") = None /\ cue_read_number (b "12e100000") = None /\
  cue_read_number (b "1e-2147483649") = None /\
  cue_read_number (b "1e100000") = Some (false, {| dneg := false; dcoeff := 1; dexp := 100000 |}) /\
  cue_read_number (b "1.5e-100000") = Some (false, {| dneg := false; dcoeff := 15; dexp := (-100001) |}).
Proof. repeat split; vm_compute; reflexivity. Qed.

(* CUE's grammar is larger: these are not JSON *)
Example ex_number_cue_only :
  parse_num (b "1_000") = PNOk 10 false (b "1000") /\ parse_num (b "0x1F") = PNOk 16 false (b "1F") /\
  parse_num (b ".5") = PNOk 10 true (b "0.5") /\ parse_num (b "1K") = PNOther /\
  parse_number (b "1_000") = Some ({| jneg := false; jint := [49]; jfrac := []; jexp := None |}, b "_000").
Proof. repeat split; vm_compute; reflexivity. Qed.

(* format G *)
Example ex_format :
  format_G {| dneg := true; dcoeff := 1500; dexp := (-2)%Z |} = b "-15.00" /\
  format_G {| dneg := false; dcoeff := 1; dexp := 400%Z |} = b "1E+400" /\
  format_G {| dneg := false; dcoeff := 123; dexp := (-10)%Z |} = b "1.23E-8" /\
  format_G {| dneg := false; dcoeff := 0; dexp := (-9)%Z |} = b "0.000000000" /\
  format_G {| dneg := false; dcoeff := 123; dexp := (-5)%Z |} = b "0.00123".
Proof. repeat split; vm_compute; reflexivity. Qed.

(* data: hypotheses of cue_data_spec_when *)
Definition ex_value2 : jvalue :=
  JObj [([97], JArr [JNum {| jneg := true; jint := [48]; jfrac := []; jexp := None |};
                      JNum {| jneg := false; jint := [49]; jfrac := [53; 48]; jexp := Some (-400)%Z |}; JStr [0xFEFF]]);
        ([], JObj [])].
Example ex_data_hyp : wf_value ex_value2 = true /\ dup_keys ex_value2 = false /\ nums_in_range ex_value2 = true.
Proof. repeat split; vm_compute; reflexivity. Qed.

(* rejection: instances of the classes *)
Example ex_rejects :
  json_parse (b "[1,]") = None /\ json_parse (b "{""a"":1,}") = None /\ json_parse (b "01") = None /\
  json_parse (b "1.") = None /\ json_parse (b "1e+") = None /\ json_parse (b "+1") = None /\
  json_parse (b """a") = None /\ json_parse (b """\x41""") = None /\ json_parse (b """\u12g4""") = None /\
  json_parse (34 :: 9 :: [34]) = None /\ json_parse (34 :: 0xFF :: [34]) = None /\
  json_parse (b "1 2") = None /\ json_parse (b "") = None /\ json_parse (b "{""a"" 1}") = None /\
  json_parse (b "{a:1}") = None /\ json_parse (b "nul") = None /\ json_parse (b "[1 2]") = None.
Proof. repeat split; vm_compute; reflexivity. Qed.

Example ex_bad_tail : bad_string_tail Std (b "\x41""") /\ bad_string_tail Std [9; 34] /\ plain 97 = true.
Proof.
  split; [|split; [|reflexivity]].
  - apply BT_escape; [discriminate|reflexivity].
  - apply BT_control. reflexivity.
Qed.
