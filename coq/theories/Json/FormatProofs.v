(* C10 - apd's 'G' formatting (what Value.MarshalJSON writes for numbers) is a JSON
   number that denotes exactly the decimal: same sign, coefficient and exponent. *)
From Verif Require Import Json.Model Json.Cue Json.NumProofs.
From Coq Require Import Lia ZifyN ZifyNat ZifyBool.

Definition format_G_num (d : dec) : jnum :=
  let digits := N_digits (dcoeff d) in
  let e := dexp d in
  let pad := if (dcoeff d =? 0) && (-2000 <=? e)%Z && (e <? 0)%Z then (- e)%Z else 0%Z in
  let adj := (e + (Z.of_nat (length digits) + pad - 1))%Z in
  if (e <=? 0)%Z && (-6 <=? adj)%Z then
    if (e <? 0)%Z then
      let left := (- e - Z.of_nat (length digits))%Z in
      if (0 <=? left)%Z
      then {| jneg := dneg d; jint := [48]; jfrac := zeros (Z.to_nat left) ++ digits; jexp := None |}
      else {| jneg := dneg d; jint := firstn (Z.to_nat (- left)) digits;
              jfrac := skipn (Z.to_nat (- left)) digits; jexp := None |}
    else {| jneg := dneg d; jint := digits; jfrac := []; jexp := None |}
  else
    {| jneg := dneg d; jint := firstn 1 digits; jfrac := skipn 1 digits;
       jexp := Some (e + Z.of_nat (length digits) - 1)%Z |}.

Lemma zeros_digits : forall k, forallb is_digit (zeros k) = true.
Proof. induction k; [reflexivity|]. cbn [zeros forallb]. rewrite IHk. reflexivity. Qed.

Lemma zeros_length : forall k, length (zeros k) = k.
Proof. induction k; [reflexivity|]. cbn [zeros length]. rewrite IHk. reflexivity. Qed.

Lemma digits_val_zeros : forall k l, digits_val (zeros k ++ l) = digits_val l.
Proof.
  intros k l. rewrite digits_val_app.
  assert (H : digits_val (zeros k) = 0).
  { induction k; [reflexivity|]. cbn [zeros]. change (48 :: zeros k) with ([48] ++ zeros k).
    rewrite digits_val_app. exact IHk. }
  rewrite H. reflexivity.
Qed.

Lemma forallb_firstn : forall (f : N -> bool) k l, forallb f l = true -> forallb f (firstn k l) = true.
Proof.
  intros f k. induction k as [|k IH]; intros [|x l] H; try reflexivity.
  cbn [forallb firstn] in *. apply andb_true_iff in H. destruct H as [-> H]. rewrite (IH l H). reflexivity.
Qed.

Lemma forallb_skipn : forall (f : N -> bool) k l, forallb f l = true -> forallb f (skipn k l) = true.
Proof.
  intros f k. induction k as [|k IH]; intros [|x l] H; try reflexivity; try assumption.
  cbn [forallb skipn] in *. apply andb_true_iff in H. destruct H as [_ H]. apply (IH l H).
Qed.

Lemma printed_is_json_number : forall n t d, wf_num n = true -> t = print_num n -> jnum_dec n = d ->
  parse_number t = Some (n, []) /\ wf_num n = true /\ jnum_dec n = d.
Proof.
  intros n t d Hwf -> Hd. repeat split; try assumption.
  rewrite <- (app_nil_r (print_num n)). apply parse_number_print; [assumption|reflexivity].
Qed.

Theorem format_G_is_json_number : forall d,
  parse_number (format_G d) = Some (format_G_num d, []) /\
  wf_num (format_G_num d) = true /\
  jnum_dec (format_G_num d) = d.
Proof.
  intros [neg c e]. unfold format_G, format_G_num. cbn [dneg dcoeff dexp].
  destruct (N_digits_spec c) as (d0 & ds & E & Hall & Hv & Hz). rewrite E.
  set (pad := if (c =? 0) && (-2000 <=? e)%Z && (e <? 0)%Z then (- e)%Z else 0%Z).
  set (adj := (e + (Z.of_nat (length (d0 :: ds)) + pad - 1))%Z).
  assert (Hd0 : is_digit d0 = true) by (cbn in Hall; apply andb_true_iff in Hall; tauto).
  assert (Hds : forallb is_digit ds = true) by (cbn in Hall; apply andb_true_iff in Hall; tauto).
  destruct ((e <=? 0)%Z && (-6 <=? adj)%Z) eqn:Ef.
  - unfold fmt_f. destruct (Z.ltb_spec e 0) as [Hneg|Hpos].
    + destruct (Z.leb_spec 0 (- e - Z.of_nat (length (d0 :: ds)))) as [Hleft|Hleft].
      * (* 0.000ddd *)
        set (k := Z.to_nat (- e - Z.of_nat (length (d0 :: ds)))).
        set (n := {| jneg := neg; jint := [48]; jfrac := zeros k ++ d0 :: ds; jexp := None |}).
        assert (Hwf : wf_num n = true).
        { unfold wf_num, n. cbn [jint jfrac]. rewrite forallb_app, zeros_digits, Hall. reflexivity. }
        apply (printed_is_json_number n); [exact Hwf| |].
        -- unfold print_num, n. cbn [jneg jint jfrac jexp].
           destruct (zeros k ++ d0 :: ds) eqn:Ez; [destruct (zeros k); discriminate|].
           rewrite app_nil_r. reflexivity.
        -- unfold jnum_dec, n. cbn [jneg jint jfrac jexp]. f_equal.
           ++ change ([48] ++ zeros k ++ d0 :: ds) with (zeros (S k) ++ d0 :: ds).
              rewrite digits_val_zeros. exact Hv.
           ++ rewrite app_length, zeros_length. subst k. cbn [length] in *. lia.
      * (* dd.ddd *)
        set (off := Z.to_nat (- (- e - Z.of_nat (length (d0 :: ds))))).
        assert (Hoff : (1 <= off < length (d0 :: ds))%nat) by (subst off; cbn [length] in *; lia).
        set (n := {| jneg := neg; jint := firstn off (d0 :: ds); jfrac := skipn off (d0 :: ds); jexp := None |}).
        assert (Hfirst : exists t, firstn off (d0 :: ds) = d0 :: t).
        { destruct off as [|o]; [lia|]. cbn [firstn]. eexists. reflexivity. }
        destruct Hfirst as (t & Et).
        assert (Hsk : skipn off (d0 :: ds) <> []).
        { intro Hs. pose proof (firstn_skipn off (d0 :: ds)) as Hfs. rewrite Hs, app_nil_r in Hfs.
          pose proof (firstn_length off (d0 :: ds)) as Hl. rewrite Hfs in Hl. lia. }
        assert (Hwf : wf_num n = true).
        { unfold wf_num, n. cbn [jint jfrac]. rewrite forallb_firstn, forallb_skipn by assumption.
          rewrite Et. cbn [andb]. destruct (N.eqb_spec d0 48) as [->|]; [|reflexivity].
          destruct (Hz eq_refl) as [-> _]. cbn [length] in Hoff. lia. }
        apply (printed_is_json_number n); [exact Hwf| |].
        -- unfold print_num, n. cbn [jneg jint jfrac jexp].
           destruct (skipn off (d0 :: ds)) eqn:Es; [contradiction|].
           rewrite app_nil_r. reflexivity.
        -- unfold jnum_dec, n. cbn [jneg jint jfrac jexp]. f_equal.
           ++ rewrite firstn_skipn. exact Hv.
           ++ rewrite skipn_length. subst off. cbn [length] in *. lia.
    + assert (e = 0%Z) by lia. subst e. cbn [zeros Z.to_nat]. rewrite app_nil_r.
      set (n := {| jneg := neg; jint := d0 :: ds; jfrac := []; jexp := None |}).
      assert (Hwf : wf_num n = true).
      { unfold wf_num, n. cbn [jint jfrac]. rewrite Hall. cbn [forallb andb].
        destruct (N.eqb_spec d0 48) as [->|]; [|reflexivity]. destruct (Hz eq_refl) as [-> _]. reflexivity. }
      apply (printed_is_json_number n); [exact Hwf| |].
      * unfold print_num, n. cbn [jneg jint jfrac jexp]. rewrite !app_nil_r. reflexivity.
      * unfold jnum_dec, n. cbn [jneg jint jfrac jexp length]. rewrite app_nil_r, Hv. reflexivity.
  - unfold fmt_e. cbn [firstn skipn].
    set (a := (e + Z.of_nat (length (d0 :: ds)) - 1)%Z).
    set (n := {| jneg := neg; jint := [d0]; jfrac := ds; jexp := Some a |}).
    assert (Hwf : wf_num n = true).
    { unfold wf_num, n. cbn [jint jfrac forallb]. rewrite Hd0, Hds. cbn [andb negb]. rewrite andb_false_r. reflexivity. }
    split; [|split; [exact Hwf|]].
    + replace (_ ++ _) with (num_text n (match ds with [] => [] | _ => 46 :: ds end)
                 (69 :: (if (a <? 0)%Z then [45] else [43]) ++ N_digits (Z.abs_N a)) []).
      * apply parse_number_shape; [exact Hwf| |apply exp_shape_Z; auto|reflexivity].
        destruct ds; constructor. exact Hds.
      * unfold num_text, n. cbn [jneg jint jfrac jexp]. rewrite app_nil_r.
        destruct (a <? 0)%Z; reflexivity.
    + unfold jnum_dec, n. cbn [jneg jint jfrac jexp]. f_equal.
      * exact Hv.
      * subst a. cbn [length]. lia.
Qed.
