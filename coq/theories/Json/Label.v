(* C10 - label_ident_safe: when internal/encoding/json.PatchExpr turns the string
   label of a JSON member into an identifier.

   Model of cue/ast.IsValidIdent, cue/ast.StringLabelNeedsQuoting (ident.go) and of
   the identifier branches of cue/scanner.Scanner.Scan (scanFieldIdentifier, the
   '_' branch, token.Lookup) on a source that starts with the label.  Strings are
   lists of code points.  unicode.IsLetter / unicode.IsDigit for code points
   >= 0x80 are Section variables (tables of the Go runtime); the one fact used is
   that no code point is both (general categories L* and Nd are disjoint). *)
From Coq Require Import List NArith Bool Lia ZifyBool.
Import ListNotations.
Local Open Scope N_scope.

Section Label.
  Variable uni_letter uni_digit : N -> bool.
  Hypothesis letter_not_digit : forall c, uni_letter c = true -> uni_digit c = false.

  Definition ascii_letter (c : N) : bool := (97 <=? c) && (c <=? 122) || (65 <=? c) && (c <=? 90).
  Definition ascii_digit (c : N) : bool := (48 <=? c) && (c <=? 57).
  (* isLetter, isDigit (cue/ast/ident.go = cue/scanner/scanner.go) *)
  Definition is_letter (c : N) : bool := ascii_letter c || (128 <=? c) && uni_letter c.
  Definition is_digit (c : N) : bool := ascii_digit c || (128 <=? c) && uni_digit c.
  Definition ident_part (c : N) : bool := is_letter c || is_digit c || (c =? 95) || (c =? 36).

  (* strings.HasPrefix(s, string(c)) / strings.CutPrefix *)
  Definition has_prefix (c : N) (s : list N) : bool :=
    match s with x :: _ => x =? c | [] => false end.
  Definition cut_prefix (c : N) (s : list N) : list N * bool :=
    match s with
    | x :: r => if x =? c then (r, true) else (s, false)
    | [] => ([], false)
    end.

  (* IsValidIdent; utf8.DecodeRuneInString("") is RuneError, not a digit *)
  Definition is_valid_ident (s : list N) : bool :=
    match s with
    | [] => false
    | _ =>
      let (s1, consumed) := cut_prefix 95 s in
      match s1 with
      | [] => true
      | _ =>
        let (s2, hash) := cut_prefix 35 s1 in
        let consumed := if hash then false else consumed in
        if negb consumed && match s2 with c :: _ => is_digit c | [] => false end
        then false
        else forallb ident_part s2
      end
    end.

  (* StringLabelNeedsQuoting: PatchExpr keeps the string label iff this holds *)
  Definition needs_quoting (s : list N) : bool :=
    has_prefix 35 s || has_prefix 95 s || negb (is_valid_ident s).

  Fixpoint span (p : N -> bool) (s : list N) : list N * list N :=
    match s with
    | c :: r => if p c then let (a, b) := span p r in (c :: a, b) else ([], s)
    | [] => ([], [])
    end.

  (* scanFieldIdentifier / scanIdentifier: (literal, rest) *)
  Definition scan_field_ident (s : list N) : list N * list N :=
    match s with
    | c :: r =>
      if c =? 35 then
        match r with
        | d :: _ => if is_digit d then ([35], r) else let (a, b) := span ident_part r in (35 :: a, b)
        | [] => ([35], [])
        end
      else span ident_part s
    | [] => ([], [])
    end.

  Fixpoint list_eqb (a b : list N) : bool :=
    match a, b with
    | [], [] => true
    | x :: a', y :: b' => (x =? y) && list_eqb a' b'
    | _, _ => false
    end.

  (* token.Lookup: if else for in let try fallback otherwise func true false null *)
  Definition keywords : list (list N) :=
    [[105;102]; [101;108;115;101]; [102;111;114]; [105;110]; [108;101;116]; [116;114;121];
     [102;97;108;108;98;97;99;107]; [111;116;104;101;114;119;105;115;101]; [102;117;110;99];
     [116;114;117;101]; [102;97;108;115;101]; [110;117;108;108]].
  Definition is_keyword (s : list N) : bool := existsb (list_eqb s) keywords.

  Inductive tok := TIdent | TKeyword | TOther.

  (* Scanner.Scan on a source that starts with s (no leading white space): the token
     class, its literal and the unread rest.  TOther: any token that is neither an
     identifier nor a keyword (numbers, strings, operators, _|_, ILLEGAL, EOF). *)
  Definition scan_tok (s : list N) : tok * list N * list N :=
    match s with
    | [] => (TOther, [], [])
    | ch :: r =>
      if ascii_digit ch then (TOther, [], s)
      else if is_letter ch || (ch =? 36) || (ch =? 35) then
        let (lit, rest) := scan_field_ident s in
        if (1 <? N.of_nat (length lit)) then ((if is_keyword lit then TKeyword else TIdent), lit, rest)
        else if negb (ch =? 35) ||
                negb (match rest with q :: _ => (q =? 39) || (q =? 34) || (q =? 35) | [] => false end)
             then (TIdent, lit, rest)
             else (TOther, lit, rest)
      else if ch =? 95 then
        match r with
        | 124 :: 95 :: r2 => (TOther, [95; 124; 95], r2)
        | _ =>
          let (lit, rest) := scan_field_ident r in
          if list_eqb lit [95] && has_prefix 35 rest then (TOther, 95 :: lit, rest)
          else (TIdent, 95 :: lit, rest)
        end
      else (TOther, [], s)
    end.

  Lemma span_all : forall p s, span p s = (s, []) <-> forallb p s = true.
  Proof.
    induction s as [|c s IH]; cbn; [tauto|].
    destruct (p c); cbn.
    - destruct (span p s) as [a b]. split.
      + intro H. injection H as -> ->. apply IH. reflexivity.
      + intro H. apply IH in H. injection H as -> ->. reflexivity.
    - split; [discriminate|discriminate].
  Qed.

  Lemma letter_digit_disjoint : forall c, is_letter c = true -> is_digit c = false.
  Proof using letter_not_digit.
    intros c H. unfold is_letter, is_digit, ascii_letter, ascii_digit in *.
    pose proof (letter_not_digit c). destruct (uni_letter c), (uni_digit c); lia.
  Qed.

  Lemma dollar_not_digit : is_digit 36 = false.
  Proof. reflexivity. Qed.

  (* label_ident_safe: PatchExpr emits the label as an identifier (needs_quoting = false)
     exactly when the scanner reads the whole label back as ONE identifier or keyword
     token with the same text and the label is neither a hidden (_x) nor a definition
     (#x) form *)
  Theorem label_ident_safe : forall s,
    needs_quoting s = false <->
    (exists t, scan_tok s = (t, s, []) /\ t <> TOther /\ has_prefix 95 s = false /\ has_prefix 35 s = false).
  Proof.
    intros [|ch r].
    - cbn. split; [discriminate|]. intros [t [H [Ht _]]]. injection H as <-. contradiction.
    - unfold needs_quoting. cbn [has_prefix].
      destruct (ch =? 35) eqn:E35.
      { cbn [orb]. split; [discriminate|]. intros [t [_ [_ [_ H]]]]. discriminate. }
      destruct (ch =? 95) eqn:E95.
      { cbn [orb]. split; [discriminate|]. intros [t [_ [_ [H _]]]]. discriminate. }
      cbn [orb]. unfold is_valid_ident, cut_prefix. rewrite E95, E35. cbn [negb andb].
      unfold scan_tok. rewrite E35, E95, !orb_false_r.
      destruct (ascii_digit ch) eqn:Ead.
      { assert (Hd : is_digit ch = true) by (unfold is_digit; rewrite Ead; reflexivity).
        rewrite Hd. cbn [negb]. split; [discriminate|]. intros [t [H [Ht _]]]. injection H as <- _ _. contradiction. }
      destruct (is_letter ch || (ch =? 36)) eqn:Els.
      + (* identifier start *)
        assert (Hd : is_digit ch = false).
        { apply orb_true_iff in Els. destruct Els as [H|H].
          - apply letter_digit_disjoint. exact H.
          - apply N.eqb_eq in H. subst ch. reflexivity. }
        rewrite Hd. unfold scan_field_ident. rewrite E35.
        destruct (span ident_part (ch :: r)) as [lit rest] eqn:Esp.
        split.
        * intro H. apply negb_false_iff in H. apply span_all in H. rewrite H in Esp. injection Esp as <- <-.
          destruct (1 <? N.of_nat (length (ch :: r))).
          -- destruct (is_keyword (ch :: r)); eexists; (split; [reflexivity|]); (split; [discriminate|]); split; reflexivity.
          -- cbn [negb orb]. exists TIdent. split; [reflexivity|]. split; [discriminate|]. split; reflexivity.
        * intros [t [H _]]. apply negb_false_iff. apply span_all.
          destruct (1 <? N.of_nat (length lit)).
          -- injection H as _ -> ->. exact Esp.
          -- cbn [negb orb] in H. injection H as _ -> ->. exact Esp.
      + (* neither digit, letter, $, # nor _ *)
        split.
        * intro H. exfalso.
          destruct (is_digit ch) eqn:Hd; [discriminate|]. cbn [negb] in H. apply negb_false_iff in H.
          cbn [forallb] in H. apply andb_true_iff in H. destruct H as [H _].
          unfold ident_part in H. rewrite Hd, E95 in H.
          apply orb_false_iff in Els. destruct Els as [El Es]. rewrite El, Es in H. discriminate.
        * intros [t [H [Ht _]]]. injection H as <- _ _. contradiction.
  Qed.

  Corollary unquoted_label_is_regular : forall s,
    needs_quoting s = false -> s <> [] /\ has_prefix 95 s = false /\ has_prefix 35 s = false.
  Proof.
    intros s H. apply label_ident_safe in H. destruct H as [t [Hs [Ht [H1 H2]]]].
    split; [|split; assumption]. intros ->. cbn in Hs. injection Hs as <-. contradiction.
  Qed.

  Corollary hidden_definition_labels_stay_strings : forall c s,
    (c = 95 \/ c = 35) -> needs_quoting (c :: s) = true.
  Proof. intros c s [-> | ->]; reflexivity. Qed.
End Label.

(* ---- examples (ASCII: the oracles are never consulted below 0x80) ---- *)
Definition no_uni (_ : N) : bool := false.

Example label_examples :
  needs_quoting no_uni no_uni [97; 98] = false /\               (* ab *)
  needs_quoting no_uni no_uni [95; 97] = true /\                (* _a  hidden *)
  needs_quoting no_uni no_uni [35; 97] = true /\                (* #a  definition *)
  needs_quoting no_uni no_uni [97; 45; 98] = true /\            (* a-b *)
  needs_quoting no_uni no_uni [49; 97] = true /\                (* 1a *)
  needs_quoting no_uni no_uni [] = true /\
  needs_quoting no_uni no_uni [105; 102] = false /\             (* if: a keyword is emitted unquoted *)
  needs_quoting no_uni no_uni [36; 120] = false /\              (* $x *)
  is_valid_ident no_uni no_uni [35] = true /\                   (* "#" is a valid identifier for IsValidIdent *)
  is_valid_ident no_uni no_uni [95; 35; 48] = false /\          (* _#0 *)
  is_valid_ident no_uni no_uni [95; 48] = true /\               (* _0 *)
  scan_tok no_uni no_uni [105; 102] = (TKeyword, [105; 102], []) /\
  scan_tok no_uni no_uni [97; 45; 98] = (TIdent, [97], [45; 98]) /\
  scan_tok no_uni no_uni [95; 124; 95] = (TOther, [95; 124; 95], []) /\
  scan_tok no_uni no_uni [35; 48] = (TIdent, [35], [48]).
Proof. vm_compute. repeat split. Qed.
