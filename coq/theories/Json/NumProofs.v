(* C10 - the number layer: decimal digit printing/reading; a number text is a sign,
   the integer digits, a fraction text and an exponent text (frac_shape, exp_shape), and
   parse_number accepts exactly these (parse_number_shape, parse_number_inv); what
   print_num writes is one of them. *)
From Verif Require Import Json.Model.
From Coq Require Import Lia ZifyN ZifyNat ZifyBool.
(* N_digits_aux_spec reasons about n / 10 and n mod 10 *)
Ltac Zify.zify_post_hook ::= Z.div_mod_to_equations.

Definition dstep (acc d : N) : N := acc * 10 + (d - 48).

Lemma digits_val_app : forall a b, digits_val (a ++ b) = fold_left dstep b (digits_val a).
Proof. intros a b. unfold digits_val. rewrite fold_left_app. reflexivity. Qed.

Lemma digits_val_snoc : forall a d, digits_val (a ++ [d]) = digits_val a * 10 + (d - 48).
Proof. intros a d. rewrite digits_val_app. reflexivity. Qed.

Lemma N_digits_aux_spec : forall fuel n acc, n < 2 ^ N.of_nat fuel -> (0 < fuel)%nat ->
  exists ds, N_digits_aux fuel n acc = ds ++ acc /\
             forallb is_digit ds = true /\ digits_val ds = n /\
             (n = 0 -> ds = [48]) /\
             (n <> 0 -> exists d t, ds = d :: t /\ d <> 48).
Proof.
  induction fuel as [|f IH]; intros n acc Hn Hf.
  - lia.
  - cbn [N_digits_aux].
    assert (Hd : is_digit (48 + n mod 10) = true) by (unfold is_digit; lia).
    destruct (N.eqb_spec (n / 10) 0) as [Hz|Hnz].
    + exists [48 + n mod 10]. split; [reflexivity|]. split; [cbn [forallb]; rewrite Hd; reflexivity|].
      split; [unfold digits_val; cbn [fold_left]; lia|]. split.
      * intros ->. reflexivity.
      * intros Hn0. eexists; eexists; split; [reflexivity|]. lia.
    + assert (Hn' : n / 10 < 2 ^ N.of_nat f).
      { rewrite Nat2N.inj_succ, N.pow_succ_r' in Hn. lia. }
      assert (Hf' : (0 < f)%nat).
      { destruct f; [cbn in Hn'; lia|lia]. }
      destruct (IH (n / 10) ((48 + n mod 10) :: acc) Hn' Hf') as (ds & E & Hall & Hv & _ & Hnz').
      exists (ds ++ [48 + n mod 10]). split; [rewrite E, <- app_assoc; reflexivity|].
      split; [rewrite forallb_app, Hall; cbn [forallb]; rewrite Hd; reflexivity|].
      split; [rewrite digits_val_snoc, Hv; lia|].
      split; [intros ->; cbn in Hnz; congruence|].
      intros _. destruct (Hnz' Hnz) as (d & t & -> & Hd48).
      exists d, (t ++ [48 + n mod 10]). split; [reflexivity|assumption].
Qed.

Lemma N_digits_spec : forall n, exists d ds,
  N_digits n = d :: ds /\ forallb is_digit (d :: ds) = true /\ digits_val (d :: ds) = n /\
  (d = 48 -> ds = [] /\ n = 0).
Proof.
  intro n. unfold N_digits.
  assert (Hn : n < 2 ^ N.of_nat (S (N.to_nat (N.log2 n)))).
  { rewrite Nat2N.inj_succ, N2Nat.id.
    destruct (N.eq_dec n 0) as [->|Hnz]; [reflexivity|].
    apply N.log2_spec. lia. }
  destruct (N_digits_aux_spec _ n [] Hn ltac:(lia)) as (ds & E & H1 & H2 & H3 & H4).
  rewrite app_nil_r in E. rewrite E.
  destruct (N.eq_dec n 0) as [->|Hnz].
  - rewrite (H3 eq_refl). exists 48, []. auto.
  - destruct (H4 Hnz) as (d & t & -> & Hd). exists d, t. repeat split; auto; contradiction.
Qed.

Definition no_digit_head (s : bytes) : bool :=
  match s with c :: _ => negb (is_digit c) | [] => true end.

Lemma span_digits_app : forall ds rest, forallb is_digit ds = true -> no_digit_head rest = true ->
  span_digits (ds ++ rest) = (ds, rest).
Proof.
  induction ds as [|d ds IH]; intros rest Hd Hr.
  - cbn [app]. destruct rest as [|c r]; [reflexivity|]. cbn in Hr |- *.
    destruct (is_digit c); [discriminate|reflexivity].
  - cbn [forallb] in Hd. apply andb_true_iff in Hd. destruct Hd as [H1 H2].
    cbn [app span_digits]. rewrite H1, IH by assumption. reflexivity.
Qed.

(* what may follow a printed number without being swallowed by the number reader *)
Definition num_follow_ok (s : bytes) : bool :=
  match s with
  | c :: _ => negb (is_digit c || (c =? 46) || (c =? 101) || (c =? 69))
  | [] => true
  end.

Lemma num_follow_no_digit : forall s, num_follow_ok s = true -> no_digit_head s = true.
Proof.
  intros [|c r] H; [reflexivity|]. cbn in *. destruct (is_digit c); [discriminate|reflexivity].
Qed.

Lemma span_digits_inv : forall s ds r, span_digits s = (ds, r) ->
  s = ds ++ r /\ forallb is_digit ds = true /\ no_digit_head r = true.
Proof.
  induction s as [|c s IH]; intros ds r H; cbn [span_digits] in H.
  - inversion H; subst. auto.
  - destruct (is_digit c) eqn:Ed.
    + destruct (span_digits s) as [d t] eqn:E. inversion H; subst.
      destruct (IH _ _ eq_refl) as (-> & Hd & Hr). cbn [forallb]. rewrite Ed. auto.
    + inversion H; subst. cbn. rewrite Ed. auto.
Qed.

Lemma parse_exp_none : forall rest, num_follow_ok rest = true ->
  parse_exp rest = Some (None, rest).
Proof.
  intros [|c r] H; [reflexivity|]. cbn in H |- *.
  destruct ((c =? 101) || (c =? 69)) eqn:E; [|reflexivity].
  exfalso. destruct (is_digit c), (c =? 46), (c =? 101), (c =? 69); cbn in *; discriminate.
Qed.

Lemma parse_frac_none : forall rest, num_follow_ok rest = true ->
  parse_frac rest = Some ([], rest).
Proof.
  intros [|c r] H; [reflexivity|]. cbn in H |- *.
  destruct (c =? 46) eqn:E; [|reflexivity].
  exfalso. destruct (is_digit c), (c =? 101), (c =? 69); cbn in *; discriminate.
Qed.

(* the optional fraction and exponent of a number text, with what they denote *)
Inductive frac_shape : bytes -> bytes -> Prop :=
| FS_none : frac_shape [] []
| FS_some : forall d ds, forallb is_digit (d :: ds) = true -> frac_shape (46 :: d :: ds) (d :: ds).

Inductive exp_shape : bytes -> option Z -> Prop :=
| ES_none : exp_shape [] None
| ES_some : forall ee sg d ds, (ee = 101 \/ ee = 69) ->
    (sg = [] \/ sg = [43] \/ sg = [45]) -> forallb is_digit (d :: ds) = true ->
    exp_shape (ee :: sg ++ d :: ds)
              (Some (if match sg with [45] => true | _ => false end
                     then (- Z.of_N (digits_val (d :: ds)))%Z else Z.of_N (digits_val (d :: ds)))).

Lemma parse_frac_inv : forall s fp t, parse_frac s = Some (fp, t) ->
  exists ftxt, s = ftxt ++ t /\ frac_shape ftxt fp.
Proof.
  intros s fp t H. unfold parse_frac in H. destruct s as [|c r].
  - inversion H; subst. exists []. split; [reflexivity|constructor].
  - destruct (N.eqb_spec c 46) as [->|Hc].
    + destruct (span_digits r) as [d t'] eqn:E. destruct d as [|d0 ds]; [discriminate|].
      inversion H; subst. destruct (span_digits_inv _ _ _ E) as (-> & Hd & Hr).
      exists (46 :: d0 :: ds). split; [reflexivity|constructor; assumption].
    + inversion H; subst. exists []. split; [reflexivity|constructor].
Qed.

Lemma parse_exp_inv : forall s e t, parse_exp s = Some (e, t) ->
  exists etxt, s = etxt ++ t /\ exp_shape etxt e.
Proof.
  intros s e t H. unfold parse_exp in H. destruct s as [|c r].
  - inversion H; subst. exists []. split; [reflexivity|constructor].
  - destruct ((c =? 101) || (c =? 69)) eqn:Ec.
    + assert (Hee : c = 101 \/ c = 69) by lia.
      (* the optional sign, split off *)
      assert (Hsg : exists sg r1, r = sg ++ r1 /\ (sg = [] \/ sg = [43] \/ sg = [45]) /\
        match r with
        | c1 :: r1 => if c1 =? 43 then (false, r1) else if c1 =? 45 then (true, r1) else (false, r)
        | [] => (false, r)
        end = (match sg with [45] => true | _ => false end, r1)).
      { destruct r as [|c1 r1]; [exists [], []; auto|].
        destruct (N.eqb_spec c1 43) as [->|]; [exists [43], r1; auto|].
        destruct (N.eqb_spec c1 45) as [->|]; [exists [45], r1; auto|exists [], (c1 :: r1); auto]. }
      destruct Hsg as (sg & r1 & -> & Hsg & Esg). rewrite Esg in H.
      destruct (span_digits r1) as [ds t'] eqn:E. destruct ds as [|d ds]; [discriminate|].
      inversion H; subst. destruct (span_digits_inv _ _ _ E) as (-> & Hd & Hr).
      exists (c :: sg ++ d :: ds). split; [cbn [app]; rewrite <- app_assoc; reflexivity|].
      apply ES_some; assumption.
    + inversion H; subst. exists []. split; [reflexivity|constructor].
Qed.

(* and conversely; the hypothesis on parse_frac / parse_exp says that rest does not
   start a fraction / an exponent of its own *)
Lemma parse_frac_shape : forall ftxt fp rest, frac_shape ftxt fp -> no_digit_head rest = true ->
  parse_frac rest = Some ([], rest) -> parse_frac (ftxt ++ rest) = Some (fp, rest).
Proof.
  intros ftxt fp rest [|d ds Hd] Hr H; [exact H|].
  unfold parse_frac. cbn [app]. change (46 =? 46) with true. cbv iota.
  change (d :: ds ++ rest) with ((d :: ds) ++ rest). rewrite span_digits_app by assumption. reflexivity.
Qed.

(* the reader after an exponent marker and a sign that is there or not *)
Lemma parse_exp_sign : forall ee sg r1, (ee = 101 \/ ee = 69) -> (sg = [] \/ sg = [43] \/ sg = [45]) ->
  (sg = [] -> match r1 with c :: _ => c <> 43 /\ c <> 45 | [] => True end) ->
  parse_exp (ee :: sg ++ r1) =
  let '(ds, t) := span_digits r1 in
  match ds with
  | [] => None
  | _ => Some (Some (if match sg with [45] => true | _ => false end
                     then (- Z.of_N (digits_val ds))%Z else Z.of_N (digits_val ds)), t)
  end.
Proof.
  intros ee sg r1 Hee Hsg Hs. unfold parse_exp.
  replace ((ee =? 101) || (ee =? 69)) with true by (destruct Hee; subst; reflexivity).
  destruct Hsg as [->|[->| ->]]; [|reflexivity|reflexivity].
  destruct r1 as [|c r]; [reflexivity|]. destruct (Hs eq_refl) as [N43 N45]. cbn [app].
  destruct (N.eqb_spec c 43); [contradiction|]. destruct (N.eqb_spec c 45); [contradiction|]. reflexivity.
Qed.

Lemma parse_exp_shape : forall etxt e rest, exp_shape etxt e -> no_digit_head rest = true ->
  parse_exp rest = Some (None, rest) -> parse_exp (etxt ++ rest) = Some (e, rest).
Proof.
  intros etxt e rest [|ee sg d ds Hee Hsg Hd] Hr H; [exact H|].
  assert (Hd0 : is_digit d = true) by apply (andb_prop _ _ Hd).
  cbn [app]. rewrite <- app_assoc, parse_exp_sign; [|assumption..|intros _; unfold is_digit in Hd0; cbn [app]; lia].
  rewrite span_digits_app by assumption. reflexivity.
Qed.

Definition wf_numP (n : jnum) : Prop := wf_num n = true.

Lemma wf_num_inv : forall n, wf_num n = true ->
  exists d ds, jint n = d :: ds /\ is_digit d = true /\ forallb is_digit ds = true /\
    forallb is_digit (jfrac n) = true /\
    (d =? 48) && negb match ds with [] => true | _ => false end = false.
Proof.
  intros n H. unfold wf_num in H. destruct (jint n) as [|d ds]; [rewrite andb_false_r in H; discriminate|].
  apply andb_prop in H. destruct H as [H Hlz]. apply andb_prop in H. destruct H as [Hip Hfp].
  cbn [forallb] in Hip. apply andb_prop in Hip. exists d, ds.
  repeat split; try apply Hip; try assumption. apply negb_true_iff. exact Hlz.
Qed.

(* a number text followed by rest *)
Definition num_text (n : jnum) (ftxt etxt rest : bytes) : bytes :=
  (if jneg n then [45] else []) ++ jint n ++ ftxt ++ etxt ++ rest.

Lemma parse_number_shape : forall n ftxt etxt rest, wf_num n = true ->
  frac_shape ftxt (jfrac n) -> exp_shape etxt (jexp n) -> num_follow_ok rest = true ->
  parse_number (num_text n ftxt etxt rest) = Some (n, rest).
Proof.
  intros [neg ip fp e] ftxt etxt rest Hwf Hf He Hr.
  destruct (wf_num_inv _ Hwf) as (d & ds & Ei & Hd & Hds & _ & Hlz).
  unfold num_text. cbn [jneg jint jfrac jexp] in *. subst ip.
  pose proof (num_follow_no_digit rest Hr) as Hr'.
  assert (Hexp : no_digit_head (etxt ++ rest) = true /\ parse_frac (etxt ++ rest) = Some ([], etxt ++ rest)).
  { destruct He as [|ee sg x xs [->| ->]]; [split; [assumption|apply parse_frac_none; assumption]| |];
      split; reflexivity. }
  assert (Hfrac : no_digit_head (ftxt ++ etxt ++ rest) = true) by (destruct Hf; [apply Hexp|reflexivity]).
  assert (Hbody : parse_number ((d :: ds) ++ ftxt ++ etxt ++ rest) =
                  Some ({| jneg := false; jint := d :: ds; jfrac := fp; jexp := e |}, rest)).
  { unfold parse_number. cbn [app]. destruct (N.eqb_spec d 45); [unfold is_digit in Hd; lia|].
    change (d :: ds ++ ftxt ++ etxt ++ rest) with ((d :: ds) ++ ftxt ++ etxt ++ rest).
    rewrite span_digits_app, Hlz by (assumption || (cbn [forallb]; rewrite Hd; exact Hds)).
    rewrite (parse_frac_shape ftxt fp _ Hf) by apply Hexp.
    rewrite (parse_exp_shape etxt e rest He Hr' (parse_exp_none rest Hr)). reflexivity. }
  destruct neg; [|exact Hbody].
  unfold parse_number in Hbody |- *. cbn [app] in Hbody |- *.
  destruct (N.eqb_spec d 45); [unfold is_digit in Hd; lia|]. change (45 =? 45) with true. cbv iota.
  destruct (span_digits (d :: ds ++ ftxt ++ etxt ++ rest)) as [[|x xs] s2]; [discriminate|].
  destruct ((x =? 48) && _); [discriminate|].
  destruct (parse_frac s2) as [[fp' s3]|]; [|discriminate].
  destruct (parse_exp s3) as [[e' s4]|]; [|discriminate].
  inversion Hbody. reflexivity.
Qed.

Lemma parse_number_inv : forall t n r, parse_number t = Some (n, r) ->
  exists ftxt etxt, t = num_text n ftxt etxt r /\
    wf_num n = true /\ frac_shape ftxt (jfrac n) /\ exp_shape etxt (jexp n).
Proof.
  intros t n r H. unfold parse_number in H.
  set (p := match t with
            | [] => (false, t)
            | c :: r => if c =? 45 then (true, r) else (false, t)
            end) in H.
  destruct p as [neg s1] eqn:Ep.
  destruct (span_digits s1) as [ip s2] eqn:Es.
  destruct ip as [|d ds]; [discriminate|].
  destruct ((d =? 48) && negb match ds with [] => true | _ => false end) eqn:Elz; [discriminate|].
  destruct (parse_frac s2) as [[fp s3]|] eqn:Ef; [|discriminate].
  destruct (parse_exp s3) as [[e s4]|] eqn:Ee; [|discriminate].
  inversion H; subst; clear H. unfold num_text. cbn [jneg jint jfrac jexp].
  destruct (span_digits_inv _ _ _ Es) as (-> & Hd & _).
  destruct (parse_frac_inv _ _ _ Ef) as (ftxt & -> & Hfs).
  destruct (parse_exp_inv _ _ _ Ee) as (etxt & -> & Hes).
  exists ftxt, etxt. split; [|split; [|split; assumption]].
  - subst p. destruct t as [|c t]; [inversion Ep|].
    destruct (N.eqb_spec c 45) as [->|]; inversion Ep; subst; reflexivity.
  - unfold wf_num. cbn [jint jfrac]. rewrite Hd, Elz.
    destruct Hfs as [|f fs ->]; reflexivity.
Qed.

Lemma parse_number_wf : forall t n r, parse_number t = Some (n, r) -> wf_num n = true.
Proof. intros t n r H. destruct (parse_number_inv t n r H) as (_ & _ & _ & Hwf & _). exact Hwf. Qed.

(* an exponent text as Go writes it: e or E, a minus sign or sg, the digits of |z| *)
Lemma exp_shape_Z : forall ee sg z, (ee = 101 \/ ee = 69) -> (sg = [] \/ sg = [43]) ->
  exp_shape (ee :: (if (z <? 0)%Z then [45] else sg) ++ N_digits (Z.abs_N z)) (Some z).
Proof.
  intros ee sg z Hee Hsg. destruct (N_digits_spec (Z.abs_N z)) as (d & t & -> & Hall & Hv & _).
  set (s := if (z <? 0)%Z then [45] else sg).
  replace (Some z) with (Some (if match s with [45] => true | _ => false end
                               then (- Z.of_N (digits_val (d :: t)))%Z else Z.of_N (digits_val (d :: t)))).
  - apply ES_some; [assumption| |assumption]. subst s. destruct (z <? 0)%Z; tauto.
  - rewrite Hv. subst s. destruct (Z.ltb_spec z 0), Hsg as [->| ->]; f_equal; lia.
Qed.

Lemma print_num_shape : forall n rest, exists ftxt etxt,
  print_num n ++ rest = num_text n ftxt etxt rest /\
  (forallb is_digit (jfrac n) = true -> frac_shape ftxt (jfrac n)) /\ exp_shape etxt (jexp n).
Proof.
  intros [neg ip fp e] rest. unfold print_num, num_text. cbn [jneg jint jfrac jexp].
  exists (match fp with [] => [] | f => 46 :: f end),
         (match e with None => [] | Some z => 101 :: print_Z z end).
  split; [rewrite <- !app_assoc; destruct fp; reflexivity|]. split.
  - intro Hfp. destruct fp; constructor. assumption.
  - destruct e as [z|]; [|constructor].
    replace (print_Z z) with ((if (z <? 0)%Z then [45] else []) ++ N_digits (Z.abs_N z))
      by (unfold print_Z; destruct (z <? 0)%Z; reflexivity).
    apply exp_shape_Z; auto.
Qed.

Lemma parse_number_print : forall n rest, wf_num n = true -> num_follow_ok rest = true ->
  parse_number (print_num n ++ rest) = Some (n, rest).
Proof.
  intros n rest Hwf Hr. destruct (print_num_shape n rest) as (ftxt & etxt & -> & Hf & He).
  destruct (wf_num_inv n Hwf) as (_ & _ & _ & _ & _ & Hfp & _).
  apply parse_number_shape; auto.
Qed.

Lemma print_num_head : forall n, wf_num n = true ->
  exists c t, print_num n = c :: t /\ ((c =? 45) || is_digit c = true).
Proof.
  intros n H. destruct (wf_num_inv n H) as (d & ds & E & Hd & _). unfold print_num. rewrite E.
  destruct (jneg n); eexists; eexists; (split; [reflexivity|]); [reflexivity|].
  rewrite Hd. apply orb_true_r.
Qed.

Lemma print_num_length : forall n, wf_num n = true -> (1 <= length (print_num n))%nat.
Proof.
  intros n H. destruct (print_num_head n H) as (c & t & -> & _). cbn. lia.
Qed.
