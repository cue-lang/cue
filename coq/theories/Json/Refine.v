(* C10 - the stricter readers refine the standard one: whatever the Cue-mode (or
   Strict) reader accepts, the RFC 8259 reader accepts with the same value. *)
From Verif Require Import Json.Model.
From Coq Require Import Lia.

(* m1 rejects at least what m2 rejects: mode_le Cue Std, mode_le Strict Std *)
Definition mode_le (m1 m2 : mode) : Prop :=
  (rej_lone m2 = true -> rej_lone m1 = true) /\ (rej_bom m2 = true -> rej_bom m1 = true).

Lemma strict_le_std : mode_le Strict Std.
Proof. split; discriminate. Qed.

Lemma cue_le_std : mode_le Cue Std.
Proof. split; discriminate. Qed.

Lemma scons_mono : forall c o1 o2 r, scons c o1 = Some r ->
  (forall r', o1 = Some r' -> o2 = Some r') -> scons c o2 = Some r.
Proof.
  intros c [p|] o2 r H Ho; [|discriminate]. rewrite (Ho p eq_refl). exact H.
Qed.

Lemma parse_str_mono : forall m1 m2, mode_le m1 m2 ->
  forall f s r, parse_str m1 f s = Some r -> parse_str m2 f s = Some r.
Proof.
  intros m1 m2 [Hl Hb]. induction f as [|f IH]; intros s r H; [discriminate|].
  cbn [parse_str] in *. destruct s as [|c t]; [discriminate|].
  destruct (c =? 34); [assumption|].
  destruct (c =? 92).
  - destruct t as [|e t1]; [discriminate|].
    destruct (e =? 117).
    + destruct (hex4 t1) as [[u t2]|]; [|discriminate].
      (* a lone surrogate is read by m1 only if m1, hence m2, does not reject it *)
      assert (Hlone : (if rej_lone m1 then None else scons 65533 (parse_str m1 f t2)) = Some r ->
                      (if rej_lone m2 then None else scons 65533 (parse_str m2 f t2)) = Some r).
      { destruct (rej_lone m1) eqn:E1; [discriminate|].
        destruct (rej_lone m2); [discriminate (Hl eq_refl)|].
        intro H'. exact (scons_mono _ _ _ _ H' (IH _)). }
      destruct (is_high u).
      * destruct (low_escape t2) as [[l t3]|]; [exact (scons_mono _ _ _ _ H (IH _))|auto].
      * destruct (is_low u); [auto|exact (scons_mono _ _ _ _ H (IH _))].
    + destruct (simple_escape e); [|discriminate]. exact (scons_mono _ _ _ _ H (IH _)).
  - destruct (c <? 32); [discriminate|].
    destruct (c <? 128); [exact (scons_mono _ _ _ _ H (IH _))|].
    destruct (utf8_decode (c :: t)) as [[cp t']|]; [|discriminate].
    destruct (rej_bom m1 && (cp =? 65279)) eqn:E1; [discriminate|].
    assert (E2 : rej_bom m2 && (cp =? 65279) = false).
    { destruct (rej_bom m2); [|reflexivity]. rewrite (Hb eq_refl) in E1. exact E1. }
    rewrite E2. exact (scons_mono _ _ _ _ H (IH _)).
Qed.

(* along the three readers: each accepted branch is an induction hypothesis at smaller fuel *)
Lemma parse_mono : forall m1 m2, mode_le m1 m2 -> forall f,
  (forall s r, parse_value m1 f s = Some r -> parse_value m2 f s = Some r) /\
  (forall s r, parse_elems m1 f s = Some r -> parse_elems m2 f s = Some r) /\
  (forall s r, parse_members m1 f s = Some r -> parse_members m2 f s = Some r).
Proof.
  intros m1 m2 Hm. induction f as [|f (IHv & IHe & IHm)]; [repeat split; intros; discriminate|].
  repeat split; intros s r H.
  - cbn [parse_value] in *. destruct (skip_ws s) as [|c t]; [discriminate|].
    destruct (c =? 123).
    { destruct (skip_ws t) as [|c' t']; [discriminate|]. destruct (c' =? 125); [assumption|].
      destruct (parse_members m1 f (c' :: t')) as [[l u]|] eqn:E; [|discriminate].
      rewrite (IHm _ _ E). assumption. }
    destruct (c =? 91).
    { destruct (skip_ws t) as [|c' t']; [discriminate|]. destruct (c' =? 93); [assumption|].
      destruct (parse_elems m1 f (c' :: t')) as [[l u]|] eqn:E; [|discriminate].
      rewrite (IHe _ _ E). assumption. }
    destruct (c =? 34).
    { destruct (parse_str m1 (length t) t) as [[v u]|] eqn:E; [|discriminate].
      rewrite (parse_str_mono m1 m2 Hm _ _ _ E). assumption. }
    assumption.
  - cbn [parse_elems] in *. destruct (parse_value m1 f s) as [[v t]|] eqn:E; [|discriminate].
    rewrite (IHv _ _ E). destruct (skip_ws t) as [|c u]; [discriminate|].
    destruct (c =? 44); [|assumption].
    destruct (parse_elems m1 f u) as [[l t']|] eqn:E2; [|discriminate]. rewrite (IHe _ _ E2). assumption.
  - cbn [parse_members] in *. destruct (skip_ws s) as [|c t]; [discriminate|].
    destruct (c =? 34); [|discriminate].
    destruct (parse_str m1 (length t) t) as [[k u]|] eqn:E; [|discriminate].
    rewrite (parse_str_mono m1 m2 Hm _ _ _ E).
    destruct (skip_ws u) as [|c2 r2]; [discriminate|]. destruct (c2 =? 58); [|discriminate].
    destruct (parse_value m1 f r2) as [[v t2]|] eqn:E2; [|discriminate]. rewrite (IHv _ _ E2).
    destruct (skip_ws t2) as [|c3 r3]; [discriminate|].
    destruct (c3 =? 44); [|assumption].
    destruct (parse_members m1 f r3) as [[l t']|] eqn:E3; [|discriminate]. rewrite (IHm _ _ E3). assumption.
Qed.

Lemma unescape_mono : forall m1 m2, mode_le m1 m2 ->
  forall t v, json_unescape_gen m1 t = Some v -> json_unescape_gen m2 t = Some v.
Proof.
  intros m1 m2 Hm t v H. unfold json_unescape_gen in *.
  destruct t as [|c s]; [discriminate|]. destruct (c =? 34); [|discriminate].
  destruct (parse_str m1 (length s) s) as [p|] eqn:E; [|discriminate].
  rewrite (parse_str_mono m1 m2 Hm _ _ _ E). assumption.
Qed.

Lemma json_parse_mono : forall m1 m2, mode_le m1 m2 ->
  forall s v, json_parse_gen m1 s = Some v -> json_parse_gen m2 s = Some v.
Proof.
  intros m1 m2 Hm s v H. unfold json_parse_gen in *.
  destruct (parse_value m1 (S (length s)) s) as [[v' t]|] eqn:E; [|discriminate].
  rewrite (proj1 (parse_mono m1 m2 Hm _) _ _ E). assumption.
Qed.

Theorem cue_parse_refines_std : forall s v, json_parse_gen Cue s = Some v -> json_parse s = Some v.
Proof. exact (json_parse_mono Cue Std cue_le_std). Qed.

Theorem strict_parse_refines_std : forall s v, json_parse_gen Strict s = Some v -> json_parse s = Some v.
Proof. exact (json_parse_mono Strict Std strict_le_std). Qed.
