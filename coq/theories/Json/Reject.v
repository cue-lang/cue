(* C10 - malformed documents: the classes of text on which json_parse_gen m returns None
   for every mode m (value_start, plain, bad_string_tail, ok_for), and where the readers
   stop on each; the rejection theorems of Properties/C10.v are put together from these. *)
From Verif Require Import Json.Model Json.Utf8Proofs Json.StringProofs Json.NumProofs Json.RoundTrip.
From Coq Require Import Lia ZifyN ZifyNat ZifyBool.

Lemma skip_ws_app : forall ws s, forallb is_ws ws = true -> skip_ws (ws ++ s) = skip_ws s.
Proof.
  induction ws as [|c ws IH]; intros s H; [reflexivity|].
  cbn [forallb] in H. apply andb_prop in H. destruct H as [Hc H].
  cbn [app skip_ws]. rewrite Hc. auto.
Qed.

Lemma parse_value_ws : forall m f ws s, forallb is_ws ws = true ->
  parse_value m f (ws ++ s) = parse_value m f s.
Proof. intros m [|f] ws s H; [reflexivity|]. cbn [parse_value]. rewrite skip_ws_app by assumption. reflexivity. Qed.

(* the bytes that can start a value; the others are + . ' ] } , : letters other than t f n ... *)
Definition value_start (c : N) : bool :=
  (c =? 123) || (c =? 91) || (c =? 34) || (c =? 116) || (c =? 102) || (c =? 110) || (c =? 45) || is_digit c.

Lemma parse_value_bad_start : forall m f c rest, is_ws c = false -> value_start c = false ->
  parse_value m f (c :: rest) = None.
Proof.
  intros m [|f] c rest Hws Hs; [reflexivity|]. cbn [parse_value]. rewrite skip_ws_head by assumption.
  unfold value_start in Hs.
  destruct (c =? 123); [discriminate|]. destruct (c =? 91); [discriminate|].
  destruct (c =? 34); [discriminate|]. destruct (c =? 116); [discriminate|].
  destruct (c =? 102); [discriminate|]. destruct (c =? 110); [discriminate|].
  cbn [orb] in Hs. rewrite Hs. reflexivity.
Qed.

Lemma doc_number_none : forall m c r, (c =? 45) || is_digit c = true ->
  parse_number (c :: r) = None -> json_parse_gen m (c :: r) = None.
Proof.
  intros m c r Hc Hn. unfold json_parse_gen. rewrite parse_value_num, Hn by assumption. reflexivity.
Qed.

Lemma span_no_digit : forall rest, no_digit_head rest = true -> span_digits rest = ([], rest).
Proof.
  intros [|c r] H; [reflexivity|]. cbn in H |- *. destruct (is_digit c); [discriminate|reflexivity].
Qed.

(* the integer part of a number, then something: the reader is at [tail] after the digits *)
Lemma parse_number_after_int : forall d ds tail, forallb is_digit (d :: ds) = true ->
  no_digit_head tail = true ->
  (parse_frac tail = None \/ exists fp s3, parse_frac tail = Some (fp, s3) /\ parse_exp s3 = None) ->
  parse_number ((d :: ds) ++ tail) = None.
Proof.
  intros d ds tail Hd Ht Hcases.
  assert (Hd0 : is_digit d = true) by (cbn in Hd; apply andb_true_iff in Hd; tauto).
  assert (Hdm : d =? 45 = false) by (unfold is_digit in Hd0; lia).
  unfold parse_number. cbn [app]. rewrite Hdm.
  change (d :: ds ++ tail) with ((d :: ds) ++ tail). rewrite span_digits_app by assumption.
  destruct ((d =? 48) && negb match ds with [] => true | _ => false end); [reflexivity|].
  destruct Hcases as [->|(fp & s3 & -> & ->)]; reflexivity.
Qed.

Definition plain (c : N) : bool := (32 <=? c) && (c <? 128) && negb (c =? 34) && negb (c =? 92).

Lemma parse_str_plain_prefix_none : forall m pre s, forallb plain pre = true ->
  (forall f, parse_str m f s = None) -> forall f, parse_str m f (pre ++ s) = None.
Proof.
  induction pre as [|c pre IH]; intros s Hp Hs f; [apply Hs|].
  cbn [forallb] in Hp. apply andb_true_iff in Hp. destruct Hp as [Hc Hp].
  destruct f as [|f]; [reflexivity|]. cbn [app parse_str]. unfold plain in Hc.
  destruct (N.eqb_spec c 34); [lia|]. destruct (N.eqb_spec c 92); [lia|].
  destruct (N.ltb_spec c 32); [lia|]. destruct (N.ltb_spec c 128); [|lia].
  rewrite (IH s Hp Hs f). reflexivity.
Qed.

Lemma doc_string_none : forall m body, (forall f, parse_str m f body = None) ->
  json_parse_gen m (34 :: body) = None.
Proof. intros m body H. unfold json_parse_gen. rewrite parse_value_str, H. reflexivity. Qed.

(* the bad continuations of a string body *)
Inductive bad_string_tail (m : mode) : bytes -> Prop :=
| BT_end : bad_string_tail m []                                         (* unterminated *)
| BT_control : forall c rest, c < 32 -> bad_string_tail m (c :: rest)   (* bare control character *)
| BT_lone_backslash : bad_string_tail m [92]
| BT_escape : forall e rest, e <> 117 -> simple_escape e = None ->
    bad_string_tail m (92 :: e :: rest)                                  (* \a \v \x \U \( \' \0 ... *)
| BT_hex : forall rest, hex4 rest = None -> bad_string_tail m (92 :: 117 :: rest)
| BT_utf8 : forall c rest, 128 <= c -> utf8_decode (c :: rest) = None ->
    bad_string_tail m (c :: rest).                                       (* not UTF-8 *)

Lemma bad_tail_none : forall m s, bad_string_tail m s -> forall f, parse_str m f s = None.
Proof.
  intros m s H [|f]; [reflexivity|]. destruct H; cbn [parse_str]; try reflexivity.
  - destruct (N.eqb_spec c 34); [lia|]. destruct (N.eqb_spec c 92); [lia|].
    destruct (N.ltb_spec c 32); [reflexivity|lia].
  - change (92 =? 34) with false. change (92 =? 92) with true. cbv iota.
    destruct (N.eqb_spec e 117); [contradiction|]. rewrite H0. reflexivity.
  - change (92 =? 34) with false. change (92 =? 92) with true. change (117 =? 117) with true. cbv iota.
    rewrite H. reflexivity.
  - destruct (N.eqb_spec c 34); [lia|]. destruct (N.eqb_spec c 92); [lia|].
    destruct (N.ltb_spec c 32); [lia|]. destruct (N.ltb_spec c 128); [lia|]. rewrite H0. reflexivity.
Qed.

Definition ok_for (m : mode) (v : jvalue) : Prop :=
  wf_value v = true /\ (rej_bom m = true -> bom_free v = true).

Lemma ok_for_printable : forall m v, ok_for m v -> printable m v.
Proof. intros m v H. exact H. Qed.

Lemma elems_trailing_comma : forall m l v f tail, Forall (ok_for m) (v :: l) ->
  (jfuel (JArr (v :: l)) < f)%nat ->
  parse_elems m f (json_print v ++ print_rest l ++ 44 :: 93 :: tail) = None.
Proof.
  intros m l. induction l as [|w l IH]; intros v f tail HF Hf;
    inversion HF as [|? ? Hv HF']; subst; cbn [jfuel fold_right] in Hf;
    destruct f as [|f]; try lia; cbn [parse_elems].
  - rewrite parse_value_print; [|apply ok_for_printable, Hv|lia|reflexivity].
    cbn [print_rest flat_map app]. rewrite skip_ws_head by reflexivity. cbv iota.
    destruct f as [|f]; [lia|]. cbn [parse_elems].
    rewrite parse_value_bad_start by reflexivity. reflexivity.
  - rewrite print_rest_cons, parse_value_print; [|apply ok_for_printable, Hv|lia|reflexivity].
    rewrite skip_ws_head by reflexivity. cbv iota.
    rewrite IH; [reflexivity|assumption|cbn [jfuel fold_right]; lia].
Qed.
