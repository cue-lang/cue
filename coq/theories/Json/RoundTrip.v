(* C10 - json_parse (json_print v) = Some v for every well-formed value, by induction
   on the fuel with explicit fuel sufficiency; and every value a reader returns is
   well-formed. *)
From Verif Require Import Json.Model Json.Utf8Proofs Json.StringProofs Json.NumProofs.
From Coq Require Import Lia ZifyN ZifyNat ZifyBool.

Section JInd.
  Variable P : jvalue -> Prop.
  Hypothesis Hnull : P JNull.
  Hypothesis Hbool : forall b, P (JBool b).
  Hypothesis Hnum : forall n, P (JNum n).
  Hypothesis Hstr : forall s, P (JStr s).
  Hypothesis Harr : forall l, Forall P l -> P (JArr l).
  Hypothesis Hobj : forall l, Forall (fun kv => P (snd kv)) l -> P (JObj l).
  Fixpoint jvalue_nested_ind (v : jvalue) : P v :=
    match v with
    | JNull => Hnull
    | JBool b => Hbool b
    | JNum n => Hnum n
    | JStr s => Hstr s
    | JArr l => Harr l ((fix go (l : list jvalue) : Forall P l :=
                           match l with
                           | [] => Forall_nil _
                           | x :: r => Forall_cons _ (jvalue_nested_ind x) (go r)
                           end) l)
    | JObj l => Hobj l ((fix go (l : list (list N * jvalue)) : Forall (fun kv => P (snd kv)) l :=
                           match l with
                           | [] => Forall_nil _
                           | x :: r => Forall_cons _ (jvalue_nested_ind (snd x)) (go r)
                           end) l)
    end.
End JInd.

Definition print_rest (l : list jvalue) : bytes := flat_map (fun w => 44 :: json_print w) l.

Fixpoint print_mrest (l : list (list N * jvalue)) : bytes :=
  match l with
  | [] => []
  | (k, w) :: l' => 44 :: json_escape k ++ 58 :: json_print w ++ print_mrest l'
  end.

Lemma print_arr_cons : forall v0 l0,
  json_print (JArr (v0 :: l0)) = 91 :: json_print v0 ++ print_rest l0 ++ [93].
Proof.
  intros v0 l0. cbn [json_print]. f_equal. rewrite <- app_assoc. reflexivity.
Qed.

Lemma print_obj_cons : forall k0 v0 l0,
  json_print (JObj ((k0, v0) :: l0)) =
  123 :: json_escape k0 ++ 58 :: json_print v0 ++ print_mrest l0 ++ [125].
Proof.
  intros k0 v0 l0. change (json_print (JObj ((k0, v0) :: l0)))
    with (123 :: (json_escape k0 ++ 58 :: json_print v0 ++ print_mrest l0) ++ [125]).
  rewrite <- app_assoc, <- app_comm_cons, <- app_assoc. reflexivity.
Qed.

Lemma print_rest_cons : forall w l t,
  print_rest (w :: l) ++ t = 44 :: json_print w ++ print_rest l ++ t.
Proof. intros w l t. unfold print_rest. cbn [flat_map app]. rewrite <- app_assoc. reflexivity. Qed.

Lemma print_mrest_cons : forall k w l t,
  print_mrest ((k, w) :: l) ++ t = 44 :: json_escape k ++ 58 :: json_print w ++ print_mrest l ++ t.
Proof.
  intros k w l t. cbn [print_mrest]. rewrite <- app_comm_cons, <- app_assoc, <- app_comm_cons, <- app_assoc.
  reflexivity.
Qed.

Fixpoint jfuel (v : jvalue) : nat :=
  match v with
  | JArr l => S (fold_right (fun w acc => S (jfuel w + acc)) 0%nat l)
  | JObj l => S (fold_right (fun kv acc => S (jfuel (snd kv) + acc)) 0%nat l)
  | _ => 1%nat
  end.

(* values without U+FEFF in any string or key: needed in Cue mode only *)
Fixpoint bom_free (v : jvalue) : bool :=
  match v with
  | JStr s => negb (existsb (N.eqb 0xFEFF) s)
  | JArr l => forallb bom_free l
  | JObj l => forallb (fun kv => negb (existsb (N.eqb 0xFEFF) (fst kv)) && bom_free (snd kv)) l
  | _ => true
  end.

Lemma existsb_eqb_In : forall c s, negb (existsb (N.eqb c) s) = true -> ~ In c s.
Proof.
  intros c s H Hin. apply negb_true_iff in H.
  assert (existsb (N.eqb c) s = true); [|congruence].
  apply existsb_exists. exists c. split; [assumption|apply N.eqb_refl].
Qed.

(* the values whose printing the reader in mode m reads back *)
Definition printable (m : mode) (v : jvalue) : Prop :=
  wf_value v = true /\ (rej_bom m = true -> bom_free v = true).

Definition printable_key (m : mode) (k : list N) : Prop :=
  forallb is_scalar k = true /\ (rej_bom m = true -> ~ In 0xFEFF k).

Lemma printable_arr : forall m v l, printable m (JArr (v :: l)) ->
  printable m v /\ printable m (JArr l).
Proof.
  intros m v l [Hw Hb]. cbn [wf_value bom_free forallb] in Hw, Hb. apply andb_prop in Hw.
  split; (split; [apply Hw|intro H; apply (andb_prop _ _ (Hb H))]).
Qed.

Lemma printable_obj : forall m k v l, printable m (JObj ((k, v) :: l)) ->
  printable_key m k /\ printable m v /\ printable m (JObj l).
Proof.
  intros m k v l [Hw Hb]. cbn [wf_value bom_free forallb fst snd] in Hw, Hb.
  apply andb_prop in Hw. destruct Hw as [Hw Hwl]. apply andb_prop in Hw.
  assert (Hb' : rej_bom m = true -> (~ In 0xFEFF k /\ bom_free v = true) /\
    forallb (fun kv => negb (existsb (N.eqb 0xFEFF) (fst kv)) && bom_free (snd kv)) l = true).
  { intro H. destruct (andb_prop _ _ (Hb H)) as [Hkv Hl]. apply andb_prop in Hkv.
    split; [split; [apply existsb_eqb_In|]; apply Hkv|exact Hl]. }
  repeat split; try apply Hw; try assumption; intro H; apply (Hb' H).
Qed.

Lemma skip_ws_head : forall c t, is_ws c = false -> skip_ws (c :: t) = c :: t.
Proof. intros c t H. cbn [skip_ws]. rewrite H. reflexivity. Qed.

Lemma print_head : forall v, wf_value v = true ->
  exists c t, json_print v = c :: t /\ is_ws c = false /\ c <> 93.
Proof.
  intros v H.
  destruct v as [| [|] | n | s | l | l];
    try (eexists; eexists; split; [reflexivity|split; [reflexivity|discriminate]]).
  destruct (print_num_head n H) as (c & t & E & Hc).
  exists c, t. split; [exact E|]. unfold is_ws, is_digit in *. lia.
Qed.

Lemma parse_value_num : forall m f c r, (c =? 45) || is_digit c = true ->
  parse_value m (S f) (c :: r) =
  match parse_number (c :: r) with Some (n, t) => Some (JNum n, t) | None => None end.
Proof.
  intros m f c r H. cbn [parse_value].
  rewrite skip_ws_head by (unfold is_ws, is_digit in *; lia).
  destruct (N.eqb_spec c 123); [subst; discriminate|]. destruct (N.eqb_spec c 91); [subst; discriminate|].
  destruct (N.eqb_spec c 34); [subst; discriminate|]. destruct (N.eqb_spec c 116); [subst; discriminate|].
  destruct (N.eqb_spec c 102); [subst; discriminate|]. destruct (N.eqb_spec c 110); [subst; discriminate|].
  rewrite H. reflexivity.
Qed.

Lemma parse_value_str : forall m f body,
  parse_value m (S f) (34 :: body) =
  match parse_str m (length body) body with Some (v, t) => Some (JStr v, t) | None => None end.
Proof. reflexivity. Qed.

Lemma parse_value_arr : forall m f v rest, wf_value v = true ->
  parse_value m (S f) (91 :: json_print v ++ rest) =
  match parse_elems m f (json_print v ++ rest) with Some (l, t) => Some (JArr l, t) | None => None end.
Proof.
  intros m f v rest H. destruct (print_head v H) as (c & t & -> & Hws & Hc).
  cbn [app parse_value]. rewrite !skip_ws_head by (assumption || reflexivity).
  destruct (N.eqb_spec c 93); [contradiction|reflexivity].
Qed.

Lemma parse_value_obj : forall m f k rest,
  parse_value m (S f) (123 :: json_escape k ++ rest) =
  match parse_members m f (json_escape k ++ rest) with Some (l, t) => Some (JObj l, t) | None => None end.
Proof. reflexivity. Qed.

(* what follows a printed value inside a printed document *)
Definition follow_ok (s : bytes) : bool := num_follow_ok s.

Lemma follow_93 : forall t, follow_ok (93 :: t) = true. Proof. reflexivity. Qed.
Lemma follow_125 : forall t, follow_ok (125 :: t) = true. Proof. reflexivity. Qed.

Lemma print_rest_follow : forall l tail, follow_ok (print_rest l ++ 93 :: tail) = true.
Proof. intros [|w l] tail; reflexivity. Qed.
Lemma print_mrest_follow : forall l tail, follow_ok (print_mrest l ++ 125 :: tail) = true.
Proof. intros [|[k w] l] tail; reflexivity. Qed.

(* By induction on the fuel, for the three readers at once: a printed value, the
   elements of a printed array after the bracket, the members of a printed object. *)
Lemma round_trip_fuel : forall m fuel,
  (forall v tail, printable m v -> (jfuel v <= fuel)%nat -> follow_ok tail = true ->
     parse_value m fuel (json_print v ++ tail) = Some (v, tail)) /\
  (forall v l tail, printable m (JArr (v :: l)) -> (jfuel (JArr (v :: l)) <= S fuel)%nat ->
     parse_elems m fuel (json_print v ++ print_rest l ++ 93 :: tail) = Some (v :: l, tail)) /\
  (forall k v l tail, printable m (JObj ((k, v) :: l)) -> (jfuel (JObj ((k, v) :: l)) <= S fuel)%nat ->
     parse_members m fuel (json_escape k ++ 58 :: json_print v ++ print_mrest l ++ 125 :: tail) =
     Some ((k, v) :: l, tail)).
Proof.
  intros m fuel. induction fuel as [|f (IHv & IHe & IHm)].
  { repeat split; intros; exfalso; [destruct v| |]; cbn in *; lia. }
  split; [|split].
  - intros v tail Hp Hf Ht. destruct v as [|b|n|s|[|v0 l0]|[|[k0 v0] l0]].
    + reflexivity.
    + destruct b; reflexivity.
    + destruct Hp as [Hw _]. cbn [wf_value] in Hw. cbn [json_print].
      destruct (print_num_head n Hw) as (c & t & E & Hc).
      pose proof (parse_number_print n tail Hw Ht) as Hn. rewrite E in Hn |- *.
      cbn [app] in Hn |- *. rewrite parse_value_num, Hn by assumption. reflexivity.
    + destruct Hp as [Hw Hb]. cbn [wf_value bom_free] in Hw, Hb. cbn [json_print].
      destruct (json_escape_parse m s tail Hw) as (body & -> & Hl & Hs).
      { intro H. apply existsb_eqb_In, Hb, H. }
      rewrite parse_value_str, (Hs _ Hl). reflexivity.
    + reflexivity.
    + rewrite print_arr_cons. cbn [app]. rewrite <- !app_assoc.
      rewrite parse_value_arr by apply (printable_arr _ _ _ Hp).
      cbn [app]. rewrite IHe by assumption. reflexivity.
    + reflexivity.
    + rewrite print_obj_cons. cbn [app]. rewrite <- !app_assoc. cbn [app].
      rewrite <- !app_assoc. rewrite parse_value_obj. cbn [app].
      rewrite IHm by assumption. reflexivity.
  - intros v l tail Hp Hf. destruct (printable_arr _ _ _ Hp) as [Hv Hl].
    cbn [jfuel fold_right] in Hf. cbn [parse_elems].
    rewrite IHv; [|assumption|lia|apply print_rest_follow].
    destruct l as [|w l]; [reflexivity|].
    rewrite print_rest_cons, skip_ws_head by reflexivity. cbv iota.
    rewrite (IHe w l tail Hl) by (cbn [jfuel fold_right] in *; lia). reflexivity.
  - intros k v l tail Hp Hf. destruct (printable_obj _ _ _ _ Hp) as (Hk & Hv & Hl).
    cbn [jfuel fold_right snd] in Hf. cbn [parse_members].
    destruct Hk as [Hks Hkb].
    destruct (json_escape_parse m k (58 :: json_print v ++ print_mrest l ++ 125 :: tail) Hks Hkb)
      as (body & -> & Hlen & Hs).
    rewrite skip_ws_head by reflexivity. cbv iota. rewrite (Hs _ Hlen).
    rewrite skip_ws_head by reflexivity. cbv iota.
    rewrite IHv; [|assumption|lia|apply print_mrest_follow].
    destruct l as [|[k' w] l]; [reflexivity|].
    rewrite print_mrest_cons, skip_ws_head by reflexivity. cbv iota.
    rewrite (IHm k' w l tail Hl) by (cbn [jfuel fold_right snd] in *; lia). reflexivity.
Qed.

Lemma parse_value_print : forall m v fuel tail, printable m v ->
  (jfuel v <= fuel)%nat -> follow_ok tail = true ->
  parse_value m fuel (json_print v ++ tail) = Some (v, tail).
Proof. intros m v fuel tail. apply round_trip_fuel. Qed.

Lemma strip_prefix_app : forall p t, strip_prefix p (p ++ t) = Some t.
Proof.
  induction p as [|a p IH]; intro t; [reflexivity|]. cbn [app strip_prefix].
  rewrite N.eqb_refl. apply IH.
Qed.

Lemma json_escape_length : forall s, (2 <= length (json_escape s))%nat.
Proof.
  intro s. unfold json_escape, go_json_string. cbn [length]. rewrite app_length. cbn [length]. lia.
Qed.

Lemma jfuel_le_length : forall v, wf_value v = true -> (jfuel v <= length (json_print v))%nat.
Proof.
  apply (jvalue_nested_ind (fun v => wf_value v = true -> (jfuel v <= length (json_print v))%nat)).
  - intros _. cbn. lia.
  - intros [|] _; cbn; lia.
  - intros n H. apply print_num_length, H.
  - intros s _. pose proof (json_escape_length s). cbn [jfuel json_print]. lia.
  - intros l HF Hw. cbn [wf_value] in Hw.
    assert (H : (fold_right (fun w acc => S (jfuel w + acc)) 0 l <= length (print_rest l))%nat).
    { induction HF as [|v l Hv _ IH]; [cbn; lia|]. cbn [forallb] in Hw. apply andb_prop in Hw.
      unfold print_rest. cbn [fold_right flat_map length]. rewrite app_length. cbn [length]. fold (print_rest l).
      specialize (Hv (proj1 Hw)). specialize (IH (proj2 Hw)). lia. }
    destruct l as [|v l]; [cbn; lia|]. rewrite print_arr_cons.
    unfold print_rest in H. cbn [jfuel flat_map length] in H |- *. fold (print_rest l) in H.
    rewrite !app_length in *. cbn [length] in *. lia.
  - intros l HF Hw. cbn [wf_value] in Hw.
    assert (H : (fold_right (fun kv acc => S (jfuel (snd kv) + acc)) 0 l <= length (print_mrest l))%nat).
    { induction HF as [|[k v] l Hv _ IH]; [cbn; lia|].
      cbn [forallb fst snd] in Hw, Hv. apply andb_prop in Hw.
      cbn [fold_right print_mrest length snd]. rewrite app_length. cbn [length]. rewrite app_length.
      specialize (Hv (proj2 (andb_prop _ _ (proj1 Hw)))). specialize (IH (proj2 Hw)). lia. }
    destruct l as [|[k v] l]; [cbn; lia|]. rewrite print_obj_cons.
    cbn [jfuel print_mrest length] in H |- *. rewrite !app_length in *. cbn [length] in *.
    rewrite !app_length in *. cbn [length]. lia.
Qed.

Theorem json_parse_print_gen : forall m v, printable m v -> json_parse_gen m (json_print v) = Some v.
Proof.
  intros m v Hp. unfold json_parse_gen.
  pose proof (jfuel_le_length v (proj1 Hp)) as Hl.
  rewrite <- (app_nil_r (json_print v)) at 2.
  rewrite parse_value_print; [reflexivity|assumption|lia|reflexivity].
Qed.

Theorem json_parse_print : forall v, wf_value v = true -> json_parse (json_print v) = Some v.
Proof. intros v H. apply json_parse_print_gen. split; [assumption|discriminate]. Qed.

(* along the three readers: each accepted branch is an induction hypothesis at smaller fuel,
   strings and numbers are well-formed by parse_str_scalar and parse_number_wf *)
Lemma parse_wf_all : forall m f,
  (forall s v t, parse_value m f s = Some (v, t) -> wf_value v = true) /\
  (forall s l t, parse_elems m f s = Some (l, t) -> forallb wf_value l = true) /\
  (forall s l t, parse_members m f s = Some (l, t) ->
     forallb (fun kv => forallb is_scalar (fst kv) && wf_value (snd kv)) l = true).
Proof.
  intros m. induction f as [|f (IHv & IHe & IHm)]; [repeat split; intros; discriminate|].
  repeat split.
  - intros s v t H. cbn [parse_value] in H. destruct (skip_ws s) as [|c r]; [discriminate|].
    destruct (c =? 123).
    { destruct (skip_ws r) as [|c' r']; [discriminate|]. destruct (c' =? 125); [inversion H; reflexivity|].
      destruct (parse_members m f (c' :: r')) as [[l u]|] eqn:E; [|discriminate].
      inversion H; subst. cbn [wf_value]. eapply IHm; eassumption. }
    destruct (c =? 91).
    { destruct (skip_ws r) as [|c' r']; [discriminate|]. destruct (c' =? 93); [inversion H; reflexivity|].
      destruct (parse_elems m f (c' :: r')) as [[l u]|] eqn:E; [|discriminate].
      inversion H; subst. cbn [wf_value]. eapply IHe; eassumption. }
    destruct (c =? 34).
    { destruct (parse_str m (length r) r) as [[x u]|] eqn:E; [|discriminate].
      inversion H; subst. cbn [wf_value]. eapply parse_str_scalar; eassumption. }
    destruct (c =? 116).
    { destruct (strip_prefix [114; 117; 101] r); [inversion H; reflexivity|discriminate]. }
    destruct (c =? 102).
    { destruct (strip_prefix [97; 108; 115; 101] r); [inversion H; reflexivity|discriminate]. }
    destruct (c =? 110).
    { destruct (strip_prefix [117; 108; 108] r); [inversion H; reflexivity|discriminate]. }
    destruct ((c =? 45) || is_digit c); [|discriminate].
    destruct (parse_number (c :: r)) as [[n u]|] eqn:E; [|discriminate].
    inversion H; subst. cbn [wf_value]. eapply parse_number_wf; eassumption.
  - intros s l t H. cbn [parse_elems] in H.
    destruct (parse_value m f s) as [[v u]|] eqn:E; [|discriminate].
    destruct (skip_ws u) as [|c r]; [discriminate|].
    destruct (c =? 44).
    + destruct (parse_elems m f r) as [[l' t']|] eqn:E2; [|discriminate]. inversion H; subst.
      cbn [forallb]. rewrite (IHv _ _ _ E), (IHe _ _ _ E2). reflexivity.
    + destruct (c =? 93); [|discriminate]. inversion H; subst. cbn [forallb]. rewrite (IHv _ _ _ E). reflexivity.
  - intros s l t H. cbn [parse_members] in H. destruct (skip_ws s) as [|c r]; [discriminate|].
    destruct (c =? 34); [|discriminate].
    destruct (parse_str m (length r) r) as [[k u]|] eqn:Ek; [|discriminate].
    destruct (skip_ws u) as [|c2 r2]; [discriminate|]. destruct (c2 =? 58); [|discriminate].
    destruct (parse_value m f r2) as [[v t2]|] eqn:E; [|discriminate].
    destruct (skip_ws t2) as [|c3 r3]; [discriminate|].
    destruct (c3 =? 44).
    + destruct (parse_members m f r3) as [[l' t']|] eqn:E3; [|discriminate]. inversion H; subst.
      cbn [forallb fst snd]. rewrite (parse_str_scalar _ _ _ _ _ Ek), (IHv _ _ _ E), (IHm _ _ _ E3). reflexivity.
    + destruct (c3 =? 125); [|discriminate]. inversion H; subst.
      cbn [forallb fst snd]. rewrite (parse_str_scalar _ _ _ _ _ Ek), (IHv _ _ _ E). reflexivity.
Qed.

Theorem parse_wf : forall m s v, json_parse_gen m s = Some v -> wf_value v = true.
Proof.
  intros m s v H. unfold json_parse_gen in H.
  destruct (parse_value m (S (length s)) s) as [[v' t]|] eqn:E; [|discriminate].
  destruct (skip_ws t); [|discriminate]. inversion H; subst.
  destruct (parse_wf_all m (S (length s))) as (Hv & _ & _). eapply Hv; eassumption.
Qed.
