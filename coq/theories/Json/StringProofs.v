(* C10 - the string layer: Go's escaper followed by the JSON string reader is
   the identity on every sequence of Unicode scalar values; and what one iteration of
   the reader can have consumed (parse_str_step_inv), from which the shape of an
   accepted text and the scalarity of its value follow. *)
From Verif Require Import Json.Model Json.Utf8Proofs.
From Coq Require Import Lia ZifyN ZifyNat ZifyBool.
(* hex4_00 reasons about c / 16 and c mod 16 *)
Ltac Zify.zify_post_hook ::= Z.div_mod_to_equations.

(* the escaper seen at code point level *)
Definition esc_cp (c : N) : bytes :=
  if c <? 128 then esc_byte c
  else if (c =? 0x2028) || (c =? 0x2029) then [92; 117; 50; 48; 50; hexdig (c mod 16)]
  else utf8_encode c.

Lemma hexval_hexdig : forall n, n < 16 -> hexval (hexdig n) = Some n.
Proof.
  intros n H. unfold hexval, hexdig. destruct (N.ltb_spec n 10).
  - replace ((48 <=? 48 + n) && (48 + n <=? 57)) with true by lia. f_equal. lia.
  - replace ((48 <=? 87 + n) && (87 + n <=? 57)) with false by lia.
    replace ((97 <=? 87 + n) && (87 + n <=? 102)) with true by lia. f_equal. lia.
Qed.

Lemma hex4_00 : forall c r, c < 256 ->
  hex4 (48 :: 48 :: hexdig (c / 16) :: hexdig (c mod 16) :: r) = Some (c, r).
Proof.
  intros c r H. unfold hex4.
  rewrite !hexval_hexdig by lia. cbn. f_equal. f_equal. lia.
Qed.

Lemma hex4_202 : forall c r, c = 0x2028 \/ c = 0x2029 ->
  hex4 (50 :: 48 :: 50 :: hexdig (c mod 16) :: r) = Some (c, r).
Proof. intros c r [H|H]; subst; reflexivity. Qed.

(* the \u branch of the reader *)
Lemma parse_str_u : forall m f r,
  parse_str m (S f) (92 :: 117 :: r) =
  match hex4 r with
  | None => None
  | Some (u, r2) =>
    if is_high u then
      match low_escape r2 with
      | Some (l, r3) => scons (combine_surr u l) (parse_str m f r3)
      | None => if rej_lone m then None else scons 0xFFFD (parse_str m f r2)
      end
    else if is_low u then
      if rej_lone m then None else scons 0xFFFD (parse_str m f r2)
    else scons u (parse_str m f r2)
  end.
Proof. reflexivity. Qed.

Lemma go_escape_step_ascii : forall f c r, c < 128 ->
  go_escape (S f) (c :: r) = esc_byte c ++ go_escape f r.
Proof. intros f c r H. cbn [go_escape]. destruct (N.ltb_spec c 128); [reflexivity|lia]. Qed.

Lemma go_escape_encode_all : forall cs, forallb is_scalar cs = true ->
  forall fuel, (length (utf8_encode_all cs) <= fuel)%nat ->
  go_escape fuel (utf8_encode_all cs) = flat_map esc_cp cs.
Proof.
  induction cs as [|c cs IH]; intros Hs fuel Hf.
  - destruct fuel; reflexivity.
  - cbn [forallb] in Hs. apply andb_true_iff in Hs. destruct Hs as [Hc Hs].
    unfold utf8_encode_all in *. cbn [flat_map] in *. rewrite app_length in Hf.
    pose proof (encode_length c) as Hl.
    destruct fuel as [|f]; [lia|].
    unfold esc_cp at 1.
    destruct (N.ltb_spec c 128) as [Hlt|Hge].
    + rewrite encode_ascii by assumption. cbn [app].
      rewrite go_escape_step_ascii by assumption.
      rewrite encode_ascii in Hf by assumption. cbn [length] in Hf.
      rewrite IH by (assumption || lia). reflexivity.
    + destruct (encode_high c Hge) as (b & t & Eb & Hb1 & Hb2).
      assert (Hdec := decode_encode c (flat_map utf8_encode cs) Hc).
      rewrite Eb in Hdec |- *. cbn [app] in Hdec |- *.
      cbn [go_escape]. destruct (N.ltb_spec b 128); [lia|].
      rewrite Hdec. rewrite Eb in Hf. cbn [length] in Hf.
      rewrite IH by (assumption || lia).
      destruct ((c =? 0x2028) || (c =? 0x2029)); [reflexivity|].
      rewrite Eb. reflexivity.
Qed.

Lemma scalar_not_surr : forall c, is_scalar c = true -> is_high c = false /\ is_low c = false.
Proof. intros c H. apply is_scalar_spec in H. unfold is_high, is_low. lia. Qed.

Lemma scons_inv : forall c o v t, scons c o = Some (v, t) ->
  exists v', v = c :: v' /\ o = Some (v', t).
Proof.
  intros c [[l t']|] v t H; cbn in H; [|discriminate].
  inversion H; subst. eexists; split; reflexivity.
Qed.

Lemma low_escape_inv : forall s l r3, low_escape s = Some (l, r3) ->
  exists r, s = 92 :: 117 :: r /\ hex4 r = Some (l, r3) /\ is_low l = true.
Proof.
  intros [|c1 [|c2 r]] l r3 H; cbn [low_escape] in H; try discriminate.
  destruct (N.eqb_spec c1 92); cbn [andb] in H; [|discriminate].
  destruct (N.eqb_spec c2 117); [|discriminate]. subst.
  destruct (hex4 r) as [[l' r']|] eqn:E; [|discriminate].
  destruct (is_low l') eqn:El; [|discriminate]. inversion H; subst.
  exists r. auto.
Qed.

Definition no_nl (s : bytes) : Prop := ~ In 10 s.

Lemma hexval_inv : forall a x, hexval a = Some x -> a <> 10 /\ x < 16.
Proof.
  intros a x H. split; [intros ->; discriminate|]. unfold hexval in H.
  destruct ((48 <=? a) && (a <=? 57)) eqn:E1; [inversion H; lia|].
  destruct ((97 <=? a) && (a <=? 102)) eqn:E2; [inversion H; lia|].
  destruct ((65 <=? a) && (a <=? 70)) eqn:E3; [inversion H; lia|discriminate].
Qed.

Lemma hex4_inv : forall s u r, hex4 s = Some (u, r) ->
  exists a b c d, s = a :: b :: c :: d :: r /\ no_nl [a; b; c; d] /\ u < 65536.
Proof.
  intros [|a [|b [|c [|d r']]]] u r H; cbn [hex4] in H; try discriminate.
  destruct (hexval a) eqn:Ea; [|discriminate]. destruct (hexval b) eqn:Eb; [|discriminate].
  destruct (hexval c) eqn:Ec; [|discriminate]. destruct (hexval d) eqn:Ed; [|discriminate].
  inversion H; subst. exists a, b, c, d.
  destruct (hexval_inv _ _ Ea), (hexval_inv _ _ Eb), (hexval_inv _ _ Ec), (hexval_inv _ _ Ed).
  split; [reflexivity|]. split; [|lia]. intros [Hi|[Hi|[Hi|[Hi|[]]]]]; congruence.
Qed.

Lemma simple_escape_inv : forall e x, simple_escape e = Some x -> e <> 10 /\ x < 128.
Proof.
  intros e x H. split; [intros ->; discriminate|]. unfold simple_escape in H.
  repeat match type of H with
  | (if ?a then _ else _) = _ => destruct a; [inversion H; reflexivity|]
  end. discriminate.
Qed.

(* what one iteration consumes and reads: a piece pre without a raw newline that is an
   escape sequence or the UTF-8 form of a printable character, and a scalar value x *)
Definition step_piece (pre : bytes) (x : N) : Prop :=
  no_nl pre /\ is_scalar x = true /\
  ((exists p, pre = 92 :: p) \/ (pre = utf8_encode x /\ 32 <= x /\ x <> 34 /\ x <> 92)).

(* one iteration of the reader on an accepted text: the closing quote, or such a piece *)
Lemma parse_str_step_inv : forall m f s v t, parse_str m (S f) s = Some (v, t) ->
  (s = 34 :: t /\ v = []) \/
  (exists pre r' x v', s = pre ++ r' /\ v = x :: v' /\ parse_str m f r' = Some (v', t) /\
     step_piece pre x).
Proof.
  intros m f s v t H. cbn [parse_str] in H. destruct s as [|c r]; [discriminate|].
  destruct (N.eqb_spec c 34) as [->|N34]; [left; inversion H; subst; auto|]. right.
  destruct (N.eqb_spec c 92) as [->|N92].
  { destruct r as [|e r1]; [discriminate|].
    destruct (N.eqb_spec e 117) as [->|N117].
    - destruct (hex4 r1) as [[u r2]|] eqn:Eh; [|discriminate].
      destruct (hex4_inv _ _ _ Eh) as (a & b & c & d & -> & Hnl & Hu).
      (* a single \u escape that yields x *)
      assert (Hone : forall x, is_scalar x = true -> scons x (parse_str m f r2) = Some (v, t) ->
        exists pre r' x v', 92 :: 117 :: a :: b :: c :: d :: r2 = pre ++ r' /\ v = x :: v' /\
          parse_str m f r' = Some (v', t) /\ step_piece pre x).
      { intros x Hx Hs. apply scons_inv in Hs. destruct Hs as (v' & -> & Hp).
        exists [92; 117; a; b; c; d], r2, x, v'. repeat split; try assumption; [|left; eauto].
        intros [Hi|[Hi|Hi]]; try discriminate. apply Hnl, Hi. }
      destruct (is_high u) eqn:Ehi.
      + destruct (low_escape r2) as [[l r3]|] eqn:El;
          [|destruct (rej_lone m); [discriminate|apply (Hone 65533 eq_refl H)]].
        apply scons_inv in H. destruct H as (v' & -> & H).
        apply low_escape_inv in El. destruct El as (r' & -> & Eh2 & Elo).
        destruct (hex4_inv _ _ _ Eh2) as (a2 & b2 & c2 & d2 & -> & Hnl2 & Hl).
        exists [92; 117; a; b; c; d; 92; 117; a2; b2; c2; d2], r3, (combine_surr u l), v'.
        repeat split; try assumption; [| |left; eauto].
        * intros Hi. cbn [In] in Hi.
          destruct Hi as [Hi|[Hi|[Hi|[Hi|[Hi|[Hi|[Hi|[Hi|Hi]]]]]]]]; try discriminate;
            try (apply Hnl; cbn [In]; tauto); apply Hnl2; exact Hi.
        * unfold is_scalar, is_surrogate, combine_surr, is_high, is_low in *. lia.
      + destruct (is_low u) eqn:Elo; [destruct (rej_lone m); [discriminate|apply (Hone 65533 eq_refl H)]|].
        apply (Hone u); [|exact H]. unfold is_scalar, is_surrogate, is_high, is_low in *. lia.
    - destruct (simple_escape e) as [x|] eqn:Es; [|discriminate].
      apply scons_inv in H. destruct H as (v' & -> & H).
      destruct (simple_escape_inv e x Es) as [Hnl Hx].
      exists [92; e], r1, x, v'. repeat split; try assumption; [| |left; eauto].
      + intros [Hi|[Hi|[]]]; [discriminate|]. apply Hnl. auto.
      + apply is_scalar_spec. lia. }
  destruct (N.ltb_spec c 32) as [L32|G32]; [discriminate|].
  destruct (N.ltb_spec c 128) as [L128|G128].
  { apply scons_inv in H. destruct H as (v' & -> & H).
    exists [c], r, c, v'. repeat split; try assumption; [intros [Hi|[]]; lia|apply is_scalar_spec; lia|].
    right. rewrite encode_ascii by assumption. auto. }
  destruct (utf8_decode (c :: r)) as [[cp r']|] eqn:Ed; [|discriminate].
  destruct (rej_bom m && (cp =? 65279)); [discriminate|].
  apply scons_inv in H. destruct H as (v' & -> & H).
  destruct (decode_inv _ _ _ Ed) as [Hsc Heq].
  pose proof (decode_high_first _ _ _ _ G128 Ed) as Hcp.
  exists (utf8_encode cp), r', cp, v'. repeat split; try assumption.
  - intro Hi. pose proof (encode_high_bytes cp Hcp) as Hall.
    rewrite Forall_forall in Hall. specialize (Hall _ Hi). lia.
  - right. repeat split; lia.
Qed.

Lemma parse_str_nil : forall m f, parse_str m f [] = None.
Proof. intros m [|f]; reflexivity. Qed.

Lemma parse_str_shape : forall m f s v, parse_str m f s = Some (v, []) ->
  (exists body, s = body ++ [34]) /\ no_nl s.
Proof.
  induction f as [|f IH]; intros s v H; [discriminate|].
  destruct (parse_str_step_inv _ _ _ _ _ H) as [[-> _]|(pre & r' & x & v' & -> & _ & Hp & Hnl & _)].
  - split; [exists []; reflexivity|]. intros [Hi|[]]. discriminate.
  - destruct (IH _ _ Hp) as [[body ->] Hnl']. split.
    + exists (pre ++ body). rewrite app_assoc. reflexivity.
    + intro Hi. apply in_app_or in Hi. destruct Hi; [apply Hnl|apply Hnl']; assumption.
Qed.

Lemma parse_str_scalar : forall m f s v t, parse_str m f s = Some (v, t) -> forallb is_scalar v = true.
Proof.
  induction f as [|f IH]; intros s v t H; [discriminate|].
  destruct (parse_str_step_inv _ _ _ _ _ H) as [[_ ->]|(pre & r' & x & v' & _ & -> & Hp & _ & Hx & _)];
    [reflexivity|].
  cbn [forallb]. rewrite Hx. exact (IH _ _ _ Hp).
Qed.

Lemma parse_str_raw_step : forall m f x r', is_scalar x = true -> 32 <= x -> x <> 34 -> x <> 92 ->
  (rej_bom m = true -> x <> 0xFEFF) ->
  parse_str m (S f) (utf8_encode x ++ r') = scons x (parse_str m f r').
Proof.
  intros m f x r' Hs H32 H34 H92 Hb.
  destruct (N.ltb_spec x 128) as [Lx|Gx].
  - rewrite encode_ascii by assumption. cbn [app parse_str].
    destruct (N.eqb_spec x 34); [contradiction|]. destruct (N.eqb_spec x 92); [contradiction|].
    destruct (N.ltb_spec x 32); [lia|]. destruct (N.ltb_spec x 128); [reflexivity|lia].
  - destruct (encode_high x Gx) as (b & t & Eb & Hb1 & Hb2).
    pose proof (decode_encode x r' Hs) as Hd. rewrite Eb in Hd |- *. cbn [app] in Hd |- *. cbn [parse_str].
    destruct (N.eqb_spec b 34); [lia|]. destruct (N.eqb_spec b 92); [lia|].
    destruct (N.ltb_spec b 32); [lia|]. destruct (N.ltb_spec b 128); [lia|]. rewrite Hd.
    destruct (rej_bom m) eqn:E; cbn [andb]; [|reflexivity].
    destruct (N.eqb_spec x 0xFEFF); [exfalso; apply Hb; auto|reflexivity].
Qed.

Lemma parse_str_step : forall m c f tail, is_scalar c = true ->
  (rej_bom m = true -> c <> 0xFEFF) ->
  parse_str m (S f) (esc_cp c ++ tail) = scons c (parse_str m f tail).
Proof.
  intros m c f tail Hs Hbom. unfold esc_cp.
  destruct (N.ltb_spec c 128) as [Hlt|Hge].
  - unfold esc_byte.
    destruct (N.eqb_spec c 34) as [->|N34]; [reflexivity|].
    destruct (N.eqb_spec c 92) as [->|N92]; [reflexivity|]. cbn [orb].
    destruct (N.eqb_spec c 8) as [->|N8]; [reflexivity|].
    destruct (N.eqb_spec c 12) as [->|N12]; [reflexivity|].
    destruct (N.eqb_spec c 10) as [->|N10]; [reflexivity|].
    destruct (N.eqb_spec c 13) as [->|N13]; [reflexivity|].
    destruct (N.eqb_spec c 9) as [->|N9]; [reflexivity|].
    destruct (N.ltb_spec c 32) as [L32|G32].
    + cbn [app]. rewrite parse_str_u, hex4_00 by lia.
      destruct (scalar_not_surr c Hs) as [-> ->]. reflexivity.
    + rewrite <- (encode_ascii c Hlt). apply parse_str_raw_step; assumption.
  - destruct ((c =? 0x2028) || (c =? 0x2029)) eqn:E.
    + cbn [app]. rewrite parse_str_u, hex4_202 by lia.
      destruct (scalar_not_surr c Hs) as [-> ->]. reflexivity.
    + apply parse_str_raw_step; (assumption || lia).
Qed.

Lemma parse_str_escaped : forall m cs, forallb is_scalar cs = true ->
  (rej_bom m = true -> ~ In 0xFEFF cs) ->
  forall fuel tail, (length cs < fuel)%nat ->
  parse_str m fuel (flat_map esc_cp cs ++ 34 :: tail) = Some (cs, tail).
Proof.
  induction cs as [|c cs IH]; intros Hs Hb fuel tail Hf.
  - destruct fuel; [cbn in Hf; lia|]. reflexivity.
  - cbn [forallb] in Hs. apply andb_true_iff in Hs. destruct Hs as [Hc Hs].
    destruct fuel as [|f]; [lia|]. cbn [flat_map]. rewrite <- app_assoc.
    rewrite parse_str_step; [|assumption|intros H E; apply (Hb H); left; auto].
    rewrite IH; [reflexivity|assumption| |cbn [length] in Hf; lia].
    intros H Hin. apply (Hb H). right. assumption.
Qed.

Lemma esc_cp_nonempty : forall c, (1 <= length (esc_cp c))%nat.
Proof.
  intro c. unfold esc_cp, esc_byte. pose proof (encode_length c).
  repeat match goal with |- context [if ?b then _ else _] => destruct b end; cbn [length]; lia.
Qed.

Lemma flat_map_esc_length : forall cs, (length cs <= length (flat_map esc_cp cs))%nat.
Proof.
  induction cs as [|c cs IH]; [cbn; lia|]. cbn [flat_map length]. rewrite app_length.
  pose proof (esc_cp_nonempty c). lia.
Qed.

Lemma json_escape_eq : forall cs, forallb is_scalar cs = true ->
  json_escape cs = 34 :: flat_map esc_cp cs ++ [34].
Proof.
  intros cs H. unfold json_escape, go_json_string.
  rewrite go_escape_encode_all by (assumption || lia). reflexivity.
Qed.

Lemma json_escape_parse : forall m cs tail, forallb is_scalar cs = true ->
  (rej_bom m = true -> ~ In 0xFEFF cs) ->
  exists body, json_escape cs ++ tail = 34 :: body /\ (length cs < length body)%nat /\
    forall fuel, (length cs < fuel)%nat -> parse_str m fuel body = Some (cs, tail).
Proof.
  intros m cs tail Hs Hb. rewrite json_escape_eq by assumption.
  exists (flat_map esc_cp cs ++ 34 :: tail). split; [cbn [app]; rewrite <- app_assoc; reflexivity|].
  split; [rewrite app_length; pose proof (flat_map_esc_length cs); cbn [length]; lia|].
  intros fuel Hf. apply parse_str_escaped; assumption.
Qed.

Lemma parse_str_json_escape : forall m cs tail fuel, forallb is_scalar cs = true ->
  (rej_bom m = true -> ~ In 0xFEFF cs) ->
  (length cs < fuel)%nat ->
  exists body, json_escape cs ++ tail = 34 :: body /\
               parse_str m fuel body = Some (cs, tail).
Proof.
  intros m cs tail fuel Hs Hb Hf. destruct (json_escape_parse m cs tail Hs Hb) as (body & E & _ & Hp).
  exists body. auto.
Qed.

Lemma unescape_escape : forall m cs, forallb is_scalar cs = true ->
  (rej_bom m = true -> ~ In 0xFEFF cs) -> json_unescape_gen m (json_escape cs) = Some cs.
Proof.
  intros m cs Hs Hb. destruct (json_escape_parse m cs [] Hs Hb) as (body & E & Hl & Hp).
  rewrite app_nil_r in E. unfold json_unescape_gen. rewrite E. change (34 =? 34) with true. cbv iota.
  rewrite Hp by assumption. reflexivity.
Qed.

Theorem escape_valid_and_inverse : forall cs, forallb is_scalar cs = true ->
  json_unescape (json_escape cs) = Some cs.
Proof. intros cs Hs. apply unescape_escape; [assumption|discriminate]. Qed.

Theorem escape_inverse_cue : forall cs, forallb is_scalar cs = true -> ~ In 0xFEFF cs ->
  json_unescape_gen Cue (json_escape cs) = Some cs.
Proof. intros cs Hs Hb. apply unescape_escape; auto. Qed.
