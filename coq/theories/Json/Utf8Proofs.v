(* C10 - facts about the UTF-8 codec of Json/Model.v, obtained from those of Utf8/Proofs.v:
   the two encoders are the same function, and the strict decoder is Go's decoder with
   (RuneError, 0) and (RuneError, 1) turned into [None].  Only [encode_high], which bounds the
   leading byte from above as well, is read off the encoder directly. *)
From Verif Require Import Json.Model.
From Verif Require Utf8.Model Utf8.Proofs.
From Coq Require Import Lia ZifyN ZifyNat ZifyBool.

Lemma is_scalar_spec : forall c,
  is_scalar c = true <-> (c <= 0x10FFFF /\ ~ (0xD800 <= c <= 0xDFFF)).
Proof. intro c. unfold is_scalar, is_surrogate. lia. Qed.

Lemma encode_agree : forall c, utf8_encode c = Utf8.Model.utf8_encode c.
Proof.
  intro c. unfold utf8_encode, Utf8.Model.utf8_encode.
  replace (c <=? 0x7F) with (c <? 0x80) by lia. replace (c <=? 0x7FF) with (c <? 0x800) by lia.
  replace (c <=? 0xFFFF) with (c <? 0x10000) by lia.
  replace (negb (is_scalar c)) with ((Utf8.Model.max_rune <? c) || ((0xD800 <=? c) && (c <=? 0xDFFF)));
    [reflexivity|].
  unfold is_scalar, is_surrogate, Utf8.Model.max_rune. lia.
Qed.

(* Go admits a second byte from a range that depends on the first; the strict decoder
   admits any continuation byte and then rejects overlong values, surrogates and values
   above U+10FFFF.  Under the first byte at hand the two tests are the same boolean. *)
Lemma decode_agree : forall s, utf8_decode s =
  let '(c, w) := Utf8.Model.utf8_decode s in
  if (w <=? 1)%nat && (c =? 0xFFFD) then None else Some (c, skipn w s).
Proof.
  intros [|b0 s]; [reflexivity|]. unfold utf8_decode, Utf8.Model.utf8_decode.
  destruct (N.ltb_spec b0 0x80).
  { cbn. Utf8.Proofs.if_lia. reflexivity. }
  destruct (N.ltb_spec b0 0xC2); [reflexivity|].
  destruct (N.ltb_spec 0xF4 b0); cbn [orb]; [repeat Utf8.Proofs.if_lia; reflexivity|].
  destruct (N.ltb_spec b0 0xE0).
  { destruct s as [|b1 s]; [reflexivity|]. change (Utf8.Model.is_cont b1) with (is_cont b1).
    destruct (is_cont b1); reflexivity. }
  destruct (N.ltb_spec b0 0xF0).
  { destruct s as [|b1 [|b2 s]]; try reflexivity. cbv zeta.
    set (c := (b0 - 224) * 4096 + (b1 - 128) * 64 + (b2 - 128)).
    match goal with |- context [if ?t then (c, 3%nat) else _] =>
      replace t with (is_cont b1 && is_cont b2 && negb ((c <? 0x800) || is_surrogate c)) end.
    2:{ unfold Utf8.Model.is_cont, Utf8.Model.in_range, is_cont, is_surrogate, c.
        destruct (N.eqb_spec b0 224), (N.eqb_spec b0 237); lia. }
    destruct (is_cont b1 && is_cont b2); [|reflexivity].
    destruct ((c <? 0x800) || is_surrogate c); reflexivity. }
  Utf8.Proofs.if_lia.
  destruct s as [|b1 [|b2 [|b3 s]]]; try reflexivity. cbv zeta.
  set (c := (b0 - 240) * 262144 + (b1 - 128) * 4096 + (b2 - 128) * 64 + (b3 - 128)).
  match goal with |- context [if ?t then (c, 4%nat) else _] =>
    replace t with (is_cont b1 && is_cont b2 && is_cont b3 && negb ((c <? 0x10000) || (0x10FFFF <? c))) end.
  2:{ unfold Utf8.Model.is_cont, Utf8.Model.in_range, is_cont, c.
      destruct (N.eqb_spec b0 240), (N.eqb_spec b0 244); lia. }
  destruct (is_cont b1 && is_cont b2 && is_cont b3); [|reflexivity].
  destruct ((c <? 0x10000) || (0x10FFFF <? c)); reflexivity.
Qed.

Lemma encode_ascii : forall c, c < 0x80 -> utf8_encode c = [c].
Proof. intros c H. rewrite encode_agree. apply Utf8.Proofs.encode_ascii, H. Qed.

Lemma encode_high_bytes : forall c, 0x80 <= c -> Forall (fun b => 0x80 <= b) (utf8_encode c).
Proof. intros c H. rewrite encode_agree. apply Utf8.Proofs.encode_high, H. Qed.

Lemma encode_nonempty : forall c, utf8_encode c <> [].
Proof. intro c. rewrite encode_agree. apply Utf8.Proofs.encode_nonempty. Qed.

Lemma encode_length : forall c, (1 <= length (utf8_encode c) <= 4)%nat.
Proof. intro c. rewrite encode_agree. apply Utf8.Proofs.encode_length_bounds. Qed.

Lemma encode_bytes : forall c, Forall (fun b => b < 256) (utf8_encode c).
Proof. intro c. rewrite encode_agree. apply Utf8.Proofs.encode_bytes. Qed.

(* decoding what AppendRune wrote for a scalar value gives that value, whatever follows *)
Lemma decode_encode : forall c r, is_scalar c = true ->
  utf8_decode (utf8_encode c ++ r) = Some (c, r).
Proof.
  intros c r H. apply is_scalar_spec in H.
  rewrite decode_agree, encode_agree, (Utf8.Proofs.decode_encode c r H), Utf8.Proofs.skipn_app_exact by reflexivity.
  destruct (N.ltb_spec c 0x80) as [A|A].
  - Utf8.Proofs.if_lia. reflexivity.
  - apply Utf8.Proofs.encode_length_high in A. Utf8.Proofs.if_lia. reflexivity.
Qed.

(* a successful strict decode consumed exactly the canonical encoding of a scalar value *)
Lemma decode_inv : forall s c r, utf8_decode s = Some (c, r) ->
  is_scalar c = true /\ s = utf8_encode c ++ r.
Proof.
  intros [|b t] c r H; [discriminate|]. rewrite decode_agree in H.
  pose proof (Utf8.Proofs.decode_spec b t) as D. destruct (Utf8.Model.utf8_decode (b :: t)) as [c' w].
  destruct D as [[-> ->]|(Hs & Hf & _)]; [discriminate|].
  destruct (_ && _); [discriminate|]. injection H as <- <-.
  rewrite encode_agree, <- Hf, firstn_skipn. split; [apply is_scalar_spec, Hs|reflexivity].
Qed.

Lemma encode_high : forall c, 0x80 <= c ->
  exists b t, utf8_encode c = b :: t /\ 0xC2 <= b /\ b < 0xF5.
Proof.
  intros c H. unfold utf8_encode, is_scalar, is_surrogate.
  Utf8.Proofs.bdestruct_all; (eexists; eexists; split; [reflexivity|lia]).
Qed.

Lemma decode_high_first : forall b r c t, 0x80 <= b ->
  utf8_decode (b :: r) = Some (c, t) -> 0x80 <= c.
Proof.
  intros b r c t Hb H. apply decode_inv in H. destruct H as [Hs H].
  destruct (N.ltb_spec c 0x80); [|assumption].
  rewrite encode_ascii in H by assumption. cbn in H. inversion H. lia.
Qed.

Lemma decode_shorter : forall s c r, utf8_decode s = Some (c, r) -> (length r < length s)%nat.
Proof.
  intros s c r H. apply decode_inv in H. destruct H as [_ H]. subst s.
  rewrite app_length. pose proof (encode_length c). lia.
Qed.
