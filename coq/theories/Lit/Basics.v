(* Basic facts shared by the literal round-trip proofs: byte-list prefixes,
   hash runs, hex digits, printable runes. *)
From Verif Require Import Utf8.Model Utf8.Proofs Lit.Quote Lit.Unquote.
From Coq Require Import ZArith Lia ZifyN ZifyNat ZifyBool.

(* linear arithmetic over the character constants (unfolded only in the
   hypotheses that mention them: [in *] would make every lemma of a section
   depend on all its variables) *)
Ltac unfold_chars H :=
  unfold ch_dq, ch_sq, ch_hash, ch_bs, ch_nl, ch_cr, ch_tab, rune_self, rune_error in H.
Ltac chars :=
  repeat match goal with H : _ |- _ => progress unfold_chars H end;
  unfold ch_dq, ch_sq, ch_hash, ch_bs, ch_nl, ch_cr, ch_tab, rune_self, rune_error; lia.

Lemma prefixb_app : forall p r, prefixb p (p ++ r) = true.
Proof. induction p; intro r; cbn; [reflexivity|]. now rewrite N.eqb_refl, IHp. Qed.

Lemma prefixb_spec : forall p s, prefixb p s = true <-> exists r, s = p ++ r.
Proof.
  induction p as [|a p IH]; intro s; cbn.
  - split; [intros _; now exists s|reflexivity].
  - destruct s as [|b s].
    + split; [discriminate|intros [r H]; discriminate].
    + split.
      * intro H. apply andb_prop in H. destruct H as [H1 H2]. apply N.eqb_eq in H1. subst b.
        apply IH in H2. destruct H2 as [r ->]. now exists r.
      * intros [r H]. inversion H; subst. rewrite N.eqb_refl. cbn. apply IH. now exists r.
Qed.

Lemma prefixb_false_head : forall a p b s, a <> b -> prefixb (a :: p) (b :: s) = false.
Proof. intros. cbn. destruct (N.eqb_spec a b); [contradiction|reflexivity]. Qed.

Lemma prefixb_nil_r : forall p, prefixb p [] = match p with [] => true | _ => false end.
Proof. destruct p; reflexivity. Qed.

Lemma hashes_length : forall n, length (hashes n) = n.
Proof. intro n. unfold hashes. apply repeat_length. Qed.

Lemma tabs_length : forall n, length (tabs n) = n.
Proof. intro n. unfold tabs. apply repeat_length. Qed.

Lemma skipn_hashes : forall n r, skipn n (hashes n ++ r) = r.
Proof. intros. apply skipn_app_exact, hashes_length. Qed.

Lemma skipn_tabs : forall n r, skipn n (tabs n ++ r) = r.
Proof. intros. apply skipn_app_exact, tabs_length. Qed.

Lemma rev_repeat : forall (c : N) n, rev (repeat c n) = repeat c n.
Proof.
  induction n; cbn; [reflexivity|]. rewrite IHn.
  clear IHn. induction n; cbn; [reflexivity|]. now rewrite IHn.
Qed.

Lemma repeat_snoc : forall (c : N) n, repeat c n ++ [c] = c :: repeat c n.
Proof. induction n; cbn; [reflexivity|]. now rewrite IHn. Qed.

Lemma count_prefix_hashes : forall n r,
  match r with x :: _ => x <> ch_hash | [] => True end ->
  count_prefix ch_hash (hashes n ++ r) = n.
Proof.
  induction n; intros r H; cbn.
  - destruct r as [|x r]; [reflexivity|]. cbn. destruct (N.eqb_spec x ch_hash); [contradiction|reflexivity].
  - now rewrite IHn.
Qed.

Lemma count_prefix_app_stop : forall c a x b, x <> c ->
  count_prefix c (a ++ x :: b) = count_prefix c a.
Proof.
  induction a as [|y a IH]; intros x b H; cbn.
  - destruct (N.eqb_spec x c); [contradiction|reflexivity].
  - destruct (N.eqb_spec y c); [now rewrite IH|reflexivity].
Qed.

Lemma count_prefix_split : forall c s,
  s = repeat c (count_prefix c s) ++ skipn (count_prefix c s) s /\
  match skipn (count_prefix c s) s with x :: _ => x <> c | [] => True end.
Proof.
  induction s as [|x s [IH1 IH2]]; cbn; [split; [reflexivity|exact I]|].
  destruct (N.eqb_spec x c).
  - subst x. cbn. split; [now rewrite <- IH1|exact IH2].
  - cbn. split; [reflexivity|assumption].
Qed.

Lemma prefixb_hashes_short : forall n t, (count_prefix ch_hash t < n)%nat ->
  prefixb (hashes n) t = false.
Proof.
  induction n; intros t H; [lia|]. destruct t as [|x t]; [reflexivity|].
  change (hashes (S n)) with (ch_hash :: hashes n).
  cbn [count_prefix] in H. cbn [prefixb].
  destruct (N.eqb_spec x ch_hash) as [->|Hne].
  - rewrite N.eqb_refl. cbn [andb]. apply IHn. lia.
  - destruct (N.eqb_spec ch_hash x); [congruence|reflexivity].
Qed.

Lemma drop_prefix_skipn : forall c s, drop_prefix c s = skipn (count_prefix c s) s.
Proof.
  induction s as [|x s IH]; [reflexivity|]. cbn. destruct (x =? c); [exact IH|reflexivity].
Qed.

Lemma unhex_lowerhex : forall n, n < 16 -> unhex (lowerhex n) = Some n.
Proof.
  intros n H. unfold lowerhex, unhex, in_range.
  destruct (N.ltb_spec n 10).
  - replace ((48 <=? 48 + n) && (48 + n <=? 57)) with true by lia. f_equal. lia.
  - replace ((48 <=? 87 + n) && (87 + n <=? 57)) with false by lia.
    replace ((97 <=? 87 + n) && (87 + n <=? 102)) with true by lia. f_equal. lia.
Qed.

Lemma lowerhex_range : forall n, (48 <= lowerhex n /\ lowerhex n <= 57) \/ 97 <= lowerhex n.
Proof. intro n. unfold lowerhex. destruct (N.ltb_spec n 10); lia. Qed.

Lemma hex_value_digit : forall d t acc, d < 16 ->
  hex_value (lowerhex d :: t) acc = hex_value t (acc * 16 + d).
Proof. intros. cbn [hex_value]. now rewrite unhex_lowerhex. Qed.

Lemma hex_value_hex2 : forall b, b < 256 -> hex_value (hex2 b) 0 = Some b.
Proof.
  intros b H. unfold hex2. rewrite !hex_value_digit by lia. cbn [hex_value]. f_equal. lia.
Qed.

Lemma hex_value_hex4_gen : forall r t acc, r < 65536 ->
  hex_value (hex4 r ++ t) acc = hex_value t (acc * 65536 + r).
Proof.
  intros r t acc H. unfold hex4. cbn [app]. rewrite !hex_value_digit by lia. f_equal. lia.
Qed.

Lemma hex_value_hex4 : forall r, r < 65536 -> hex_value (hex4 r) 0 = Some r.
Proof.
  intros r H. rewrite <- (app_nil_r (hex4 r)). rewrite hex_value_hex4_gen by assumption. reflexivity.
Qed.

Lemma hex_value_hex8 : forall r, r < 4294967296 -> hex_value (hex8 r) 0 = Some r.
Proof.
  intros r H. unfold hex8. rewrite hex_value_hex4_gen by lia.
  rewrite <- (app_nil_r (hex4 (r mod 65536))). rewrite hex_value_hex4_gen by lia.
  cbn [hex_value]. f_equal. lia.
Qed.

Lemma hex2_length : forall b, length (hex2 b) = 2%nat. Proof. reflexivity. Qed.

(* no control byte: what Quote emits between the newlines of a multi-line text *)
Definition no_ctl (s : str) : Prop := Forall (fun x => 0x20 <= x) s.

Lemma no_ctl_crnl : forall s, no_ctl s -> Forall (fun x => x <> ch_nl /\ x <> ch_cr) s.
Proof. intros s H. eapply Forall_impl; [|exact H]. cbn. chars. Qed.

Lemma no_ctl_nl : forall s, no_ctl s -> Forall (fun x => x <> ch_nl) s.
Proof. intros s H. eapply Forall_impl; [|apply no_ctl_crnl, H]. now intros x []. Qed.

Lemma no_ctl_hashes : forall n, no_ctl (hashes n).
Proof. intro n. apply Forall_forall. intros x Hx. apply repeat_spec in Hx. subst. chars. Qed.

Lemma hex4_no_ctl : forall r, no_ctl (hex4 r).
Proof. intro r. unfold hex4. repeat constructor; pose proof (lowerhex_range ((r / 4096) mod 16));
  pose proof (lowerhex_range ((r / 256) mod 16)); pose proof (lowerhex_range ((r / 16) mod 16));
  pose proof (lowerhex_range (r mod 16)); lia. Qed.

Lemma hex2_no_ctl : forall r, no_ctl (hex2 r).
Proof. intro r. unfold hex2. repeat constructor;
  pose proof (lowerhex_range (r / 16)); pose proof (lowerhex_range (r mod 16)); lia. Qed.

Lemma hex8_no_ctl : forall r, no_ctl (hex8 r).
Proof. intro r. unfold hex8. apply Forall_app. split; apply hex4_no_ctl. Qed.

Section Print.
  Variable pr_tbl gr_tbl : N -> bool.

  Lemma print_ascii : forall f r, form_is_print pr_tbl gr_tbl f r = true -> r < 0x80 ->
    0x20 <= r /\ r <= 0x7E.
  Proof.
    intros f r H Hr. unfold form_is_print, go_is_graphic, go_is_print, latin1_print, rune_self in H.
    replace (r <=? 0xFF) with true in H by lia.
    destruct (f_ascii f), (f_graphic f); cbn [andb] in H; lia.
  Qed.

  Lemma ascii_print : forall f r, 0x20 <= r -> r <= 0x7E -> form_is_print pr_tbl gr_tbl f r = true.
  Proof.
    intros f r H1 H2. unfold form_is_print, go_is_graphic, go_is_print, latin1_print, rune_self.
    replace (r <=? 0xFF) with true by lia.
    destruct (f_ascii f), (f_graphic f); cbn [andb]; lia.
  Qed.
End Print.
