(* Refutation witnesses for the classes on which the tree under test deviated,
   and non-vacuity examples for the round-trip theorems. *)
From Verif Require Import Utf8.Model Utf8.Proofs Lit.Quote Lit.Unquote Lit.Basics Lit.Steps
  Lit.Loops Lit.HashCount Lit.Raw Lit.RoundTrip.
From Coq Require Import ZArith Lia.

Definition s_of (l : list N) : str := l.

(* finding autohash (design/C09.md): WithOptionalHashes on a text starting with two
   quotes uses regular quoting (the raw hash form  # q q q x q #  would be read as
   the opening of a multi-line string); a text starting with ONE quote keeps the hash form *)
Example autohash_lead_quotes : forall pr gr,
  quote pr gr (with_optional_hashes string_form) [34; 34; 120] = [34; 92; 34; 92; 34; 120; 34] /\
  unquote_impl (quote pr gr (with_optional_hashes string_form) [34; 34; 120]) = Ok [34; 34; 120] /\
  quote pr gr (with_optional_hashes string_form) [34; 34; 35] = [34; 92; 34; 92; 34; 35; 34] /\
  quote pr gr (with_optional_hashes string_form) [34; 120] = [35; 34; 34; 120; 34; 35] /\
  unquote_impl [35; 34; 34; 34; 120; 34; 35] = Err EMissingOpeningNewline.
Proof. intros. repeat split; vm_compute; reflexivity. Qed.

(* finding unquote-U (design/C09.md): with \U escapes accumulated in an int32,
   values >= 2^31 are negative runes *)
Example unquote_int32_panics :
  (* the string literal with the single escape \UFFFFFFFC *)
  unquote_int32 [34; 92; 85; 70; 70; 70; 70; 70; 70; 70; 67; 34] = Panic /\
  unquote_impl [34; 92; 85; 70; 70; 70; 70; 70; 70; 70; 67; 34] = Err ESyntax.
Proof. split; vm_compute; reflexivity. Qed.

Example unquote_big_U_rejected :
  (* abc\UFFFFFFFFdef (quoted) is an invalid escape; the int32 layer accepted it as abc *)
  unquote_impl [34; 97; 98; 99; 92; 85; 70; 70; 70; 70; 70; 70; 70; 70; 100; 101; 102; 34] = Err ESyntax /\
  unquote_int32 [34; 97; 98; 99; 92; 85; 70; 70; 70; 70; 70; 70; 70; 70; 100; 101; 102; 34] = Ok [97; 98; 99].
Proof. split; vm_compute; reflexivity. Qed.

(* the text  a q # b  with WithOptionalHashes gets two hashes *)
Example ex_hash_form : forall pr gr,
  let f := with_optional_hashes string_form in
  let s := [97; 34; 35; 98] in
  eff_multiline f s = false /\ eff_hash pr gr f s = 2%nat /\
  quote pr gr f s = [35; 35; 34; 97; 34; 35; 98; 34; 35; 35] /\
  unquote_impl (quote pr gr f s) = Ok s.
Proof. intros. repeat split; vm_compute; reflexivity. Qed.

(* multi-line bytes form, two tabs, text  a LF ''' # LF \xff  : two hashes needed *)
Example ex_multi_form : forall pr gr,
  let f := with_tab_indent bytes_form 2 in
  let s := [97; 10; 39; 39; 39; 35; 10; 255] in
  eff_multiline f s = true /\ eff_hash pr gr f s = 2%nat /\
  unquote_impl (quote pr gr f s) = Ok s /\ ~ valid_utf8 s.
Proof.
  intros. repeat split; try (vm_compute; reflexivity).
  intro H. apply sanitize_valid in H. vm_compute in H. discriminate.
Qed.

(* string form on invalid UTF-8: the invalid byte becomes U+FFFD, nothing else changes *)
Example ex_string_lossy : forall pr gr,
  let s := [97; 255; 98] in
  unquote_impl (quote pr gr string_form s) = Ok [97; 0xEF; 0xBF; 0xBD; 98] /\
  expected string_form s = [97; 0xEF; 0xBF; 0xBD; 98] /\
  expected bytes_form s = s.
Proof.
  intros pr gr s. subst s. split; [|split; vm_compute; reflexivity].
  (* pr 0xFFFD is unknown: both spellings (raw U+FFFD or the u-escape) read back the same *)
  unfold unquote_impl. rewrite (unquote_quote_all false pr gr string_form [97; 255; 98]).
  - vm_compute. reflexivity.
  - split; [reflexivity|left; split; reflexivity].
  - repeat constructor.
Qed.

Example ex_plain_hypotheses : plain 34 2 [34; 35; 35] [97; 34; 35; 98].
Proof.
  change [97; 34; 35; 98] with (utf8_encode 97 ++ utf8_encode 34 ++ utf8_encode 35 ++ utf8_encode 98 ++ []).
  repeat (constructor; try (unfold scalar, max_rune, ch_nl, ch_cr, ch_bs; lia);
          try (intros [H|H]; try discriminate; vm_compute; lia)).
Qed.
