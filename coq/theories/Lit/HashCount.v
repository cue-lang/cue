(* requiredHashCount is sufficient: the closing delimiter of a multi-line
   literal (three quotes followed by hashCount hashes) occurs nowhere in the
   text that is quoted. *)
From Verif Require Import Utf8.Model Lit.Quote Lit.Unquote Lit.Basics Lit.Loops.
From Coq Require Import Lia.

Lemma after_triple_some : forall q t t1, after_triple q t = Some t1 ->
  exists p0, t = p0 ++ triple q ++ t1 /\
    forall pre u, t = pre ++ triple q ++ u -> (length p0 <= length pre)%nat.
Proof.
  intros q t. induction t as [|a t IH]; intros t1 H; [discriminate|].
  cbn [after_triple] in H.
  destruct t as [|b [|c r]]; try discriminate.
  destruct ((a =? q) && (b =? q) && (c =? q)) eqn:E.
  - inversion H; subst.
    apply andb_prop in E. destruct E as [E Ec]. apply andb_prop in E. destruct E as [Ea Eb].
    apply N.eqb_eq in Ea, Eb, Ec. subst. exists []. split; [reflexivity|]. intros. cbn. lia.
  - destruct (IH _ H) as [p0 [Hp Hmin]]. exists (a :: p0). split.
    + cbn [app]. now rewrite <- Hp.
    + intros pre u Eu. destruct pre as [|x pre].
      * cbn in Eu. inversion Eu; subst. rewrite !N.eqb_refl in E. discriminate.
      * cbn [app] in Eu. inversion Eu; subst. cbn [length]. apply le_n_S. apply (Hmin pre u). assumption.
Qed.

Lemma app_eq_prefix : forall (p0 pre x y : str), p0 ++ x = pre ++ y ->
  (length p0 <= length pre)%nat -> exists d, pre = p0 ++ d.
Proof.
  induction p0 as [|a p0 IH]; intros pre x y E L; [exists pre; reflexivity|].
  destruct pre as [|b pre]; [cbn in L; lia|].
  cbn [app] in E. inversion E; subst. cbn [length] in L.
  destruct (IH pre x y H1 ltac:(lia)) as [d ->]. exists d. reflexivity.
Qed.

Lemma after_triple_occ : forall q pre post, after_triple q (pre ++ triple q ++ post) <> None.
Proof.
  intros q pre post. induction pre as [|x pre IH].
  - cbn. rewrite !N.eqb_refl. discriminate.
  - cbn [app after_triple].
    destruct (pre ++ triple q ++ post) as [|b [|c r]] eqn:Er.
    + destruct pre; discriminate.
    + destruct pre as [|? [|? ?]]; discriminate.
    + destruct ((x =? q) && (b =? q) && (c =? q)); [discriminate|exact IH].
Qed.

(* a run of q's followed by something that does not start with q: where a
   triple can start *)
Lemma triple_in_run : forall q k t2 d y,
  match t2 with x :: _ => x <> q | [] => True end ->
  repeat q k ++ t2 = d ++ triple q ++ y ->
  (exists j, y = repeat q j ++ t2) \/ (exists d2, t2 = d2 ++ triple q ++ y).
Proof.
  intros q k t2 d. revert k. induction d as [|x d IH]; intros k y Ht2 E.
  - cbn [app] in E.
    destruct k as [|[|[|k]]]; cbn [repeat app] in E.
    + right. exists []. exact E.
    + destruct t2 as [|a [|b t2]]; try discriminate. inversion E; subst. contradiction.
    + destruct t2 as [|a t2]; try discriminate. inversion E; subst. contradiction.
    + left. exists k. unfold triple in E. now inversion E.
  - destruct k as [|k].
    + right. exists (x :: d). exact E.
    + cbn [repeat app] in E. inversion E; subst. eapply IH; eauto.
Qed.

Lemma triple_after_hashes : forall q n t3 d y, q <> ch_hash ->
  hashes n ++ t3 = d ++ triple q ++ y -> exists d3, t3 = d3 ++ triple q ++ y.
Proof.
  intros q n t3 d y Hq. revert d. induction n as [|n IH]; intros d E.
  - exists d. exact E.
  - destruct d as [|x d].
    + cbn in E. inversion E. congruence.
    + change (hashes (S n)) with (ch_hash :: hashes n) in E. cbn [app] in E. inversion E; subst.
      eapply IH; eauto.
Qed.

Lemma rhc_loop_mono : forall fuel q t a, (a <= rhc_loop fuel q t a)%nat.
Proof.
  induction fuel as [|k IH]; intros q t a; cbn [rhc_loop]; [lia|].
  destruct (after_triple q t); [|lia].
  etransitivity; [|apply IH]. lia.
Qed.

(* every occurrence of three quotes followed by h hashes is exceeded *)
Lemma rhc_loop_spec : forall q, q <> ch_hash -> forall fuel t a h pre post,
  (length t <= fuel)%nat -> t = pre ++ triple q ++ hashes h ++ post ->
  (h < rhc_loop fuel q t a)%nat.
Proof.
  intros q Hq. induction fuel as [|k IH]; intros t a h pre post Hl E.
  { destruct t; [destruct pre; discriminate|cbn in Hl; lia]. }
  cbn [rhc_loop].
  destruct (after_triple q t) as [t1|] eqn:Ea.
  2:{ subst t. now apply after_triple_occ in Ea. }
  destruct (after_triple_some _ _ _ Ea) as [p0 [Hp0 Hmin]].
  destruct (count_prefix_split q t1) as [Hd1 Hd2]. rewrite <- drop_prefix_skipn in Hd1, Hd2.
  set (m := count_prefix q t1) in *. set (t2 := drop_prefix q t1) in *.
  destruct (count_prefix_split ch_hash t2) as [Hc1 Hc2].
  set (n := count_prefix ch_hash t2) in *. set (t3 := skipn n t2) in *.
  (* t = p0 ++ q^(3+m) ++ #^n ++ t3 *)
  assert (Ht : t = p0 ++ repeat q (3 + m) ++ t2).
  { rewrite Hp0. f_equal. rewrite Hd1 at 1. cbn [repeat plus app triple]. reflexivity. }
  assert (Hlen3 : (length t3 <= k)%nat).
  { rewrite Ht, Hc1 in Hl. rewrite !app_length, !repeat_length in Hl. cbn [plus] in Hl. lia. }
  (* the given occurrence does not start before the first one *)
  destruct (app_eq_prefix p0 pre (repeat q (3 + m) ++ t2) (triple q ++ hashes h ++ post)) as [d ->].
  { rewrite <- Ht. exact E. }
  { eapply Hmin. exact E. }
  rewrite Ht in E. rewrite <- app_assoc in E. apply app_inv_head in E.
  destruct (triple_in_run q (3 + m) t2 d (hashes h ++ post) Hd2 E) as [[j Hj]|[d2 Hd2']].
  - (* the occurrence lies in the run of quotes: its hashes are the counted ones *)
    eapply Nat.lt_le_trans; [|apply rhc_loop_mono].
    destruct h as [|h]; [lia|].
    destruct j as [|j].
    + cbn [repeat app] in Hj.
      assert (S h <= n)%nat; [|lia].
      unfold n. rewrite <- Hj. clear. induction h; cbn; [lia|].
      change (ch_hash =? ch_hash) with true in *. cbn in *. lia.
    + cbn in Hj. inversion Hj. congruence.
  - (* the occurrence lies after the run: after the counted hashes *)
    rewrite Hc1 in Hd2'. fold (hashes n) in Hd2'. fold t3 in Hd2'.
    destruct (triple_after_hashes q n t3 d2 _ Hq Hd2') as [d3 Hd3].
    eapply IH; eauto.
Qed.

Theorem required_hash_count_sufficient : forall q s, q <> ch_hash ->
  no_delim q (required_hash_count q s) s.
Proof.
  intros q s Hq pre post E.
  pose proof (rhc_loop_spec q Hq (length s) s 0 (required_hash_count q s) pre post (le_n _) E) as H.
  unfold required_hash_count in H. lia.
Qed.
