(* IndentTabs (cue/literal/indent.go) on the literals that Form.Quote writes:
   re-indenting the multi-line literal written with k > 0 tabs gives, byte for
   byte, the literal that Quote writes with n tabs; hence it unquotes to the
   same text. *)
From Verif Require Import Utf8.Model Utf8.Proofs Lit.Quote Lit.Unquote Lit.Basics Lit.Steps Lit.Loops
  Lit.HashCount Lit.RoundTrip Lit.Indent.
From Coq Require Import List NArith ZArith Lia ZifyN ZifyNat ZifyBool.
Import ListNotations.
Open Scope N_scope.

Lemma beq_str_spec : forall a b, beq_str a b = true <-> a = b.
Proof.
  induction a as [|x a IH]; intros [|y b]; cbn [beq_str]; split; intro H; try discriminate; try reflexivity.
  - apply andb_prop in H. destruct H as [H1 H2]. apply N.eqb_eq in H1. apply IH in H2. congruence.
  - inversion H; subst. rewrite N.eqb_refl. cbn [andb]. now apply IH.
Qed.

Lemma tabs_inj : forall a b, tabs a = tabs b -> a = b.
Proof. intros a b H. apply (f_equal (@length N)) in H. now rewrite !tabs_length in H. Qed.

Section Repl.
  Variables (o : N) (os nw : str).
  Notation RA := (replace_all o os nw).

  Lemma replace_skip : forall p X, RA (length p) (p ++ X) = RA 0 X.
  Proof. induction p as [|a p IH]; intro X; [reflexivity|]. cbn [length app replace_all]. apply IH. Qed.

  Lemma replace_pass : forall p X, Forall (fun x => x <> o) p -> RA 0 (p ++ X) = p ++ RA 0 X.
  Proof.
    intros p X H. induction H as [|x p Hx Hp IH]; [reflexivity|].
    cbn [app replace_all]. destruct (N.eqb_spec x o); [contradiction|]. cbn [andb]. now rewrite IH.
  Qed.

  Lemma replace_pass_nil : forall p, Forall (fun x => x <> o) p -> RA 0 p = p.
  Proof. intros p H. rewrite <- (app_nil_r p) at 1. rewrite replace_pass by exact H. cbn. apply app_nil_r. Qed.

  Lemma replace_hit : forall X, RA 0 (o :: os ++ X) = nw ++ RA 0 X.
  Proof. intro X. cbn [replace_all]. rewrite N.eqb_refl, prefixb_app. cbn [andb]. now rewrite replace_skip. Qed.

  Lemma replace_miss : forall t, prefixb os t = false -> RA 0 (o :: t) = o :: RA 0 t.
  Proof. intros t H. cbn [replace_all]. rewrite H, andb_false_r. reflexivity. Qed.
End Repl.

Lemma set_indent_same : forall f, set_indent f (f_indent f) = f.
Proof. destruct f; reflexivity. Qed.

Lemma set_indent_twice : forall f n m, set_indent (set_indent f n) m = set_indent f m.
Proof. reflexivity. Qed.

Section IndentQuote.
  Variable pr_tbl gr_tbl : N -> bool.

  Notation quote := (quote pr_tbl gr_tbl).
  Notation esc := (esc pr_tbl gr_tbl).
  Notation eff_hash := (eff_hash pr_tbl gr_tbl).

  (* ReplaceAll over the escaped body: every line start "\n" + k tabs becomes
     "\n" + n tabs; empty lines and escape sequences are left alone *)
  Lemma esc_reindent : forall f hc k n, public_form f -> f_indent f = S k ->
    forall m s R, (length s <= m)%nat ->
    replace_all ch_nl (tabs (S k)) (ch_nl :: tabs n) 0 (esc f true hc s ++ ch_nl :: R) =
    esc (set_indent f n) true hc s ++ replace_all ch_nl (tabs (S k)) (ch_nl :: tabs n) 0 (ch_nl :: R).
  Proof.
    intros f hc k n Hpub Hk. induction m as [|m IH]; intros s R Hl.
    { destruct s; [reflexivity|cbn in Hl; lia]. }
    destruct s as [|b t]; [reflexivity|].
    rewrite !esc_cons. pose proof (decode_width b t) as W.
    destruct (utf8_decode (b :: t)) as [r w]. cbn [length] in *.
    change (f_exact (set_indent f n)) with (f_exact f).
    destruct (f_exact f && Nat.eqb w 1 && (r =? rune_error)).
    { replace ((esc_intro hc ++ 120 :: hex2 b ++ esc f true hc t) ++ ch_nl :: R)
        with ((esc_intro hc ++ 120 :: hex2 b) ++ (esc f true hc t ++ ch_nl :: R))
        by (rewrite <- !app_assoc; cbn [app]; rewrite <- !app_assoc; reflexivity).
      rewrite replace_pass.
      - rewrite IH by lia. rewrite <- !app_assoc. cbn [app]. rewrite <- !app_assoc. reflexivity.
      - apply no_ctl_nl, bad_byte_no_ctl. }
    cbn [andb].
    destruct (r =? ch_nl).
    - (* a newline of the text *)
      destruct t as [|c t'].
      + rewrite !esc_nil. cbn [app].
        rewrite replace_miss by reflexivity. reflexivity.
      + destruct (N.eqb_spec c ch_nl) as [Hc|Hc]; cbn [negb].
        * subst c. cbn [app].
          destruct (esc_nl_head pr_tbl gr_tbl f hc t') as [X HX].
          rewrite replace_miss by (rewrite HX; reflexivity).
          rewrite IH by lia. reflexivity.
        * rewrite Hk. change (f_indent (set_indent f n)) with n.
          replace ((ch_nl :: tabs (S k) ++ esc f true hc (c :: t')) ++ ch_nl :: R)
            with (ch_nl :: tabs (S k) ++ (esc f true hc (c :: t') ++ ch_nl :: R))
            by (cbn [app]; rewrite <- !app_assoc; reflexivity).
          rewrite replace_hit. rewrite IH by lia.
          cbn [app]. rewrite <- !app_assoc. reflexivity.
    - (* an ordinary rune *)
      change (escaped_rune pr_tbl gr_tbl (set_indent f n) true hc r) with (escaped_rune pr_tbl gr_tbl f true hc r).
      rewrite <- app_assoc. rewrite replace_pass.
      + rewrite IH by (rewrite skipn_length; cbn [length]; lia). now rewrite <- app_assoc.
      + now apply no_ctl_nl, escaped_rune_no_ctl.
  Qed.

  (* ParseQuotes on a multi-line literal written by Quote: the whitespace prefix
     is the form's indentation *)
  Lemma pq_ws_quote_multi : forall f s, public_form f -> eff_multiline f s = true ->
    pq_ws (quote f s) = Some (tabs (f_indent f)).
  Proof.
    intros f s Hpub Hml. unfold pq_ws.
    now destruct (parse_quotes_quote_multi pr_tbl gr_tbl f s Hpub Hml) as (n & -> & _).
  Qed.

  (* IndentTabs(f.Quote(s), n) == f.WithTabIndent(n).Quote(s), bytewise, for every
     text, whenever Quote wrote a multi-line literal with at least one tab *)
  Theorem indent_tabs_quote : forall f s n, public_form f -> eff_multiline f s = true ->
    (0 < f_indent f)%nat ->
    indent_tabs (quote f s) n = quote (set_indent f n) s.
  Proof.
    intros f s n Hpub Hml Hind. unfold indent_tabs. rewrite (pq_ws_quote_multi f s Hpub Hml).
    destruct (beq_str (tabs (f_indent f)) (tabs n)) eqn:Eb.
    { apply beq_str_spec in Eb. apply tabs_inj in Eb. subst n. now rewrite set_indent_same. }
    destruct (f_indent f) as [|k] eqn:Hk; [lia|].
    assert (Hml' : eff_multiline (set_indent f n) s = true) by exact Hml.
    assert (Hhc : eff_hash f s = required_hash_count (f_quote f) s) by (unfold Quote.eff_hash; now rewrite Hml).
    assert (Hhc' : eff_hash (set_indent f n) s = required_hash_count (f_quote f) s)
      by (unfold Quote.eff_hash; now rewrite Hml').
    unfold Quote.quote. rewrite Hml, Hml', Hhc, Hhc'.
    change (f_quote (set_indent f n)) with (f_quote f). change (f_indent (set_indent f n)) with n.
    rewrite Hk.
    set (q := f_quote f). set (hc := required_hash_count q s).
    pose proof (public_quote f Hpub) as Hq. fold q in Hq.
    set (RA := replace_all ch_nl (tabs (S k)) (ch_nl :: tabs n) 0).
    assert (Ht : Forall (fun x => x <> ch_nl) (triple q)).
    { repeat constructor; chars. }
    assert (Hth : Forall (fun x => x <> ch_nl) (triple q ++ hashes hc)).
    { apply Forall_app. split; [exact Ht|apply no_ctl_nl, no_ctl_hashes]. }
    assert (Hcl : forall Y, RA (ch_nl :: tabs (S k) ++ Y) = ch_nl :: tabs n ++ RA Y).
    { intro Y. unfold RA. rewrite replace_hit. reflexivity. }
    rewrite (app_assoc (hashes hc) (triple q)).
    unfold RA at 1. rewrite replace_pass by (apply Forall_app; split; [apply no_ctl_nl, no_ctl_hashes|exact Ht]).
    fold RA. rewrite <- app_assoc. do 2 f_equal.
    destruct s as [|c t].
    { cbn [app]. rewrite Hcl. unfold RA. rewrite replace_pass_nil by exact Ht. reflexivity. }
    unfold append_escaped. cbn [negb andb].
    fold (Loops.esc pr_tbl gr_tbl f true hc (c :: t)).
    fold (Loops.esc pr_tbl gr_tbl (set_indent f n) true hc (c :: t)).
    assert (Hbody : RA (esc f true hc (c :: t) ++ [ch_nl] ++ tabs (S k) ++ triple q ++ hashes hc) =
                    esc (set_indent f n) true hc (c :: t) ++ [ch_nl] ++ tabs n ++ triple q ++ hashes hc).
    { cbn [app]. unfold RA.
      rewrite (esc_reindent f hc k n Hpub Hk (length (c :: t)) (c :: t) _ (le_n _)).
      fold RA. rewrite Hcl. unfold RA. rewrite replace_pass_nil by exact Hth. reflexivity. }
    destruct (N.eqb_spec c ch_nl) as [Hc|Hc]; cbn [negb].
    - subst c. cbn [app]. destruct (esc_nl_head pr_tbl gr_tbl f hc t) as [X HX].
      unfold RA. rewrite replace_miss by (rewrite HX; reflexivity). fold RA.
      cbn [app] in Hbody. rewrite Hbody. reflexivity.
    - cbn [app]. rewrite Hcl. cbn [app] in Hbody. rewrite Hbody. reflexivity.
  Qed.
End IndentQuote.

(* non-vacuity (the tables for runes above 0xFF are not consulted) *)
Definition no_tbl : N -> bool := fun _ => false.

(* "a\n\n\tb" written with 1 tab, re-indented to 3 tabs: the empty line stays empty,
   the escaped tab stays *)
Example ex_indent_tabs_quote :
  let f := with_tab_indent string_form 1 in
  let s := [97; 10; 10; 9; 98] in
  quote no_tbl no_tbl f s = [34;34;34;10; 9;97;10; 10; 9;92;116;98;10; 9;34;34;34] /\
  indent_tabs (quote no_tbl no_tbl f s) 3 = [34;34;34;10; 9;9;9;97;10; 10; 9;9;9;92;116;98;10; 9;9;9;34;34;34] /\
  indent_tabs (quote no_tbl no_tbl f s) 3 = quote no_tbl no_tbl (set_indent f 3) s /\
  unquote_impl (indent_tabs (quote no_tbl no_tbl f s) 3) = Ok s.
Proof. vm_compute. repeat split; reflexivity. Qed.

(* a literal that is not multi-line, an invalid one, and a negative count *)
Example ex_indent_tabs_other :
  indent_tabs [34; 97; 34] 2 = [34; 97; 34] /\
  indent_tabs [34; 34; 34; 120] 2 = [34; 34; 34; 120] /\
  indent_tabs_go [34; 97; 34] (-1) = Panic /\
  (* two blanks of indentation, a line with three: one blank stays after the tab *)
  indent_tabs [34;34;34;10; 32;32;32;97;10; 32;32;34;34;34] 1 = [34;34;34;10; 9;32;97;10; 9;34;34;34].
Proof. vm_compute. repeat split; reflexivity. Qed.
