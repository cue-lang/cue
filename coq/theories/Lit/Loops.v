(* The escape loop of Quote read back by the Unquote loop: the loop invariant
   shared by the single-line and the multi-line forms. *)
From Verif Require Import Utf8.Model Utf8.Proofs Lit.Quote Lit.Unquote Lit.Basics Lit.Steps.
From Coq Require Import ZArith Lia ZifyN ZifyNat ZifyBool Wf_nat.
(* lia then sees div and mod through their defining equations; the goals here
   carry [v mod 256] from the loop, and this translation is the cheaper one to check *)
Ltac Zify.zify_post_hook ::= Z.div_mod_to_equations.

(* what a form preserves of a byte sequence: bytes forms everything, string
   forms everything except that each byte at which UTF-8 decoding fails becomes U+FFFD *)
Definition expected (f : form) (s : str) : str := if f_exact f then s else sanitize s.

(* the closing delimiter does not occur in t *)
Definition no_delim (q : N) (hc : nat) (t : str) : Prop :=
  forall pre post, t <> pre ++ triple q ++ hashes hc ++ post.

Lemma no_delim_suffix : forall q hc x t, no_delim q hc (x ++ t) -> no_delim q hc t.
Proof. intros q hc x t H pre post E. apply (H (x ++ pre) post). rewrite E. now rewrite app_assoc. Qed.

Lemma esc_intro_no_ctl : forall n, no_ctl (esc_intro n).
Proof. intro n. constructor; [chars|apply no_ctl_hashes]. Qed.

(* the escape of an undecodable byte has no control byte *)
Lemma bad_byte_no_ctl : forall hc b, no_ctl (esc_intro hc ++ 120 :: hex2 b).
Proof.
  intros hc b. apply Forall_app. split; [apply esc_intro_no_ctl|].
  constructor; [lia|apply hex2_no_ctl].
Qed.

Section Loops.
  Variable wrap : bool.
  Variable pr_tbl gr_tbl : N -> bool.

  Notation unq_loop := (unq_loop wrap).
  Notation escaped_rune := (escaped_rune pr_tbl gr_tbl).
  Notation esc_loop := (esc_loop pr_tbl gr_tbl).

  Definition esc (f : form) (ml : bool) (hc : nat) (s : str) : str :=
    esc_loop f ml hc (length s) s.

  Lemma esc_loop_fuel_indep : forall f ml hc fuel1 fuel2 s,
    (length s <= fuel1)%nat -> (length s <= fuel2)%nat ->
    esc_loop f ml hc fuel1 s = esc_loop f ml hc fuel2 s.
  Proof.
    intros f ml hc. induction fuel1 as [|k1 IH]; intros fuel2 s H1 H2.
    - destruct s; [|cbn in H1; lia]. destruct fuel2; reflexivity.
    - destruct s as [|b t]; [destruct fuel2; reflexivity|].
      destruct fuel2 as [|k2]; [cbn in H2; lia|].
      cbn [Quote.esc_loop].
      pose proof (decode_width b t) as W.
      destruct (utf8_decode (b :: t)) as [r w].
      cbn [length] in *.
      assert (L : (length (skipn w (b :: t)) <= length t)%nat) by (rewrite skipn_length; cbn [length]; lia).
      rewrite (IH k2 t) by lia.
      rewrite (IH k2 (skipn w (b :: t))) by lia.
      reflexivity.
  Qed.

  Lemma esc_loop_fuel : forall f ml hc fuel s, (length s <= fuel)%nat ->
    esc_loop f ml hc fuel s = esc f ml hc s.
  Proof. intros. unfold esc. apply esc_loop_fuel_indep; lia. Qed.

  Lemma esc_nil : forall f ml hc, esc f ml hc [] = [].
  Proof. reflexivity. Qed.

  (* one unfolding of appendEscaped's loop *)
  Lemma esc_cons : forall f ml hc b t,
    esc f ml hc (b :: t) =
    let '(r, w) := utf8_decode (b :: t) in
    if f_exact f && Nat.eqb w 1 && (r =? rune_error) then
      esc_intro hc ++ 120 :: hex2 b ++ esc f ml hc t
    else if ml && (r =? ch_nl) then
      ch_nl ::
      (match t with
       | c :: _ => if negb (c =? ch_nl) then tabs (f_indent f) else []
       | [] => []
       end) ++ esc f ml hc t
    else escaped_rune f ml hc r ++ esc f ml hc (skipn w (b :: t)).
  Proof.
    intros. unfold esc at 1. cbn [length Quote.esc_loop].
    pose proof (decode_width b t) as W.
    destruct (utf8_decode (b :: t)) as [r w]. cbn [length] in W.
    rewrite (esc_loop_fuel f ml hc (length t) t) by lia.
    rewrite (esc_loop_fuel f ml hc (length t) (skipn w (b :: t)))
      by (rewrite skipn_length; cbn [length]; lia).
    reflexivity.
  Qed.

  Lemma esc_nl_head : forall f hc t, exists X, esc f true hc (ch_nl :: t) = ch_nl :: X.
  Proof. intros f hc t. rewrite esc_cons. cbn. rewrite andb_false_r. eexists. reflexivity. Qed.

  (* what is expected back for the chunk that one iteration of the escape loop reads *)
  Lemma expected_step : forall f b t r w, utf8_decode (b :: t) = (r, w) ->
    expected f (b :: t) =
    (if f_exact f then firstn w (b :: t) else utf8_encode r) ++ expected f (skipn w (b :: t)).
  Proof.
    intros f b t r w D. unfold expected. destruct (f_exact f); [now rewrite firstn_skipn|].
    now apply sanitize_step.
  Qed.

  (* first byte of an escaped chunk: a backslash, the printable ASCII rune itself
     (in single-line mode never the quote), or a leading byte >= 0xC2 *)
  Lemma escaped_rune_head : forall f ml hc r, scalar r ->
    (exists tl, escaped_rune f ml hc r = ch_bs :: tl) \/
    (r < 0x80 /\ 0x20 <= r /\ escaped_rune f ml hc r = [r] /\ r <> ch_bs /\ (ml = false -> r <> f_quote f)) \/
    (0x80 <= r /\ exists b tl, escaped_rune f ml hc r = b :: tl /\ 0xC2 <= b).
  Proof.
    intros f ml hc r Hsc. unfold Quote.escaped_rune.
    destruct ((negb ml && (r =? f_quote f)) || (r =? ch_bs)) eqn:E1; [left; eexists; reflexivity|].
    destruct (form_is_print pr_tbl gr_tbl f r) eqn:Epr; [|left; eexists; reflexivity].
    right. destruct (N.ltb_spec r 0x80) as [Hlt|Hge].
    - left. pose proof (print_ascii _ _ _ _ Epr Hlt). rewrite encode_ascii by assumption.
      assert (Hnq : ml = false -> r <> f_quote f).
      { intros -> ->. rewrite N.eqb_refl in E1. discriminate E1. }
      repeat split; first [assumption|lia].
    - right. split; [assumption|]. destruct (encode_high r Hge) as [_ [b [tl [E Hb]]]]. eauto.
  Qed.

  (* appendEscapedRune emits no control byte either, in particular no raw line terminator *)
  Lemma escaped_rune_no_ctl : forall f ml hc r, public_form f -> no_ctl (escaped_rune f ml hc r).
  Proof.
    intros f ml hc r Hpub. unfold Quote.escaped_rune.
    pose proof (public_quote f Hpub) as Hq.
    destruct ((negb ml && (r =? f_quote f)) || (r =? ch_bs)) eqn:E1.
    { apply Forall_app. split; [apply esc_intro_no_ctl|]. repeat constructor.
      assert (r = f_quote f \/ r = ch_bs) by lia. chars. }
    destruct (form_is_print pr_tbl gr_tbl f r) eqn:Epr.
    { destruct (N.ltb_spec r 0x80) as [Hlt|Hge].
      - pose proof (print_ascii _ _ _ _ Epr Hlt). rewrite encode_ascii by assumption.
        repeat constructor. lia.
      - destruct (encode_high r Hge) as [Hall _]. eapply Forall_impl; [|exact Hall]. cbn. lia. }
    apply Forall_app. split; [apply esc_intro_no_ctl|].
    repeat match goal with |- context [if ?c then _ else _] => destruct c end;
      try (repeat constructor; lia);
      (constructor; [lia|]; first [apply hex2_no_ctl|apply hex4_no_ctl|apply hex8_no_ctl]).
  Qed.

  Section Multi.
    Variable f : form.
    Variable hc : nat.
    Hypothesis Hpub : public_form f.

    Let qc := f_quote f.
    Let qi := qi_for f true hc.
    Let closing : str := ch_nl :: tabs (f_indent f) ++ triple qc ++ hashes hc.

    (* a pattern of quotes and hashes that prefixes the escaped text prefixes
       the source text *)
    Lemma proj_prefix : forall pat t rest,
      Forall (fun c => c = qc \/ c = ch_hash) pat -> is_bytes t ->
      prefixb pat (esc f true hc t ++ ch_nl :: rest) = true -> prefixb pat t = true.
    Proof.
      induction pat as [|c pat IH]; intros t rest Hpat Hb Hp; [reflexivity|].
      inversion Hpat as [|? ? Hc Hpat']; subst.
      assert (Hcb : c <> ch_nl /\ c <> ch_bs /\ c < 0xC2 /\ c <> 0).
      { pose proof (public_quote f Hpub). unfold qc, ch_nl, ch_bs, ch_hash, ch_dq, ch_sq in *. lia. }
      destruct t as [|b t].
      { rewrite esc_nil in Hp. cbn in Hp. lia. }
      destruct (is_bytes_tail _ _ Hb) as [Hb1 Hb2].
      rewrite esc_cons in Hp.
      pose proof (decode_spec b t) as DS.
      destruct (utf8_decode (b :: t)) as [r w] eqn:D.
      destruct (f_exact f && Nat.eqb w 1 && (r =? rune_error)).
      { unfold esc_intro in Hp. cbn in Hp. lia. }
      cbn [andb] in Hp.
      destruct (N.eqb_spec r ch_nl).
      { cbn in Hp. lia. }
      destruct (escaped_rune_head f true hc r (decode_scalar _ _ _ D))
        as [[tl E]|[[Hlt [Hlo [E _]]]|[Hge [b' [tl [E Hb']]]]]].
      - rewrite E in Hp. cbn in Hp. lia.
      - rewrite E in Hp. cbn [app prefixb] in Hp.
        apply andb_prop in Hp. destruct Hp as [Hp1 Hp2]. apply N.eqb_eq in Hp1. subst c.
        (* an ASCII rune is its own single byte *)
        destruct DS as [[-> _]|[_ [_ [_ [_ [Hiff Heq]]]]]]; [unfold rune_error in Hlt; lia|].
        specialize (Heq Hlt). subst b.
        rewrite (decode_ascii r t Hlt) in D. inversion D; subst w.
        cbn [skipn] in Hp2. cbn [prefixb]. rewrite N.eqb_refl. cbn [andb].
        eapply IH; eassumption.
      - rewrite E in Hp. cbn in Hp. lia.
    Qed.

    (* ... so the closing delimiter starts nowhere in the escaped text where the
       source text has none *)
    Lemma no_closing_prefix : forall t rest, is_bytes t -> no_delim qc hc t ->
      prefixb (triple qc ++ hashes hc) (esc f true hc t ++ ch_nl :: rest) = false.
    Proof.
      intros t rest Hb Hnd.
      destruct (prefixb _ (esc f true hc t ++ ch_nl :: rest)) eqn:Ep; [exfalso|reflexivity].
      apply proj_prefix in Ep; auto.
      - apply prefixb_spec in Ep. destruct Ep as [post Ep].
        apply (Hnd [] post). now rewrite Ep, <- app_assoc.
      - apply Forall_app. split; [repeat constructor; auto|].
        apply Forall_forall. intros x Hx. apply repeat_spec in Hx. auto.
    Qed.

    Lemma skip_ws_nl : forall y, skip_ws_after_newline (ch_nl :: y) qi = Ok (ch_nl :: y).
    Proof.
      intro y. unfold skip_ws_after_newline, qi, qi_for. cbn [q_multi q_ws negb].
      destruct (f_indent f) as [|n]; reflexivity.
    Qed.

    Lemma skip_ws_tabs : forall y, skip_ws_after_newline (tabs (f_indent f) ++ y) qi = Ok y.
    Proof.
      intro y. unfold skip_ws_after_newline, qi, qi_for. cbn [q_multi q_ws negb].
      rewrite prefixb_app. rewrite tabs_length, skipn_tabs. reflexivity.
    Qed.

    (* the iteration on a newline of the text skips the indentation that Quote
       wrote in front of the next line (none in front of an empty line), and
       finds no closing delimiter at the line start *)
    Lemma step_newline : forall t k rbuf st we, is_bytes t -> no_delim qc hc t ->
      unq_loop (S k) qi
        (ch_nl :: match t with
                  | c :: _ => if negb (c =? ch_nl) then tabs (f_indent f) else []
                  | [] => []
                  end ++ esc f true hc t ++ closing) rbuf st we =
      unq_loop k qi (esc f true hc t ++ closing) (ch_nl :: rbuf) true false.
    Proof.
      intros t k rbuf st we Hb Hnd. cbn [Unquote.unq_loop].
      change (ch_nl =? ch_cr) with false. change (ch_nl =? ch_nl) with true. cbv iota.
      replace (skip_ws_after_newline _ qi) with (Ok (esc f true hc t ++ closing)).
      2:{ symmetry. destruct t as [|c t']; [apply skip_ws_nl|].
          destruct (N.eqb_spec c ch_nl) as [->|_]; [|apply skip_ws_tabs].
          destruct (esc_nl_head f hc t') as [X ->]. apply skip_ws_nl. }
      replace (has_closing_delim_prefix _ qi) with false; [now rewrite andb_false_r|].
      symmetry. exact (no_closing_prefix t _ Hb Hnd).
    Qed.
  End Multi.

  (* The loop invariant.  The fuel left is given as S k with length rest <= k so
     that the caller can run the closing delimiter (closing_loop needs two more
     iterations); the clause on st' is for the single-line callers, whose last
     iteration must not strip a newline. *)
  Lemma loop_rt : forall f ml hc, public_form f ->
    forall n t rest, (length t <= n)%nat -> is_bytes t ->
    (ml = true -> rest = ch_nl :: tabs (f_indent f) ++ triple (f_quote f) ++ hashes hc /\
                  no_delim (f_quote f) hc t) ->
    forall fuel rbuf st, (length (esc f ml hc t ++ rest) < fuel)%nat ->
    exists k st', (length rest <= k)%nat /\
      unq_loop fuel (qi_for f ml hc) (esc f ml hc t ++ rest) rbuf st false =
      unq_loop (S k) (qi_for f ml hc) rest (rev (expected f t) ++ rbuf) st' false /\
      (ml = false -> st = false -> st' = false).
  Proof.
    intros f ml hc Hpub.
    induction n as [|n IH]; intros t rest Hn Hb Hml fuel rbuf st Hfuel;
      (destruct fuel as [|k]; [lia|]);
      (destruct t as [|b t];
       [exists k, st; unfold expected; destruct (f_exact f); cbn in *; repeat split; auto; lia|]);
      [cbn in Hn; lia|].
    destruct (is_bytes_tail _ _ Hb) as [Hb1 Hb2]. unfold is_byte in Hb1.
    cbn [length] in Hn.
    pose proof (decode_spec b t) as DS.
    pose proof (decode_width b t) as W.
    rewrite esc_cons in *.
    destruct (utf8_decode (b :: t)) as [r w] eqn:D.
    rewrite (expected_step f b t r w D).
    assert (Hnd : forall x y, b :: t = x ++ y -> ml = true ->
              rest = ch_nl :: tabs (f_indent f) ++ triple (f_quote f) ++ hashes hc /\
              no_delim (f_quote f) hc y).
    { intros x y E H. destruct (Hml H) as [H1 H2]. split; [assumption|].
      rewrite E in H2. eapply no_delim_suffix; eassumption. }
    destruct (f_exact f && Nat.eqb w 1 && (r =? rune_error)) eqn:Ebad.
    { (* invalid byte, bytes form: \xHH *)
      apply andb_prop in Ebad. destruct Ebad as [Ebad Hr]. apply andb_prop in Ebad.
      destruct Ebad as [Hex Hw]. apply Nat.eqb_eq in Hw. subst w.
      rewrite <- !app_assoc in *. cbn [app] in *. rewrite <- !app_assoc in *.
      rewrite (step_bad_byte wrap f ml hc b _ k rbuf st false Hpub Hex Hb1).
      assert (Hk : (length (esc f ml hc t ++ rest) < k)%nat).
      { unfold esc_intro in Hfuel. cbn [length app] in Hfuel. rewrite !app_length in Hfuel.
        cbn [length] in Hfuel. rewrite !app_length in Hfuel. rewrite app_length. clear - Hfuel. lia. }
      destruct (IH t rest ltac:(lia) Hb2 (Hnd [b] t eq_refl) k (b :: rbuf) false Hk)
        as (k' & st' & H1 & H2 & H3).
      exists k', st'. split; [assumption|]. split; [|intros; apply H3; auto].
      rewrite H2, Hex. cbn [firstn skipn app rev]. now rewrite <- app_assoc. }
    destruct (ml && (r =? ch_nl)) eqn:Enl.
    { (* multi-line: a newline followed by the indentation of the next line *)
      destruct ml; [|discriminate]. apply N.eqb_eq in Enl. subst r.
      destruct DS as [[Hre _]|[_ [_ [_ [_ [_ Heq]]]]]]; [discriminate|].
      assert (Hbnl : b = ch_nl) by (symmetry; apply Heq; chars). subst b.
      rewrite (decode_ascii ch_nl t ltac:(chars)) in D. inversion D; subst w.
      destruct (Hnd [ch_nl] t eq_refl eq_refl) as [-> Hno].
      rewrite app_comm_cons in Hfuel. cbn [app] in *. rewrite <- !app_assoc in *.
      rewrite (step_newline f hc Hpub t k rbuf st false Hb2 Hno).
      match goal with |- context [unq_loop k _ (_ ++ ?cl)] => set (closing := cl) in * end.
      assert (Hk : (length (esc f true hc t ++ closing) < k)%nat).
      { cbn [length] in Hfuel. rewrite !app_length in Hfuel. rewrite app_length. lia. }
      destruct (IH t closing ltac:(lia) Hb2 (Hnd [ch_nl] t eq_refl) k (ch_nl :: rbuf) true Hk)
        as (k' & st' & H1 & H2 & H3).
      exists k', st'. split; [assumption|]. split; [|discriminate].
      rewrite H2. replace (if f_exact f then _ else _) with [ch_nl] by (now destruct (f_exact f)).
      cbn [skipn app rev]. now rewrite <- app_assoc. }
    (* an escaped or raw rune *)
    pose proof (decode_scalar _ _ _ D) as Hsc.
    rewrite <- app_assoc in *.
    rewrite (step_rune wrap pr_tbl gr_tbl f ml hc r
               (esc f ml hc (skipn w (b :: t)) ++ rest) k rbuf st false Hpub Hsc).
    2:{ intro H. destruct (Hml H) as [-> _]. rewrite app_length. cbn [length].
        rewrite !app_length, hashes_length. cbn [length triple]. lia. }
    assert (Hl : (length (skipn w (b :: t)) <= n)%nat) by (rewrite skipn_length; cbn [length] in *; lia).
    assert (Hk : (length (esc f ml hc (skipn w (b :: t)) ++ rest) < k)%nat).
    { rewrite app_length in Hfuel.
      destruct (escaped_rune_head f ml hc r Hsc) as [[tl E]|[[_ [_ [E _]]]|[_ [b' [tl [E _]]]]]];
        rewrite E in Hfuel; cbn [length] in Hfuel; lia. }
    destruct (IH (skipn w (b :: t)) rest Hl (is_bytes_skipn w _ Hb) (Hnd _ _ (eq_sym (firstn_skipn w _)))
                k (rev (utf8_encode r) ++ rbuf) false Hk)
      as (k' & st' & H1 & H2 & H3).
    exists k', st'. split; [assumption|]. split; [|intros; apply H3; auto].
    rewrite H2, rev_app_distr, <- app_assoc. do 4 f_equal.
    (* in a bytes form the bytes read were valid: they are the encoding of r *)
    destruct (f_exact f); [|reflexivity].
    destruct DS as [[-> ->]|[_ [Hfirst _]]]; [discriminate Ebad|now symmetry].
  Qed.
End Loops.
