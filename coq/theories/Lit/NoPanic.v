(* Totality of the modelled Unquote: fuel is always sufficient (each iteration
   consumes at least one byte), and literal.Unquote (uint32 accumulator for
   \U escapes) never reaches one of Go's panics:
     - unquoteChar(ss, q) on an empty ss in the surrogate-pair path,
     - buf[:len(buf)-1] on an empty buffer,
     - panic(unreachable).
   The int32 layer (\U digits accumulated in an int32 rune, which wraps at 2^31:
   design/C09.md, finding unquote-U) does reach panic(unreachable) (Examples.v). *)
From Verif Require Import Utf8.Model Utf8.Proofs Lit.Quote Lit.Unquote Lit.Basics.
From Coq Require Import ZArith Lia ZifyN ZifyNat ZifyBool.

Definition hexdigit (d : N) : Prop := unhex d <> None.

(* s is empty or ends with the last byte of the closing delimiter *)
Definition ends_ok (q : qinfo) (s : str) : Prop :=
  s = [] \/ exists pre e, s = pre ++ [e] /\ (e = q_char q \/ e = ch_hash).

Lemma ends_ok_suffix : forall q pre t, ends_ok q (pre ++ t) -> ends_ok q t.
Proof.
  intros q pre t [H|[p [e [H He]]]].
  - left. now destruct pre, t.
  - destruct t as [|x t'] using rev_ind; [now left|]. right.
    exists t', x. split; [reflexivity|].
    rewrite app_assoc in H. apply app_inj_tail in H. destruct H as [_ ->]. exact He.
Qed.

Lemma hex_value_digits : forall ds acc v, hex_value ds acc = Some v -> Forall hexdigit ds.
Proof.
  induction ds as [|d ds IH]; intros acc v H; [constructor|].
  cbn [hex_value] in H. destruct (unhex d) eqn:E; [|discriminate].
  constructor; [unfold hexdigit; congruence|]. eapply IH; eauto.
Qed.

Lemma unhex_lt16 : forall d x, unhex d = Some x -> x < 16.
Proof.
  intros d x H. unfold unhex, in_range in H.
  repeat match type of H with (if ?c then _ else _) = _ => destruct c eqn:? end;
    inversion H; subst; lia.
Qed.

Lemma hex_value_bound : forall ds acc v, hex_value ds acc = Some v ->
  v < (acc + 1) * 16 ^ N.of_nat (length ds).
Proof.
  induction ds as [|d ds IH]; intros acc v H.
  - cbn in H. inversion H; subst. cbn. lia.
  - cbn [hex_value] in H. destruct (unhex d) eqn:E; [|discriminate].
    apply unhex_lt16 in E. apply IH in H.
    cbn [length]. rewrite Nat2N.inj_succ, N.pow_succ_r'.
    eapply N.lt_le_trans; [exact H|].
    rewrite N.mul_assoc. apply N.mul_le_mono_r. lia.
Qed.

Lemma skipn_suffix : forall n (s : str), exists pre, s = pre ++ skipn n s.
Proof. intros n s. exists (firstn n s). symmetry. apply firstn_skipn. Qed.

Section NoPanic.
  Variable wrap : bool.
  Notation unquote_char := (unquote_char wrap).
  Notation unquote_escape := (unquote_escape wrap).
  Notation unq_first := (unq_first wrap).
  Notation unq_loop := (unq_loop wrap).

  Definition special_or_nonneg (c : Z) : Prop :=
    (0 <= c)%Z \/ c = terminated_by_quote \/ c = terminated_by_expr \/ c = escaped_newline.

  (* what unquoteChar guarantees when it returns the value c and leaves ss of s:
     ss is a suffix; a surrogate half can only come from a hex escape, whose last
     digit then stands right before ss; without wrap-around the only negative
     values are the three sentinels *)
  Definition consumed (s : str) (c : Z) (ss : str) : Prop :=
    (exists pre, s = pre ++ ss) /\
    ((sur_high <= c < sur_end)%Z -> exists pre d, s = pre ++ d :: ss /\ hexdigit d) /\
    (wrap = false -> special_or_nonneg c).

  Lemma consumed_small : forall pre ss v, v < 0xD800 -> consumed (pre ++ ss) (Z.of_N v) ss.
  Proof.
    intros pre ss v Hv. split; [now exists pre|]. unfold sur_high. split; [lia|].
    intros _. left. lia.
  Qed.

  Lemma consumed_special : forall pre ss c,
    c = terminated_by_quote \/ c = terminated_by_expr \/ c = escaped_newline ->
    consumed (pre ++ ss) c ss.
  Proof.
    intros pre ss c Hc. split; [now exists pre|].
    unfold sur_high, terminated_by_quote, terminated_by_expr, escaped_newline in *.
    split; [lia|]. intros _. now right.
  Qed.

  Lemma consumed_more : forall p s c ss, consumed s c ss -> consumed (p ++ s) c ss.
  Proof.
    intros p s c ss ([pre ->] & Hsur & Hval). split; [exists (p ++ pre); apply app_assoc|].
    split; [|exact Hval]. intro Hc. destruct (Hsur Hc) as (pre' & d & -> & Hd).
    exists (p ++ pre'), d. split; [apply app_assoc|exact Hd].
  Qed.

  Lemma unquote_escape_consumed : forall q e s2 c mb ss,
    unquote_escape q e s2 = Ok (c, mb, ss) -> consumed s2 c ss.
  Proof.
    intros q e s2 c mb ss H. unfold Unquote.unquote_escape in H.
    assert (Hsimple : forall v, v < 0xD800 -> Ok (Z.of_N v, false, s2) = Ok (c, mb, ss) -> consumed s2 c ss).
    { intros v Hv E. injection E as <- _ <-. now apply (consumed_small []). }
    (* the eight one-letter escapes *)
    destruct (e =? 97); [now apply (Hsimple 7)|].
    destruct (e =? 98); [now apply (Hsimple 8)|].
    destruct (e =? 102); [now apply (Hsimple 12)|].
    destruct (e =? 110); [now apply (Hsimple 10)|].
    destruct (e =? 114); [now apply (Hsimple 13)|].
    destruct (e =? 116); [now apply (Hsimple 9)|].
    destruct (e =? 118); [now apply (Hsimple 11)|].
    destruct (e =? 47); [now apply (Hsimple 47)|].
    destruct ((e =? 120) || (e =? 117) || (e =? 85)) eqn:Ehex.
    { set (n := if e =? 120 then 2%nat else if e =? 117 then 4%nat else 8%nat) in *.
      destruct (Nat.ltb (length s2) n) eqn:Elen; [discriminate|].
      apply Nat.ltb_ge in Elen.
      destruct (hex_value (firstn n s2) 0) as [v|] eqn:Ev; [|discriminate].
      (* the digits consumed end with a hex digit; the value is not negative *)
      assert (Hc : forall c', (wrap = false -> (0 <= c')%Z) -> consumed s2 c' (skipn n s2)).
      { intros c' Hc'. split; [apply skipn_suffix|]. split; [intros _|intro Hw; left; auto].
        assert (Hfl : length (firstn n s2) = n) by (rewrite firstn_length; lia).
        pose proof (hex_value_digits _ _ _ Ev) as Hd.
        destruct (firstn n s2) as [|x l] eqn:Ef using rev_ind.
        { unfold n in Hfl. destruct (e =? 120), (e =? 117); discriminate. }
        exists l, x. apply Forall_app in Hd. destruct Hd as [_ Hd]. split; [|now inversion Hd].
        rewrite <- (firstn_skipn n s2) at 1. now rewrite Ef, <- app_assoc. }
      destruct (e =? 120).
      - destruct (q_char q =? ch_dq); [discriminate|]. injection H as <- _ <-. apply Hc. lia.
      - destruct (Z.of_N max_rune <? to_rune wrap v)%Z; [discriminate|]. injection H as <- _ <-.
        apply Hc. intros ->. unfold to_rune. cbn [andb]. lia. }
    destruct (in_range 48 55 e).
    { destruct (q_char q =? ch_dq); [discriminate|].
      destruct s2 as [|d1 [|d2 s3]]; try discriminate.
      destruct (in_range 48 55 d1 && in_range 48 55 d2); [|discriminate].
      destruct (255 <? _) eqn:E255; [discriminate|]. injection H as <- _ <-.
      apply (consumed_small [d1; d2]). lia. }
    destruct (e =? ch_bs); [now apply (Hsimple ch_bs)|].
    destruct ((e =? ch_sq) || (e =? ch_dq)) eqn:Eq.
    { destruct (negb (e =? q_char q)); [discriminate|].
      apply (Hsimple e); [chars|exact H]. }
    destruct (e =? 40).
    { destruct s2; [|discriminate]. injection H as <- _ <-. apply (consumed_special []). auto. }
    destruct (e =? ch_cr).
    { destruct s2 as [|c2 s3]; [discriminate|]. destruct (c2 =? ch_nl); [|discriminate].
      injection H as <- _ <-. apply (consumed_special [c2]). auto. }
    destruct (e =? ch_nl); [|discriminate].
    injection H as <- _ <-. apply (consumed_special []). auto.
  Qed.

  Lemma ue_total : forall q e s2, unquote_escape q e s2 <> Panic /\ unquote_escape q e s2 <> OutOfFuel.
  Proof.
    intros q e s2. unfold Unquote.unquote_escape.
    repeat match goal with
    | |- context [if ?c then _ else _] => destruct c
    | |- context [match ?x with Some _ => _ | None => _ end] => destruct x
    | |- context [match ?l with [] => _ | _ :: _ => _ end] => destruct l
    end; split; discriminate.
  Qed.

  Lemma unquote_char_consumed : forall q s c mb ss, q_char q = ch_dq \/ q_char q = ch_sq ->
    unquote_char s q = Ok (c, mb, ss) -> (length ss < length s)%nat /\ consumed s c ss.
  Proof.
    intros q s c mb ss Hq H. unfold Unquote.unquote_char in H.
    destruct s as [|b t]; [discriminate|].
    assert (Hlit : forall v, v < 0xD800 -> Ok (Z.of_N v, false, t) = Ok (c, mb, ss) ->
              (length ss < length (b :: t))%nat /\ consumed (b :: t) c ss).
    { intros v Hv E. injection E as <- _ <-. split; [cbn; lia|now apply (consumed_small [b])]. }
    assert (Hqv : q_char q < 0xD800) by chars.
    destruct ((b =? q_char q) && negb (q_char q =? 0)).
    { destruct (negb (prefixb _ t)); [now apply (Hlit (q_char q))|].
      destruct (negb (prefixb _ _)); [now apply (Hlit (q_char q))|].
      destruct (negb (Nat.eqb _ _)).
      - destruct (Nat.eqb (q_numchar q) 3); [now apply (Hlit (q_char q))|discriminate].
      - injection H as <- _ <-. split; [cbn; lia|].
        rewrite <- (app_nil_r (b :: t)) at 1. apply consumed_special. auto. }
    destruct (rune_self <=? b) eqn:Eself.
    { pose proof (decode_spec b t) as DS. pose proof (decode_width b t) as W.
      destruct (utf8_decode (b :: t)) as [r size].
      destruct ((r =? rune_error) && Nat.eqb size 1) eqn:Ebad; [discriminate|]. injection H as <- _ <-.
      split; [rewrite skipn_length; lia|].
      split; [apply skipn_suffix|]. split; [|intros _; left; lia].
      intros Hs. exfalso. unfold sur_high, sur_end in Hs.
      destruct DS as [[-> ->]|[[Hs1 Hs2] _]]; [discriminate Ebad|lia]. }
    destruct (negb (b =? ch_bs)).
    { destruct (b =? 0); [discriminate|]. apply (Hlit b); [unfold rune_self in Eself; lia|exact H]. }
    destruct (skipn (q_numhash q) t) as [|e s2] eqn:Esk; [now apply (Hlit ch_bs)|].
    destruct (negb (prefixb _ t)); [now apply (Hlit ch_bs)|].
    pose proof (unquote_escape_consumed q e s2 c mb ss H) as Hc.
    assert (Ht : b :: t = (b :: firstn (q_numhash q) t ++ [e]) ++ s2).
    { cbn [app]. rewrite <- app_assoc. cbn [app]. rewrite <- Esk. now rewrite firstn_skipn. }
    rewrite Ht. split; [|now apply consumed_more].
    destruct Hc as [[pre ->] _]. rewrite !app_length. cbn [length]. lia.
  Qed.

  Lemma uc_total : forall q s, s <> [] ->
    unquote_char s q <> Panic /\ unquote_char s q <> OutOfFuel.
  Proof.
    intros q s Hs. destruct s as [|b t]; [contradiction|]. unfold Unquote.unquote_char.
    repeat match goal with
    | |- context [if ?c then _ else _] => destruct c
    | |- context [let '(_, _) := ?x in _] => destruct x
    | |- context [match skipn ?n ?l with [] => _ | _ :: _ => _ end] => destruct (skipn n l)
    end; try (split; discriminate).
    apply ue_total.
  Qed.

  Lemma not_hexdigit_delim : forall q e, q_char q = ch_dq \/ q_char q = ch_sq ->
    e = q_char q \/ e = ch_hash -> ~ hexdigit e.
  Proof.
    intros q e Hq He Hh. apply Hh.
    destruct He as [->| ->]; [destruct Hq as [-> | ->]|]; reflexivity.
  Qed.

  Lemma first_suffix : forall q s c mb ss, q_char q = ch_dq \/ q_char q = ch_sq ->
    unq_first s q = Ok (c, mb, ss) -> (length ss < length s)%nat /\ exists pre, s = pre ++ ss.
  Proof.
    intros q s c mb ss Hq H. unfold Unquote.unq_first in H.
    destruct (unquote_char s q) as [[[c1 mb1] ss1]|e| |] eqn:E1; try discriminate.
    destruct (unquote_char_consumed q s c1 mb1 ss1 Hq E1) as (Hl & [pre ->] & _).
    destruct (_ && _); [|split; [congruence|exists pre; congruence]].
    destruct (sur_low <=? c1)%Z; [discriminate|].
    destruct (unquote_char ss1 q) as [[[cl mb2] ss2]|e| |] eqn:E2; try discriminate.
    destruct (unquote_char_consumed q ss1 cl mb2 ss2 Hq E2) as (Hl2 & [pre2 ->] & _).
    destruct (_ || _); [discriminate|].
    assert (ss = ss2) as -> by congruence.
    split; [lia|]. exists (pre ++ pre2). apply app_assoc.
  Qed.

  Lemma unq_first_total : forall q s, q_char q = ch_dq \/ q_char q = ch_sq -> s <> [] -> ends_ok q s ->
    unq_first s q <> Panic /\ unq_first s q <> OutOfFuel /\
    forall c mb ss, unq_first s q = Ok (c, mb, ss) -> wrap = false -> special_or_nonneg c.
  Proof.
    intros q s Hq Hs He. unfold Unquote.unq_first.
    destruct (uc_total q s Hs) as [Hp Hf].
    destruct (unquote_char s q) as [[[c1 mb] ss]|e| |] eqn:E1; try contradiction.
    2:{ repeat split; try discriminate. }
    destruct (unquote_char_consumed q s c1 mb ss Hq E1) as (_ & _ & Hsur & Hval).
    destruct ((sur_high <=? c1)%Z && (c1 <? sur_end)%Z) eqn:Esur.
    2:{ repeat split; try discriminate. intros c mb0 ss0 H. inversion H; subst. exact Hval. }
    destruct (sur_low <=? c1)%Z; [repeat split; discriminate|].
    (* the second call: ss is not empty because s ends with a delimiter byte *)
    assert (Hss : ss <> []).
    { intros ->. destruct (Hsur ltac:(lia)) as [p [d [Hp' Hd]]].
      destruct He as [He|[p2 [e [He1 He2]]]]; [contradiction|].
      rewrite He1 in Hp'.
      apply app_inj_tail in Hp'. destruct Hp' as [_ ->].
      exact (not_hexdigit_delim q d Hq He2 Hd). }
    destruct (uc_total q ss Hss) as [Hp2 Hf2].
    destruct (unquote_char ss q) as [[[cl mb2] ss2]|e2| |] eqn:E2; try contradiction.
    2:{ repeat split; discriminate. }
    destruct ((cl <? sur_low)%Z || (sur_end <=? cl)%Z) eqn:Ecl; [repeat split; discriminate|].
    set (cc := (0x10000 + (c1 - sur_high) * 0x400 + (cl - sur_low))%Z).
    assert (Hcc : (0 <= cc)%Z) by (unfold cc, sur_high, sur_low, sur_end in *; lia).
    clearbody cc.
    split; [discriminate|]. split; [discriminate|].
    intros c mb0 ss0 H _. injection H as <- _ _. left. exact Hcc.
  Qed.

  Lemma skip_ws_suffix : forall s q s1, skip_ws_after_newline s q = Ok s1 -> exists pre, s = pre ++ s1.
  Proof.
    intros s q s1 H. unfold skip_ws_after_newline in H.
    destruct (negb (q_multi q)); [discriminate|].
    destruct (prefixb (q_ws q) s); [inversion H; apply skipn_suffix|].
    destruct (prefixb [ch_nl] s); [inversion H; exists []; reflexivity|].
    destruct (prefixb [ch_cr; ch_nl] s); [inversion H; exists []; reflexivity|discriminate].
  Qed.

  Lemma skip_ws_total : forall s q, skip_ws_after_newline s q <> Panic /\ skip_ws_after_newline s q <> OutOfFuel.
  Proof.
    intros s q. unfold skip_ws_after_newline.
    repeat match goal with |- context [if ?c then _ else _] => destruct c end; split; discriminate.
  Qed.

  Lemma unq_loop_safe : forall fuel q s rbuf st we, q_char q = ch_dq \/ q_char q = ch_sq ->
    (length s < fuel)%nat -> ends_ok q s -> (st = true -> rbuf <> []) ->
    unq_loop fuel q s rbuf st we <> OutOfFuel /\
    (wrap = false -> unq_loop fuel q s rbuf st we <> Panic).
  Proof.
    induction fuel as [|k IH]; intros q s rbuf st we Hq Hl He Hst; [lia|].
    destruct s as [|c t]; [now split|].
    cbn [Unquote.unq_loop]. cbn [length] in Hl.
    assert (Het : ends_ok q t) by (apply (ends_ok_suffix q [c] t); exact He).
    destruct (c =? ch_cr).
    { apply IH; auto. lia. }
    destruct (c =? ch_nl).
    { destruct (skip_ws_total t q) as [Hp Hf].
      destruct (skip_ws_after_newline t q) as [s1|e| |] eqn:Es; try contradiction.
      2:{ now split. }
      destruct (skip_ws_suffix _ _ _ Es) as [pre Hpre].
      destruct (q_multi q && has_closing_delim_prefix s1 q && Nat.ltb (delim_len q) (length s1));
        [now split|].
      apply IH; auto.
      - rewrite Hpre in Hl. rewrite app_length in Hl. lia.
      - rewrite Hpre in Het. eapply ends_ok_suffix; eauto.
      - intros _. discriminate. }
    destruct (unq_first_total q (c :: t) Hq ltac:(discriminate) He) as [Hp [Hf Hok]].
    destruct (unq_first (c :: t) q) as [[[c1 mb] ss]|e| |] eqn:E1; try contradiction.
    2:{ now split. }
    pose proof (Hok c1 mb ss eq_refl) as Hval.
    destruct (first_suffix q (c :: t) c1 mb ss Hq E1) as (Hlss & pre & Hsplit).
    cbn [length] in Hlss.
    assert (Hess : ends_ok q ss) by (rewrite Hsplit in He; eapply ends_ok_suffix; eauto).
    destruct (c1 <? 0)%Z eqn:Eneg.
    - destruct (c1 =? escaped_newline)%Z eqn:Een.
      { destruct (skip_ws_total ss q) as [Hp2 Hf2].
        destruct (skip_ws_after_newline ss q) as [s1|e| |] eqn:Es; try contradiction.
        2:{ now split. }
        destruct (skip_ws_suffix _ _ _ Es) as [pre2 Hpre2].
        apply IH; auto.
        - rewrite Hpre2 in Hlss. rewrite app_length in Hlss. lia.
        - rewrite Hpre2 in Hess. eapply ends_ok_suffix; eauto. }
      destruct (c1 =? terminated_by_quote)%Z eqn:Etq.
      { destruct we; [now split|].
        destruct st; [|now split].
        destruct rbuf; [exfalso; now apply Hst|now split]. }
      destruct (c1 =? terminated_by_expr)%Z eqn:Ete; [now split|].
      split; [discriminate|]. intros Hw. exfalso.
      destruct (Hval Hw) as [H|[H|[H|H]]]; unfold terminated_by_quote, terminated_by_expr, escaped_newline in *; lia.
    - destruct (negb mb); apply IH; auto; try lia; intros; discriminate.
  Qed.

  Lemma pq_finish_ok : forall start end_ nh c0 m q ns ne,
    pq_finish start end_ nh c0 m = Ok (q, ns, ne) ->
    q_char q = c0 /\
    prefixb (firstn ((match m with Some _ => 3 | None => 1 end) + nh) start) (rev end_) = true.
  Proof.
    intros start end_ nh c0 m q ns ne H. unfold pq_finish in H.
    match type of H with (if negb (?a && ?b) then _ else _) = _ => destruct a; destruct b eqn:Eb end;
      try discriminate.
    cbn [andb negb] in H. split; [|reflexivity].
    destruct m as [ql|]; [|inversion H; reflexivity].
    destruct (ws_scan _ _) as [has_nl i]. destruct (negb has_nl); [discriminate|].
    destruct (skipn (S ql) start) as [|c rest]; [inversion H; reflexivity|].
    destruct (negb (c =? ch_nl)); [|inversion H; reflexivity].
    destruct (negb (prefixb _ _)); [discriminate|inversion H; reflexivity].
  Qed.

  Lemma parse_quotes_total : forall a b, parse_quotes a b <> Panic /\ parse_quotes a b <> OutOfFuel.
  Proof.
    intros. unfold parse_quotes, pq_kind, pq_finish. cbv zeta.
    repeat match goal with
    | |- context [if ?c then _ else _] => destruct c
    | |- context [let '(_, _) := ?x in _] => destruct x
    | |- context [match ?l with [] => _ | _ :: _ => _ end] => destruct l
    | |- context [match ?o with Some _ => _ | None => _ end] => destruct o
    end; split; discriminate.
  Qed.

  Lemma parse_quotes_ends_ok : forall s q ns ne, parse_quotes s s = Ok (q, ns, ne) ->
    (q_char q = ch_dq \/ q_char q = ch_sq) /\ ends_ok q s.
  Proof.
    intros s q ns ne H. unfold parse_quotes in H. cbv zeta in H.
    destruct (count_prefix_split ch_hash s) as [Hs _].
    set (nh := count_prefix ch_hash s) in *.
    destruct (skipn nh s) as [|c0 s1] eqn:Esk; [discriminate|].
    destruct ((c0 =? ch_dq) || (c0 =? ch_sq)) eqn:Eq; [|discriminate].
    destruct (pq_kind c0 nh s1) as [m|e| |]; try discriminate.
    destruct (pq_finish_ok _ _ _ _ _ _ _ _ H) as [Hc Hp].
    split; [rewrite Hc; lia|].
    (* the first byte of the literal is the last byte of the closing delimiter *)
    right.
    set (ln := ((match m with Some _ => 3 | None => 1 end) + nh)%nat) in *.
    assert (Hln : (1 <= ln)%nat) by (unfold ln; destruct m; lia).
    destruct s as [|b0 s']; [destruct nh; discriminate|].
    destruct ln as [|ln']; [lia|]. cbn [firstn] in Hp.
    apply prefixb_spec in Hp. destruct Hp as [r Hr]. cbn [app] in Hr.
    exists (rev (firstn ln' s' ++ r)), b0. split.
    - rewrite <- (rev_involutive (b0 :: s')). rewrite Hr. reflexivity.
    - rewrite Hc. destruct nh as [|nh']; cbn [repeat app] in Hs; inversion Hs; auto.
  Qed.

  Theorem unquote_total : forall s,
    unquote wrap s <> OutOfFuel /\ (wrap = false -> unquote wrap s <> Panic).
  Proof.
    intros s. unfold Unquote.unquote.
    destruct (parse_quotes_total s s) as [Hp Hf].
    destruct (parse_quotes s s) as [[[q ns] ne]|e| |] eqn:E; try contradiction.
    2:{ now split. }
    destruct (parse_quotes_ends_ok _ _ _ _ E) as [Hq He].
    assert (He' : ends_ok q (skipn ns s)).
    { destruct (skipn_suffix ns s) as [pre Hpre]. rewrite Hpre in He. eapply ends_ok_suffix; eauto. }
    unfold qi_unquote.
    destruct (negb (q_multi q) && negb match skipn ns s with [] => true | _ :: _ => false end &&
              existsb (fun c => c =? ch_nl) (skipn ns s)); [now split|].
    match goal with |- context [match ?o with Some r => Ok r | None => _ end] => destruct o end;
      [now split|].
    destruct (q_multi q && has_closing_delim_prefix (skipn ns s) q && Nat.ltb (delim_len q) (length (skipn ns s)));
      [now split|].
    apply unq_loop_safe; auto. intros; discriminate.
  Qed.
End NoPanic.

(* the int32 regression layer never runs out of fuel either: its only deviation is the Panic *)
Theorem unquote_int32_fuel_sufficient : forall s, unquote_int32 s <> OutOfFuel.
Proof. intro s. exact (proj1 (unquote_total true s)). Qed.

(* no byte 'U' is directly followed by a hex digit >= 8: then no \U escape can
   denote a value >= 2^31, the only situation in which Go's int32 wraps *)
Fixpoint no_big_U (s : str) : bool :=
  match s with
  | a :: t =>
    match t with
    | b :: _ =>
      negb ((a =? 85) && match unhex b with Some x => 8 <=? x | None => false end) && no_big_U t
    | [] => true
    end
  | [] => true
  end.

Lemma no_big_U_tail : forall a t, no_big_U (a :: t) = true -> no_big_U t = true.
Proof. intros a t H. cbn [no_big_U] in H. destruct t; [reflexivity|]. apply andb_prop in H. tauto. Qed.

Lemma no_big_U_suffix : forall pre t, no_big_U (pre ++ t) = true -> no_big_U t = true.
Proof. induction pre; intros t H; [exact H|]. apply IHpre. eapply no_big_U_tail. exact H. Qed.

Lemma ue_wrap_irrelevant : forall q e s2, no_big_U (e :: s2) = true ->
  unquote_escape true q e s2 = unquote_escape false q e s2.
Proof.
  intros q e s2 H. unfold unquote_escape.
  repeat match goal with |- (if ?c then _ else _) = (if ?c then _ else _) => destruct c eqn:?; [reflexivity|] end.
  destruct ((e =? 120) || (e =? 117) || (e =? 85)) eqn:Ehex; [|reflexivity].
  set (n := if e =? 120 then 2%nat else if e =? 117 then 4%nat else 8%nat).
  destruct (Nat.ltb (length s2) n) eqn:Elen; [reflexivity|].
  destruct (hex_value (firstn n s2) 0) as [v|] eqn:Ev; [|reflexivity].
  destruct (e =? 120) eqn:E120; [reflexivity|].
  assert (Hv : v < 0x80000000).
  { apply Nat.ltb_ge in Elen. unfold n in *. clear n. cbv iota in Elen, Ev.
    destruct (e =? 117) eqn:E117.
    - apply hex_value_bound in Ev. rewrite firstn_length_le in Ev by exact Elen.
      change (16 ^ N.of_nat 4) with 65536 in Ev. clear - Ev. lia.
    - assert (He : e = 85) by lia. subst e.
      (* the first of the eight digits is below 8 *)
      destruct s2 as [|d1 s3]; [cbn in Elen; lia|].
      change (firstn 8 (d1 :: s3)) with (d1 :: firstn 7 s3) in Ev.
      cbn [hex_value no_big_U length] in Ev, H, Elen. rewrite N.eqb_refl in H.
      destruct (unhex d1) as [x1|]; [|discriminate].
      apply hex_value_bound in Ev. rewrite firstn_length_le in Ev by lia.
      change (16 ^ N.of_nat 7) with 268435456 in Ev.
      apply andb_prop in H. destruct H as [H _]. clear - Ev H. lia. }
  unfold to_rune. replace (0x80000000 <=? v) with false by lia. rewrite andb_false_r. reflexivity.
Qed.

Lemma uc_wrap_irrelevant : forall q s, no_big_U s = true ->
  unquote_char true s q = unquote_char false s q.
Proof.
  intros q s H. unfold unquote_char. destruct s as [|b t]; [reflexivity|].
  destruct ((b =? q_char q) && negb (q_char q =? 0)); [reflexivity|].
  destruct (rune_self <=? b); [reflexivity|].
  destruct (negb (b =? ch_bs)); [reflexivity|].
  destruct (skipn (q_numhash q) t) as [|e s2] eqn:Esk; [reflexivity|].
  destruct (negb (prefixb _ t)); [reflexivity|].
  apply ue_wrap_irrelevant.
  apply no_big_U_tail in H. destruct (skipn_suffix (q_numhash q) t) as [pre Hpre].
  rewrite Hpre, Esk in H. eapply no_big_U_suffix. exact H.
Qed.

Lemma first_wrap_irrelevant : forall q s, q_char q = ch_dq \/ q_char q = ch_sq ->
  no_big_U s = true -> unq_first true s q = unq_first false s q.
Proof.
  intros q s Hq H. unfold unq_first. rewrite (uc_wrap_irrelevant q s H).
  destruct (unquote_char false s q) as [[[c1 mb] ss]|e| |] eqn:E1; [|reflexivity|reflexivity|reflexivity].
  destruct (unquote_char_consumed false q s c1 mb ss Hq E1) as (_ & [pre Hsplit] & _).
  assert (Hss : no_big_U ss = true) by (rewrite Hsplit in H; eapply no_big_U_suffix; eauto).
  rewrite (uc_wrap_irrelevant q ss Hss). reflexivity.
Qed.

Lemma unq_loop_wrap_irrelevant : forall fuel q s rbuf st we, q_char q = ch_dq \/ q_char q = ch_sq ->
  no_big_U s = true -> unq_loop true fuel q s rbuf st we = unq_loop false fuel q s rbuf st we.
Proof.
  induction fuel as [|k IH]; intros q s rbuf st we Hq H; [reflexivity|].
  destruct s as [|c t]; [reflexivity|]. cbn [unq_loop].
  pose proof (no_big_U_tail _ _ H) as Ht.
  destruct (c =? ch_cr); [apply IH; auto|].
  destruct (c =? ch_nl).
  { destruct (skip_ws_after_newline t q) as [s1|e| |] eqn:Es; [|reflexivity|reflexivity|reflexivity].
    destruct (skip_ws_suffix _ _ _ Es) as [pre Hpre].
    destruct (q_multi q && has_closing_delim_prefix s1 q && Nat.ltb (delim_len q) (length s1)); [reflexivity|].
    apply IH; auto. rewrite Hpre in Ht. eapply no_big_U_suffix; eauto. }
  rewrite (first_wrap_irrelevant q (c :: t) Hq H).
  destruct (unq_first false (c :: t) q) as [[[c1 mb] ss]|e| |] eqn:E1; [|reflexivity|reflexivity|reflexivity].
  destruct (first_suffix false q (c :: t) c1 mb ss Hq E1) as (_ & pre & Hsplit).
  assert (Hss : no_big_U ss = true) by (rewrite Hsplit in H; eapply no_big_U_suffix; eauto).
  destruct (c1 <? 0)%Z.
  - destruct (c1 =? escaped_newline)%Z; [|reflexivity].
    destruct (skip_ws_after_newline ss q) as [s1|e| |] eqn:Es; [|reflexivity|reflexivity|reflexivity].
    destruct (skip_ws_suffix _ _ _ Es) as [pre2 Hpre].
    apply IH; auto. rewrite Hpre in Hss. eapply no_big_U_suffix; eauto.
  - destruct (negb mb); apply IH; auto.
Qed.

(* the witness of the deviation violates the side condition, as it must *)
Example no_big_U_witness :
  no_big_U [34; 92; 85; 70; 70; 70; 70; 70; 70; 70; 67; 34] = false /\
  no_big_U [34; 92; 85; 48; 48; 49; 48; 70; 70; 70; 70; 34] = true.
Proof. split; vm_compute; reflexivity. Qed.
