(* Text that Unquote reads back unchanged: the fast path of QuoteInfo.Unquote
   (isSimple) and the hash-delimited single-line form produced by
   WithOptionalHashes (singleLineHashCount), where Quote emits the text raw. *)
From Verif Require Import Utf8.Model Utf8.Proofs Lit.Quote Lit.Unquote Lit.Basics Lit.Steps Lit.Loops.
From Coq Require Import ZArith Lia ZifyN ZifyNat ZifyBool.

(* [plain qc nh rest s]: s is a sequence of valid runes, none of them NUL, CR or
   LF, and every quote or backslash is followed (in s ++ rest) by fewer than nh
   hashes -- so it is neither a closing delimiter nor an escape introducer *)
Inductive plain (qc : N) (nh : nat) (rest : str) : str -> Prop :=
| plain_nil : plain qc nh rest []
| plain_cons : forall r tl, scalar r -> r <> 0 -> r <> ch_nl -> r <> ch_cr ->
    ((r = qc \/ r = ch_bs) -> (count_prefix ch_hash (tl ++ rest) < nh)%nat) ->
    plain qc nh rest tl -> plain qc nh rest (utf8_encode r ++ tl).

Lemma plain_valid : forall qc nh rest s, plain qc nh rest s -> valid_utf8 s.
Proof. induction 1; constructor; assumption. Qed.

Lemma plain_no_crnl : forall qc nh rest s, plain qc nh rest s ->
  Forall (fun x => x <> ch_nl /\ x <> ch_cr) s.
Proof.
  induction 1 as [|r tl Hsc H0 Hnl Hcr _ _ IH]; [constructor|].
  apply Forall_app. split; [|exact IH].
  destruct (N.ltb_spec r 0x80) as [Hlt|Hge].
  - rewrite encode_ascii by assumption. constructor; [split; assumption|constructor].
  - destruct (encode_high r Hge) as [Hall _]. eapply Forall_impl; [|exact Hall].
    cbn. chars.
Qed.

Section Raw.
  Variable wrap : bool.
  Variable pr_tbl gr_tbl : N -> bool.
  Notation unq_loop := (unq_loop wrap).

  Lemma raw_loop : forall qc nh ws rest s, plain qc nh rest s ->
    qc = ch_dq \/ qc = ch_sq ->
    forall fuel rbuf, (length (s ++ rest) < fuel)%nat ->
    exists k, (length rest <= k)%nat /\
      unq_loop fuel (mkQ nh false qc 1 ws) (s ++ rest) rbuf false false =
      unq_loop (S k) (mkQ nh false qc 1 ws) rest (rev s ++ rbuf) false false.
  Proof.
    intros qc nh ws rest s Hp Hq. set (Q := mkQ nh false qc 1 ws).
    induction Hp as [|r tl Hsc H0 Hnl Hcr Hrun Hp IH]; intros fuel rbuf Hfuel;
      (destruct fuel as [|k]; [lia|]).
    { exists k. cbn [app rev length] in *. split; [lia|reflexivity]. }
    rewrite <- app_assoc in *.
    assert (Hk : (length (tl ++ rest) < k)%nat).
    { rewrite app_length in Hfuel. pose proof (encode_length_bounds r). lia. }
    destruct (IH k (rev (utf8_encode r) ++ rbuf) Hk) as (k' & H1 & H2).
    exists k'. split; [assumption|].
    rewrite rev_app_distr, <- app_assoc, <- H2.
    apply step_raw; auto; [cbn; chars|]. intro Hlt.
    destruct (N.eqb_spec r qc) as [->|Hne].
    - apply (uc_quote_short_run wrap Q); try reflexivity; [cbn; chars|]. apply Hrun. now left.
    - destruct (N.eqb_spec r ch_bs) as [->|Hnb].
      + apply (uc_backslash_short_run wrap Q); [cbn; chars|]. apply Hrun. now right.
      + now apply uc_ascii.
  Qed.

  Lemma is_simple_plain : forall qc rest fuel s, (length s <= fuel)%nat ->
    is_simple fuel s qc = true ->
    Forall (fun x => x <> ch_nl /\ x <> ch_cr) s ->
    plain qc 0 rest s.
  Proof.
    intros qc rest. induction fuel as [|k IH]; intros s Hl Hs Hf.
    { destruct s; [constructor|cbn in Hl; lia]. }
    destruct s as [|b t]; [constructor|].
    cbn [is_simple] in Hs.
    destruct (utf8_decode (b :: t)) as [r w] eqn:D.
    destruct ((r =? qc) || (r =? ch_bs) || (r =? 0) || (r =? rune_error)) eqn:E1; [discriminate|].
    assert (Hr : r <> qc /\ r <> ch_bs /\ r <> 0 /\ r <> rune_error) by (clear - E1; lia).
    clear E1. destruct (_ && _); [discriminate|].
    pose proof (decode_spec b t) as DS. pose proof (decode_width b t) as W. rewrite D in DS, W.
    destruct DS as [[Hre _]|[Hsc [Hfirst [Hlen [Hwl [Hiff Heq]]]]]]; [tauto|].
    rewrite <- (firstn_skipn w (b :: t)). rewrite Hfirst.
    assert (Hfs : Forall (fun x => x <> ch_nl /\ x <> ch_cr) (skipn w (b :: t))).
    { apply Forall_forall. intros x Hx. apply (proj1 (Forall_forall _ _) Hf).
      rewrite <- (firstn_skipn w (b :: t)). apply in_or_app. now right. }
    inversion Hf as [|? ? [Hb1 Hb2] _]; subst.
    assert (Hrn : r <> ch_nl /\ r <> ch_cr).
    { destruct (N.ltb_spec r 0x80) as [Hlt|Hge]; [rewrite (Heq Hlt); auto|].
      unfold ch_nl, ch_cr. clear - Hge. lia. }
    constructor; try tauto.
    apply IH; try assumption. rewrite skipn_length. cbn [length] in *. lia.
  Qed.

  (* singleLineHashCount accepts only valid runes that are not NUL, CR or LF, and
     its count exceeds every run of hashes after a quote or backslash *)
  Lemma slhc_loop_mono : forall f fuel t a h,
    slhc_loop pr_tbl gr_tbl f fuel t a = Some h -> (a <= h)%nat.
  Proof.
    intros f. induction fuel as [|k IH]; intros t a h H; cbn [slhc_loop] in H.
    { inversion H; lia. }
    destruct t as [|b t]; [inversion H; lia|].
    destruct (utf8_decode (b :: t)) as [r w].
    destruct ((128 <=? b) && Nat.eqb w 1); [discriminate|].
    destruct (negb (form_is_print pr_tbl gr_tbl f r)); [discriminate|].
    destruct ((r =? f_quote f) || (r =? ch_bs)); apply IH in H; lia.
  Qed.

  Lemma slhc_plain : forall f rest, match rest with x :: _ => x <> ch_hash | [] => True end ->
    forall fuel t a h, (length t <= fuel)%nat ->
    slhc_loop pr_tbl gr_tbl f fuel t a = Some h ->
    plain (f_quote f) h rest t.
  Proof.
    intros f rest Hrest. induction fuel as [|k IH]; intros t a h Hl H.
    { destruct t; [constructor|cbn in Hl; lia]. }
    destruct t as [|b t]; [constructor|].
    cbn [slhc_loop] in H.
    pose proof (decode_spec b t) as DS. pose proof (decode_width b t) as W.
    destruct (utf8_decode (b :: t)) as [r w] eqn:D.
    destruct ((128 <=? b) && Nat.eqb w 1) eqn:Einv; [discriminate|].
    destruct (form_is_print pr_tbl gr_tbl f r) eqn:Epr; [|discriminate]. cbn [negb] in H.
    destruct DS as [[Hre Hw1]|[Hsc [Hfirst [Hlen [Hwl [Hiff Heq]]]]]].
    { (* (RuneError, 1) comes from an invalid byte, which the scan rejects: an
         ASCII byte decodes to itself, never to U+FFFD *)
      subst. exfalso. destruct (N.ltb_spec b 0x80) as [Hlt|Hge].
      - rewrite (decode_ascii b t Hlt) in D. inversion D. chars.
      - cbn in Einv. lia. }
    assert (Hl' : (length (skipn w (b :: t)) <= k)%nat) by (rewrite skipn_length; cbn [length] in *; lia).
    rewrite <- (firstn_skipn w (b :: t)). rewrite Hfirst.
    assert (Hr0 : r <> 0 /\ r <> ch_nl /\ r <> ch_cr).
    { destruct (N.ltb_spec r 0x80) as [Hlt|Hge].
      - pose proof (print_ascii _ _ _ _ Epr Hlt). chars.
      - chars. }
    destruct ((r =? f_quote f) || (r =? ch_bs)) eqn:Eq.
    - constructor; try tauto.
      + intros _. pose proof (slhc_loop_mono _ _ _ _ _ H) as Hm.
        (* the run after the rune, within t, is counted; rest does not start with a hash *)
        assert (count_prefix ch_hash (skipn w (b :: t) ++ rest) = count_prefix ch_hash (skipn w (b :: t))).
        { destruct rest as [|x rest']; [now rewrite app_nil_r|]. now apply count_prefix_app_stop. }
        lia.
      + eapply IH; eauto.
    - constructor; try tauto.
      + intros [Hx|Hx]; subst r; [rewrite N.eqb_refl in Eq|rewrite N.eqb_refl, orb_true_r in Eq]; discriminate.
      + eapply IH; eauto.
  Qed.
End Raw.
