(* unquote (quote f s) = Ok (expected f s): ParseQuotes on the literals that
   Quote produces, and the top-level round-trip theorems. *)
From Verif Require Import Utf8.Model Utf8.Proofs Lit.Quote Lit.Unquote Lit.Basics Lit.Steps
  Lit.Loops Lit.HashCount Lit.Raw.
From Coq Require Import ZArith Lia ZifyN ZifyNat ZifyBool.

(* the single-line literal looks like a multi-line opening: the text after the
   opening quote starts with two more quotes that are not followed by a hash *)
Definition look3 (q : N) (s1 : str) : bool :=
  match s1 with
  | c1 :: c2 :: c3 :: _ => (c1 =? q) && (c2 =? q) && negb (c3 =? ch_hash)
  | _ => false
  end.

Lemma pq_kind_single : forall q nh s1, look3 q s1 = false -> pq_kind q nh s1 = Ok None.
Proof.
  intros q nh s1 H. unfold pq_kind. destruct s1 as [|c1 [|c2 [|c3 s4]]]; try reflexivity.
  cbn [look3] in H. now rewrite H.
Qed.

Lemma rev_hashes : forall n, rev (hashes n) = hashes n.
Proof. intro n. apply rev_repeat. Qed.

Lemma rev_tabs : forall n, rev (tabs n) = tabs n.
Proof. intro n. apply rev_repeat. Qed.

Lemma rev_triple : forall q, rev (triple q) = triple q.
Proof. reflexivity. Qed.

Lemma firstn_hashes_app : forall n r, firstn n (hashes n ++ r) = hashes n.
Proof. intros. apply firstn_app_exact, hashes_length. Qed.

Lemma firstn_tabs_app : forall n r, firstn n (tabs n ++ r) = tabs n.
Proof. intros. apply firstn_app_exact, tabs_length. Qed.

Lemma parse_quotes_single : forall q nh body, q = ch_dq \/ q = ch_sq ->
  look3 q (body ++ q :: hashes nh) = false ->
  let lit := hashes nh ++ q :: body ++ q :: hashes nh in
  parse_quotes lit lit = Ok (mkQ nh false q 1 [], (1 + nh)%nat, (1 + nh)%nat).
Proof.
  intros q nh body Hq Hl lit. unfold parse_quotes. cbv zeta.
  assert (Hqh : q <> ch_hash) by chars.
  assert (Hcp : count_prefix ch_hash lit = nh) by (unfold lit; apply count_prefix_hashes; exact Hqh).
  rewrite !Hcp.
  assert (Hsk0 : skipn nh lit = q :: body ++ q :: hashes nh) by (unfold lit; apply skipn_hashes).
  rewrite Hsk0.
  replace ((q =? ch_dq) || (q =? ch_sq)) with true by lia.
  rewrite (pq_kind_single q nh _ Hl).
  unfold pq_finish. cbv zeta.
  assert (Hf : firstn (1 + nh) lit = hashes nh ++ [q]).
  { unfold lit. replace (hashes nh ++ q :: body ++ q :: hashes nh)
      with ((hashes nh ++ [q]) ++ body ++ q :: hashes nh) by (now rewrite <- app_assoc).
    apply firstn_app_exact. rewrite app_length, hashes_length. cbn. lia. }
  assert (Hr : rev lit = (hashes nh ++ [q]) ++ rev body ++ q :: hashes nh).
  { unfold lit. rewrite rev_app_distr. cbn [rev]. rewrite rev_app_distr. cbn [rev].
    rewrite rev_hashes. rewrite <- !app_assoc. cbn [app]. reflexivity. }
  rewrite Hf, Hr, prefixb_app.
  replace (Nat.leb (1 + nh) (length lit)) with true.
  2:{ symmetry. apply Nat.leb_le. unfold lit. rewrite app_length, hashes_length. cbn [length]. lia. }
  reflexivity.
Qed.

Lemma ws_scan_tabs : forall n R fuel, (n < fuel)%nat ->
  ws_scan fuel (tabs n ++ ch_nl :: R) = (true, S (length R)).
Proof.
  induction n as [|n IH]; intros R fuel H; (destruct fuel as [|k]; [lia|]).
  - reflexivity.
  - change (tabs (S n)) with (ch_tab :: tabs n). cbn [app ws_scan].
    change (utf8_decode_last_rev (ch_tab :: tabs n ++ ch_nl :: R)) with (ch_tab, 1%nat).
    change ((ch_tab =? ch_nl) || negb (is_space ch_tab)) with false. cbv iota.
    cbn [skipn]. apply IH. lia.
Qed.

(* ParseQuotes on a multi-line literal
   lit = #^hc qqq W \n \t^ind qqq #^hc  where W \n closing = \n pad R: the first
   line is R, after its indentation pad or, if it is empty, without any *)
Lemma parse_quotes_multi : forall q hc ind W pad R, q = ch_dq \/ q = ch_sq ->
  let cl := tabs ind ++ triple q ++ hashes hc in
  W ++ ch_nl :: cl = ch_nl :: pad ++ R ->
  (pad = tabs ind /\ match R with x :: _ => x <> ch_nl | [] => False end) \/
  (pad = [] /\ exists R', R = ch_nl :: R') ->
  let lit := hashes hc ++ triple q ++ W ++ ch_nl :: cl in
  exists n, parse_quotes lit lit = Ok (mkQ hc true q 3 (tabs ind), n, (3 + hc)%nat) /\
            skipn n lit = R.
Proof.
  intros q hc ind W pad R Hq cl HZ Hpad lit. set (Z := pad ++ R) in *. unfold parse_quotes. cbv zeta.
  assert (Hqh : q <> ch_hash) by chars.
  assert (Hlit : lit = hashes hc ++ q :: q :: q :: ch_nl :: Z).
  { unfold lit. rewrite HZ. reflexivity. }
  assert (Hcp : count_prefix ch_hash lit = hc) by (rewrite Hlit; apply count_prefix_hashes; exact Hqh).
  rewrite !Hcp.
  assert (Hsk0 : skipn hc lit = q :: q :: q :: ch_nl :: Z) by (rewrite Hlit; apply skipn_hashes).
  rewrite Hsk0.
  replace ((q =? ch_dq) || (q =? ch_sq)) with true by lia.
  unfold pq_kind. rewrite !N.eqb_refl.
  change (ch_nl =? ch_hash) with false. change (ch_nl =? ch_nl) with true. cbv iota. cbn [andb negb].
  cbv iota.
  unfold pq_finish. cbv zeta. cbv iota.
  assert (Hf : firstn (3 + hc) lit = hashes hc ++ triple q).
  { unfold lit. rewrite app_assoc.
    apply firstn_app_exact. rewrite app_length, hashes_length. cbn. lia. }
  assert (Hr : rev lit = (hashes hc ++ triple q) ++ tabs ind ++ ch_nl :: rev W ++ triple q ++ hashes hc).
  { unfold lit, cl. rewrite !rev_app_distr. cbn [rev]. rewrite !rev_app_distr.
    rewrite rev_hashes, rev_tabs. cbn [rev app triple]. rewrite <- !app_assoc. cbn [app]. reflexivity. }
  assert (Hlen : length lit = (hc + 3 + length W + 1 + ind + 3 + hc)%nat).
  { unfold lit, cl. rewrite !app_length. cbn [length]. rewrite !app_length, !hashes_length, tabs_length.
    cbn [length triple]. lia. }
  rewrite Hf, Hr, prefixb_app.
  replace (Nat.leb (3 + hc) (length lit)) with true by (symmetry; apply Nat.leb_le; lia).
  cbn [andb negb].
  rewrite skipn_app_exact by (rewrite app_length, hashes_length; cbn; lia).
  rewrite ws_scan_tabs by (rewrite app_length, tabs_length; cbn [length]; lia).
  cbn [negb].
  (* the whitespace of the closing line *)
  set (i := S (length (rev W ++ triple q ++ hashes hc))).
  assert (Hi : i = length (hashes hc ++ triple q ++ W ++ [ch_nl])).
  { unfold i. rewrite !app_length, rev_length, hashes_length. cbn [length triple]. lia. }
  assert (Hsk : skipn i lit = tabs ind ++ triple q ++ hashes hc).
  { rewrite Hi. unfold lit, cl.
    replace (hashes hc ++ triple q ++ W ++ ch_nl :: tabs ind ++ triple q ++ hashes hc)
      with ((hashes hc ++ triple q ++ W ++ [ch_nl]) ++ tabs ind ++ triple q ++ hashes hc)
      by (rewrite <- !app_assoc; cbn [app]; reflexivity).
    now apply skipn_app_exact. }
  rewrite Hsk.
  replace (length lit - (3 + hc) - i)%nat with ind.
  2:{ rewrite Hi, Hlen, !app_length, hashes_length. cbn [length triple]. lia. }
  rewrite firstn_tabs_app.
  (* the first line *)
  assert (Hsk4 : skipn (S (3 + hc)) lit = Z).
  { rewrite Hlit.
    replace (hashes hc ++ q :: q :: q :: ch_nl :: Z) with ((hashes hc ++ [q; q; q; ch_nl]) ++ Z)
      by (rewrite <- app_assoc; reflexivity).
    apply skipn_app_exact. rewrite app_length, hashes_length. cbn. lia. }
  rewrite Hsk4, tabs_length. unfold Z in *.
  destruct Hpad as [[-> HR]|[-> [R' ->]]].
  - destruct R as [|x R']; [contradiction|].
    remember (tabs ind ++ x :: R') as Z0 eqn:EZ in |- *.
    destruct Z0 as [|c Z']; [destruct ind; discriminate|].
    assert (Hc : c <> ch_nl).
    { destruct ind; injection EZ as -> _; [exact HR|chars]. }
    destruct (N.eqb_spec c ch_nl); [contradiction|]. cbn [negb].
    rewrite EZ, prefixb_app. cbn [negb]. eexists. split; [reflexivity|].
    rewrite Hlit.
    replace (hashes hc ++ q :: q :: q :: ch_nl :: tabs ind ++ x :: R')
      with ((hashes hc ++ [q; q; q; ch_nl] ++ tabs ind) ++ x :: R') by (rewrite <- !app_assoc; reflexivity).
    apply skipn_app_exact. rewrite !app_length, hashes_length, tabs_length. cbn. lia.
  - cbn [app]. change (ch_nl =? ch_nl) with true. cbn [negb]. eexists. split; [reflexivity|exact Hsk4].
Qed.

Lemma no_nl_existsb : forall l, Forall (fun x => x <> ch_nl /\ x <> ch_cr) l ->
  existsb (fun c => c =? ch_nl) l = false.
Proof.
  induction 1 as [|x l [H1 _] _ IH]; [reflexivity|]. cbn [existsb]. rewrite IH.
  destruct (N.eqb_spec x ch_nl); [contradiction|reflexivity].
Qed.

(* the text starts with two quote characters that are not followed by a hash:
   after an opening quote it would read as the opening of a multi-line literal *)
Definition opens_multiline (q : N) (s : str) : bool :=
  match s with
  | a :: b :: r => (a =? q) && (b =? q) && match r with c :: _ => negb (c =? ch_hash) | [] => true end
  | _ => false
  end.

Lemma look3_opens_multiline : forall q hc s, q <> ch_hash -> hc <> 0%nat ->
  look3 q (s ++ q :: hashes hc) = opens_multiline q s.
Proof.
  intros q hc s Hq Hhc. destruct hc as [|hc]; [contradiction|].
  change (hashes (S hc)) with (ch_hash :: hashes hc).
  destruct s as [|a [|b [|c r]]]; cbn [app look3 opens_multiline].
  - rewrite N.eqb_refl. destruct (N.eqb_spec ch_hash q); [congruence|]. destruct (hashes hc); reflexivity.
  - rewrite !N.eqb_refl. cbn [negb]. now rewrite andb_false_r.
  - destruct (N.eqb_spec q ch_hash); [contradiction|]. cbn [negb]. now rewrite andb_true_r.
  - reflexivity.
Qed.

Lemma opens_multiline_lead_qq : forall q s, lead_qq q s = false -> opens_multiline q s = false.
Proof.
  intros q s H. destruct s as [|a [|b r]]; try reflexivity. cbn [opens_multiline lead_qq] in *.
  rewrite H. reflexivity.
Qed.

Section RoundTrip.
  Variable wrap : bool.
  Variable pr_tbl gr_tbl : N -> bool.

  Notation quote := (quote pr_tbl gr_tbl).
  Notation esc := (esc pr_tbl gr_tbl).
  Notation unquote := (unquote wrap).
  Notation unq_loop := (unq_loop wrap).
  Notation eff_hash := (eff_hash pr_tbl gr_tbl).
  Notation single_line_hash_count := (single_line_hash_count pr_tbl gr_tbl).

  Lemma esc_head : forall f ml hc b t, public_form f ->
    match esc f ml hc (b :: t) with
    | [] => False
    | x :: _ => (ml = false -> x <> f_quote f) /\ (b <> ch_nl -> x <> ch_nl)
    end.
  Proof.
    intros f ml hc b t Hpub. rewrite esc_cons.
    pose proof (public_quote f Hpub) as Hq.
    pose proof (decode_spec b t) as DS.
    destruct (utf8_decode (b :: t)) as [r w] eqn:D.
    destruct (f_exact f && Nat.eqb w 1 && (r =? rune_error)).
    { unfold esc_intro. cbn [app]. split; intros; chars. }
    assert (Hrnl : r = ch_nl -> b = ch_nl).
    { intros ->. destruct DS as [[Hre _]|[_ [_ [_ [_ [_ Heq]]]]]]; [discriminate|].
      symmetry. apply Heq. chars. }
    destruct (ml && (r =? ch_nl)) eqn:Enl.
    { apply andb_prop in Enl. destruct Enl as [Hml Hr]. apply N.eqb_eq in Hr.
      split; intros; [congruence|tauto]. }
    destruct (escaped_rune_head pr_tbl gr_tbl f ml hc r (decode_scalar _ _ _ D))
      as [[tl E]|[[Hlt [Hlo [E [Hbs Hnq]]]]|[Hge [b' [tl [E Hb']]]]]]; rewrite E; cbn [app].
    - split; intros; chars.
    - split; intros; auto; chars.
    - split; intros; chars.
  Qed.

  Lemma esc_no_ctl : forall f hc, public_form f -> forall n s, (length s <= n)%nat ->
    no_ctl (esc f false hc s).
  Proof.
    intros f hc Hpub. unfold no_ctl. induction n as [|n IH]; intros s Hl.
    { destruct s; [constructor|cbn in Hl; lia]. }
    destruct s as [|b t]; [constructor|].
    rewrite esc_cons. pose proof (decode_width b t) as W.
    destruct (utf8_decode (b :: t)) as [r w]. cbn [length] in *.
    destruct (f_exact f && Nat.eqb w 1 && (r =? rune_error)).
    { rewrite app_comm_cons, app_assoc. apply Forall_app. split; [apply bad_byte_no_ctl|].
      apply IH. lia. }
    cbn [andb]. apply Forall_app. split; [now apply escaped_rune_no_ctl|].
    apply IH. rewrite skipn_length. cbn [length]. lia.
  Qed.

  (* the iteration that meets the closing delimiter.  The delimiter is spelled
     through the fields of Q; callers state the instance for their concrete
     delimiter ([q], [triple q], [q :: hashes hc]) by a type cast, which holds
     by computation of [repeat] and the record projections *)
  Lemma final_step : forall k Q rbuf st, q_char Q = ch_dq \/ q_char Q = ch_sq ->
    q_numchar Q <> 0%nat ->
    unq_loop (S k) Q (repeat (q_char Q) (q_numchar Q) ++ hashes (q_numhash Q)) rbuf st false =
    if st then match rbuf with [] => Panic | _ :: rb => Ok (rev rb) end else Ok (rev rbuf).
  Proof.
    intros k Q rbuf st Hq Hn.
    pose proof (uc_closing wrap Q ltac:(chars) Hn) as UC.
    destruct (q_numchar Q) as [|n]; [contradiction|]. cbn [repeat app] in *.
    cbn [Unquote.unq_loop].
    replace (q_char Q =? ch_cr) with false by chars.
    replace (q_char Q =? ch_nl) with false by chars.
    unfold unq_first. rewrite UC. destruct st; reflexivity.
  Qed.

  Theorem unquote_quote_single : forall f s, public_form f -> is_bytes s ->
    eff_multiline f s = false -> eff_hash f s = 0%nat ->
    unquote (quote f s) = Ok (expected f s).
  Proof.
    intros f s Hpub Hb Hml Hhc. unfold Quote.quote. rewrite Hml, Hhc.
    unfold append_escaped. cbn [negb andb Nat.eqb hashes repeat app].
    fold (esc f false 0 s).
    set (q := f_quote f). pose proof (public_quote f Hpub) as Hq. fold q in Hq.
    set (body := esc f false 0 s).
    (* ParseQuotes *)
    assert (Hlook : look3 q (body ++ q :: hashes 0) = false).
    { unfold body. destruct s as [|b t].
      - rewrite esc_nil. reflexivity.
      - pose proof (esc_head f false 0 b t Hpub) as H.
        destruct (esc f false 0 (b :: t)) as [|x [|y l]]; [contradiction| |].
        + reflexivity.
        + destruct H as [H _]. specialize (H eq_refl). cbn [app look3].
          destruct (l ++ q :: hashes 0); destruct (N.eqb_spec x q); try contradiction; reflexivity. }
    pose proof (parse_quotes_single q 0 body Hq Hlook) as PQ. cbn [hashes repeat app plus] in PQ.
    unfold Unquote.unquote. rewrite PQ. cbn [skipn].
    (* QuoteInfo.Unquote *)
    set (Q := qi_for f false 0).
    assert (Hnl : Forall (fun x => x <> ch_nl /\ x <> ch_cr) body).
    { apply no_ctl_crnl, (esc_no_ctl f 0 Hpub (length s)), le_n. }
    assert (Hex : existsb (fun c => c =? ch_nl) (body ++ [q]) = false).
    { apply no_nl_existsb, Forall_app. split; [exact Hnl|].
      repeat constructor; chars. }
    (* the slow path gives the expected text *)
    assert (Hslow : forall fuel, (length (body ++ [q]) < fuel)%nat ->
              unq_loop fuel Q (body ++ [q]) [] false false = Ok (expected f s)).
    { intros fuel Hfuel.
      destruct (loop_rt wrap pr_tbl gr_tbl f false 0 Hpub (length s) s [q] (le_n _) Hb
                  ltac:(discriminate) fuel [] false Hfuel)
        as (k & st' & _ & H2 & H3).
      rewrite (H3 eq_refl eq_refl) in H2.
      fold body Q in H2. rewrite H2, app_nil_r.
      rewrite (final_step k Q _ false Hq ltac:(discriminate) : unq_loop (S k) Q [q] _ _ _ = _).
      now rewrite rev_involutive. }
    unfold qi_unquote.
    destruct (body ++ [q]) as [|x l] eqn:Ebq; [destruct body; discriminate|].
    rewrite <- Ebq in *. clear Ebq x l.
    unfold Q. cbn [qi_for q_multi negb andb q_numhash Nat.eqb q_char].
    rewrite Hex. cbn [andb]. fold q.
    replace (last (body ++ [q]) 256 =? q) with true by (rewrite last_last; symmetry; apply N.eqb_refl).
    cbn [andb]. rewrite removelast_last.
    destruct (is_simple (length body) body q) eqn:Esimple; [|apply Hslow; lia].
    (* fast path: the text had no escapes; the slow path returns the same *)
    pose proof (is_simple_plain pr_tbl gr_tbl q [q] (length body) body (le_n _) Esimple Hnl) as Hplain.
    destruct (raw_loop wrap pr_tbl gr_tbl q 0 [] [q] body Hplain Hq (S (length (body ++ [q]))) [] (Nat.lt_succ_diag_r _))
      as (k & _ & H2).
    rewrite <- (Hslow _ (Nat.lt_succ_diag_r _)).
    change (mkQ 0 false q 1 []) with Q in H2. rewrite H2, app_nil_r.
    rewrite (final_step k Q _ false Hq ltac:(discriminate) : unq_loop (S k) Q [q] _ _ _ = _).
    now rewrite rev_involutive.
  Qed.

  Lemma closing_loop : forall f hc fuel rbuf st we, public_form f -> (2 <= fuel)%nat ->
    unq_loop fuel (qi_for f true hc)
      (ch_nl :: tabs (f_indent f) ++ triple (f_quote f) ++ hashes hc) rbuf st we = Ok (rev rbuf).
  Proof.
    intros f hc fuel rbuf st we Hpub Hfuel.
    pose proof (public_quote f Hpub) as Hq.
    destruct fuel as [|[|k]]; [lia|lia|].
    cbn [Unquote.unq_loop]. change (ch_nl =? ch_cr) with false. change (ch_nl =? ch_nl) with true. cbv iota.
    rewrite (skip_ws_tabs f hc).
    unfold has_closing_delim_prefix. cbn [qi_for q_multi q_char q_numchar q_numhash andb].
    replace (Nat.ltb _ _) with false
      by (symmetry; apply Nat.ltb_ge; unfold delim_len; rewrite app_length, hashes_length; cbn; lia).
    rewrite andb_false_r.
    exact (final_step k (qi_for f true hc) (ch_nl :: rbuf) true Hq ltac:(discriminate)).
  Qed.

  (* ParseQuotes on a multi-line literal written by Quote: what is left for
     QuoteInfo.Unquote is the escaped text and the closing line; the first
     line's indentation is skipped *)
  Lemma parse_quotes_quote_multi : forall f s, public_form f -> eff_multiline f s = true ->
    let q := f_quote f in
    let hc := required_hash_count q s in
    exists n, parse_quotes (quote f s) (quote f s) = Ok (qi_for f true hc, n, (3 + hc)%nat) /\
      skipn n (quote f s) =
      match s with
      | [] => triple q
      | _ => esc f true hc s ++ ch_nl :: tabs (f_indent f) ++ triple q ++ hashes hc
      end.
  Proof.
    intros f s Hpub Hml q hc. unfold Quote.quote, Quote.eff_hash. rewrite Hml. fold q hc.
    pose proof (public_quote f Hpub) as Hq. fold q in Hq.
    set (ind := f_indent f). set (cl := tabs ind ++ triple q ++ hashes hc).
    destruct s as [|c t].
    { (* the empty text: early return, no hashes *)
      pose proof (parse_quotes_multi q 0 ind [] (tabs ind) (triple q) Hq) as PQ.
      cbv zeta in PQ. cbn [hashes repeat app] in PQ. rewrite app_nil_r in PQ.
      apply PQ; [reflexivity|]. left. split; [reflexivity|].
      unfold ch_nl, ch_dq, ch_sq in *. cbn. lia. }
    unfold append_escaped. cbn [negb andb]. fold (esc f true hc (c :: t)).
    set (body := esc f true hc (c :: t)).
    pose proof (esc_head f true hc c t Hpub) as Hhead. fold body in Hhead.
    destruct (N.eqb_spec c ch_nl) as [Hc|Hc]; cbn [negb].
    - (* the text starts with a newline: no indentation on the first line *)
      apply (parse_quotes_multi q hc ind (ch_nl :: body) [] (body ++ ch_nl :: cl) Hq eq_refl).
      right. split; [reflexivity|]. subst c. unfold body.
      destruct (esc_nl_head pr_tbl gr_tbl f hc t) as [X ->]. eexists. reflexivity.
    - (* the first line carries the indentation *)
      replace (hashes hc ++ triple q ++ [ch_nl] ++ tabs ind ++ body ++ [ch_nl] ++ cl)
        with (hashes hc ++ triple q ++ (ch_nl :: tabs ind ++ body) ++ ch_nl :: cl)
        by (cbn [app]; rewrite <- !app_assoc; reflexivity).
      apply (parse_quotes_multi q hc ind (ch_nl :: tabs ind ++ body) (tabs ind) (body ++ ch_nl :: cl) Hq).
      + cbn [app]. now rewrite <- !app_assoc.
      + left. split; [reflexivity|]. destruct body as [|x l]; [contradiction|]. now apply Hhead.
  Qed.

  Theorem unquote_quote_multi : forall f s, public_form f -> is_bytes s ->
    eff_multiline f s = true ->
    unquote (quote f s) = Ok (expected f s).
  Proof.
    intros f s Hpub Hb Hml. unfold Unquote.unquote.
    destruct (parse_quotes_quote_multi f s Hpub Hml) as (n & -> & ->).
    set (q := f_quote f). set (hc := required_hash_count q s).
    pose proof (public_quote f Hpub) as Hq. fold q in Hq.
    set (Q := qi_for f true hc). unfold qi_unquote.
    destruct s as [|c t].
    { (* the empty text: the closing delimiter at once *)
      cbn [q_multi Q qi_for negb andb triple].
      replace (Nat.ltb _ _) with false by reflexivity. rewrite andb_false_r.
      rewrite (final_step _ Q [] false Hq ltac:(discriminate) : unq_loop _ Q (triple q) _ _ _ = _).
      unfold expected. now destruct (f_exact f). }
    set (cl := tabs (f_indent f) ++ triple q ++ hashes hc).
    set (body := esc f true hc (c :: t)).
    assert (Hnd : no_delim q hc (c :: t)).
    { apply required_hash_count_sufficient. chars. }
    destruct (body ++ ch_nl :: cl) as [|x l] eqn:Eb; [destruct body; discriminate|].
    rewrite <- Eb in *. clear Eb x l.
    cbn [Q qi_for q_multi negb andb].
    (* no closing delimiter at the very start *)
    replace (has_closing_delim_prefix _ _) with false
      by (symmetry; exact (no_closing_prefix pr_tbl gr_tbl f hc Hpub (c :: t) cl Hb Hnd)).
    cbn [andb].
    destruct (loop_rt wrap pr_tbl gr_tbl f true hc Hpub (length (c :: t)) (c :: t) (ch_nl :: cl) (le_n _) Hb
                ltac:(intros _; split; [reflexivity|exact Hnd])
                (S (length (body ++ ch_nl :: cl))) [] false (Nat.lt_succ_diag_r _))
      as (k & st' & H1 & H2 & _).
    fold body Q in H2. rewrite H2.
    unfold cl, Q. rewrite (closing_loop f hc (S k) _ st' false Hpub) by (cbn [length] in H1; lia).
    now rewrite app_nil_r, rev_involutive.
  Qed.

  (* a hash count is only chosen by singleLineHashCount, and not for a text that
     starts with two quotes *)
  Lemma eff_hash_chosen : forall f s, public_form f -> eff_multiline f s = false ->
    eff_hash f s <> 0%nat ->
    lead_qq (f_quote f) s = false /\
    slhc_loop pr_tbl gr_tbl f (length s) s 1 = Some (eff_hash f s).
  Proof.
    intros f s [Hh _] Hml Hne. unfold Quote.eff_hash in *. rewrite Hml in *.
    destruct (f_autohash f); [|congruence].
    unfold Quote.single_line_hash_count in *.
    destruct (negb (existsb _ s)); [congruence|].
    destruct (lead_qq (f_quote f) s); [congruence|].
    destruct (slhc_loop pr_tbl gr_tbl f (length s) s 1); [split; congruence|congruence].
  Qed.

  (* the raw text has only valid runes, none of them NUL, CR or LF, and every quote
     or backslash in it is followed by fewer hashes than the delimiter has *)
  Lemma hash_form_plain : forall f s, public_form f ->
    eff_multiline f s = false -> eff_hash f s <> 0%nat ->
    plain (f_quote f) (eff_hash f s) (f_quote f :: hashes (eff_hash f s)) s.
  Proof.
    intros f s Hpub Hml Hne. pose proof (public_quote f Hpub) as Hq.
    assert (Hqh : f_quote f <> ch_hash) by chars.
    apply (slhc_plain pr_tbl gr_tbl f (f_quote f :: _) Hqh (length s) s 1 _ (le_n _)).
    now apply eff_hash_chosen.
  Qed.

  Lemma quote_hash_shape : forall f s, eff_multiline f s = false -> eff_hash f s <> 0%nat ->
    quote f s = hashes (eff_hash f s) ++ f_quote f :: s ++ f_quote f :: hashes (eff_hash f s).
  Proof.
    intros f s Hml Hne. unfold Quote.quote. rewrite Hml. unfold append_escaped.
    destruct (Nat.eqb_spec (eff_hash f s) 0); [contradiction|]. cbn [negb andb app]. reflexivity.
  Qed.

  Theorem unquote_quote_hash : forall f s, public_form f -> is_bytes s ->
    eff_multiline f s = false -> eff_hash f s <> 0%nat ->
    unquote (quote f s) = Ok (expected f s).
  Proof.
    intros f s Hpub Hb Hml Hne.
    pose proof (opens_multiline_lead_qq _ _ (proj1 (eff_hash_chosen f s Hpub Hml Hne))) as Hlead.
    pose proof (hash_form_plain f s Hpub Hml Hne) as Hplain.
    rewrite (quote_hash_shape f s Hml Hne).
    set (q := f_quote f) in *. set (hc := eff_hash f s) in *.
    pose proof (public_quote f Hpub) as Hq. fold q in Hq.
    assert (Hqh : q <> ch_hash) by chars.
    assert (Hlook : look3 q (s ++ q :: hashes hc) = false) by (rewrite look3_opens_multiline; assumption).
    unfold Unquote.unquote. rewrite (parse_quotes_single q hc s Hq Hlook).
    replace (skipn (1 + hc) (hashes hc ++ q :: s ++ q :: hashes hc)) with (s ++ q :: hashes hc).
    2:{ replace (hashes hc ++ q :: s ++ q :: hashes hc) with ((hashes hc ++ [q]) ++ s ++ q :: hashes hc)
          by (rewrite <- app_assoc; reflexivity).
        symmetry. apply skipn_app_exact. rewrite app_length, hashes_length. cbn. lia. }
    set (Q := mkQ hc false q 1 []).
    unfold qi_unquote.
    destruct (s ++ q :: hashes hc) as [|x l] eqn:E; [destruct s; discriminate|].
    rewrite <- E in *. clear E x l.
    unfold Q at 1 2 3 4 5 6. cbn [q_multi negb andb q_numhash q_char].
    replace (existsb _ (s ++ q :: hashes hc)) with false.
    2:{ symmetry. apply no_nl_existsb, Forall_app. split; [exact (plain_no_crnl _ _ _ _ Hplain)|].
        constructor; [chars|]. apply no_ctl_crnl, no_ctl_hashes. }
    replace (Nat.eqb hc 0) with false by (symmetry; apply Nat.eqb_neq; exact Hne).
    rewrite andb_false_r.
    destruct (raw_loop wrap pr_tbl gr_tbl q hc [] (q :: hashes hc) s Hplain Hq
                (S (length (s ++ q :: hashes hc))) [] (Nat.lt_succ_diag_r _))
      as (k & _ & H2).
    fold Q in H2. rewrite H2. rewrite app_nil_r.
    rewrite (final_step k Q (rev s) false Hq ltac:(discriminate) : unq_loop _ Q (q :: hashes hc) _ _ _ = _).
    rewrite rev_involutive.
    unfold expected. destruct (f_exact f); [reflexivity|].
    f_equal. symmetry. apply sanitize_valid. eapply plain_valid. exact Hplain.
  Qed.

  Theorem unquote_quote_all : forall f s, public_form f -> is_bytes s ->
    unquote (quote f s) = Ok (expected f s).
  Proof.
    intros f s Hpub Hb.
    destruct (eff_multiline f s) eqn:Hml; [now apply unquote_quote_multi|].
    destruct (Nat.eq_dec (eff_hash f s) 0) as [H0|H0]; [now apply unquote_quote_single|].
    now apply unquote_quote_hash.
  Qed.
End RoundTrip.
