(* One iteration of the Unquote loop on each kind of chunk that Quote emits. *)
From Verif Require Import Utf8.Model Utf8.Proofs Lit.Quote Lit.Unquote Lit.Basics.
From Coq Require Import ZArith Lia ZifyN ZifyNat ZifyBool.
(* lia then sees div and mod through their defining equations; the goals here
   carry [v mod 256] from the loop, and this translation is the cheaper one to check *)
Ltac Zify.zify_post_hook ::= Z.div_mod_to_equations.

(* the QuoteInfo that ParseQuotes computes for a literal produced by Quote *)
Definition qi_for (f : form) (ml : bool) (hc : nat) : qinfo :=
  mkQ hc ml (f_quote f) (if ml then 3%nat else 1%nat) (if ml then tabs (f_indent f) else []).

Lemma public_quote : forall f, public_form f -> f_quote f = ch_dq \/ f_quote f = ch_sq.
Proof. intros f [_ [[H _]|[H _]]]; auto. Qed.

Section StepsUnquote.
  Variable wrap : bool.

  Notation unq_loop := (unq_loop wrap).
  Notation unquote_char := (unquote_char wrap).
  Notation unquote_escape := (unquote_escape wrap).

  Lemma unq_step : forall k q c t rbuf st we v mb ss,
    c <> ch_cr -> c <> ch_nl ->
    unquote_char (c :: t) q = Ok (Z.of_N v, mb, ss) ->
    (v < 0xD800 \/ 0xE000 <= v) ->
    unq_loop (S k) q (c :: t) rbuf st we =
    unq_loop k q ss (if mb then rev (utf8_encode v) ++ rbuf else (v mod 256) :: rbuf) false false.
  Proof.
    intros k q c t rbuf st we v mb ss Hcr Hnl Huc Hv.
    cbn [Unquote.unq_loop].
    destruct (N.eqb_spec c ch_cr); [contradiction|].
    destruct (N.eqb_spec c ch_nl); [contradiction|].
    unfold unq_first. rewrite Huc.
    replace ((sur_high <=? Z.of_N v)%Z && (Z.of_N v <? sur_end)%Z) with false
      by (unfold sur_high, sur_end; lia).
    replace (Z.of_N v <? 0)%Z with false by lia.
    rewrite N2Z.id. destruct mb; reflexivity.
  Qed.

  Lemma uc_escape : forall q e s2, q_char q <> ch_bs ->
    unquote_char (ch_bs :: hashes (q_numhash q) ++ e :: s2) q = unquote_escape q e s2.
  Proof.
    intros q e s2 Hq. unfold Unquote.unquote_char.
    destruct (N.eqb_spec ch_bs (q_char q)); [congruence|]. cbn [andb].
    change (rune_self <=? ch_bs) with false. cbv iota.
    change (negb (ch_bs =? ch_bs)) with false. cbv iota.
    rewrite skipn_hashes, prefixb_app. reflexivity.
  Qed.

  (* \x, \u, \U followed by as many hex digits as the escape takes *)
  Lemma ue_hex : forall q e n ds s2 v,
    (e, n) = (120, 2%nat) \/ (e, n) = (117, 4%nat) \/ (e, n) = (85, 8%nat) ->
    length ds = n -> hex_value ds 0 = Some v ->
    unquote_escape q e (ds ++ s2) =
    if e =? 120 then (if q_char q =? ch_dq then Err ESyntax else Ok (Z.of_N v, false, s2))
    else if (Z.of_N max_rune <? to_rune wrap v)%Z then Err ESyntax else Ok (to_rune wrap v, true, s2).
  Proof.
    intros q e n ds s2 v He Hn Hv. unfold Unquote.unquote_escape.
    assert (Hlen : Nat.ltb (length (ds ++ s2)) n = false) by (apply Nat.ltb_ge; rewrite app_length; lia).
    destruct He as [He|[He|He]]; injection He as -> <-; cbn [N.eqb Pos.eqb orb];
      rewrite Hlen, (firstn_app_exact ds s2 _ Hn), (skipn_app_exact ds s2 _ Hn), Hv; reflexivity.
  Qed.

  Lemma ue_hex2 : forall q b s2, q_char q <> ch_dq -> b < 256 ->
    unquote_escape q 120 (hex2 b ++ s2) = Ok (Z.of_N b, false, s2).
  Proof.
    intros q b s2 Hq Hb. rewrite (ue_hex q 120 2 (hex2 b) s2 b) by auto using hex_value_hex2.
    cbn [N.eqb Pos.eqb]. now destruct (N.eqb_spec (q_char q) ch_dq).
  Qed.

  Lemma ue_hex_rune : forall q e n ds s2 r, (e, n) = (117, 4%nat) \/ (e, n) = (85, 8%nat) ->
    length ds = n -> hex_value ds 0 = Some r -> r <= max_rune ->
    unquote_escape q e (ds ++ s2) = Ok (Z.of_N r, true, s2).
  Proof.
    intros q e n ds s2 r He Hn Hv Hr. rewrite (ue_hex q e n ds s2 r) by auto.
    unfold to_rune, max_rune in *. replace (wrap && (0x80000000 <=? r)) with false by lia.
    replace (Z.of_N 1114111 <? Z.of_N r)%Z with false by lia.
    now destruct He as [He|He]; injection He as -> _.
  Qed.

  Lemma ue_quote : forall q s2, q_char q = ch_dq \/ q_char q = ch_sq ->
    unquote_escape q (q_char q) s2 = Ok (Z.of_N (q_char q), false, s2).
  Proof. intros q s2 [H|H]; unfold Unquote.unquote_escape; rewrite H; reflexivity. Qed.

  Lemma uc_ascii : forall q c t, c < 0x80 -> c <> q_char q -> c <> ch_bs -> c <> 0 ->
    unquote_char (c :: t) q = Ok (Z.of_N c, false, t).
  Proof.
    intros q c t H1 H2 H3 H4. unfold Unquote.unquote_char.
    destruct (N.eqb_spec c (q_char q)); [contradiction|]. cbn [andb].
    replace (rune_self <=? c) with false by chars.
    destruct (N.eqb_spec c ch_bs); [contradiction|]. cbn [negb].
    destruct (N.eqb_spec c 0); [contradiction|]. reflexivity.
  Qed.

  Lemma uc_multibyte : forall q r rest, scalar r -> 0x80 <= r -> q_char q < 0x80 ->
    unquote_char (utf8_encode r ++ rest) q = Ok (Z.of_N r, true, rest).
  Proof.
    intros q r rest Hs Hr Hq.
    pose proof (decode_encode r rest Hs) as D.
    pose proof (encode_length_high r Hr) as L.
    destruct (encode_high r Hr) as [_ [b [t [E Hb]]]].
    rewrite E in *. cbn [app] in *. unfold Unquote.unquote_char.
    destruct (N.eqb_spec b (q_char q)); [lia|]. cbn [andb].
    replace (rune_self <=? b) with true by chars.
    rewrite D.
    replace (Nat.eqb (length (b :: t)) 1) with false by (symmetry; apply Nat.eqb_neq; lia).
    rewrite andb_false_r.
    change (b :: t ++ rest) with ((b :: t) ++ rest). now rewrite skipn_app_exact.
  Qed.

  (* one iteration on a rune that stands for itself: an ASCII byte that
     unquoteChar takes literally, or the encoding of a non-ASCII scalar *)
  Lemma step_raw : forall k q r rest rbuf st we, scalar r -> q_char q < 0x80 ->
    r <> ch_cr -> r <> ch_nl ->
    (r < 0x80 -> unquote_char (r :: rest) q = Ok (Z.of_N r, false, rest)) ->
    unq_loop (S k) q (utf8_encode r ++ rest) rbuf st we =
    unq_loop k q rest (rev (utf8_encode r) ++ rbuf) false false.
  Proof.
    intros k q r rest rbuf st we [Hs1 Hs2] Hq Hcr Hnl Hlit.
    destruct (N.ltb_spec r 0x80) as [Hlt|Hge].
    - rewrite encode_ascii by assumption. cbn [rev app].
      rewrite <- (N.mod_small r 256) at 2 by lia.
      apply (unq_step k q r rest rbuf st we r false rest); auto. lia.
    - destruct (encode_high r Hge) as [_ [b [t [E Hb]]]].
      assert (US := unq_step k q b (t ++ rest) rbuf st we r true rest).
      cbv iota in US. change (b :: t ++ rest) with ((b :: t) ++ rest) in US. rewrite <- E in US.
      apply US; try chars; try lia. apply uc_multibyte; auto. now split.
  Qed.

  Lemma uc_quote_multi : forall q t, q_numchar q = 3%nat -> q_char q <> 0 ->
    S (length t) <> delim_len q ->
    unquote_char (q_char q :: t) q = Ok (Z.of_N (q_char q), false, t).
  Proof.
    intros q t H3 H0 Hl. unfold Unquote.unquote_char.
    rewrite N.eqb_refl. destruct (N.eqb_spec (q_char q) 0); [contradiction|]. cbn [andb negb].
    destruct (prefixb _ t); cbn [negb]; [|reflexivity].
    destruct (prefixb _ _); cbn [negb]; [|reflexivity].
    cbn [length]. destruct (Nat.eqb_spec (S (length t)) (delim_len q)); [contradiction|].
    cbn [negb]. rewrite H3. reflexivity.
  Qed.

  Lemma uc_quote_short_run : forall q t, q_numchar q = 1%nat -> q_char q <> 0 ->
    (count_prefix ch_hash t < q_numhash q)%nat ->
    unquote_char (q_char q :: t) q = Ok (Z.of_N (q_char q), false, t).
  Proof.
    intros q t H1 H0 Hc. unfold Unquote.unquote_char.
    rewrite N.eqb_refl. destruct (N.eqb_spec (q_char q) 0); [contradiction|]. cbn [andb negb].
    rewrite H1. cbn [Nat.sub repeat prefixb negb skipn].
    rewrite prefixb_hashes_short by assumption. reflexivity.
  Qed.

  Lemma uc_backslash_short_run : forall q t, q_char q <> ch_bs ->
    (count_prefix ch_hash t < q_numhash q)%nat ->
    unquote_char (ch_bs :: t) q = Ok (Z.of_N ch_bs, false, t).
  Proof.
    intros q t Hq Hc. unfold Unquote.unquote_char.
    destruct (N.eqb_spec ch_bs (q_char q)); [congruence|]. cbn [andb].
    change (rune_self <=? ch_bs) with false. cbv iota.
    change (negb (ch_bs =? ch_bs)) with false. cbv iota.
    rewrite prefixb_hashes_short by assumption. cbn [negb].
    destruct (skipn (q_numhash q) t); reflexivity.
  Qed.

  Lemma uc_closing : forall q, q_char q <> 0 -> q_numchar q <> 0%nat ->
    unquote_char (repeat (q_char q) (q_numchar q) ++ hashes (q_numhash q)) q =
    Ok (terminated_by_quote, false, []).
  Proof.
    intros q H0 Hn. destruct (q_numchar q) as [|n] eqn:En; [contradiction|].
    cbn [repeat app]. unfold Unquote.unquote_char.
    rewrite N.eqb_refl. destruct (N.eqb_spec (q_char q) 0); [contradiction|]. cbn [andb negb].
    rewrite En. cbn [Nat.sub]. rewrite Nat.sub_0_r.
    rewrite prefixb_app. cbn [negb].
    replace (skipn n (repeat (q_char q) n ++ hashes (q_numhash q))) with (hashes (q_numhash q))
      by (symmetry; apply skipn_app_exact, repeat_length).
    rewrite <- (app_nil_r (hashes (q_numhash q))) at 2. rewrite prefixb_app. cbn [negb].
    unfold delim_len. rewrite En. cbn [length]. rewrite app_length, repeat_length, hashes_length.
    rewrite Nat.eqb_refl. reflexivity.
  Qed.

  (* one iteration on an escape sequence: backslash, hashes, then e :: tail *)
  Lemma step_escape : forall k q e tail v mb rest rbuf st we, q_char q <> ch_bs ->
    unquote_escape q e tail = Ok (Z.of_N v, mb, rest) -> (v < 0xD800 \/ 0xE000 <= v) ->
    unq_loop (S k) q (esc_intro (q_numhash q) ++ e :: tail) rbuf st we =
    unq_loop k q rest (if mb then rev (utf8_encode v) ++ rbuf else (v mod 256) :: rbuf) false false.
  Proof.
    intros k q e tail v mb rest rbuf st we Hq Hue Hv. unfold esc_intro. cbn [app].
    apply unq_step; try chars; try assumption. now rewrite uc_escape.
  Qed.

  Lemma step_bad_byte : forall f ml hc b rest k rbuf st we,
    public_form f -> f_exact f = true -> b < 256 ->
    unq_loop (S k) (qi_for f ml hc) (esc_intro hc ++ 120 :: hex2 b ++ rest) rbuf st we =
    unq_loop k (qi_for f ml hc) rest (b :: rbuf) false false.
  Proof.
    intros f ml hc b rest k rbuf st we Hpub Hex Hb.
    pose proof (public_quote f Hpub) as Hq.
    rewrite <- (N.mod_small b 256) at 2 by lia.
    apply (step_escape k (qi_for f ml hc) 120 (hex2 b ++ rest) b false); [cbn; chars| |lia].
    apply ue_hex2; [|assumption]. cbn.
    destruct Hpub as [_ [[_ Hp]|[Hp _]]]; [congruence|]. rewrite Hp. discriminate.
  Qed.
End StepsUnquote.

Section Steps.
  Variable wrap : bool.
  Variable pr_tbl gr_tbl : N -> bool.

  Notation unq_loop := (unq_loop wrap).
  Notation unquote_char := (unquote_char wrap).
  Notation unquote_escape := (unquote_escape wrap).
  Notation escaped_rune := (escaped_rune pr_tbl gr_tbl).
  Notation form_is_print := (form_is_print pr_tbl gr_tbl).

  Lemma step_rune : forall f ml hc r rest k rbuf st we,
    public_form f -> scalar r ->
    (ml = true -> (3 + hc < S (length rest))%nat) ->
    unq_loop (S k) (qi_for f ml hc) (escaped_rune f ml hc r ++ rest) rbuf st we =
    unq_loop k (qi_for f ml hc) rest (rev (utf8_encode r) ++ rbuf) false false.
  Proof.
    intros f ml hc r rest k rbuf st we Hpub Hsc Hml.
    set (q := qi_for f ml hc).
    assert (Hqc : q_char q = f_quote f) by reflexivity.
    assert (Hqh : q_numhash q = hc) by reflexivity.
    pose proof (public_quote f Hpub) as Hq.
    assert (Hqbs : q_char q <> ch_bs) by (rewrite Hqc; chars).
    assert (Hlow : forall v, v < 0x80 -> rev (utf8_encode v) ++ rbuf = (v mod 256) :: rbuf).
    { intros v Hv. rewrite encode_ascii by assumption. cbn. f_equal. rewrite N.mod_small; lia. }
    assert (Hesc : forall e tail v mb,
      unquote_escape q e tail = Ok (Z.of_N v, mb, rest) -> (v < 0xD800 \/ 0xE000 <= v) ->
      unq_loop (S k) q ((esc_intro hc ++ e :: tail)) rbuf st we =
      unq_loop k q rest (if mb then rev (utf8_encode v) ++ rbuf else (v mod 256) :: rbuf) false false)
      by (intros; now apply (step_escape wrap k q)).
    unfold Quote.escaped_rune.
    destruct ((negb ml && (r =? f_quote f)) || (r =? ch_bs)) eqn:E1.
    { (* always backslashed: quote or backslash *)
      rewrite <- app_assoc. cbn [app].
      assert (Hr : r = f_quote f \/ r = ch_bs) by lia.
      assert (Hr80 : r < 0x80) by chars.
      rewrite (Hesc r rest r false).
      - now rewrite Hlow.
      - destruct Hr as [Hr|Hr].
        + rewrite Hr, <- Hqc. apply ue_quote. rewrite Hqc. exact Hq.
        + rewrite Hr. reflexivity.
      - lia. }
    destruct (form_is_print f r) eqn:Epr.
    { (* printed raw *)
      apply step_raw; auto; try (rewrite Hqc; chars);
        try (intros ->; pose proof (print_ascii _ _ _ _ Epr ltac:(chars)); chars).
      intro Hlt. destruct (N.eqb_spec r (f_quote f)) as [Heq|Hne].
      - (* a raw quote: only in multi-line mode *)
        destruct ml; [|cbn in E1; lia].
        rewrite Heq, <- Hqc. apply uc_quote_multi; try reflexivity.
        + rewrite Hqc. chars.
        + unfold delim_len. cbn. specialize (Hml eq_refl). lia.
      - pose proof (print_ascii _ _ _ _ Epr Hlt).
        apply uc_ascii; try assumption; chars. }
    (* escaped *)
    destruct Hsc as [Hs1 Hs2]. unfold max_rune in Hs1.
    rewrite <- app_assoc.
    (* the seven control characters with a letter escape: unquote_escape maps the
       letter back by computation *)
    destruct (N.eqb_spec r 7) as [->|N7]. { cbn [app]. rewrite (Hesc 97 rest 7 false); try reflexivity; left; lia. }
    destruct (N.eqb_spec r 8) as [->|N8]. { cbn [app]. rewrite (Hesc 98 rest 8 false); try reflexivity; left; lia. }
    destruct (N.eqb_spec r 12) as [->|N12]. { cbn [app]. rewrite (Hesc 102 rest 12 false); try reflexivity; left; lia. }
    destruct (N.eqb_spec r 10) as [->|N10]. { cbn [app]. rewrite (Hesc 110 rest 10 false); try reflexivity; left; lia. }
    destruct (N.eqb_spec r 13) as [->|N13]. { cbn [app]. rewrite (Hesc 114 rest 13 false); try reflexivity; left; lia. }
    destruct (N.eqb_spec r 9) as [->|N9]. { cbn [app]. rewrite (Hesc 116 rest 9 false); try reflexivity; left; lia. }
    destruct (N.eqb_spec r 11) as [->|N11]. { cbn [app]. rewrite (Hesc 118 rest 11 false); try reflexivity; left; lia. }
    destruct ((r <? 32) && f_exact f) eqn:Ex.
    { apply andb_prop in Ex. destruct Ex as [Hr32 Hex]. apply N.ltb_lt in Hr32.
      cbn [app].
      rewrite (Hesc 120 (hex2 r ++ rest) r false).
      - rewrite Hlow by lia. reflexivity.
      - apply ue_hex2; [|lia]. rewrite Hqc.
        destruct Hpub as [_ [[_ Hp]|[Hp _]]]; [congruence|]. rewrite Hp. discriminate.
      - left; lia. }
    replace (max_rune <? r) with false by (unfold max_rune; lia).
    destruct (N.ltb_spec r 0x10000).
    - cbn [app].
      rewrite (Hesc 117 (hex4 r ++ rest) r true); [reflexivity| |lia].
      apply (ue_hex_rune wrap q 117 4); auto using hex_value_hex4.
    - cbn [app].
      rewrite (Hesc 85 (hex8 r ++ rest) r true); [reflexivity| |lia].
      apply (ue_hex_rune wrap q 85 8); auto. apply hex_value_hex8. lia.
  Qed.

End Steps.
