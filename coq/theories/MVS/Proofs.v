(* Proofs about the MVS work-set machine: for EVERY schedule (sequence of enabled
   steps) Graph.Require never panics, and when the work set is drained the
   selected version of every path is the maximum of the versions of the nodes
   reachable from the targets - hence independent of the schedule. *)
From Verif Require Import Base.Order MVS.Model.
From Coq Require Import List Bool Arith Lia.
Import ListNotations.

Section Proofs.
  Variable P : Type.
  Variable Ver : Type.
  Variable P_eq_dec : forall a b : P, {a = b} + {a <> b}.
  Variable Ver_eq_dec : forall a b : Ver, {a = b} + {a <> b}.
  Variable vcmp : Ver -> Ver -> comparison.
  Variable vnone : Ver.
  Variable reqs : node P Ver -> list (node P Ver).
  Variable targets : list (node P Ver).

  Hypothesis vcmp_total : total_cmp vcmp.
  Hypothesis vnone_bottom : forall v, vcmp vnone v <> Gt.

  (* MVS/Model.v is a Section over P, Ver, the two equality tests, vcmp, vnone, reqs, all
     explicit arguments outside it: inside this section each model name stands for its
     instance at the section variables. *)
  Notation node := (node P Ver).
  Notation graph := (graph P Ver).
  Notation state := (state P Ver).
  Notation required_of := (required_of P Ver Ver_eq_dec vnone reqs).
  Notation node_eq_dec := (node_eq_dec P Ver P_eq_dec Ver_eq_dec).
  Notation sel_get := (sel_get P Ver P_eq_dec vnone).
  Notation g_sel := (g_sel P Ver P_eq_dec vnone).
  Notation bump := (bump P Ver P_eq_dec vcmp vnone).
  Notation graph_require := (graph_require P Ver P_eq_dec Ver_eq_dec vcmp vnone).
  Notation new_graph := (new_graph P Ver P_eq_dec vcmp vnone).
  Notation work_add := (work_add P Ver P_eq_dec Ver_eq_dec).
  Notation init := (init P Ver P_eq_dec Ver_eq_dec vcmp vnone).
  Notation step := (step P Ver P_eq_dec Ver_eq_dec vcmp vnone reqs).
  Notation run := (run P Ver P_eq_dec Ver_eq_dec vcmp vnone reqs).
  Notation run_get := (run_get P Ver P_eq_dec Ver_eq_dec).
  Notation run_del := (run_del P Ver P_eq_dec Ver_eq_dec).
  Notation run_set := (run_set P Ver P_eq_dec Ver_eq_dec).
  Notation in_b := (in_b P Ver P_eq_dec Ver_eq_dec).
  Notation npath := (npath P Ver).
  Notation nver := (nver P Ver).

  (* nodes reachable from the targets through requirement lists *)
  Inductive Reach : node -> Prop :=
  | R_target n : In n targets -> Reach n
  | R_req m r : Reach m -> In r (required_of m) -> Reach r.

  Definition vle (a b : Ver) : Prop := vcmp a b <> Gt.   (* a <= b *)

  Lemma vle_refl a : vle a a.
  Proof. exact (tc_le_refl _ vcmp_total a). Qed.

  Lemma vle_trans a b c : vle a b -> vle b c -> vle a c.
  Proof. exact (tc_le_trans _ vcmp_total a b c). Qed.

  Lemma vle_antisym a b : vle a b -> vle b a -> a = b.
  Proof. exact (tc_le_antisym _ vcmp_total a b). Qed.

  Lemma not_lt_vle a b : vcmp a b <> Lt -> vle b a.
  Proof.
    unfold vle. intros H E. apply H. apply (tc_gt_lt _ vcmp_total). exact E.
  Qed.

  Lemma lt_vle a b : vcmp a b = Lt -> vle a b.
  Proof. unfold vle. congruence. Qed.

  Lemma has_key_in {A B} (eqd : forall a b : A, {a = b} + {a <> b}) (l : list (A * B)) k :
    has_key eqd l k = true <-> In k (map fst l).
  Proof.
    induction l as [|[k' v] l IH]; simpl; [split; [discriminate | tauto]|].
    destruct (eqd k' k); [subst; tauto|]. rewrite IH. split; [tauto | intros [E|E]; congruence].
  Qed.

  Definition dom (g : graph) : list node := map fst (g_isroot P Ver g).
  Definition reqd (g : graph) : list node := map fst (g_required P Ver g).

  Lemma sel_get_bump sel n p :
    sel_get (bump sel n) p =
    if P_eq_dec (npath n) p
    then match vcmp (sel_get sel (npath n)) (nver n) with Lt => nver n | _ => sel_get sel p end
    else sel_get sel p.
  Proof.
    unfold Model.bump. destruct (vcmp (sel_get sel (npath n)) (nver n)) eqn:E; simpl;
      destruct (P_eq_dec (npath n) p); auto.
  Qed.

  Definition sel_ok (nodes : list node) (sel : list (P * Ver)) : Prop :=
    (forall n, In n nodes -> vle (nver n) (sel_get sel (npath n))) /\
    (forall p, sel_get sel p = vnone \/ exists n, In n nodes /\ npath n = p /\ nver n = sel_get sel p).

  Lemma sel_ok_bump nodes nodes' sel n :
    (forall m, In m nodes' <-> In m nodes \/ m = n) ->
    sel_ok nodes sel -> sel_ok nodes' (bump sel n).
  Proof.
    intros Hd [H1 H2]. split.
    - intros m Hm. rewrite sel_get_bump. apply Hd in Hm as [Hm| ->].
      + destruct (P_eq_dec (npath n) (npath m)) as [Ep|Ep]; [|auto].
        destruct (vcmp (sel_get sel (npath n)) (nver n)) eqn:E; auto.
        apply vle_trans with (sel_get sel (npath n)); [rewrite Ep; auto | apply lt_vle; exact E].
      + destruct (P_eq_dec (npath n) (npath n)); [|congruence].
        destruct (vcmp (sel_get sel (npath n)) (nver n)) eqn:E.
        * apply (tc_eq _ vcmp_total) in E. rewrite E. apply vle_refl.
        * apply vle_refl.
        * apply not_lt_vle. rewrite E. discriminate.
    - intros p. rewrite sel_get_bump.
      assert (Keep : sel_get sel p = vnone \/
                    exists m, In m nodes' /\ npath m = p /\ nver m = sel_get sel p).
      { destruct (H2 p) as [Hn|(m & Hm & Hp & Hv)]; [left; auto|]. right. exists m. rewrite Hd. auto. }
      destruct (P_eq_dec (npath n) p) as [Ep|Ep]; [|exact Keep].
      destruct (vcmp (sel_get sel (npath n)) (nver n)); try exact Keep.
      right. exists n. rewrite Hd. auto.
  Qed.

  Definition graph_ok (g : graph) : Prop := sel_ok (dom g) (g_selected P Ver g).

  (* NewGraph and Require go through their list in the same way: each node is entered
     in isroot and raises the selection of its path *)
  Lemma fold_bump_spec (f : graph -> node -> graph) :
    (forall g x, reqd (f g x) = reqd g /\
                 g_selected P Ver (f g x) = bump (g_selected P Ver g) x /\
                 forall n, In n (dom (f g x)) <-> In n (dom g) \/ n = x) ->
    forall xs g, graph_ok g ->
      graph_ok (fold_left f xs g) /\ reqd (fold_left f xs g) = reqd g /\
      forall n, In n (dom (fold_left f xs g)) <-> In n (dom g) \/ In n xs.
  Proof.
    intros Hf. induction xs as [|x xs IH]; intros g Hg; simpl.
    - split; [auto|split; [auto|]]. intros n; tauto.
    - destruct (Hf g x) as (Fr & Fs & Fd).
      destruct (IH (f g x)) as (A & B & C).
      { unfold graph_ok. rewrite Fs. apply (sel_ok_bump (dom g)); assumption. }
      split; [exact A | split; [congruence|]].
      intros n. rewrite C, Fd. split; [intros [[H| ->]|H] | intros [H|[<-|H]]]; auto.
  Qed.

  Lemma graph_require_spec g m rs g' :
    graph_ok g -> graph_require g m rs = Some g' ->
    In m (dom g) /\ ~ In m (reqd g) /\
    graph_ok g' /\ reqd g' = m :: reqd g /\
    (forall n, In n (dom g') <-> In n (dom g) \/ In n rs).
  Proof.
    intros Hg. unfold Model.graph_require.
    destruct (has_key node_eq_dec (g_isroot P Ver g) m) eqn:E1; [|discriminate].
    destruct (has_key node_eq_dec (g_required P Ver g) m) eqn:E2; [discriminate|].
    simpl. intros [= <-]. apply has_key_in in E1.
    split; [exact E1|split].
    { intros H. apply (has_key_in node_eq_dec) in H. unfold reqd in *. congruence. }
    apply fold_bump_spec
      with (g := mkGraph P Ver ((m, rs) :: g_required P Ver g) (g_isroot P Ver g) (g_selected P Ver g));
      [|exact Hg].
    intros g1 x. split; [reflexivity|split; [reflexivity|]]. intros n. unfold dom; simpl.
    destruct (has_key node_eq_dec (g_isroot P Ver g1) x) eqn:E.
    - apply has_key_in in E. split; [tauto | intros [H| ->]; auto].
    - simpl. split; [intros [<-|H]; auto | intros [H| ->]; auto].
  Qed.

  Lemma graph_require_some g m rs :
    In m (dom g) -> ~ In m (reqd g) -> graph_require g m rs <> None.
  Proof.
    intros H1 H2. unfold Model.graph_require.
    apply (has_key_in node_eq_dec) in H1. unfold dom in *. rewrite H1. simpl.
    destruct (has_key node_eq_dec (g_required P Ver g) m) eqn:E.
    - apply has_key_in in E. contradiction.
    - discriminate.
  Qed.

  Lemma new_graph_ok : graph_ok (new_graph targets) /\
                       reqd (new_graph targets) = [] /\
                       (forall n, In n (dom (new_graph targets)) <-> In n targets).
  Proof.
    unfold Model.new_graph.
    edestruct fold_bump_spec as (A & B & C); [| |split; [exact A|split; [exact B|]]].
    - intros g x. split; [reflexivity|split; [reflexivity|]]. intros n. simpl.
      split; [intros [<-|H]; auto | intros [H| ->]; auto].
    - split; simpl; [intros n []|intros p; left; reflexivity].
    - intros n. rewrite C. simpl. tauto.
  Qed.

  Lemma run_get_del l m m' :
    run_get (run_del l m) m' = if node_eq_dec m m' then None else run_get l m'.
  Proof.
    induction l as [|[k v] l IH]; simpl.
    - destruct (node_eq_dec m m'); reflexivity.
    - destruct (node_eq_dec k m) as [->|Hk].
      + rewrite IH. destruct (node_eq_dec m m'); auto.
      + simpl. destruct (node_eq_dec k m') as [->|Hk']; auto.
        destruct (node_eq_dec m m'); congruence.
  Qed.

  Lemma run_get_set l m v m' :
    run_get (run_set l m v) m' = if node_eq_dec m m' then Some v else run_get l m'.
  Proof.
    unfold Model.run_set. simpl. destruct (node_eq_dec m m'); auto.
    rewrite run_get_del. destruct (node_eq_dec m m'); congruence.
  Qed.

  Lemma in_b_true n l : in_b n l = true <-> In n l.
  Proof. unfold Model.in_b. destruct (in_dec node_eq_dec n l); split; auto; discriminate. Qed.

  (* What the entry [e] of m in the running table says about m: picked and not yet
     required; required, with [pend] still to be added; or not running, and then waiting
     in todo, finished with all its requirements added, or never added. *)
  Definition item_ok (s : state) (m : node) (e : option (option (list node))) : Prop :=
    match e with
    | Some None =>
      In m (st_added P Ver s) /\ ~ In m (st_todo P Ver s) /\ ~ In m (reqd (st_g P Ver s))
    | Some (Some pend) =>
      In m (st_added P Ver s) /\ ~ In m (st_todo P Ver s) /\ In m (reqd (st_g P Ver s)) /\
      (forall r, In r (required_of m) -> In r pend \/ In r (st_added P Ver s)) /\
      (forall r, In r pend -> In r (dom (st_g P Ver s)))
    | None =>
      (* waiting in todo: added, not yet required *)
      (In m (st_todo P Ver s) -> In m (st_added P Ver s) /\ ~ In m (reqd (st_g P Ver s))) /\
      (* added: still waiting, or finished *)
      (In m (st_added P Ver s) ->
       In m (st_todo P Ver s) \/
       In m (reqd (st_g P Ver s)) /\ forall r, In r (required_of m) -> In r (st_added P Ver s)) /\
      (* never added: not required either (contrapositive) *)
      (In m (reqd (st_g P Ver s)) -> In m (st_added P Ver s))
    end.

  Record Inv (s : state) : Prop := {
    i_graph : graph_ok (st_g P Ver s);
    i_added_dom : forall n, In n (st_added P Ver s) -> In n (dom (st_g P Ver s));
    i_dom_reach : forall n, In n (dom (st_g P Ver s)) -> Reach n;
    i_item : forall m, item_ok s m (run_get (st_running P Ver s) m) }.

  (* a step moves one item; for every other item nothing it depends on shrinks *)
  Lemma item_ok_mono s s' m e :
    item_ok s m e ->
    (forall n, In n (st_added P Ver s) -> In n (st_added P Ver s')) ->
    (In m (st_added P Ver s') -> In m (st_added P Ver s)) ->
    (In m (st_todo P Ver s') <-> In m (st_todo P Ver s)) ->
    (In m (reqd (st_g P Ver s')) <-> In m (reqd (st_g P Ver s))) ->
    (forall n, In n (dom (st_g P Ver s)) -> In n (dom (st_g P Ver s'))) ->
    item_ok s' m e.
  Proof.
    intros H HA HA' HT HQ HD. destruct e as [[pend|]|]; simpl in *; rewrite HT, HQ.
    - destruct H as (Ha & Ht & Hq & Hc & Hd). repeat split; auto.
      intros r Hr. destruct (Hc r Hr); auto.
    - destruct H as (Ha & Ht & Hq). auto.
    - destruct H as (H1 & H2 & H3). split; [|split]; [intros Ht | intros Ha | auto].
      + destruct (H1 Ht). auto.
      + destruct (H2 (HA' Ha)) as [Ht|[Hq Hc]]; auto.
  Qed.

  Lemma work_add_spec s r :
    let s' := work_add s r in
    st_g P Ver s' = st_g P Ver s /\ st_running P Ver s' = st_running P Ver s /\
    (forall n, In n (st_added P Ver s') <-> n = r \/ In n (st_added P Ver s)) /\
    (forall n, In n (st_todo P Ver s') <-> In n (st_todo P Ver s) \/ (n = r /\ ~ In r (st_added P Ver s))).
  Proof.
    unfold Model.work_add. destruct (in_b r (st_added P Ver s)) eqn:E; simpl.
    - apply in_b_true in E. repeat split; auto.
      + intros [->|H]; auto.
      + intros [H|[-> H]]; auto. contradiction.
    - assert (N : ~ In r (st_added P Ver s)) by (intros H; apply in_b_true in H; congruence).
      repeat split; auto.
      + intros [H|H]; auto.
      + intros [->|H]; auto.
      + intros H. apply in_app_or in H as [H|[<-|[]]]; auto.
      + intros [H|[-> _]]; apply in_or_app; simpl; auto.
  Qed.

  (* adding an item that is already in dom g *)
  Lemma Inv_work_add s r :
    Inv s -> In r (dom (st_g P Ver s)) -> Inv (work_add s r).
  Proof.
    intros I Hr. destruct (work_add_spec s r) as (Eg & Er & Ha & Ht).
    destruct (in_dec node_eq_dec r (st_added P Ver s)) as [Hin|Hnin].
    { unfold Model.work_add. apply in_b_true in Hin. rewrite Hin. exact I. }
    constructor; rewrite ?Eg, ?Er.
    - apply (i_graph s I).
    - intros n Hn. apply Ha in Hn as [->|Hn]; auto. apply (i_added_dom s I); auto.
    - apply (i_dom_reach s I).
    - intros m. pose proof (i_item s I m) as H. destruct (node_eq_dec m r) as [->|Hne].
      + (* r is new: it is not running, and enters todo *)
        destruct (run_get (st_running P Ver s) r) as [[pend|]|]; try (destruct H; contradiction).
        destruct H as (_ & _ & H3). simpl. rewrite Eg, Ha, Ht. auto 6.
      + apply item_ok_mono with s; rewrite ?Eg; auto; try tauto.
        * intros n Hn. apply Ha. auto.
        * intros Hn. apply Ha in Hn as [->|Hn]; [congruence | exact Hn].
        * rewrite Ht. split; [intros [Hm|[-> _]]; [exact Hm | congruence] | auto].
  Qed.

  Lemma fold_work_add ts : forall s,
    Inv s -> (forall n, In n ts -> In n (dom (st_g P Ver s))) ->
    let s' := fold_left work_add ts s in
    Inv s' /\ forall n, In n ts \/ In n (st_added P Ver s) -> In n (st_added P Ver s').
  Proof.
    induction ts as [|t ts IH]; intros s I Hts; simpl.
    - split; auto. intros n [[]|H]; auto.
    - destruct (work_add_spec s t) as (Eg & Er & Ha & Ht).
      assert (I1 : Inv (work_add s t)) by (apply Inv_work_add; auto; apply Hts; simpl; auto).
      destruct (IH (work_add s t) I1) as (A & C).
      { intros n Hn. rewrite Eg. apply Hts. simpl; auto. }
      split; auto.
      intros n [[<-|Hn]|Hn]; apply C; auto; right; apply Ha; auto.
  Qed.

  Lemma fold_work_add_running ts : forall s,
    st_running P Ver (fold_left work_add ts s) = st_running P Ver s.
  Proof.
    induction ts as [|t ts IH]; intros s; simpl; [reflexivity|].
    rewrite IH. apply (work_add_spec s t).
  Qed.

  Lemma Inv_init : Inv (init targets) /\ incl targets (st_added P Ver (init targets)).
  Proof.
    unfold Model.init. destruct new_graph_ok as (G1 & G3 & G2).
    set (s0 := mkState P Ver (new_graph targets) [] [] []).
    assert (I0 : Inv s0).
    { constructor; simpl.
      - exact G1.
      - intros n [].
      - intros n Hn. apply R_target, G2, Hn.
      - intros m. rewrite G3. simpl. tauto. }
    destruct (fold_work_add targets s0 I0) as (A & B).
    { intros n Hn. simpl. apply G2. exact Hn. }
    split; auto. intros n Hn. apply B. auto.
  Qed.

  (* every enabled step keeps the invariant and only adds items, and Graph.Require
     does not panic *)
  Lemma step_inv s l :
    Inv s ->
    match step s l with
    | Ok _ _ s' => Inv s' /\ incl (st_added P Ver s) (st_added P Ver s')
    | NotEnabled _ _ => True
    | Panic _ _ => False
    end.
  Proof.
    intros I. pose proof (i_item s I) as It.
    destruct l as [m|m|m|m]; unfold Model.step; specialize (It m) as Hm.
    - (* Pick: m, waiting in todo, is neither running nor required *)
      destruct (in_b m (st_todo P Ver s)) eqn:E; [|trivial]. apply in_b_true in E.
      split; [|apply incl_refl].
      constructor; cbn [st_g st_added st_todo st_running]; try apply I.
      intros m0. rewrite run_get_set. destruct (node_eq_dec m m0) as [<-|Hne].
      + destruct (run_get (st_running P Ver s) m) as [[pend|]|];
          try (destruct Hm as (_ & N & _); contradiction).
        destruct Hm as (H1 & _). destruct (H1 E). repeat split; auto. apply remove_In.
      + apply item_ok_mono with s; auto; try tauto. cbn [st_todo].
        split; [intros H; apply (in_remove _ _ _ _ H) | intros H; apply in_in_remove; [congruence | exact H]].
    - (* Require: m, a node of the graph not yet required, is entered with its
         requirements, all still to be added *)
      destruct (run_get (st_running P Ver s) m) as [[pend|]|] eqn:E; trivial.
      destruct Hm as (Ha & Ht & Hq).
      destruct (graph_require (st_g P Ver s) m (required_of m)) as [g'|] eqn:Eg.
      2:{ revert Eg. apply graph_require_some; [apply (i_added_dom s I), Ha | exact Hq]. }
      destruct (graph_require_spec _ _ _ _ (i_graph s I) Eg) as (G1 & G2 & G3 & G4 & G5).
      split; [|apply incl_refl].
      constructor; cbn [st_g st_added st_todo st_running].
      + exact G3.
      + intros n Hn. apply G5. left. apply (i_added_dom s I); auto.
      + intros n Hn. apply G5 in Hn as [Hn|Hn]; [apply (i_dom_reach s I); auto|].
        apply R_req with m; auto. apply (i_dom_reach s I); auto.
      + intros m0. rewrite run_get_set. destruct (node_eq_dec m m0) as [<-|Hne].
        * simpl. rewrite G4. repeat split; auto; [left; reflexivity | intros r Hr; apply G5; auto].
        * apply item_ok_mono with s; auto; try tauto; cbn [st_g].
          -- rewrite G4. simpl. split; [intros [->|H]; [congruence | exact H] | auto].
          -- intros n Hn. apply G5. auto.
    - (* Add: the next requirement goes through work.Add *)
      destruct (run_get (st_running P Ver s) m) as [[[|r rest]|]|] eqn:E; trivial.
      destruct Hm as (_ & _ & _ & _ & Hd).
      assert (I1 : Inv (work_add s r)) by (apply Inv_work_add; auto; apply Hd; left; reflexivity).
      destruct (work_add_spec s r) as (_ & Er & Ha & _).
      split; [|intros n Hn; apply Ha; auto].
      constructor; cbn [st_g st_added st_todo st_running]; try apply I1.
      intros m0. rewrite run_get_set. destruct (node_eq_dec m m0) as [<-|Hne]; [|apply (i_item _ I1)].
      pose proof (i_item _ I1 m) as H1. rewrite Er, E in H1. destruct H1 as (A1 & T1 & Q1 & C1 & D1).
      repeat split; auto.
      + intros r0 Hr0. destruct (C1 r0 Hr0) as [[<-|H]|H]; auto. right. apply Ha. auto.
      + intros r0 Hr0. apply D1. right. exact Hr0.
    - (* Finish: every requirement of m has been added *)
      destruct (run_get (st_running P Ver s) m) as [[[|r rest]|]|] eqn:E; trivial.
      destruct Hm as (Ha & Ht & Hq & Hc & _).
      split; [|apply incl_refl].
      constructor; cbn [st_g st_added st_todo st_running]; try apply I.
      intros m0. rewrite run_get_del. destruct (node_eq_dec m m0) as [<-|Hne]; [|apply It].
      split; [tauto | split; [|auto]]. intros _. right. split; [exact Hq|].
      intros r Hr. destruct (Hc r Hr) as [[]|H]. exact H.
  Qed.

  Lemma run_inv ls : forall s,
    Inv s ->
    match run s ls with
    | Ok _ _ s' => Inv s' /\ incl (st_added P Ver s) (st_added P Ver s')
    | NotEnabled _ _ => True
    | Panic _ _ => False
    end.
  Proof.
    induction ls as [|l ls IH]; intros s I; simpl; [split; [exact I | apply incl_refl]|].
    pose proof (step_inv s l I) as H. destruct (step s l) as [s1| |]; trivial.
    destruct H as [I1 A1]. specialize (IH s1 I1). destruct (run s1 ls); trivial.
    destruct IH as [I' A']. split; [exact I' | apply incl_tran with (st_added P Ver s1); auto].
  Qed.

  (* from the initial state: under every schedule the invariant holds and Graph.Require
     hits neither of its panics *)
  Lemma init_run_inv ls :
    match run (init targets) ls with
    | Ok _ _ s => Inv s /\ incl targets (st_added P Ver s)
    | NotEnabled _ _ => True
    | Panic _ _ => False
    end.
  Proof.
    destruct Inv_init as [I0 T0]. pose proof (run_inv ls _ I0) as H.
    destruct (run (init targets) ls); trivial.
    destruct H as [I A]. split; [exact I | apply incl_tran with (st_added P Ver (init targets)); auto].
  Qed.

  (* the work set is drained: nothing waiting in todo, nothing running *)
  Definition complete (s : state) : Prop := st_todo P Ver s = [] /\ st_running P Ver s = [].

  Lemma complete_closed s :
    Inv s -> incl targets (st_added P Ver s) -> complete s -> forall n, Reach n -> In n (st_added P Ver s).
  Proof.
    intros I T [C1 C2] n R. induction R as [n Hn | m r Rm IH Hr].
    - apply T, Hn.
    - pose proof (i_item s I m) as H. rewrite C2 in H. simpl in H. rewrite C1 in H. destruct H as (_ & H & _).
      destruct (H IH) as [[]|[_ Hc]]. apply Hc, Hr.
  Qed.

  (* sufficiency: the selected version is at least every reachable requirement;
     minimality: it is the version of some reachable node (or "none") *)
  Theorem selected_sufficient_and_minimal ls s :
    run (init targets) ls = Ok P Ver s -> complete s ->
    (forall n, Reach n -> vle (nver n) (g_sel (st_g P Ver s) (npath n))) /\
    (forall p, g_sel (st_g P Ver s) p = vnone \/
               exists n, Reach n /\ npath n = p /\ nver n = g_sel (st_g P Ver s) p).
  Proof.
    intros R C. pose proof (init_run_inv ls) as H. rewrite R in H. destruct H as [I T].
    destruct (i_graph s I) as [G1 G2]. split.
    - intros n Rn. apply G1. apply (i_added_dom s I). apply complete_closed; auto.
    - intros p. destruct (G2 p) as [H|(n & Hn & Hp & Hv)]; [left; exact H|].
      right. exists n. split; auto. apply (i_dom_reach s I). exact Hn.
  Qed.

  (* the selected version of p is the maximum over reachable nodes of path p *)
  Theorem selected_is_max ls s :
    run (init targets) ls = Ok P Ver s -> complete s ->
    forall p v, (forall n, Reach n -> npath n = p -> vle (nver n) v) ->
                (v = vnone \/ exists n, Reach n /\ npath n = p /\ nver n = v) ->
                g_sel (st_g P Ver s) p = v.
  Proof.
    intros R C p v Hub Hatt. destruct (selected_sufficient_and_minimal ls s R C) as [A B].
    apply vle_antisym.
    - destruct (B p) as [H|(n & Rn & Hp & Hv)].
      + rewrite H. apply vnone_bottom.
      + rewrite <- Hv. apply Hub; auto.
    - destruct Hatt as [->|(n & Rn & Hp & Hv)].
      + apply vnone_bottom.
      + rewrite <- Hv, <- Hp. apply A. exact Rn.
  Qed.

  (* schedule independence: both selections are that maximum *)
  Theorem schedule_independent ls1 ls2 s1 s2 :
    run (init targets) ls1 = Ok P Ver s1 -> complete s1 ->
    run (init targets) ls2 = Ok P Ver s2 -> complete s2 ->
    forall p, g_sel (st_g P Ver s1) p = g_sel (st_g P Ver s2) p.
  Proof.
    intros R1 C1 R2 C2 p. destruct (selected_sufficient_and_minimal ls2 s2 R2 C2) as [A B].
    apply (selected_is_max ls1 s1 R1 C1).
    - intros n Rn <-. apply A, Rn.
    - apply B.
  Qed.

  (* the deterministic scheduler is one of the schedules *)
  Notation run_seq := (run_seq P Ver P_eq_dec Ver_eq_dec vcmp vnone reqs).
  Notation labels_for := (labels_for P Ver Ver_eq_dec vnone reqs).

  Lemma run_app l1 : forall s l2,
    run s (l1 ++ l2) = match run s l1 with Ok _ _ s' => run s' l2 | o => o end.
  Proof.
    induction l1 as [|l l1 IH]; intros s l2; simpl; auto.
    destruct (step s l); auto.
  Qed.

  (* the running table of the sequential scheduler holds one item at most *)
  Lemma single_runner m v : run_get [(m, v)] m = Some v /\ run_del [(m, v)] m = [].
  Proof. simpl. destruct (node_eq_dec m m); [auto | congruence]. Qed.

  Lemma drain_adds m pend : forall s s',
    st_running P Ver s = [(m, Some pend)] ->
    run s (map (fun _ => Model.Add P Ver m) pend ++ [Model.Finish P Ver m]) = Ok P Ver s' ->
    st_running P Ver s' = [].
  Proof.
    induction pend as [|r rest IH]; intros s s' Hr; cbn [map app Model.run Model.step]; rewrite Hr.
    - destruct (single_runner m (Some [])) as [-> Ed]. intros [= <-]. exact Ed.
    - destruct (single_runner m (Some (r :: rest))) as [-> Ed]. apply IH. cbn [st_running].
      pose proof (work_add_spec s r) as (_ & Er & _). rewrite Er, Hr.
      unfold Model.run_set. rewrite Ed. reflexivity.
  Qed.

  Lemma labels_for_running m s s' :
    st_running P Ver s = [] -> run s (labels_for m) = Ok P Ver s' -> st_running P Ver s' = [].
  Proof.
    intros Hr. unfold Model.labels_for. cbn [Model.run Model.step].
    destruct (in_b m (st_todo P Ver s)); [|discriminate].
    cbn [st_running st_g]. rewrite Hr. change (run_set [] m None) with [(m, @None (list node))].
    destruct (single_runner m None) as [-> Ed].
    destruct (graph_require (st_g P Ver s) m (required_of m)); [|discriminate].
    apply drain_adds. cbn [st_running]. unfold Model.run_set. rewrite Ed. reflexivity.
  Qed.

  Theorem run_seq_is_schedule fuel : forall s s',
    run_seq fuel s = Some s' -> st_running P Ver s = [] ->
    exists ls, run s ls = Ok P Ver s' /\ complete s'.
  Proof.
    induction fuel as [|f IH]; intros s s'; cbn [Model.run_seq];
      destruct (st_todo P Ver s) as [|m rest] eqn:Et.
    1, 3: intros [= <-] Hr; exists []; split; [reflexivity | split; auto].
    - discriminate.
    - destruct (run s (labels_for m)) as [s1| |] eqn:E1; try discriminate.
      intros H Hr. pose proof (labels_for_running m s s1 Hr E1) as Hr1.
      destruct (IH s1 s' H Hr1) as (ls & Hl & Hc).
      exists (labels_for m ++ ls). rewrite run_app, E1. auto.
  Qed.
End Proofs.
