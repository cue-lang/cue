(* C06 - Add, Sub, Mul at precision 34: exact value of the unrounded result, error
   bounds of the rounded one, exactness when the result fits. *)
From Coq Require Import NArith ZArith QArith Qabs Bool Lia ZifyN ZifyBool.
From Verif Require Import Num.Decimal Num.DigitsProofs Num.DVal Num.RoundProofs.
Local Open Scope Q_scope.

Lemma upscale_val : forall a b x y s,
  upscale a b = (x, y, s) ->
  dval a == mkv (sg (neg a) (Z.of_N x)) s /\ dval b == mkv (sg (neg b) (Z.of_N y)) s.
Proof.
  intros a b x y s H. unfold upscale in H.
  destruct (Z.compare_spec (exp a) (exp b)) as [E|L|G]; inversion H; subst x y s; clear H.
  - rewrite !dval_sg, E. split; reflexivity.
  - split; [reflexivity|]. rewrite mkv_sg_pow10, Z2N.id by lia.
    replace (exp a + (exp b - exp a))%Z with (exp b) by lia. reflexivity.
  - split; [|reflexivity]. rewrite mkv_sg_pow10, Z2N.id by lia.
    replace (exp b + (exp a - exp b))%Z with (exp a) by lia. reflexivity.
Qed.

Lemma add_exact_gen_val : forall sub x y,
  dval (add_exact_gen sub x y) == dval x + (if sub then - dval y else dval y).
Proof.
  intros sub x y. unfold add_exact_gen.
  destruct (upscale x y) as [[a b] s] eqn:U.
  destruct (upscale_val _ _ _ _ _ U) as [Hx Hy].
  assert (dval x + (if sub then - dval y else dval y)
          == mkv (sg (neg x) (Z.of_N a)) s + mkv (sg (xorb (neg y) sub) (Z.of_N b)) s) as ->.
  { destruct sub.
    - rewrite Hx, Hy, mkv_opp. apply Qplus_comp; [reflexivity|]. apply mkv_eq.
      destruct (neg y); simpl; lia.
    - rewrite Hx, Hy, xorb_false_r. reflexivity. }
  rewrite mkv_add.
  destruct (Bool.eqb (neg x) (xorb (neg y) sub)) eqn:EQ.
  - apply eqb_prop in EQ. rewrite <- EQ. rewrite dval_sg. simpl. apply mkv_eq.
    destruct (neg x); simpl; lia.
  - apply eqb_false_iff in EQ.
    assert (xorb (neg y) sub = negb (neg x)) as -> by (destruct (neg x), (xorb (neg y) sub); simpl; congruence).
    destruct (N.compare_spec a b) as [E|L|G]; rewrite dval_sg; simpl; apply mkv_eq;
      destruct (neg x); simpl; lia.
Qed.

Theorem add_exact_val : forall x y, dval (add_exact x y) == dval x + dval y.
Proof. intros. unfold add_exact. rewrite add_exact_gen_val. reflexivity. Qed.

Theorem sub_exact_val : forall x y, dval (sub_exact x y) == dval x - dval y.
Proof. intros. unfold sub_exact. rewrite add_exact_gen_val. reflexivity. Qed.

Theorem mul_exact_val : forall x y, dval (mul_exact x y) == dval x * dval y.
Proof.
  intros. unfold mul_exact. rewrite !dval_sg. simpl. rewrite mkv_mul. apply mkv_eq.
  rewrite N2Z.inj_mul. destruct (neg x), (neg y); simpl; lia.
Qed.

Theorem dneg_val : forall x, dval (dneg x) == - dval x.
Proof.
  intros. unfold dneg, is_zero. rewrite !dval_sg, mkv_opp.
  destruct (N.eqb_spec (coeff x) 0) as [E|NE]; simpl; apply mkv_eq.
  - rewrite E. destruct (neg x); reflexivity.
  - destruct (neg x); simpl; lia.
Qed.

Section Rounded.
  Variable exact : dec -> dec -> dec.
  Variable op : Q -> Q -> Q.
  Hypothesis exact_val : forall x y, dval (exact x y) == op (dval x) (dval y).
  Let rop x y := round34 (exact x y).

  Lemma rop_digits : forall x y, (digits (coeff (rop x y)) <= 34)%N.
  Proof. intros. apply round_digits. unfold prec. lia. Qed.

  Lemma rop_exact_when_fits : forall x y,
    (digits (coeff (exact x y)) <= 34)%N -> dval (rop x y) == op (dval x) (dval y).
  Proof. intros x y H. unfold rop, round34. rewrite round_small by exact H. apply exact_val. Qed.

  (* correctly rounded: within half a unit of the 34th digit of the exact result,
     a multiple of that unit, ties away from zero *)
  Lemma rop_correctly_rounded : forall x y,
    (34 < digits (coeff (exact x y)))%N ->
    let u := ulp 34 (exact x y) in
    2 * Qabs (dval (rop x y) - op (dval x) (dval y)) <= u /\
    (exists k : Z, dval (rop x y) == inject_Z k * u) /\
    (2 * Qabs (dval (rop x y) - op (dval x) (dval y)) == u ->
       Qabs (op (dval x) (dval y)) < Qabs (dval (rop x y))).
  Proof.
    intros x y G u. unfold rop, round34, prec. rewrite <- exact_val. split; [|split].
    - apply round_error. exact G.
    - apply round_multiple. exact G.
    - apply round_tie_away. exact G.
  Qed.

  (* relative error bound, independent of the representation *)
  Lemma rop_relative_error : forall x y,
    2 * Qabs (dval (rop x y) - op (dval x) (dval y)) * p10 33 <= Qabs (op (dval x) (dval y)).
  Proof.
    intros. unfold rop, round34, prec. rewrite <- exact_val.
    apply (round_relative 34). lia.
  Qed.

  Lemma rop_exact_iff : forall x y,
    snd (round_flag 34 (exact x y)) = false <-> dval (rop x y) == op (dval x) (dval y).
  Proof. intros. unfold rop, round34, prec. rewrite <- exact_val. apply round_exact_iff. Qed.
End Rounded.

(* an int operand; 10^36 + 1 and (10^18 + 1)^2 refute unconditional exactness (Properties/C06.v) *)
Definition int_lit (n : N) : num := mkNum KInt (mkDec false n 0).

Lemma add_exact_gen_exp : forall sub x y, exp (add_exact_gen sub x y) = Z.min (exp x) (exp y).
Proof.
  intros. unfold add_exact_gen. destruct (upscale x y) as [[a b] s] eqn:U.
  assert (s = Z.min (exp x) (exp y)) as ->.
  { unfold upscale in U. destruct (Z.compare_spec (exp x) (exp y)); inversion U; lia. }
  destruct (Bool.eqb (neg x) (xorb (neg y) sub)); [reflexivity|].
  destruct (a ?= b)%N; reflexivity.
Qed.

Lemma sc_of_int_dval : forall d, exp d = 0%Z -> dval d == inject_Z (sc d).
Proof. intros d H. unfold dval, mkv. rewrite H. unfold p10. simpl. ring. Qed.

Lemma add_exact_gen_sc : forall sub x y, exp x = 0%Z -> exp y = 0%Z ->
  sc (add_exact_gen sub x y) = (sc x + (if sub then - sc y else sc y))%Z.
Proof.
  intros sub x y Ex Ey. apply (mkv_eq _ _ 0). pose proof (add_exact_gen_val sub x y) as V.
  unfold dval in V. rewrite add_exact_gen_exp, Ex, Ey in V. rewrite V.
  destruct sub; [rewrite mkv_opp|]; rewrite mkv_add; reflexivity.
Qed.

Lemma mul_exact_sc : forall x y, sc (mul_exact x y) = (sc x * sc y)%Z.
Proof.
  intros. unfold mul_exact, sc. simpl. rewrite N2Z.inj_mul. destruct (neg x), (neg y); simpl; lia.
Qed.

(* below 10^34 in magnitude nothing is rounded *)
Lemma round34_small_sc : forall d, (Z.abs (sc d) < 10 ^ 34)%Z -> round34 d = d.
Proof.
  intros d B. apply round_small. apply digits_le_iff; [unfold prec; lia|].
  rewrite sc_abs in B. unfold prec, pow10. lia.
Qed.

Lemma int_addsub_exact : forall (sub : bool) x y, exp x = 0%Z -> exp y = 0%Z ->
  (Z.abs (sc x + (if sub then - sc y else sc y)) < 10 ^ 34)%Z ->
  exp (round34 (add_exact_gen sub x y)) = 0%Z /\
  sc (round34 (add_exact_gen sub x y)) = (sc x + (if sub then - sc y else sc y))%Z.
Proof.
  intros sub x y Ex Ey B. rewrite round34_small_sc by (rewrite add_exact_gen_sc; assumption).
  split; [rewrite add_exact_gen_exp; lia | apply add_exact_gen_sc; assumption].
Qed.

Theorem num_quo_zero_divisor : forall x y, coeff (nd y) = 0%N -> num_op OpQuo x y = Err.
Proof. intros x y H. simpl. unfold is_zero. rewrite H. reflexivity. Qed.
