(* C06 - the rational number a decimal denotes, and the algebra of
   "integer times power of ten" that the proofs reduce to. *)
From Coq Require Import NArith ZArith QArith Qpower Qabs Bool Lia.
From Verif Require Import Num.Decimal Num.DigitsProofs.
Local Open Scope Q_scope.

(* signed coefficient *)
Definition sc (d : dec) : Z := if neg d then (- Z.of_N (coeff d))%Z else Z.of_N (coeff d).

(* 10^e for any integer e *)
Definition p10 (e : Z) : Q := Qpower (inject_Z 10) e.

(* z * 10^e *)
Definition mkv (z e : Z) : Q := inject_Z z * p10 e.

(* the denotation of a finite decimal *)
Definition dval (d : dec) : Q := mkv (sc d) (exp d).

Lemma ten_nz : ~ inject_Z 10 == 0.
Proof. intro H. discriminate H. Qed.

Lemma p10_add : forall a b, p10 (a + b) == p10 a * p10 b.
Proof. intros. unfold p10. apply Qpower_plus. apply ten_nz. Qed.

Lemma p10_pos : forall e, 0 < p10 e.
Proof. intros. unfold p10. apply Qpower_0_lt. reflexivity. Qed.

Lemma p10_nonneg_Z : forall e, (0 <= e)%Z -> p10 e == inject_Z (10 ^ e).
Proof. intros. unfold p10. symmetry. apply Zpower_Qpower. assumption. Qed.

Lemma p10_0 : p10 0 == 1.
Proof. reflexivity. Qed.

Lemma p10_of_N : forall n, p10 (Z.of_N n) == inject_Z (Z.of_N (pow10 n)).
Proof. intros. rewrite p10_nonneg_Z by lia. rewrite pow10_Z. reflexivity. Qed.

Lemma p10_le_mono : forall a b, (a <= b)%Z -> p10 a <= p10 b.
Proof.
  intros a b H. replace b with (a + (b - a))%Z by lia. rewrite p10_add.
  rewrite <- (Qmult_1_r (p10 a)) at 1. apply Qmult_le_l. apply p10_pos.
  rewrite p10_nonneg_Z by lia. change 1 with (inject_Z 1). rewrite <- Zle_Qle.
  pose proof (Z.pow_pos_nonneg 10 (b - a)). lia.
Qed.

Lemma mkv_shift : forall z e k, (0 <= k)%Z -> mkv (z * 10 ^ k) (e - k) == mkv z e.
Proof.
  intros z e k Hk. unfold mkv.
  rewrite inject_Z_mult, <- (p10_nonneg_Z k Hk).
  replace e with ((e - k) + k)%Z at 2 by lia. rewrite p10_add. ring.
Qed.

Lemma mkv_lower_exp : forall z e k, (0 <= k)%Z -> mkv z (e + k) == mkv (z * 10 ^ k) e.
Proof.
  intros. rewrite <- (mkv_shift z (e + k) k) by assumption.
  replace (e + k - k)%Z with e by lia. reflexivity.
Qed.

Lemma mkv_add : forall a b e, mkv a e + mkv b e == mkv (a + b) e.
Proof. intros. unfold mkv. rewrite inject_Z_plus. ring. Qed.

Lemma mkv_sub : forall a b e, mkv a e - mkv b e == mkv (a - b) e.
Proof. intros. unfold mkv. unfold Z.sub. rewrite inject_Z_plus, inject_Z_opp. ring. Qed.

Lemma mkv_opp : forall a e, - mkv a e == mkv (- a) e.
Proof. intros. unfold mkv. rewrite inject_Z_opp. ring. Qed.

Lemma mkv_mul : forall a b e f, mkv a e * mkv b f == mkv (a * b) (e + f).
Proof. intros. unfold mkv. rewrite inject_Z_mult, p10_add. ring. Qed.

Lemma mkv_0 : forall e, mkv 0 e == 0.
Proof. intros. unfold mkv. ring. Qed.

Lemma mkv_scale : forall a k e, inject_Z k * mkv a e == mkv (k * a) e.
Proof. intros. unfold mkv. rewrite inject_Z_mult. ring. Qed.

Lemma mkv_le : forall a b e, (a <= b)%Z <-> mkv a e <= mkv b e.
Proof.
  intros. unfold mkv. pose proof (p10_pos e) as P. split; intros H.
  - apply Qmult_le_compat_r. rewrite <- Zle_Qle. assumption. apply Qlt_le_weak; assumption.
  - apply Qmult_lt_0_le_reg_r in H; auto. rewrite <- Zle_Qle in H. assumption.
Qed.

Lemma mkv_lt : forall a b e, (a < b)%Z <-> mkv a e < mkv b e.
Proof.
  intros. unfold mkv. pose proof (p10_pos e) as P. split; intros H.
  - apply Qmult_lt_compat_r; auto. rewrite <- Zlt_Qlt. assumption.
  - apply Qmult_lt_r in H; auto. rewrite <- Zlt_Qlt in H. assumption.
Qed.

Lemma mkv_eq : forall a b e, a = b <-> mkv a e == mkv b e.
Proof.
  intros. split; intros H. subst; reflexivity.
  apply Z.le_antisymm; apply (mkv_le _ _ e); rewrite H; apply Qle_refl.
Qed.

Lemma mkv_compare : forall a b e, (mkv a e ?= mkv b e) = (a ?= b)%Z.
Proof.
  intros. destruct (Z.compare_spec a b) as [E|L|G].
  - subst. apply Qeq_alt. reflexivity.
  - apply Qlt_alt. apply mkv_lt. assumption.
  - apply Qgt_alt. apply mkv_lt. assumption.
Qed.

Lemma mkv_abs : forall a e, Qabs (mkv a e) == mkv (Z.abs a) e.
Proof.
  intros. unfold mkv. rewrite Qabs_Qmult.
  rewrite (Qabs_pos (p10 e)) by (apply Qlt_le_weak, p10_pos).
  assert (Qabs (inject_Z a) == inject_Z (Z.abs a)) as ->; [|reflexivity].
  unfold Qabs, inject_Z. simpl. reflexivity.
Qed.

Lemma mkv_one : forall e, mkv 1 e == p10 e.
Proof. intros. unfold mkv. ring. Qed.

Lemma mkv_pow : forall n e, mkv (Z.of_N (pow10 n)) e == p10 (e + Z.of_N n).
Proof.
  intros. rewrite <- mkv_one. rewrite mkv_lower_exp by lia.
  rewrite pow10_Z, Z.mul_1_l. reflexivity.
Qed.

(* a magnitude with the sign bit of a decimal: sc d = sg (neg d) (Z.of_N (coeff d)).  The
   operations compute sign bit and magnitude separately, so their proofs calculate with sg
   and meet sc only through dval_sg *)
Definition sg (b : bool) (z : Z) : Z := if b then (- z)%Z else z.

Lemma sg_sub : forall b x y, (sg b x - sg b y)%Z = sg b (x - y).
Proof. intros. destruct b; simpl; lia. Qed.

Lemma sg_abs : forall b x, Z.abs (sg b x) = Z.abs x.
Proof. intros. destruct b; simpl; lia. Qed.

Lemma sg_mul : forall b x k, (sg b x * k)%Z = sg b (x * k).
Proof. intros. destruct b; simpl; lia. Qed.

Lemma sg_inj : forall b x y, sg b x = sg b y -> x = y.
Proof. intros b x y H. destruct b; simpl in H; lia. Qed.

Lemma sg_xor_mul : forall a b x y, (sg (xorb a b) x * sg b y)%Z = sg a (x * y).
Proof. intros. destruct a, b; simpl; lia. Qed.

Lemma dval_sg : forall d, dval d = mkv (sg (neg d) (Z.of_N (coeff d))) (exp d).
Proof. reflexivity. Qed.

(* a factor 10^k of the coefficient is k more in the exponent *)
Lemma mkv_pow10 : forall z k e, mkv (z * Z.of_N (pow10 k)) e == mkv z (e + Z.of_N k).
Proof. intros. rewrite mkv_lower_exp by lia. rewrite pow10_Z. reflexivity. Qed.

Lemma mkv_sg_pow10 : forall b c k e,
  mkv (sg b (Z.of_N (c * pow10 k))) e == mkv (sg b (Z.of_N c)) (e + Z.of_N k).
Proof. intros. rewrite N2Z.inj_mul, <- sg_mul. apply mkv_pow10. Qed.

Lemma sc_abs : forall d, Z.abs (sc d) = Z.of_N (coeff d).
Proof. intros. unfold sc. destruct (neg d); lia. Qed.

Lemma dval_abs : forall d, Qabs (dval d) == mkv (Z.of_N (coeff d)) (exp d).
Proof. intros. unfold dval. rewrite mkv_abs, sc_abs. reflexivity. Qed.

Lemma dval_zero : forall d, coeff d = 0%N -> dval d == 0.
Proof. intros d H. unfold dval, sc. rewrite H. destruct (neg d); simpl; apply mkv_0. Qed.

Lemma dval_zero_iff : forall d, dval d == 0 <-> coeff d = 0%N.
Proof.
  intros d. split; [|apply dval_zero].
  intros H. unfold dval in H. rewrite <- (mkv_0 (exp d)) in H. apply mkv_eq in H.
  unfold sc in H. destruct (neg d); lia.
Qed.
