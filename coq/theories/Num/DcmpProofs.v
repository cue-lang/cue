(* C06 - Decimal.Cmp computes the order of the denoted rationals; the comparison operators
   (cmpTonode) and bytewise comparison. *)
From Coq Require Import NArith ZArith QArith Qabs Bool List Lia ZifyN ZifyBool.
From Verif Require Import Base.Order Num.Decimal Num.DigitsProofs Num.DVal.

Lemma bytes_cmp_is_list_cmp : forall x y, bytes_cmp x y = list_cmp N.compare x y.
Proof. induction x as [|a x IH]; destruct y as [|b y]; simpl; auto. rewrite IH. reflexivity. Qed.

Local Open Scope Q_scope.

Lemma Qcompare_opp : forall a b, (- a ?= - b) = CompOpp (a ?= b).
Proof.
  intros a b. destruct (Qcompare_spec a b) as [E|L|G]; simpl.
  - apply Qeq_alt. rewrite E. reflexivity.
  - apply Qgt_alt. apply Qopp_lt_compat. exact L.
  - apply Qlt_alt. apply Qopp_lt_compat. exact G.
Qed.

(* comparison of magnitudes as Decimal.Cmp does it once the signs agree *)
Definition abs_cmp (d x : dec) : comparison :=
  if (exp d =? exp x)%Z then (coeff d ?= coeff x)%N
  else
    let dn := (Z.of_N (digits (coeff d)) + exp d)%Z in
    let xn := (Z.of_N (digits (coeff x)) + exp x)%Z in
    match (dn ?= xn)%Z with
    | Lt => Lt
    | Gt => Gt
    | Eq =>
      if (exp d <? exp x)%Z
      then (coeff d ?= coeff x * pow10 (Z.to_N (exp x - exp d)))%N
      else (coeff d * pow10 (Z.to_N (exp d - exp x)) ?= coeff x)%N
    end.

Definition mag (d : dec) : Q := mkv (Z.of_N (coeff d)) (exp d).

Lemma mag_upper : forall d, mag d < p10 (Z.of_N (digits (coeff d)) + exp d).
Proof.
  intros d. unfold mag. rewrite Z.add_comm, <- mkv_pow. apply mkv_lt.
  pose proof (digits_upper (coeff d)). lia.
Qed.

Lemma mag_lower : forall d, coeff d <> 0%N -> p10 (Z.of_N (digits (coeff d)) + exp d - 1) <= mag d.
Proof.
  intros d H. unfold mag.
  replace (Z.of_N (digits (coeff d)) + exp d - 1)%Z with (exp d + Z.of_N (digits (coeff d) - 1))%Z
    by (pose proof (digits_pos (coeff d)); lia).
  rewrite <- mkv_pow. apply mkv_le.
  pose proof (digits_lower (coeff d) ltac:(lia)). lia.
Qed.

(* fewer digits before the decimal point: smaller *)
Lemma mag_lt_adjusted : forall d x, coeff x <> 0%N ->
  (Z.of_N (digits (coeff d)) + exp d < Z.of_N (digits (coeff x)) + exp x)%Z -> mag d < mag x.
Proof.
  intros d x Hx L.
  apply Qlt_le_trans with (p10 (Z.of_N (digits (coeff d)) + exp d)). apply mag_upper.
  apply Qle_trans with (p10 (Z.of_N (digits (coeff x)) + exp x - 1)). apply p10_le_mono; lia.
  apply mag_lower; assumption.
Qed.

Lemma abs_cmp_spec : forall d x, coeff d <> 0%N -> coeff x <> 0%N ->
  abs_cmp d x = (mag d ?= mag x).
Proof.
  intros d x Hd Hx. unfold abs_cmp.
  destruct (Z.eqb_spec (exp d) (exp x)) as [E|NE].
  - unfold mag. rewrite E, mkv_compare, N2Z.inj_compare. reflexivity.
  - cbv zeta.
    destruct (Z.compare_spec (Z.of_N (digits (coeff d)) + exp d) (Z.of_N (digits (coeff x)) + exp x)) as [E|L|G].
    + destruct (Z.ltb_spec (exp d) (exp x)) as [L|L]; unfold mag.
      * rewrite <- N2Z.inj_compare, <- (mkv_compare _ _ (exp d)), N2Z.inj_mul, mkv_pow10, Z2N.id by lia.
        replace (exp d + (exp x - exp d))%Z with (exp x) by lia. reflexivity.
      * rewrite <- N2Z.inj_compare, <- (mkv_compare _ _ (exp x)), N2Z.inj_mul, mkv_pow10, Z2N.id by lia.
        replace (exp x + (exp d - exp x))%Z with (exp d) by lia. reflexivity.
    + symmetry. apply Qlt_alt. apply mag_lt_adjusted; assumption.
    + symmetry. apply Qgt_alt. apply mag_lt_adjusted; assumption.
Qed.

Lemma dval_mag : forall d, dval d == if neg d then - mag d else mag d.
Proof.
  intros d. rewrite dval_sg. unfold mag. destruct (neg d); simpl.
  - rewrite mkv_opp. reflexivity.
  - reflexivity.
Qed.

Lemma mag_pos : forall d, coeff d <> 0%N -> 0 < mag d.
Proof. intros d H. unfold mag. rewrite <- (mkv_0 (exp d)). apply mkv_lt. lia. Qed.

Lemma dcmp_abs : forall d x,
  coeff d <> 0%N -> coeff x <> 0%N -> neg d = neg x ->
  dcmp d x = flip (neg d) (abs_cmp d x).
Proof.
  intros d x Hd Hx N. unfold dcmp, sign, abs_cmp.
  destruct (N.eqb_spec (coeff d) 0); [contradiction|].
  destruct (N.eqb_spec (coeff x) 0); [contradiction|].
  rewrite <- N.
  destruct (neg d), (exp d =? exp x)%Z,
    (Z.of_N (digits (coeff d)) + exp d ?= Z.of_N (digits (coeff x)) + exp x)%Z,
    (exp d <? exp x)%Z; reflexivity.
Qed.

Theorem dcmp_spec : forall d x, dcmp d x = (dval d ?= dval x).
Proof.
  intros d x.
  destruct (N.eq_dec (coeff d) 0) as [Zd|Nd]; destruct (N.eq_dec (coeff x) 0) as [Zx|Nx].
  - (* both zero *)
    unfold dcmp, sign. rewrite Zd, Zx. simpl. symmetry. apply Qeq_alt.
    rewrite (dval_zero d Zd), (dval_zero x Zx). reflexivity.
  - unfold dcmp, sign. rewrite Zd. destruct (N.eqb_spec (coeff x) 0); [contradiction|].
    rewrite (dval_zero d Zd), (dval_mag x). pose proof (mag_pos x Nx) as P. simpl.
    destruct (neg x); simpl; symmetry.
    + apply Qgt_alt. apply Qopp_lt_compat in P. exact P.
    + apply Qlt_alt. exact P.
  - unfold dcmp, sign. rewrite Zx. destruct (N.eqb_spec (coeff d) 0); [contradiction|].
    rewrite (dval_zero x Zx), (dval_mag d). pose proof (mag_pos d Nd) as P. simpl.
    destruct (neg d); simpl; symmetry.
    + apply Qlt_alt. apply Qopp_lt_compat in P. exact P.
    + apply Qgt_alt. exact P.
  - destruct (Bool.bool_dec (neg d) (neg x)) as [SN|DN].
    + rewrite (dcmp_abs d x Nd Nx SN), (abs_cmp_spec d x Nd Nx).
      rewrite (dval_mag d), (dval_mag x), <- SN. destruct (neg d); simpl.
      * rewrite Qcompare_opp. reflexivity.
      * reflexivity.
    + unfold dcmp, sign.
      destruct (N.eqb_spec (coeff d) 0); [contradiction|].
      destruct (N.eqb_spec (coeff x) 0); [contradiction|].
      rewrite (dval_mag d), (dval_mag x).
      pose proof (mag_pos d Nd) as Pd. pose proof (mag_pos x Nx) as Px.
      destruct (neg d), (neg x); try congruence; simpl; symmetry.
      * apply Qlt_alt. apply Qlt_trans with 0; [|exact Px]. apply Qopp_lt_compat in Pd. exact Pd.
      * apply Qgt_alt. apply Qlt_trans with 0; [|exact Pd]. apply Qopp_lt_compat in Px. exact Px.
Qed.

Theorem dcmp_refl : forall d, dcmp d d = Eq.
Proof. intros. rewrite dcmp_spec. apply Qeq_alt. reflexivity. Qed.

Theorem dcmp_eq_iff : forall d x, dcmp d x = Eq <-> dval d == dval x.
Proof. intros. rewrite dcmp_spec. symmetry. apply Qeq_alt. Qed.

Theorem dcmp_lt_iff : forall d x, dcmp d x = Lt <-> dval d < dval x.
Proof. intros. rewrite dcmp_spec. symmetry. apply Qlt_alt. Qed.

Theorem dcmp_gt_iff : forall d x, dcmp d x = Gt <-> dval x < dval d.
Proof. intros. rewrite dcmp_spec. symmetry. apply Qgt_alt. Qed.

Theorem dcmp_opp : forall d x, dcmp d x = CompOpp (dcmp x d).
Proof. intros. rewrite !dcmp_spec. symmetry. apply Qcompare_antisym. Qed.

Theorem dcmp_trans : forall a b c, dcmp a b = Lt -> dcmp b c = Lt -> dcmp a c = Lt.
Proof. intros a b c. rewrite !dcmp_lt_iff. apply Qlt_trans. Qed.

Theorem dcmp_eq_l : forall a b c, dcmp a b = Eq -> dcmp a c = dcmp b c.
Proof. intros a b c H. apply dcmp_eq_iff in H. rewrite !dcmp_spec. rewrite H. reflexivity. Qed.

