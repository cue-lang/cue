(* C06 - powers of ten and the digit count. *)
From Coq Require Import NArith ZArith Bool List Lia ZifyN ZifyBool.
From Verif Require Import Num.Decimal.
Local Open Scope N_scope.

Lemma compare_lt_if : forall (A : Type) (x y : N) (a b : A),
  match x ?= y with Lt => a | _ => b end = if x <? y then a else b.
Proof. intros. unfold N.ltb. destruct (x ?= y); reflexivity. Qed.

Lemma pow10_pos : forall n, 0 < pow10 n.
Proof. intros. unfold pow10. apply N.neq_0_lt_0. apply N.pow_nonzero. lia. Qed.

Lemma pow10_0 : pow10 0 = 1.
Proof. reflexivity. Qed.

Lemma pow10_succ : forall n, pow10 (n + 1) = 10 * pow10 n.
Proof. intros. unfold pow10. rewrite N.add_1_r, N.pow_succ_r'. reflexivity. Qed.

Lemma pow10_add : forall a b, pow10 (a + b) = pow10 a * pow10 b.
Proof. intros. unfold pow10. apply N.pow_add_r. Qed.

Lemma pow10_le_mono : forall a b, a <= b -> pow10 a <= pow10 b.
Proof. intros. unfold pow10. apply N.pow_le_mono_r; lia. Qed.

Lemma pow10_lt_mono : forall a b, a < b -> pow10 a < pow10 b.
Proof. intros. unfold pow10. apply N.pow_lt_mono_r; lia. Qed.

Lemma pow10_lt_inv : forall a b, pow10 a < pow10 b -> a < b.
Proof.
  intros a b H. destruct (N.lt_ge_cases a b) as [|L]; auto.
  apply pow10_le_mono in L. lia.
Qed.

Lemma pow10_ge_1 : forall n, 1 <= pow10 n.
Proof. intros. pose proof (pow10_pos n). lia. Qed.

Lemma pow10_sub : forall a b, b <= a -> pow10 a = pow10 (a - b) * pow10 b.
Proof. intros. rewrite <- pow10_add. f_equal. lia. Qed.

Lemma pow10_Z : forall n, Z.of_N (pow10 n) = (10 ^ Z.of_N n)%Z.
Proof. intros n. unfold pow10. rewrite N2Z.inj_pow. reflexivity. Qed.

Lemma digits_loop_spec : forall fuel n k,
  1 <= k -> (k = 1 \/ pow10 (k - 1) <= n) -> n < pow10 (k + N.of_nat fuel) ->
  let r := digits_loop fuel n (pow10 k) k in
  n < pow10 r /\ (r = 1 \/ pow10 (r - 1) <= n) /\ 1 <= r.
Proof.
  induction fuel as [|f IH]; intros n k Hk Hlo Hhi; cbn [digits_loop].
  - replace (k + N.of_nat 0) with k in Hhi by lia. auto.
  - destruct (N.ltb_spec n (pow10 k)) as [L|L].
    + auto.
    + replace (pow10 k * 10) with (pow10 (k + 1)) by (rewrite pow10_succ; lia).
      apply IH.
      * lia.
      * right. replace (k + 1 - 1) with k by lia. exact L.
      * replace (k + 1 + N.of_nat f) with (k + N.of_nat (S f)) by lia. exact Hhi.
Qed.

Lemma lt_pow10_size : forall n, n < pow10 (N.size n).
Proof.
  intros n. apply N.lt_le_trans with (2 ^ N.size n).
  - apply N.size_gt.
  - unfold pow10. apply N.pow_le_mono_l. lia.
Qed.

Lemma digits_spec : forall n,
  n < pow10 (digits n) /\ (digits n = 1 \/ pow10 (digits n - 1) <= n) /\ 1 <= digits n.
Proof.
  intros n. unfold digits.
  change 10 with (pow10 1) at 1.
  apply digits_loop_spec.
  - lia.
  - left; reflexivity.
  - rewrite N2Nat.id. apply N.lt_le_trans with (pow10 (N.size n)).
    + apply lt_pow10_size.
    + apply pow10_le_mono. lia.
Qed.

Lemma digits_upper : forall n, n < pow10 (digits n).
Proof. intros. apply digits_spec. Qed.

Lemma digits_pos : forall n, 1 <= digits n.
Proof. intros. apply digits_spec. Qed.

Lemma digits_lower : forall n, 0 < n -> pow10 (digits n - 1) <= n.
Proof.
  intros n H. destruct (digits_spec n) as (_ & [E|L] & _); auto.
  rewrite E. simpl. change (pow10 0) with 1. lia.
Qed.

Lemma digits_unique : forall n k, 1 <= k -> pow10 (k - 1) <= n -> n < pow10 k -> digits n = k.
Proof.
  intros n k Hk Hlo Hhi.
  assert (0 < n) by (pose proof (pow10_pos (k - 1)); lia).
  pose proof (digits_upper n) as U. pose proof (digits_lower n H) as L. pose proof (digits_pos n) as P.
  assert (k - 1 < digits n) by (apply pow10_lt_inv; lia).
  assert (digits n - 1 < k) by (apply pow10_lt_inv; lia).
  lia.
Qed.

Lemma digits_0 : digits 0 = 1.
Proof. reflexivity. Qed.

Lemma digits_le_iff : forall n p, 1 <= p -> (digits n <= p <-> n < pow10 p).
Proof.
  intros n p Hp. split; intros H.
  - apply N.lt_le_trans with (pow10 (digits n)). apply digits_upper. apply pow10_le_mono; auto.
  - destruct (N.eq_dec n 0) as [->|Hn]. rewrite digits_0; auto.
    assert (0 < n) as Pn by lia.
    pose proof (digits_lower n Pn).
    assert (digits n - 1 < p) by (apply pow10_lt_inv; lia).
    pose proof (digits_pos n). lia.
Qed.

Lemma digits_pow10 : forall k, digits (pow10 k) = k + 1.
Proof.
  intros k. apply digits_unique.
  - lia.
  - replace (k + 1 - 1) with k by lia. lia.
  - apply pow10_lt_mono. lia.
Qed.

Lemma digits_mul_pow10 : forall c k, 0 < c -> digits (c * pow10 k) = digits c + k.
Proof.
  intros c k H. pose proof (digits_pos c) as P. apply digits_unique.
  - lia.
  - replace (digits c + k - 1) with ((digits c - 1) + k) by lia.
    rewrite pow10_add. apply N.mul_le_mono_r. apply digits_lower. exact H.
  - rewrite pow10_add. apply N.mul_lt_mono_pos_r. apply pow10_pos. apply digits_upper.
Qed.

Lemma digits_mono : forall a b, a <= b -> digits a <= digits b.
Proof.
  intros a b H. apply digits_le_iff. apply digits_pos.
  pose proof (digits_upper b). lia.
Qed.
