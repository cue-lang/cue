(* C06 - non-vacuity examples and concrete witnesses (all by computation). *)
From Coq Require Import NArith ZArith QArith List Bool.
From Verif Require Import Num.Decimal Num.IntDiv Num.Eval Num.NumLit Num.NumLitSpec Num.DVal
     Num.NumLitGrammar.
Import ListNotations.
Local Open Scope N_scope.

Definition i_ (n : N) : num := mkNum KInt (mkDec false n 0).
Definition ni_ (n : N) : num := mkNum KInt (mkDec true n 0).
Definition f_ (c : N) (e : Z) : num := mkNum KFloat (mkDec false c e).

(* F1: 10^36 + 1 evaluates to 1.000...e+36, of kind int *)
Example ex_f1 : num_op OpAdd (i_ (10 ^ 36)) (i_ 1) = Ok (mkNum KInt (mkDec false (10 ^ 33) 3)).
Proof. vm_compute. reflexivity. Qed.

(* ... and the two layers of the evaluator disagree on it *)
Example ex_f1_layers :
  same_result (eval true (EArith OpAdd (ELit (i_ (10 ^ 36))) (ELit (i_ 1))))
              (eval false (EArith OpAdd (ELit (i_ (10 ^ 36))) (ELit (i_ 1)))) = false.
Proof. vm_compute. reflexivity. Qed.

(* a sum that fits: exact, still an int with exponent 0 *)
Example ex_add_fits : num_op OpAdd (i_ (10 ^ 33)) (i_ 1) = Ok (i_ (10 ^ 33 + 1)).
Proof. vm_compute. reflexivity. Qed.

(* rounding tie at digit 35 goes away from zero; 99..9|5 rolls over *)
Example ex_tie : dadd (mkDec false (10 ^ 34 + 5) 0) (mkDec false 0 0) = mkDec false (10 ^ 33 + 1) 1.
Proof. vm_compute. reflexivity. Qed.
Example ex_rollover : dmul (mkDec false (10 ^ 35 - 5) 0) (mkDec false 1 0) = mkDec false (10 ^ 33) 2.
Proof. vm_compute. reflexivity. Qed.

(* 1/3 and 2/3 at 34 digits; 6/2 = 3.0 is a float *)
Example ex_third : num_op OpQuo (i_ 1) (i_ 3) = Ok (f_ 3333333333333333333333333333333333 (-34)).
Proof. vm_compute. reflexivity. Qed.
Example ex_two_thirds : num_op OpQuo (i_ 2) (i_ 3) = Ok (f_ 6666666666666666666666666666666667 (-34)).
Proof. vm_compute. reflexivity. Qed.
Example ex_six_two : num_op OpQuo (i_ 6) (i_ 2) = Ok (f_ 30 (-1)).
Proof. vm_compute. reflexivity. Qed.
Example ex_div_zero : num_op OpQuo (i_ 1) (i_ 0) = Err.
Proof. reflexivity. Qed.

(* the tables of doc/ref/spec.md for div/mod/quo/rem *)
Example ex_divmod :
  map (fun '(x, y) => (int_div_op FDiv x y, int_div_op FMod x y))
      [(i_ 5, i_ 3); (ni_ 5, i_ 3); (i_ 5, ni_ 3); (ni_ 5, ni_ 3)]
  = [(Ok (i_ 1), Ok (i_ 2)); (Ok (ni_ 2), Ok (i_ 1)); (Ok (ni_ 1), Ok (i_ 2)); (Ok (i_ 2), Ok (i_ 1))].
Proof. vm_compute. reflexivity. Qed.
Example ex_quorem :
  map (fun '(x, y) => (int_div_op FQuo x y, int_div_op FRem x y))
      [(i_ 5, i_ 3); (ni_ 5, i_ 3); (i_ 5, ni_ 3); (ni_ 5, ni_ 3)]
  = [(Ok (i_ 1), Ok (i_ 2)); (Ok (ni_ 1), Ok (ni_ 2)); (Ok (ni_ 1), Ok (i_ 2)); (Ok (i_ 1), Ok (ni_ 2))].
Proof. vm_compute. reflexivity. Qed.
(* no precision involved: 10^40 div 7 *)
Example ex_div_big : int_div_op FDiv (i_ (10 ^ 40)) (i_ 7) = Ok (i_ (10 ^ 40 / 7)).
Proof. vm_compute. reflexivity. Qed.
(* an int whose representation has a positive exponent (result of F1) still divides by value *)
Example ex_div_rounded : int_div_op FDiv (mkNum KInt (mkDec false (10 ^ 33) 3)) (i_ 7) = Ok (i_ (10 ^ 36 / 7)).
Proof. vm_compute. reflexivity. Qed.

(* comparison by value across kinds and representations *)
Example ex_cmp : num_cmp CEq (i_ 1) (f_ 1000 (-3)) = true /\ num_cmp CLt (f_ 999 (-3)) (i_ 1) = true /\
                 num_cmp CGt (i_ (10 ^ 40)) (f_ 9 39) = true /\ num_cmp CLe (ni_ 1) (f_ 0 5) = true.
Proof. vm_compute. repeat split; reflexivity. Qed.

(* int against float above 2^53 and below the smallest float64: exact (a comparison through
   float64 gets these wrong), also when a bound validates a value *)
Example ex_mixed_order :
  num_cmp CGt (i_ 9007199254740993) (f_ 90071992547409920 (-1)) = true /\
  num_cmp CLe (i_ 9007199254740993) (f_ 90071992547409920 (-1)) = false /\
  num_cmp CGt (i_ (2 ^ 63)) (f_ (2 ^ 63 * 10 - 5) (-1)) = true /\
  num_cmp CGt (i_ (10 ^ 34 + 1)) (f_ 10 33) = true /\
  num_cmp CLt (i_ 0) (f_ 1 (-400)) = true /\
  eval true (EBound CGt (ELit (i_ 9007199254740993)) (ELit (f_ 90071992547409920 (-1)))) = Ok (VNum (i_ 9007199254740993)) /\
  eval true (EBound CLt (ELit (i_ 9007199254740993)) (ELit (f_ 90071992547409920 (-1)))) = Err.
Proof. vm_compute. repeat split; reflexivity. Qed.

(* literals *)
Definition str (s : list N) := s.
(* "1.5G" *)
Example ex_lit_si : lit_parse [49; 46; 53; 71] = LNum (i_ 1500000000).
Proof. vm_compute. reflexivity. Qed.
(* "0xBad_Face" *)
Example ex_lit_hex : lit_parse [48; 120; 66; 97; 100; 95; 70; 97; 99; 101] = LNum (i_ 195951310).
Proof. vm_compute. reflexivity. Qed.
(* "072.40" *)
Example ex_lit_float : lit_parse [48; 55; 50; 46; 52; 48] = LNum (f_ 7240 (-2)).
Proof. vm_compute. reflexivity. Qed.
(* ".12345E+5" *)
Example ex_lit_exp : lit_parse [46; 49; 50; 51; 52; 53; 69; 43; 53] = LNum (f_ 12345 0).
Proof. vm_compute. reflexivity. Qed.
(* "1.3Ki" is rejected although the specification says trunc(1331.2) = 1331 *)
Example ex_lit_frac_mult : lit_parse [49; 46; 51; 75; 105] = LErr /\ classify [49; 46; 51; 75; 105] = LcRejected.
Proof. vm_compute. split; reflexivity. Qed.
(* "1__0", "0x", "1e", "01", "1A" are errors *)
Example ex_lit_errors :
  map lit_parse [[49; 95; 95; 48]; [48; 120]; [49; 101]; [48; 49]; [49; 65]; []; [49; 0]] =
  [LErr; LErr; LErr; LErr; LErr; LErr; LErr].
Proof. vm_compute. reflexivity. Qed.

(* members of the grammar: the hypotheses of the value theorems are satisfiable *)

Definition ds_ (l : list N) : dseq := mkDs (hd 0 l) (map (fun c => (false, c)) (tl l)).

(* "072.40" *)
Definition g_float := GFloat (Some (ds_ [48; 55; 50])) (Some (Some (ds_ [52; 48]))) None.
Example ex_g_float : render g_float = [48; 55; 50; 46; 52; 48] /\ lit_ok g_float = true.
Proof. split; reflexivity. Qed.
(* "1_0.5e-3" *)
Definition g_float2 :=
  GFloat (Some (mkDs 49 [(true, 48)])) (Some (Some (ds_ [53]))) (Some (mkExpo false (Some true) (ds_ [51]))).
Example ex_g_float2 : render g_float2 = [49; 95; 48; 46; 53; 101; 45; 51] /\ lit_ok g_float2 = true /\
  lit_parse (render g_float2) = LNum (f_ 105 (-4)).
Proof. repeat split; vm_compute; reflexivity. Qed.
(* "1.5G" and "0Ki" *)
Definition g_si := GSi (Some (ds_ [49])) (Some (ds_ [53])) (mkMult 3 false).
Example ex_g_si : render g_si = [49; 46; 53; 71] /\ lit_ok g_si = true.
Proof. split; reflexivity. Qed.
Definition g_si0 := GSi (Some (ds_ [48])) None (mkMult 1 true).
Example ex_g_si0 : render g_si0 = [48; 75; 105] /\ lit_ok g_si0 = true /\ lit_parse (render g_si0) = LNum (i_ 0).
Proof. repeat split; vm_compute; reflexivity. Qed.
(* "0xBad_Face" *)
Definition g_hex := GBased PxLower (mkDs 66 [(false, 97); (false, 100); (true, 70); (false, 97); (false, 99); (false, 101)]).
Example ex_g_hex : render g_hex = [48; 120; 66; 97; 100; 95; 70; 97; 99; 101] /\ lit_ok g_hex = true.
Proof. split; reflexivity. Qed.
(* "170_141" *)
Definition g_dec := GDec (mkDs 49 [(false, 55); (false, 48); (true, 49); (false, 52); (false, 49)]).
Example ex_g_dec : render g_dec = [49; 55; 48; 95; 49; 52; 49] /\ lit_ok g_dec = true /\
  lit_parse (render g_dec) = LNum (i_ 170141).
Proof. repeat split; vm_compute; reflexivity. Qed.
(* grammar-valid but rejected by ParseNum: "01K" (decimals with a leading zero before a multiplier) *)
Example ex_g_01K : lit_ok (GSi (Some (ds_ [48; 49])) None (mkMult 1 false)) = true /\
  lit_parse [48; 49; 75] = LErr.
Proof. split; vm_compute; reflexivity. Qed.
