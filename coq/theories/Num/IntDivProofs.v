(* C06 - quantize-to-integer (RoundToIntegralValue/Exact) and the integer division builtins. *)
From Coq Require Import NArith ZArith QArith Qabs Bool Lia ZifyN ZifyBool.
From Verif Require Import Num.Decimal Num.IntDiv Num.DigitsProofs Num.DVal Num.RoundProofs.

Local Open Scope Z_scope.

Theorem big_div_mod_euclid : forall x y, y <> 0 ->
  x = y * big_div x y + big_mod x y /\ 0 <= big_mod x y < Z.abs y.
Proof.
  intros x y Hy. unfold big_div, big_mod.
  pose proof (Z.quot_rem' x y) as QR. pose proof (Z.rem_bound_abs x y Hy) as RB.
  revert QR RB. generalize (Z.quot x y) (Z.rem x y). intros q r QR RB.
  destruct (Z.ltb_spec r 0); destruct (Z.ltb_spec y 0); lia.
Qed.

Theorem big_quo_rem_trunc : forall x y, y <> 0 ->
  x = y * big_quo x y + big_rem x y /\ Z.abs (big_rem x y) < Z.abs y /\
  (big_rem x y = 0 \/ Z.sgn (big_rem x y) = Z.sgn x) /\
  Z.abs (y * big_quo x y) <= Z.abs x.
Proof.
  intros x y Hy. unfold big_quo, big_rem.
  split; [apply Z.quot_rem'|]. split; [apply Z.rem_bound_abs; exact Hy|]. split.
  - destruct (Z.eq_dec (Z.rem x y) 0) as [|NZ]; [left; assumption|right].
    apply Z.rem_sign_nz; assumption.
  - destruct (Z.le_ge_cases 0 x) as [P|P].
    + generalize (Z.mul_quot_le x y P Hy). generalize (y * Z.quot x y). lia.
    + generalize (Z.mul_quot_ge x y P Hy). generalize (y * Z.quot x y). lia.
Qed.

(* integer value of a decimal with a non-negative exponent *)
Definition ival (d : dec) : Z := sc d * 10 ^ exp d.

Lemma to_integral_nonneg_exp : forall x, 0 <= exp x ->
  to_integral_flag x = (mkDec (neg x) (coeff x * pow10 (Z.to_N (exp x))) 0, false).
Proof. intros x H. unfold to_integral_flag. destruct (Z.leb_spec 0 (exp x)); [reflexivity|lia]. Qed.

Lemma int_of_dec_ival : forall d, 0 <= exp d -> int_of_dec d = ival d.
Proof.
  intros d H. unfold int_of_dec, to_integral. rewrite to_integral_nonneg_exp by exact H.
  unfold ival, sc. simpl. rewrite N2Z.inj_mul, pow10_Z, Z2N.id by lia.
  destruct (neg d); lia.
Qed.

Lemma to_integral_exp : forall x, exp (to_integral x) = 0.
Proof.
  intros x. unfold to_integral, to_integral_flag.
  destruct (0 <=? exp x); [reflexivity|].
  destruct (digits (coeff x) <? Z.to_N (- exp x))%N.
  - destruct (coeff x =? 0)%N; reflexivity.
  - destruct (round_coeff _ _) as [[y d2] ix]. reflexivity.
Qed.

(* negative exponent: the coefficient divided by e = 10^-exp, rounded half-up;
   Inexact exactly when the division leaves a remainder *)
Lemma to_integral_neg_exp : forall x, exp x < 0 ->
  let e := pow10 (Z.to_N (- exp x)) in
  to_integral_flag x = (mkDec (neg x) (half_up (coeff x) e) 0, negb (coeff x mod e =? 0)%N).
Proof.
  intros x H e. set (c := coeff x). unfold to_integral_flag.
  rewrite (proj2 (Z.leb_gt 0 (exp x)) H). fold c. subst e.
  set (k := Z.to_N (- exp x)). assert (0 < k)%N as Hk by lia. clearbody k c.
  pose proof (pow10_pos k) as He.
  destruct (N.ltb_spec (digits c) k) as [L|L].
  - (* fewer digits than the scale: the quotient is 0 *)
    assert (2 * c < pow10 k)%N as C2.
    { pose proof (digits_upper c) as U.
      assert (pow10 (digits c) <= pow10 (k - 1))%N by (apply pow10_le_mono; lia).
      replace k with ((k - 1) + 1)%N by lia. rewrite pow10_succ. lia. }
    assert (c < pow10 k)%N as C1 by lia.
    unfold half_up. rewrite N.mod_small, N.div_small, (proj2 (N.ltb_lt _ _) C2) by exact C1.
    destruct (N.eqb_spec c 0); subst; reflexivity.
  - destruct (round_coeff (digits c - k) c) as [[y d2] ix] eqn:R.
    assert (digits c - k < digits c)%N as G by (pose proof (digits_pos c); lia).
    assert (digits c - (digits c - k) = k)%N as E by lia.
    pose proof (round_coeff_big _ _ _ _ _ G R) as RB. cbv zeta in RB. rewrite E in RB.
    destruct RB as (V & D & -> & _). clear R G L.
    f_equal. f_equal. apply (N.mul_cancel_r _ _ (pow10 k)); [lia|].
    destruct D; subst d2.
    + rewrite Z.sub_diag. exact V.
    + rewrite N2Z.inj_add, Z.add_simpl_l. change (0 <? Z.of_N 1) with true. cbv iota.
      rewrite pow10_succ in V. lia.
Qed.

(* a decimal with k fraction digits whose coefficient is no multiple of 10^k is no integer *)
Lemma not_integer_when_remainder : forall b c k z,
  (c mod pow10 k <> 0)%N -> ~ (mkv (sg b (Z.of_N c)) (- Z.of_N k) == inject_Z z)%Q.
Proof.
  intros b c k z H E. apply H. pose proof (pow10_pos k) as P.
  assert (inject_Z z == mkv (z * Z.of_N (pow10 k)) (- Z.of_N k))%Q as E2.
  { rewrite mkv_pow10, Z.add_opp_diag_l. unfold mkv. rewrite p10_0. ring. }
  rewrite E2 in E. apply mkv_eq in E.
  apply (f_equal Z.abs) in E. rewrite sg_abs, Z.abs_mul in E.
  replace c with (Z.to_N (Z.abs z) * pow10 k)%N.
  - apply N.mod_mul. lia.
  - apply N2Z.inj. rewrite N2Z.inj_mul, Z2N.id by lia. lia.
Qed.

(* quantize(x, 0) keeps the value when it reports exact, and reports Inexact only for
   values that are not integers *)
Theorem to_integral_flag_val : forall x r ix, to_integral_flag x = (r, ix) ->
  exp r = 0 /\ (ix = false -> dval r == dval x)%Q /\
  (ix = true -> ~ exists z : Z, (dval x == inject_Z z)%Q).
Proof.
  intros x r ix H. destruct (Z.leb_spec 0 (exp x)) as [NN|NG].
  - rewrite to_integral_nonneg_exp in H by exact NN. inversion H; subst r ix. clear H.
    split; [reflexivity|]. split; [|discriminate]. intros _.
    rewrite !dval_sg. cbn [neg coeff exp]. rewrite (mkv_sg_pow10 _ (coeff x)), Z2N.id by exact NN. reflexivity.
  - rewrite to_integral_neg_exp in H by exact NG. cbv zeta in H. inversion H; subst r ix. clear H.
    set (k := Z.to_N (- exp x)).
    split; [reflexivity|]. rewrite (dval_sg x).
    replace (exp x) with (- Z.of_N k) by (unfold k; lia).
    destruct (half_up_error (coeff x) _ (pow10_pos k)) as (_ & _ & X).
    destruct (N.eqb_spec (coeff x mod pow10 k) 0) as [M0|MN]; cbn [negb];
      (split; [intros E|intros E]; try discriminate E).
    + rewrite dval_sg. cbn [neg coeff exp]. rewrite <- (proj2 X M0) at 2.
      rewrite (mkv_sg_pow10 _ (half_up (coeff x) (pow10 k))).
      rewrite Z.add_opp_diag_l. reflexivity.
    + intros [z Ez]. exact (not_integer_when_remainder _ _ _ _ MN Ez).
Qed.

Lemma sc_dec_of_int : forall z, sc (dec_of_int z) = z /\ exp (dec_of_int z) = 0.
Proof.
  intros z. unfold dec_of_int, sc. destruct (Z.ltb_spec z 0); simpl; split; lia.
Qed.

Lemma ival_zero_iff : forall d, 0 <= exp d -> (ival d = 0 <-> coeff d = 0%N).
Proof.
  intros d H. unfold ival. rewrite Z.mul_eq_0.
  pose proof (Z.pow_pos_nonneg 10 (exp d) ltac:(lia) H). unfold sc. destruct (neg d); lia.
Qed.

Theorem int_div_op_spec : forall f a b,
  nk a = KInt -> nk b = KInt -> 0 <= exp (nd a) -> 0 <= exp (nd b) ->
  (ival (nd b) = 0 -> int_div_op f a b = Err) /\
  (ival (nd b) <> 0 ->
     exists r, int_div_op f a b = Ok r /\ nk r = KInt /\ exp (nd r) = 0 /\
               ival (nd r) = big_fn f (ival (nd a)) (ival (nd b))).
Proof.
  intros f a b Ka Kb Ea Eb. unfold int_div_op, int_div_dec, is_zero. rewrite Ka, Kb.
  pose proof (ival_zero_iff (nd b) Eb) as Z.
  destruct (N.eqb_spec (coeff (nd b)) 0) as [C|C]; split; intros H.
  - reflexivity.
  - exfalso. apply H. apply Z. exact C.
  - exfalso. apply C. apply Z. exact H.
  - eexists. split; [reflexivity|]. simpl.
    rewrite !int_of_dec_ival by assumption.
    destruct (sc_dec_of_int (big_fn f (ival (nd a)) (ival (nd b)))) as [S E].
    split; [reflexivity|]. split; [exact E|]. unfold ival at 1. rewrite E, S. simpl. lia.
Qed.

(* div and mod: the Euclidean identity with 0 <= mod < |b| *)
Theorem div_mod_euclid : forall a b,
  nk a = KInt -> nk b = KInt -> 0 <= exp (nd a) -> 0 <= exp (nd b) -> ival (nd b) <> 0 ->
  exists q m, int_div_op FDiv a b = Ok q /\ int_div_op FMod a b = Ok m /\
    nk q = KInt /\ nk m = KInt /\
    ival (nd a) = ival (nd b) * ival (nd q) + ival (nd m) /\
    0 <= ival (nd m) < Z.abs (ival (nd b)).
Proof.
  intros a b Ka Kb Ea Eb NZ.
  destruct (int_div_op_spec FDiv a b Ka Kb Ea Eb) as [_ Hq]. destruct (Hq NZ) as (q & Q1 & Q2 & _ & Q4).
  destruct (int_div_op_spec FMod a b Ka Kb Ea Eb) as [_ Hm]. destruct (Hm NZ) as (m & M1 & M2 & _ & M4).
  exists q, m. repeat (split; [assumption|]). rewrite Q4, M4. simpl.
  apply big_div_mod_euclid. exact NZ.
Qed.

(* quo and rem: truncated division, the remainder has the sign of the dividend *)
Theorem quo_rem_trunc : forall a b,
  nk a = KInt -> nk b = KInt -> 0 <= exp (nd a) -> 0 <= exp (nd b) -> ival (nd b) <> 0 ->
  exists q r, int_div_op FQuo a b = Ok q /\ int_div_op FRem a b = Ok r /\
    nk q = KInt /\ nk r = KInt /\
    ival (nd a) = ival (nd b) * ival (nd q) + ival (nd r) /\
    Z.abs (ival (nd r)) < Z.abs (ival (nd b)) /\
    (ival (nd r) = 0 \/ Z.sgn (ival (nd r)) = Z.sgn (ival (nd a))) /\
    Z.abs (ival (nd b) * ival (nd q)) <= Z.abs (ival (nd a)).
Proof.
  intros a b Ka Kb Ea Eb NZ.
  destruct (int_div_op_spec FQuo a b Ka Kb Ea Eb) as [_ Hq]. destruct (Hq NZ) as (q & Q1 & Q2 & _ & Q4).
  destruct (int_div_op_spec FRem a b Ka Kb Ea Eb) as [_ Hr]. destruct (Hr NZ) as (r & R1 & R2 & _ & R4).
  exists q, r. repeat (split; [assumption|]). rewrite Q4, R4. simpl.
  apply big_quo_rem_trunc. exact NZ.
Qed.

Theorem int_div_zero_error : forall f a b,
  nk a = KInt -> nk b = KInt -> 0 <= exp (nd a) -> 0 <= exp (nd b) -> ival (nd b) = 0 ->
  int_div_op f a b = Err.
Proof. intros f a b Ka Kb Ea Eb Z. apply (int_div_op_spec f a b Ka Kb Ea Eb). exact Z. Qed.
