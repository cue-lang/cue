(* C06 - literal.ParseNum + NumInfo.decimal on every spelling of the grammar:
   what reaches apd's setString, and the resulting decimal. *)
From Coq Require Import NArith ZArith List Bool Lia ZifyN ZifyBool.
From Verif Require Import Num.Decimal Num.NumLit Num.NumLitGrammar Num.ScanProofs
     Num.LitStageProofs.
Import ListNotations.
Local Open Scope N_scope.

Lemma split_at_notin : forall c l1 l2, ~ In c l1 -> split_at c (l1 ++ c :: l2) = Some (l1, l2).
Proof.
  induction l1 as [|x l1 IH]; intros l2 H; cbn [app split_at].
  - rewrite N.eqb_refl. reflexivity.
  - destruct (N.eqb_spec x c) as [E|NE]; [exfalso; apply H; left; exact E|].
    rewrite IH by (intro; apply H; right; assumption). reflexivity.
Qed.

Lemma split_at_none : forall c l, ~ In c l -> split_at c l = None.
Proof.
  induction l as [|x l IH]; intros H; cbn [split_at]; [reflexivity|].
  destruct (N.eqb_spec x c) as [E|NE]; [exfalso; apply H; left; exact E|].
  rewrite IH by (intro; apply H; right; assumption). reflexivity.
Qed.

Lemma digits_notin : forall l c, forallb is_digit l = true -> is_digit c = false -> ~ In c l.
Proof.
  intros l c H Hc I. rewrite forallb_forall in H. specialize (H c I). congruence.
Qed.

Lemma digit_not_sign : forall c, is_digit c = true -> (c =? c_minus) = false /\ (c =? c_plus) = false.
Proof. intros c H. unfold is_digit, c_minus, c_plus in *. lia. Qed.

Lemma forallb_app_digits : forall a b, forallb is_digit (a ++ b) = forallb is_digit a && forallb is_digit b.
Proof. intros. apply forallb_app. Qed.

Lemma digits_value_leading_zero : forall base l, digits_value base (c_0 :: l) 0 = digits_value base l 0.
Proof. intros. reflexivity. Qed.

Lemma ds_chars_digits : forall d, ds_ok 10 d = true -> forallb is_digit (ds_chars d) = true.
Proof.
  intros d H. unfold ds_ok in H. apply andb_prop in H. destruct H as [A B].
  unfold ds_chars. cbn [forallb]. rewrite (dec_digit_is_digit _ A). cbn [andb].
  induction (ds_tail d) as [|[u c] t IH]; [reflexivity|].
  cbn [forallb map snd] in *. apply andb_prop in B. destruct B as [B1 B2].
  rewrite (dec_digit_is_digit _ B1). cbn [andb]. apply IH. exact B2.
Qed.

Lemma opt_chars_digits : forall o, opt_ok o = true -> forallb is_digit (opt_chars o) = true.
Proof. intros [d|] H; [apply ds_chars_digits; exact H|reflexivity]. Qed.

Lemma eff_int_digits : forall ip, opt_ok ip = true ->
  forallb is_digit (eff_int ip) = true /\ eff_int ip <> [] /\
  forall F, digits_value 10 (eff_int ip ++ F) 0 = digits_value 10 (opt_chars ip ++ F) 0.
Proof.
  intros [d|] H; cbn [eff_int opt_chars opt_ok] in *.
  - pose proof (ds_chars_digits d H) as D. unfold pre_int.
    destruct (N.eqb_spec (ds_head d) c_0) as [Z|NZ].
    + unfold ds_chars in *. rewrite Z in *. cbn [forallb] in D.
      destruct (map snd (ds_tail d)) as [|a l] eqn:E.
      * split; [reflexivity|]. split; [discriminate|]. intros; reflexivity.
      * split; [exact D|]. split; [discriminate|]. intros; reflexivity.
    + unfold ds_chars in *. split; [exact D|]. split; [discriminate|]. intros; reflexivity.
  - split; [reflexivity|]. split; [discriminate|]. intros; reflexivity.
Qed.

Definition exp_part (e : option expo) : list N :=
  match e with None => [] | Some (mkExpo _ s ds) => c_e :: sign_chars s ++ ds_chars ds end.

Definition dot_part (hasdot : bool) (F : list N) : list N := if hasdot then c_dot :: F else [].

Definition int32_ok (z : Z) : bool := ((-2147483648 <=? z) && (z <=? 2147483647))%Z.

Lemma int32_range : forall z,
  ((z <? -2147483648) || (2147483647 <? z))%Z = negb (int32_ok z).
Proof. intros. unfold int32_ok. lia. Qed.

Lemma parse_int32_expo : forall s ds,
  ds_ok 10 ds = true ->
  let E := expo_value (Some (mkExpo false s ds)) in
  parse_int32 (sign_chars s ++ ds_chars ds) = if int32_ok E then Some E else None.
Proof.
  intros s ds Hok E. pose proof (ds_chars_digits ds Hok) as HD.
  pose proof (ds_head_range ds Hok) as HH.
  unfold parse_int32. unfold E, expo_value, chars_value.
  destruct s as [[|]|]; cbn [sign_chars app].
  - change (c_minus =? c_minus) with true. cbv iota.
    unfold ds_chars at 1. rewrite HD, int32_range.
    destruct (int32_ok _); reflexivity.
  - change (c_plus =? c_minus) with false. change (c_plus =? c_plus) with true. cbv iota.
    unfold ds_chars at 1. rewrite HD, int32_range.
    destruct (int32_ok _); reflexivity.
  - unfold ds_chars at 1.
    destruct (N.eqb_spec (ds_head ds) c_minus) as [X|_]; [unfold c_minus in X; lia|].
    destruct (N.eqb_spec (ds_head ds) c_plus) as [X|_]; [unfold c_plus in X; lia|].
    fold (ds_chars ds). rewrite HD, int32_range.
    destruct (int32_ok _); reflexivity.
Qed.

Lemma expo_value_upper : forall u s ds, expo_value (Some (mkExpo u s ds)) = expo_value (Some (mkExpo false s ds)).
Proof. reflexivity. Qed.

Lemma set_string_decimal : forall I F hasdot e,
  I <> [] -> forallb is_digit I = true -> forallb is_digit F = true -> expo_ok e = true ->
  (hasdot = false -> F = []) ->
  set_string (I ++ dot_part hasdot F ++ exp_part e) =
    let c := digits_value 10 (I ++ F) 0 in
    if int32_ok (expo_value e) then
      match set_exponent c ((match e with Some _ => [expo_value e] | None => [] end) ++
                            (if hasdot then [(- Z.of_nat (length F))%Z] else [])) with
      | Some x => DFin (mkDec false c x)
      | None => DNaN
      end
    else DNaN.
Proof.
  intros I F hasdot e HI DI DF He HF.
  destruct I as [|i0 I']; [contradiction|].
  assert (is_digit i0 = true) as Di0 by (cbn [forallb] in DI; apply andb_prop in DI; apply DI).
  destruct (digit_not_sign i0 Di0) as [NM NP].
  unfold set_string. cbn [app]. rewrite NM, NP.
  cbv iota beta. unfold starts_with_sign. rewrite NM, NP.
  cbn [orb]. cbv iota.
  assert (forallb is_digit ((i0 :: I') ++ F) = true) as DA by (rewrite forallb_app, DI, DF; reflexivity).
  (* the mantissa has no 'e' *)
  assert (~ In c_e ((i0 :: I') ++ dot_part hasdot F)) as NoE.
  { intro H. apply in_app_or in H. destruct H as [H|H].
    - revert H. apply digits_notin; [exact DI|reflexivity].
    - unfold dot_part in H. destruct hasdot; [|contradiction]. destruct H as [H|H]; [discriminate H|].
      revert H. apply digits_notin; [exact DF|reflexivity]. }
  (* the '.' splits the mantissa into the two digit strings *)
  assert (forall exps1 : list Z,
            match split_at c_dot ((i0 :: I') ++ dot_part hasdot F) with
            | Some (a, f) => (a ++ f, exps1 ++ [(- Z.of_nat (length f))%Z])
            | None => ((i0 :: I') ++ dot_part hasdot F, exps1)
            end = ((i0 :: I') ++ F, exps1 ++ (if hasdot then [(- Z.of_nat (length F))%Z] else []))) as SD.
  { intros exps1. unfold dot_part. destruct hasdot.
    - rewrite split_at_notin by (apply digits_notin; [exact DI|reflexivity]). reflexivity.
    - rewrite (HF eq_refl), !app_nil_r, split_at_none by (apply digits_notin; [exact DI|reflexivity]).
      reflexivity. }
  change (i0 :: I' ++ dot_part hasdot F ++ exp_part e) with ((i0 :: I') ++ dot_part hasdot F ++ exp_part e).
  rewrite app_assoc.
  destruct e as [[u s ds]|]; cbn [exp_part].
  - (* with exponent *)
    rewrite split_at_notin by exact NoE.
    cbn [expo_ok] in He. rewrite expo_value_upper in *.
    rewrite (parse_int32_expo s ds He). cbv zeta.
    destruct (int32_ok (expo_value (Some (mkExpo false s ds)))); [|reflexivity].
    cbv iota beta. cbn [negb]. rewrite SD, DA. reflexivity.
  - (* no exponent *)
    rewrite app_nil_r. rewrite (split_at_none c_e) by exact NoE. cbv iota beta. cbn [negb].
    rewrite SD, DA. reflexivity.
Qed.

Lemma expo_render_stops : forall e, stops 10 (expo_render e).
Proof. intros [[u s ds]|]; simpl; [destruct u; vm_compute; discriminate|exact I]. Qed.

Lemma mult_render_stops : forall m, mult_ok m = true -> stops 10 (mult_render m).
Proof. intros m H. unfold mult_render. simpl. apply (mult_char_not_special m H). Qed.

Lemma exponent_finish : forall chk e rb,
  expo_ok e = true -> rb <> [] ->
  finish (sn_exponent chk (after (expo_render e) rb false) true) =
    Some (mkInfo (rev rb ++ exp_part e) 10 None true).
Proof.
  intros chk e rb He Hrb. destruct e as [[u s ds]|].
  - cbn [expo_ok] in He. rewrite sn_exponent_expo by exact He.
    rewrite finish_end_ne by (do 2 apply app_nonnil_r; discriminate).
    rewrite !rev_app_distr. cbn [rev]. rewrite !rev_involutive.
    cbn [exp_part]. rewrite <- !app_assoc. reflexivity.
  - cbn [expo_render exp_part]. rewrite sn_exponent_end, finish_end, app_nil_r.
    destruct rb; [contradiction|reflexivity].
Qed.

Lemma mult_finish : forall chk m rb fl,
  mult_ok m = true ->
  finish (sn_exponent chk (after (mult_render m) rb false) fl) =
    let i := mkInfo (match rb with [] => [c_0] | _ => rev rb end) 10 (Some m) false in
    if chk then
      match decimal_of (mkInfo (rev rb) 10 (Some m) false) with
      | None => None
      | Some _ => Some i
      end
    else Some i.
Proof.
  intros chk m rb fl Hm. rewrite sn_exponent_mult by exact Hm. cbv zeta. destruct chk.
  - destruct (decimal_of _); [rewrite finish_end; reflexivity|reflexivity].
  - rewrite finish_end. reflexivity.
Qed.

Definition has_dot (fp : option (option dseq)) : bool := match fp with Some _ => true | None => false end.
Definition fp_chars (fp : option (option dseq)) : list N := opt_chars (fp_flat fp).

(* the integer part, then '.' or an exponent *)
Lemma scan_ip_cont : forall chk d R,
  ds_ok 10 d = true -> cont R ->
  scan_number chk (after (ds_render d ++ R) [] false) false =
  sn_fraction chk (after R (rev (eff_int (Some d))) false) false.
Proof.
  intros chk d R Hok HC. destruct (N.eq_dec (ds_head d) c_0) as [Z|NZ].
  - apply scan_number_zero_cont; assumption.
  - rewrite scan_number_nonzero by (auto; apply cont_stops; exact HC).
    unfold eff_int, pre_int. destruct (N.eqb_spec (ds_head d) c_0); [contradiction|reflexivity].
Qed.

(* [decimals] "." [decimals], then a tail that stops the digits: the buffer when the
   exponent label is reached *)
Lemma parse_point : forall chk ip f T,
  opt_ok ip = true -> opt_ok f = true -> (ip = None -> f <> None) -> stops 10 T ->
  parse_num_gen chk (opt_render ip ++ c_dot :: opt_render f ++ T) =
    finish (sn_exponent chk (after T (rev (eff_int ip ++ c_dot :: opt_chars f)) false) true).
Proof.
  intros chk [d|] f T Hip Hf Hn HT; cbn [opt_render opt_ok eff_int app] in *.
  - rewrite parse_start_ds by exact Hip.
    rewrite scan_ip_cont by (auto; constructor).
    rewrite sn_fraction_dot, on_read_dot_eff by assumption.
    rewrite <- rev_app_distr, <- app_assoc. reflexivity.
  - destruct f as [f|]; [|contradiction (Hn eq_refl eq_refl)]. cbn [opt_render opt_ok] in *.
    rewrite parse_start_point. unfold scan_number.
    rewrite (scan_dseq 10) by (auto; lia). cbn [opt_chars rev app]. rewrite <- app_assoc. reflexivity.
Qed.

Theorem float_scan : forall chk ip fp e,
  lit_ok (GFloat ip fp e) = true ->
  parse_num_gen chk (render (GFloat ip fp e)) =
    Some (mkInfo (eff_int ip ++ dot_part (has_dot fp) (fp_chars fp) ++ exp_part e) 10 None true).
Proof.
  intros chk ip fp e Hok. cbn [lit_ok] in Hok.
  apply andb_prop in Hok. destruct Hok as [Hok H3]. apply andb_prop in Hok. destruct Hok as [Hip He].
  cbn [render]. destruct fp as [f|].
  - (* [decimals] "." [decimals] [exponent] *)
    assert (opt_ok f = true) as Hf by (destruct ip, f; (exact H3 || reflexivity)).
    cbn [app]. rewrite parse_point; [|exact Hip|exact Hf| |apply expo_render_stops].
    + rewrite exponent_finish, rev_involutive, <- app_assoc;
        [|exact He|apply rev_nonnil, app_nonnil_r; discriminate].
      cbn [app has_dot dot_part]. unfold fp_chars. destruct f; reflexivity.
    + intros -> ->. discriminate H3.
  - (* decimals exponent *)
    destruct ip as [d|]; [|discriminate H3]. destruct e as [[u s ds]|]; [|discriminate H3].
    cbn [opt_ok opt_render app] in *. rewrite parse_start_ds by exact Hip.
    assert (cont (expo_render (Some (mkExpo u s ds)))) as HC by (cbn [expo_render]; destruct u; constructor).
    rewrite scan_ip_cont by (auto).
    rewrite sn_fraction_skip by (destruct u; discriminate).
    (* sn_exponent is entered with isFloat = false here; the exponent sets it *)
    cbn [expo_ok] in He. rewrite sn_exponent_expo by exact He.
    rewrite <- (sn_exponent_expo chk u s ds (rev (eff_int (Some d))) true He).
    rewrite exponent_finish; [|exact He|].
    + cbn [has_dot dot_part app]. rewrite rev_involutive. reflexivity.
    + apply rev_nonnil. apply (eff_int_digits (Some d) Hip).
Qed.

Definition si_info (ip fp : option dseq) (m : mult) : numinfo :=
  mkInfo (eff_int ip ++ dot_part (match fp with Some _ => true | None => false end) (opt_chars fp))
         10 (Some m) false.

(* si literals.  "00K", "01K" (decimals with a leading zero directly before the multiplier)
   are rejected by ParseNum although the grammar allows them: they are excluded here. *)
Definition si_no_leading_zero (ip fp : option dseq) : bool :=
  match ip, fp with
  | Some d, None => no_leading_zero d
  | _, _ => true
  end.

Theorem si_scan : forall chk ip fp m,
  lit_ok (GSi ip fp m) = true -> si_no_leading_zero ip fp = true ->
  parse_num_gen chk (render (GSi ip fp m)) =
    if chk then
      match decimal_of (si_info ip fp m) with
      | None => None
      | Some _ => Some (si_info ip fp m)
      end
    else Some (si_info ip fp m).
Proof.
  intros chk ip fp m Hok Hnz. cbn [lit_ok] in Hok.
  apply andb_prop in Hok. destruct Hok as [Hok H3]. apply andb_prop in Hok. destruct Hok as [Hok Hm].
  apply andb_prop in Hok. destruct Hok as [Hip Hfp].
  destruct (mult_char_not_special m Hm) as (MZ & MD & _).
  cbn [render]. unfold si_info. destruct fp as [f|].
  - (* [decimals] "." decimals multiplier *)
    cbn [app]. change (ds_render f) with (opt_render (Some f)).
    rewrite parse_point; [|exact Hip|exact Hfp|discriminate|apply mult_render_stops; exact Hm].
    rewrite mult_finish by exact Hm. cbv zeta.
    rewrite match_nonnil, rev_involutive by (apply rev_nonnil, app_nonnil_r; discriminate).
    reflexivity.
  - (* decimals multiplier *)
    destruct ip as [d|]; [|discriminate H3]. cbn [opt_ok opt_render] in *.
    cbn [si_no_leading_zero] in Hnz. unfold no_leading_zero in Hnz.
    cbn [app dot_part opt_chars]. rewrite app_nil_r.
    destruct (N.eqb_spec (ds_head d) c_0) as [Z|NZ].
    + (* just "0" *)
      cbn [negb orb] in Hnz. destruct (ds_tail d) as [|p t] eqn:ET; [|discriminate Hnz].
      unfold ds_render. rewrite ET, Z. cbn [tail_render flat_map app].
      rewrite parse_start_digit by (unfold c_0; lia).
      rewrite scan_number_zero_mult by exact Hm.
      rewrite mult_finish by exact Hm. cbv zeta. cbn [rev].
      assert (eff_int (Some d) = [c_0]) as ->.
      { unfold eff_int, pre_int. rewrite Z, ET. reflexivity. }
      (* the check inside scanNumber sees an empty buffer, which decimal() reads as "0",
         exactly what the final conversion sees *)
      destruct chk; reflexivity.
    + rewrite parse_start_ds by exact Hip.
      rewrite scan_number_nonzero by (auto; apply mult_render_stops; exact Hm).
      rewrite sn_fraction_skip.
      2:{ unfold mult_render. rewrite after_cons by exact MZ. cbn [s_ch]. exact MD. }
      rewrite mult_finish by exact Hm. cbv zeta.
      assert (eff_int (Some d) = ds_chars d) as ->.
      { unfold eff_int, pre_int. destruct (N.eqb_spec (ds_head d) c_0); [contradiction|reflexivity]. }
      rewrite match_nonnil, rev_involutive by apply rev_nonnil, ds_chars_nonnil.
      reflexivity.
Qed.

Theorem dec_scan : forall chk d,
  lit_ok (GDec d) = true ->
  parse_num_gen chk (render (GDec d)) = Some (mkInfo (ds_chars d) 10 None false).
Proof.
  intros chk d Hok. cbn [lit_ok] in Hok. apply andb_prop in Hok. destruct Hok as [Hd Hnz].
  unfold no_leading_zero in Hnz. cbn [render].
  destruct (N.eqb_spec (ds_head d) c_0) as [Z|NZ].
  - cbn [negb orb] in Hnz. destruct (ds_tail d) as [|p t] eqn:ET; [|discriminate Hnz].
    unfold ds_render, ds_chars. rewrite ET, Z. destruct chk; reflexivity.
  - rewrite <- (app_nil_r (ds_render d)), parse_start_ds by exact Hd.
    rewrite scan_number_nonzero by (auto; exact I).
    rewrite sn_fraction_skip by (cbn; discriminate).
    rewrite sn_exponent_end, finish_end_ne, rev_involutive by apply rev_nonnil, ds_chars_nonnil.
    reflexivity.
Qed.

Theorem based_scan : forall chk p d,
  lit_ok (GBased p d) = true ->
  parse_num_gen chk (render (GBased p d)) = Some (mkInfo (ds_chars d) (prefix_base p) None false).
Proof.
  intros chk p d Hok. cbn [lit_ok] in Hok. cbn [render].
  rewrite parse_start_digit by (unfold c_0; lia).
  assert (scan_number chk (after (c_0 :: prefix_char p :: ds_render d) [] false) false =
          sn_based (prefix_base p) (mkSt (ds_render d) (prefix_char p) [] false)) as ->
    by (destruct p; reflexivity).
  assert (0 < prefix_base p <= 16) as PB by (destruct p; simpl; lia).
  unfold sn_based. rewrite next_after, <- (app_nil_r (ds_render d)).
  rewrite (scan_dseq _ d [] []) by (auto; exact I).
  rewrite app_nil_r, sn_exit_end, finish_end_ne, rev_involutive by apply rev_nonnil, ds_chars_nonnil.
  reflexivity.
Qed.
