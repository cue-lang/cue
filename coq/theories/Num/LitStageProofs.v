(* C06 - literal.ParseNum on the grammar: the labels of scanNumber (exit, exponent, fraction),
   the three ways a literal can start, and the final assembly of NumInfo. *)
From Coq Require Import NArith ZArith List Bool Lia ZifyN ZifyBool.
From Verif Require Import Num.Decimal Num.NumLit Num.NumLitGrammar Num.ScanProofs.
Import ListNotations.
Local Open Scope N_scope.

Lemma after_nil : forall rb e, after [] rb e = mkSt [] 0 rb e.
Proof. reflexivity. Qed.

Lemma after_cons : forall c r rb, c <> 0 -> after (c :: r) rb false = mkSt r c (on_read c rb) false.
Proof.
  intros c r rb H. unfold after, next. cbn [s_src s_rbuf s_err].
  rewrite (proj2 (N.eqb_neq c 0) H). reflexivity.
Qed.

(* next does not look at the current byte *)
Lemma next_after : forall src ch rb e, next (mkSt src ch rb e) = after src rb e.
Proof. reflexivity. Qed.

Lemma after_ch_stops : forall base rest rb e, base <= 16 -> stops base rest ->
  base <= digit_val (s_ch (after rest rb e)).
Proof.
  intros base rest rb e Hb H. destruct rest as [|c r]; unfold after, next; cbn [s_src s_ch].
  - change (digit_val 0) with 16. exact Hb.
  - exact H.
Qed.

(* non-empty lists: the buffer is "0" only when nothing was collected *)
Lemma match_nonnil : forall (B : Type) (l : list N) (x y : B),
  l <> [] -> match l with [] => x | _ :: _ => y end = y.
Proof. intros B [|a l] x y H; [contradiction|reflexivity]. Qed.

Lemma app_nonnil_r : forall (a b : list N), b <> [] -> a ++ b <> [].
Proof. intros a b H E. apply app_eq_nil in E. exact (H (proj2 E)). Qed.

Lemma rev_nonnil : forall (l : list N), l <> [] -> rev l <> [].
Proof.
  intros l H E. apply H. apply (f_equal (@rev N)) in E. rewrite rev_involutive in E. exact E.
Qed.

Lemma ds_chars_nonnil : forall d, ds_chars d <> [].
Proof. intros d. unfold ds_chars. discriminate. Qed.

Lemma dec_digit_range : forall c, is_base_digit 10 c = true -> 48 <= c <= 57.
Proof.
  intros c H. unfold is_base_digit in H. apply andb_prop in H. destruct H as [A B].
  apply N.ltb_lt in A. apply dec_or_us in A. lia.
Qed.

Lemma dec_digit_is_digit : forall c, is_base_digit 10 c = true -> is_digit c = true.
Proof. intros c H. apply dec_digit_range in H. unfold is_digit. lia. Qed.

Lemma ds_head_range : forall d, ds_ok 10 d = true -> 48 <= ds_head d <= 57.
Proof. intros d H. unfold ds_ok in H. apply andb_prop in H. apply dec_digit_range. apply H. Qed.

Lemma next_mk : forall c r ch rb e,
  next (mkSt (c :: r) ch rb e) = mkSt r c (on_read c rb) (e || (c =? 0)).
Proof. reflexivity. Qed.

Lemma push_mk : forall c src ch rb e, push c (mkSt src ch rb e) = mkSt src ch (c :: rb) e.
Proof. reflexivity. Qed.

Lemma sn_exit_end : forall rb base fl,
  sn_exit (after [] rb false) base fl = Some (after [] rb false, base, None, fl).
Proof. reflexivity. Qed.

Lemma sn_exponent_end : forall chk rb fl,
  sn_exponent chk (after [] rb false) fl = Some (after [] rb false, 10, None, fl).
Proof. reflexivity. Qed.

Lemma sn_exponent_expo : forall chk u s ds rb fl,
  ds_ok 10 ds = true ->
  sn_exponent chk (after (expo_render (Some (mkExpo u s ds))) rb false) fl =
    Some (after [] (rev (ds_chars ds) ++ rev (sign_chars s) ++ c_e :: rb) false, 10, None, true).
Proof.
  intros chk u s ds rb fl Hok. pose proof (ds_head_range ds Hok) as HR.
  unfold expo_render.
  assert (exists ec, (if u then c_E else c_e) = ec /\ (ec = c_e \/ ec = c_E)) as (ec & -> & Hec)
    by (destruct u; eexists; split; eauto).
  rewrite after_cons, on_read_plain by (destruct Hec; subst; discriminate).
  unfold sn_exponent. cbn [s_ch].
  assert (mul_index ec = None) as -> by (destruct Hec; subst; reflexivity).
  assert ((ec =? c_e) || (ec =? c_E) = true) as -> by (destruct Hec; subst; reflexivity).
  (* 'e' is pushed, a sign is pushed and skipped: the scanner stands before the digits *)
  assert (let s1 := push c_e (next (mkSt (sign_chars s ++ ds_render ds) ec rb false)) in
          (if (s_ch s1 =? c_minus) || (s_ch s1 =? c_plus) then next (push (s_ch s1) s1) else s1)
          = after (ds_render ds) (rev (sign_chars s) ++ c_e :: rb) false) as S2.
  { destruct s as [[|]|]; cbn [sign_chars app rev]; try reflexivity.
    unfold ds_render. rewrite next_mk, push_mk, after_cons, !on_read_plain by (unfold c_dot; lia).
    cbn [s_ch].
    assert ((ds_head ds =? c_minus) || (ds_head ds =? c_plus) = false) as ->
      by (unfold c_minus, c_plus; lia).
    assert ((ds_head ds =? 0) = false) as -> by lia.
    reflexivity. }
  cbv zeta in S2. cbv zeta. rewrite S2.
  rewrite <- (app_nil_r (ds_render ds)), (scan_dseq 10) by (auto; simpl; lia).
  reflexivity.
Qed.

Lemma mul_index_char : forall m, mult_ok m = true -> mul_index (mult_char m) = Some (m_idx m).
Proof.
  intros [idx bin] H. unfold mult_ok in H. simpl in H. unfold mult_char. simpl.
  assert (idx = 1 \/ idx = 2 \/ idx = 3 \/ idx = 4 \/ idx = 5) as C by lia.
  destruct C as [->|[->|[->|[->| ->]]]]; reflexivity.
Qed.

Lemma mult_char_range : forall m, mult_ok m = true -> 71 <= mult_char m <= 84.
Proof.
  intros [idx bin] H. unfold mult_ok in H. simpl in H. unfold mult_char. simpl.
  assert (idx = 1 \/ idx = 2 \/ idx = 3 \/ idx = 4 \/ idx = 5) as C by lia.
  destruct C as [->|[->|[->|[->| ->]]]]; lia.
Qed.

Lemma mult_char_not_special : forall m, mult_ok m = true ->
  mult_char m <> 0 /\ mult_char m <> c_dot /\ mult_char m <> c_e /\ mult_char m <> c_E /\
  10 <= digit_val (mult_char m).
Proof.
  intros m H. apply mult_char_range in H. unfold c_dot, c_e, c_E.
  pose proof (digit_val_cases (mult_char m)) as D. unfold c_us in D. lia.
Qed.

Lemma sn_exponent_mult : forall chk m rb fl,
  mult_ok m = true ->
  sn_exponent chk (after (mult_render m) rb false) fl =
    if chk then
      match decimal_of (mkInfo (rev rb) 10 (Some m) false) with
      | None => None
      | Some _ => Some (after [] rb false, 10, Some m, false)
      end
    else Some (after [] rb false, 10, Some m, false).
Proof.
  intros chk m rb fl Hok. destruct (mult_char_not_special m Hok) as (NZ & ND & _ & _ & _).
  unfold mult_render. rewrite after_cons by exact NZ. rewrite on_read_plain by exact ND.
  unfold sn_exponent. cbn [s_ch]. rewrite (mul_index_char m Hok).
  destruct m as [idx bin]. cbn [m_bin m_idx]. destruct bin; cbn -[decimal_of]; reflexivity.
Qed.

Lemma sn_fraction_dot : forall chk f rest rb fl,
  opt_ok f = true -> stops 10 rest ->
  sn_fraction chk (after (c_dot :: opt_render f ++ rest) rb false) fl =
    sn_exponent chk (after rest (rev (opt_chars f) ++ on_read c_dot rb) false) true.
Proof.
  intros chk f rest rb fl Hok Hstop. rewrite after_cons by discriminate.
  unfold sn_fraction. cbn [s_ch]. change (c_dot =? c_dot) with true.
  rewrite next_after.
  destruct f as [d|]; cbn [opt_render opt_chars opt_ok] in *.
  - rewrite (scan_dseq 10) by (auto; lia). reflexivity.
  - cbn [app rev]. rewrite scan_mantissa_stop by (apply after_ch_stops; [lia|exact Hstop]). reflexivity.
Qed.

Lemma sn_fraction_skip : forall chk s fl, s_ch s <> c_dot -> sn_fraction chk s fl = sn_exponent chk s fl.
Proof.
  intros chk s fl H. unfold sn_fraction. destruct (N.eqb_spec (s_ch s) c_dot); [contradiction|reflexivity].
Qed.

Definition finish (o : option (st * N * option mult * bool)) : option numinfo :=
  match o with
  | None => None
  | Some (s4, base, m, fl) =>
    if s_err s4 then None
    else if negb (match s_src s4 with [] => true | _ => false end) then None
    else Some (mkInfo (match s_rbuf s4 with [] => [c_0] | r => rev r end) base m fl)
  end.

Lemma finish_end : forall rb base m fl,
  finish (Some (after [] rb false, base, m, fl)) =
  Some (mkInfo (match rb with [] => [c_0] | _ => rev rb end) base m fl).
Proof. intros. destruct rb; reflexivity. Qed.

Lemma finish_end_ne : forall rb base m fl, rb <> [] ->
  finish (Some (after [] rb false, base, m, fl)) = Some (mkInfo (rev rb) base m fl).
Proof. intros [|c r] base m fl H; [contradiction|reflexivity]. Qed.

Lemma parse_start_digit : forall chk h r, 48 <= h <= 57 ->
  parse_num_gen chk (h :: r) = finish (scan_number chk (after (h :: r) [] false) false).
Proof.
  intros chk h r H. unfold parse_num_gen.
  rewrite next_after.
  rewrite after_cons by lia. rewrite on_read_plain by (unfold c_dot; lia). cbn [s_ch].
  assert (h =? c_minus = false) as -> by (unfold c_minus; lia).
  assert (h =? c_plus = false) as -> by (unfold c_plus; lia).
  cbn [s_ch].
  assert (h =? c_dot = false) as -> by (unfold c_dot; lia).
  unfold finish. reflexivity.
Qed.

Lemma parse_start_ds : forall chk d X, ds_ok 10 d = true ->
  parse_num_gen chk (ds_render d ++ X) = finish (scan_number chk (after (ds_render d ++ X) [] false) false).
Proof. intros chk d X H. apply (parse_start_digit chk (ds_head d)). apply ds_head_range. exact H. Qed.

Lemma parse_start_point : forall chk r,
  parse_num_gen chk (c_dot :: r) = finish (scan_number chk (after r [c_dot; c_0] false) true).
Proof. intros. unfold parse_num_gen, finish. reflexivity. Qed.

(* the bytes of the integer part that reach buf *)
Definition pre_int (d : dseq) : list N :=
  if ds_head d =? c_0 then map snd (ds_tail d) else ds_chars d.

Definition eff_int (ip : option dseq) : list N :=
  match ip with
  | None => [c_0]
  | Some d => match pre_int d with [] => [c_0] | l => l end
  end.

Lemma eff_int_nonnil : forall ip, eff_int ip <> [].
Proof. intros [d|]; cbn [eff_int]; [destruct (pre_int d)|]; discriminate. Qed.

Lemma on_read_dot_eff : forall ip,
  on_read c_dot (rev (eff_int ip)) = rev (eff_int ip ++ [c_dot]).
Proof.
  intros ip. unfold on_read. change (c_dot =? c_dot) with true. cbv iota.
  rewrite rev_unit, match_nonnil by apply rev_nonnil, eff_int_nonnil. reflexivity.
Qed.

(* what may follow the integer part of a float or si literal *)
Inductive cont : list N -> Prop :=
| cont_dot : forall r, cont (c_dot :: r)
| cont_e : forall r, cont (c_e :: r)
| cont_E : forall r, cont (c_E :: r).

Lemma cont_stops : forall R, cont R -> stops 10 R.
Proof. intros R H. destruct H; simpl; vm_compute; discriminate. Qed.

(* neither x, X, b nor o *)
Lemma not_prefix : forall c, c < 98 -> c <> 88 ->
  (c =? 120) || (c =? 88) = false /\ (c =? 98) = false /\ (c =? 111) = false.
Proof. intros c H1 H2. lia. Qed.

(* a literal starting with a non-zero digit *)
Lemma scan_number_nonzero : forall chk d R,
  ds_ok 10 d = true -> ds_head d <> c_0 -> stops 10 R ->
  scan_number chk (after (ds_render d ++ R) [] false) false =
    sn_fraction chk (after R (rev (ds_chars d)) false) false.
Proof.
  intros chk d R Hok Hnz Hstop. pose proof (ds_head_range d Hok) as HR.
  unfold scan_number.
  assert (s_ch (after (ds_render d ++ R) [] false) = ds_head d) as Hch.
  { unfold ds_render. cbn [app]. rewrite after_cons by lia. reflexivity. }
  rewrite Hch. rewrite (proj2 (N.eqb_neq (ds_head d) c_0) Hnz).
  rewrite (scan_dseq 10) by (auto; lia). rewrite app_nil_r. reflexivity.
Qed.

(* a literal starting with "0" followed by '.', 'e' or 'E' (possibly after more digits) *)
Lemma scan_number_zero_cont : forall chk d R,
  ds_ok 10 d = true -> ds_head d = c_0 -> cont R ->
  scan_number chk (after (ds_render d ++ R) [] false) false =
    sn_fraction chk (after R (rev (eff_int (Some d))) false) false.
Proof.
  intros chk d R Hok Hz HC. pose proof (cont_stops R HC) as Hstop.
  unfold ds_ok in Hok. apply andb_prop in Hok. destruct Hok as [_ Ht].
  unfold scan_number, ds_render. rewrite Hz. cbn [app].
  rewrite after_cons by discriminate. rewrite on_read_plain by discriminate. cbn [s_ch].
  change (c_0 =? c_0) with true. cbv iota.
  rewrite next_after.
  assert (pre_int d = map snd (ds_tail d)) as HP by (unfold pre_int; rewrite Hz; reflexivity).
  destruct (ds_tail d) as [|p t] eqn:ET.
  - (* just "0" *)
    cbn [tail_render flat_map app]. simpl in HP.
    assert (eff_int (Some d) = [c_0]) as HE by (unfold eff_int; rewrite HP; reflexivity).
    rewrite HE.
    destruct HC as [r|r|r]; rewrite !after_cons by discriminate; cbn [s_ch];
      rewrite scan_mantissa_stop by (cbn [s_ch]; vm_compute; discriminate); reflexivity.
  - (* "0" and more digits *)
    assert (exists c0 cs, tail_render (p :: t) = c0 :: cs /\ digit_val c0 < 10) as (c0 & cs & E0 & D0).
    { pose proof (tail_render_forall 10 (p :: t) Ht ltac:(lia)) as F.
      destruct (tail_render (p :: t)) as [|c0 cs] eqn:E.
      - destruct p as [[|] c]; discriminate E.
      - inversion F; subst. eauto. }
    assert (s_ch (after (tail_render (p :: t) ++ R) [] false) = c0) as Hch.
    { rewrite E0. cbn [app]. destruct (digit_val_special c0 ltac:(lia)) as [NZ _].
      rewrite after_cons by exact NZ. reflexivity. }
    rewrite Hch.
    apply dec_or_us in D0. unfold c_us in D0.
    destruct (not_prefix c0) as (X1 & X2 & X3); [lia|lia|].
    rewrite X1, X2, X3.
    rewrite scan_tail by (auto; discriminate). rewrite app_nil_r.
    assert (eff_int (Some d) = map snd (p :: t)) as HE.
    { unfold eff_int. rewrite HP. reflexivity. }
    rewrite HE.
    destruct HC as [r|r|r]; rewrite !after_cons by discriminate; cbn [s_ch s_rbuf].
    + reflexivity.
    + rewrite on_read_plain, match_nonnil by (try apply rev_nonnil; discriminate). reflexivity.
    + rewrite on_read_plain, match_nonnil by (try apply rev_nonnil; discriminate). reflexivity.
Qed.

(* "0" directly followed by a multiplier *)
Lemma scan_number_zero_mult : forall chk m, mult_ok m = true ->
  scan_number chk (after (c_0 :: mult_render m) [] false) false =
    sn_exponent chk (after (mult_render m) [] false) false.
Proof.
  intros chk m Hm. destruct (mult_char_not_special m Hm) as (MZ & MD & ME & MEE & MS).
  pose proof (mult_char_range m Hm) as MR.
  unfold scan_number. rewrite after_cons by discriminate. cbn [s_ch].
  change (c_0 =? c_0) with true. cbv iota. rewrite on_read_plain by discriminate.
  rewrite next_after.
  assert (after (mult_render m) [] false =
          mkSt (if m_bin m then [c_i] else []) (mult_char m) [] false) as ->.
  { unfold mult_render. rewrite after_cons by exact MZ. rewrite on_read_plain by exact MD. reflexivity. }
  cbn [s_ch].
  destruct (not_prefix (mult_char m)) as (X1 & X2 & X3); [lia|lia|]. rewrite X1, X2, X3.
  rewrite scan_mantissa_stop by exact MS. cbn [s_ch].
  rewrite (proj2 (N.eqb_neq _ _) ME), (proj2 (N.eqb_neq _ _) MEE), (proj2 (N.eqb_neq _ _) MD),
    (proj2 (N.eqb_neq _ _) MZ).
  cbn [orb negb]. rewrite (mul_index_char m Hm). reflexivity.
Qed.
