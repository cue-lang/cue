(* C06 - the value of the literals of the grammar: what NumInfo.decimal makes of the buffer
   ParseNum collects, and lit_parse (render l) = lit_denote l for every literal l. *)
From Coq Require Import NArith ZArith QArith Qabs List Bool Lia ZifyN ZifyBool.
From Verif Require Import Num.Decimal Num.NumLit Num.NumLitGrammar Num.ScanProofs
     Num.LitStageProofs Num.LitProofs Num.DigitsProofs Num.DVal
     Num.RoundProofs Num.IntDivProofs.
Import ListNotations.
Local Open Scope N_scope.

Lemma lit_parse_of_info : forall src i,
  parse_num src = Some i ->
  lit_parse src = match decimal_of i with
                  | None => LErr
                  | Some DNaN => LNaN (kind_of_float (i_float i))
                  | Some (DFin d) => LNum (mkNum (kind_of_float (i_float i)) d)
                  end.
Proof. intros src i H. unfold lit_parse. rewrite H. reflexivity. Qed.

Lemma base_digit_not_minus : forall base c, base <= 16 -> is_base_digit base c = true -> c <> c_minus.
Proof.
  intros base c Hb H E. subst. unfold is_base_digit in H. apply andb_prop in H. destruct H as [A _].
  apply N.ltb_lt in A. change (digit_val c_minus) with 16 in A. lia.
Qed.

(* the exponent range in which apd keeps the exponent (Decimal.setExponent); 100000 is
   NumLit.max_exponent *)
Definition exp_in_range (c : N) (E : Z) (nF : nat) : Prop :=
  (- 100000 <= E <= 100000)%Z /\ (Z.of_nat nF <= 100000)%Z /\
  (- 100000 <= E - Z.of_nat nF + Z.of_N (digits c) - 1 <= 100000)%Z.

(* setExponent on the exponent of the literal and the length of its fraction *)
Lemma set_exponent_lit : forall c (oe : option expo) E nF (hd : bool),
  (oe = None -> E = 0%Z) -> (hd = false -> nF = O) ->
  let xs := (match oe with Some _ => [E] | None => [] end) ++
            (if hd then [(- Z.of_nat nF)%Z] else []) in
  (exp_in_range c E nF -> set_exponent c xs = Some (E - Z.of_nat nF)%Z) /\
  (~ exp_in_range c E nF -> set_exponent c xs = None).
Proof.
  intros c oe E nF hd HE HD xs. unfold set_exponent, exp_in_range, max_exponent.
  assert (fold_left Z.add xs 0%Z = (E - Z.of_nat nF)%Z) as ->.
  { subst xs. destruct oe, hd; cbn [app fold_left];
      try rewrite (HE eq_refl); try rewrite (HD eq_refl); lia. }
  assert (forallb (fun x => (x <=? 100000) && (- (100000) <=? x))%Z xs =
          ((E <=? 100000) && (- (100000) <=? E) && (Z.of_nat nF <=? 100000))%Z) as ->.
  { subst xs. destruct oe, hd; cbn [app forallb];
      try rewrite (HE eq_refl); try rewrite (HD eq_refl); lia. }
  split; intros R.
  - replace ((E <=? 100000) && (- (100000) <=? E) && (Z.of_nat nF <=? 100000))%Z with true by lia.
    replace ((100000 <? E - Z.of_nat nF + Z.of_N (digits c) - 1) ||
             (E - Z.of_nat nF + Z.of_N (digits c) - 1 <? - (100000)))%Z with false by lia.
    reflexivity.
  - destruct ((E <=? 100000) && (- (100000) <=? E) && (Z.of_nat nF <=? 100000))%Z eqn:B1; [|reflexivity].
    destruct ((100000 <? E - Z.of_nat nF + Z.of_N (digits c) - 1) ||
              (E - Z.of_nat nF + Z.of_N (digits c) - 1 <? - (100000)))%Z eqn:B2; [reflexivity|].
    exfalso. apply R. lia.
Qed.

Lemma int32_of_range : forall E, (- 100000 <= E <= 100000)%Z -> int32_ok E = true.
Proof. intros E H. unfold int32_ok. lia. Qed.

(* float_lit: what setString makes of the collected buffer *)
Lemma float_parse : forall ip fp e,
  lit_ok (GFloat ip fp e) = true ->
  lit_parse (render (GFloat ip fp e)) =
    let c := chars_value 10 (opt_chars ip ++ fp_chars fp) in
    if int32_ok (expo_value e) then
      match set_exponent c ((match e with Some _ => [expo_value e] | None => [] end) ++
                            (if has_dot fp then [(- Z.of_nat (length (fp_chars fp)))%Z] else [])) with
      | Some x => LNum (mkNum KFloat (mkDec false c x))
      | None => LErr
      end
    else LErr.
Proof.
  intros ip fp e Hok. rewrite (lit_parse_of_info _ _ (float_scan true ip fp e Hok)).
  cbn [lit_ok] in Hok.
  apply andb_prop in Hok. destruct Hok as [Hok H3]. apply andb_prop in Hok. destruct Hok as [Hip He].
  destruct (eff_int_digits ip Hip) as (DI & NI & VI).
  assert (forallb is_digit (fp_chars fp) = true) as DF.
  { unfold fp_chars, fp_flat. destruct fp as [[f|]|]; try reflexivity.
    apply ds_chars_digits. destruct ip; simpl in H3; exact H3. }
  assert (has_dot fp = false -> fp_chars fp = []) as HF by (destruct fp; [discriminate|reflexivity]).
  unfold decimal_of. cbn [i_base i_buf i_mul i_float]. change (negb (10 =? 10)) with false. cbv iota.
  assert (match eff_int ip ++ dot_part (has_dot fp) (fp_chars fp) ++ exp_part e with [] => [c_0] | b => b end
          = eff_int ip ++ dot_part (has_dot fp) (fp_chars fp) ++ exp_part e) as ->.
  { destruct (eff_int ip); [contradiction|reflexivity]. }
  rewrite set_string_decimal; auto. cbv zeta. rewrite VI. unfold chars_value.
  destruct (int32_ok (expo_value e)); [|reflexivity].
  destruct (set_exponent _ _); reflexivity.
Qed.

Lemma float_exponent_sides : forall fp e,
  (e = None -> expo_value e = 0%Z) /\ (has_dot fp = false -> length (fp_chars fp) = O).
Proof.
  intros fp e. split.
  - intros ->. reflexivity.
  - destruct fp; [discriminate|reflexivity].
Qed.

(* NumInfo.decimal on the buffer of an si_lit *)
Lemma si_decimal : forall ip fp m,
  opt_ok ip = true -> opt_ok fp = true ->
  exp_in_range (chars_value 10 (opt_chars ip ++ opt_chars fp)) 0 (length (opt_chars fp)) ->
  decimal_of (si_info ip fp m) =
    match to_integral_flag (dmul (mantissa ip fp 0) (mkDec false (mult_value m) 0)) with
    | (r, false) => Some (DFin r)
    | (_, true) => None
    end.
Proof.
  intros ip fp m Hip Hfp HR.
  destruct (eff_int_digits ip Hip) as (DI & NI & VI).
  pose proof (opt_chars_digits fp Hfp) as DF.
  set (hd := match fp with Some _ => true | None => false end) in *.
  unfold decimal_of, si_info. cbn [i_base i_buf i_mul i_float]. change (negb (10 =? 10)) with false. cbv iota.
  fold hd.
  assert (match eff_int ip ++ dot_part hd (opt_chars fp) with [] => [c_0] | b => b end
          = eff_int ip ++ dot_part hd (opt_chars fp)) as ->.
  { destruct (eff_int ip); [contradiction|reflexivity]. }
  assert (hd = false -> opt_chars fp = []) as HF by (destruct fp; [discriminate|reflexivity]).
  pose proof (set_string_decimal (eff_int ip) (opt_chars fp) hd None NI DI DF eq_refl HF) as SS.
  cbn [exp_part] in SS. rewrite app_nil_r in SS. rewrite SS; clear SS.
  cbv zeta. change (int32_ok (expo_value None)) with true. cbv iota. rewrite VI.
  assert (hd = false -> length (opt_chars fp) = O) as HL by (intros X; rewrite (HF X); reflexivity).
  pose proof (proj1 (set_exponent_lit _ None 0%Z _ hd (fun _ => eq_refl) HL) HR) as SE.
  unfold chars_value in SE. rewrite SE. unfold mantissa, chars_value.
  destruct (to_integral_flag _) as [r [|]]; reflexivity.
Qed.

(* the number a literal denotes: digits in their base; digits * 10^(exponent - number of
   fraction digits), of kind float; for si_lit the mantissa times the multiplier at
   precision 34, then RoundToIntegralExact *)
Definition lit_denote (l : lit) : lit_result :=
  match l with
  | GDec d => LNum (mkNum KInt (mkDec false (chars_value 10 (ds_chars d)) 0))
  | GBased p d => LNum (mkNum KInt (mkDec false (chars_value (prefix_base p) (ds_chars d)) 0))
  | GFloat ip fp e => LNum (mkNum KFloat (mantissa ip (fp_flat fp) (expo_value e)))
  | GSi ip fp m =>
    match to_integral_flag (dmul (mantissa ip fp 0) (mkDec false (mult_value m) 0)) with
    | (r, false) => LNum (mkNum KInt r)
    | (_, true) => LErr
    end
  end.

(* apd keeps the exponent (a decimal_lit of more than 100001 digits would leave its range);
   ParseNum refuses "01K" *)
Definition lit_in_range (l : lit) : Prop :=
  match l with
  | GDec d => (Z.of_N (digits (chars_value 10 (ds_chars d))) <= 100001)%Z
  | GBased _ _ => True
  | GFloat ip fp e =>
    exp_in_range (chars_value 10 (opt_chars ip ++ fp_chars fp)) (expo_value e) (length (fp_chars fp))
  | GSi ip fp m =>
    si_no_leading_zero ip fp = true /\
    exp_in_range (chars_value 10 (opt_chars ip ++ opt_chars fp)) 0 (length (opt_chars fp))
  end.

(* every spelling of the grammar is read as the number it denotes *)
Theorem lit_parse_render : forall l,
  lit_ok l = true -> lit_in_range l -> lit_parse (render l) = lit_denote l.
Proof.
  intros [d|p d|ip fp e|ip fp m] Hok HR; cbn [lit_denote lit_in_range] in *.
  - rewrite (lit_parse_of_info _ _ (dec_scan true d Hok)).
    cbn [lit_ok] in Hok. apply andb_prop in Hok. destruct Hok as [Hd _].
    unfold decimal_of. cbn [i_base i_buf i_mul i_float]. change (negb (10 =? 10)) with false. cbv iota.
    assert (match ds_chars d with [] => [c_0] | b => b end = ds_chars d) as -> by reflexivity.
    pose proof (set_string_decimal (ds_chars d) [] false None) as S.
    cbn [dot_part exp_part app] in S. rewrite !app_nil_r in S.
    rewrite S; try reflexivity.
    + cbv zeta. change (int32_ok (expo_value None)) with true. cbv iota. cbn [app].
      pose proof (set_exponent_lit (digits_value 10 (ds_chars d) 0) None 0%Z O false
                    (fun _ => eq_refl) (fun _ => eq_refl)) as [SE _].
      cbn [app] in SE. rewrite SE; [reflexivity|].
      unfold exp_in_range. unfold chars_value in HR. cbn [Z.of_nat].
      pose proof (digits_pos (digits_value 10 (ds_chars d) 0)). lia.
    + apply ds_chars_nonnil.
    + apply ds_chars_digits. exact Hd.
  - rewrite (lit_parse_of_info _ _ (based_scan true p d Hok)).
    cbn [lit_ok] in Hok. unfold ds_ok in Hok. apply andb_prop in Hok. destruct Hok as [Hh _].
    assert (prefix_base p <= 16) as PB by (destruct p; simpl; lia).
    pose proof (base_digit_not_minus _ _ PB Hh) as NM.
    unfold decimal_of. cbn [i_base i_buf i_mul i_float].
    assert (negb (prefix_base p =? 10) = true) as -> by (destruct p; reflexivity).
    unfold ds_chars at 1.
    rewrite (proj2 (N.eqb_neq (ds_head d) c_minus) NM).
    reflexivity.
  - rewrite float_parse by exact Hok. cbv zeta.
    rewrite int32_of_range by apply HR.
    destruct (float_exponent_sides fp e) as [S1 S2].
    rewrite (proj1 (set_exponent_lit _ e _ _ (has_dot fp) S1 S2) HR). reflexivity.
  - destruct HR as [Hnz HR].
    pose proof (si_scan true ip fp m Hok Hnz) as S. cbv iota in S.
    cbn [lit_ok] in Hok.
    apply andb_prop in Hok. destruct Hok as [Hok H3]. apply andb_prop in Hok. destruct Hok as [Hok Hm].
    apply andb_prop in Hok. destruct Hok as [Hip Hfp].
    pose proof (si_decimal ip fp m Hip Hfp HR) as DE.
    unfold lit_parse. unfold parse_num. rewrite S, DE.
    destruct (to_integral_flag _) as [r [|]]; [reflexivity|].
    rewrite DE. reflexivity.
Qed.


Local Open Scope Q_scope.

(* multiplier literals are exact - or rejected exactly when not integral - as long as the
   exact product has at most 34 digits *)
Theorem mult_literal_exact_when : forall ip fp m,
  lit_ok (GSi ip fp m) = true -> si_no_leading_zero ip fp = true ->
  exp_in_range (chars_value 10 (opt_chars ip ++ opt_chars fp)) 0 (length (opt_chars fp)) ->
  let P := mul_exact (mantissa ip fp 0) (mkDec false (mult_value m) 0) in
  (digits (coeff P) <= 34)%N ->
  match lit_parse (render (GSi ip fp m)) with
  | LNum n => nk n = KInt /\ exp (nd n) = 0%Z /\ dval (nd n) == dval P
  | LErr => ~ exists z : Z, dval P == inject_Z z
  | LNaN _ => False
  end.
Proof.
  intros ip fp m Hok Hnz HR P HD. rewrite (lit_parse_render (GSi ip fp m) Hok (conj Hnz HR)).
  cbn [lit_denote].
  unfold dmul, round34. rewrite round_small by exact HD. fold P.
  destruct (to_integral_flag P) as [r ix] eqn:T.
  destruct (to_integral_flag_val P r ix T) as (E0 & EX & IX).
  destruct ix; [apply IX; reflexivity|].
  split; [reflexivity|]. split; [exact E0|]. apply EX. reflexivity.
Qed.
