(* C06 - pkg/math: Trunc and Round of the faithful model equal the specified function for
   every finite decimal; Floor, Ceil, MultipleOf and Abs have examples and refutations only. *)
From Coq Require Import NArith ZArith Bool Lia ZifyN ZifyBool List.
From Verif Require Import Num.Decimal Num.MathFn Num.DigitsProofs Num.RoundProofs Num.IntDivProofs.
Import ListNotations.
Local Open Scope Z_scope.

Lemma pow10_Zpos : forall n, 0 < Z.of_N (pow10 n).
Proof. intros n. pose proof (pow10_pos n). lia. Qed.

Lemma vden_neg : forall d, exp d < 0 -> vden d = Z.of_N (pow10 (Z.to_N (- exp d))).
Proof.
  intros d H. unfold vden. destruct (Z.leb_spec 0 (exp d)); [lia|].
  rewrite pow10_Z, Z2N.id by lia. reflexivity.
Qed.

Lemma vnum_neg : forall d, exp d < 0 -> vnum d = zsc d.
Proof. intros d H. unfold vnum. destruct (Z.leb_spec 0 (exp d)); [lia|reflexivity]. Qed.

Lemma vnum_nonneg : forall d, 0 <= exp d ->
  vnum d = zsc d * Z.of_N (pow10 (Z.to_N (exp d))) /\ vden d = 1.
Proof.
  intros d H. unfold vnum, vden. destruct (Z.leb_spec 0 (exp d)); [|lia].
  rewrite pow10_Z, Z2N.id by lia. split; reflexivity.
Qed.

Theorem math_trunc_exact : forall d, math_trunc d = spec_trunc d.
Proof.
  intros d. unfold math_trunc, spec_trunc, to_integral_down.
  destruct (Z.leb_spec 0 (exp d)) as [H|H].
  - destruct (vnum_nonneg d H) as [-> ->]. rewrite Z.quot_1_r.
    unfold to_int, zsc; cbn [fst neg coeff exp]. destruct (neg d); lia.
  - rewrite vnum_neg, vden_neg by lia.
    set (p := pow10 (Z.to_N (- exp d))). pose proof (pow10_Zpos (Z.to_N (- exp d))) as P. fold p in P.
    unfold to_int, zsc; cbn [fst neg coeff exp]. destruct (neg d).
    + rewrite Z.quot_opp_l by lia. rewrite Z.quot_div_nonneg by lia. rewrite N2Z.inj_div. reflexivity.
    + rewrite Z.quot_div_nonneg by lia. rewrite N2Z.inj_div. reflexivity.
Qed.

Lemma half_up_Z : forall c e, (0 < e)%N ->
  Z.of_N (half_up c e) = (2 * Z.of_N c + Z.of_N e) / (2 * Z.of_N e).
Proof.
  intros c e He. unfold half_up.
  pose proof (N.div_mod c e ltac:(lia)) as DM. pose proof (N.mod_lt c e ltac:(lia)) as ML.
  revert DM ML. generalize (c / e)%N (c mod e)%N. intros q m DM ML.
  destruct (N.ltb_spec (2 * m) e).
  - apply (Z.div_unique _ _ _ (Z.of_N (2 * m + e))); lia.
  - apply (Z.div_unique _ _ _ (Z.of_N (2 * m - e))); lia.
Qed.

Lemma sgn_abs_id : forall x, Z.sgn x * Z.abs x = x.
Proof. intros x; destruct x; simpl; lia. Qed.

Theorem math_round_exact : forall d, math_round d = spec_round d.
Proof.
  intros d. unfold math_round, spec_round, to_integral.
  destruct (Z.leb_spec 0 (exp d)) as [H|H].
  - rewrite to_integral_nonneg_exp by lia. destruct (vnum_nonneg d H) as [-> ->].
    unfold to_int, zsc; cbn [fst neg coeff exp].
    replace (2 * 1) with 2 by lia.
    assert (forall n, (2 * Z.abs n + 1) / 2 = Z.abs n) as E.
    { intros n. symmetry. apply (Z.div_unique _ _ _ 1); lia. }
    rewrite E, sgn_abs_id. destruct (neg d); rewrite N2Z.inj_mul; ring.
  - rewrite to_integral_neg_exp by lia. rewrite vnum_neg, vden_neg by lia. cbv zeta.
    set (p := pow10 (Z.to_N (- exp d))). set (c := coeff d).
    assert (Z.abs (zsc d) = Z.of_N c) as A by (unfold zsc; fold c; destruct (neg d); lia).
    rewrite A, <- half_up_Z by apply pow10_pos.
    unfold to_int, zsc; cbn [fst neg coeff]. fold c.
    destruct (N.eq_dec c 0) as [Z0|NZ].
    + rewrite Z0, (half_up_multiple 0 p (pow10_pos _) : half_up 0 p = 0%N).
      destruct (neg d); reflexivity.
    + destruct (neg d); [rewrite Z.sgn_neg by lia|rewrite Z.sgn_pos by lia]; lia.
Qed.

(* Floor / Ceil: the detour through precision 34 loses every result of more than 34 digits *)
Lemma math_floor_refuted :
  math_floor (mkDec false 1 40) = 0 /\ spec_floor (mkDec false 1 40) = 10 ^ 40 /\
  math_floor (mkDec false 123456789012345678901234567890123455 (-1)) = 0 /\
  spec_floor (mkDec false 123456789012345678901234567890123455 (-1)) = 12345678901234567890123456789012345.
Proof. vm_compute. repeat split. Qed.

Lemma math_ceil_refuted :
  math_ceil (mkDec false 99999999999999999999999999999999995 (-1)) = 0 /\
  spec_ceil (mkDec false 99999999999999999999999999999999995 (-1)) = 10 ^ 34.
Proof. vm_compute. split; reflexivity. Qed.

Lemma math_floor_ceil_examples :
  math_floor (mkDec true 5 (-1)) = -1 /\ spec_floor (mkDec true 5 (-1)) = -1 /\
  math_ceil (mkDec true 5 (-1)) = 0 /\ spec_ceil (mkDec true 5 (-1)) = 0 /\
  math_ceil (mkDec false 1 (-400)) = 1 /\ spec_ceil (mkDec false 1 (-400)) = 1 /\
  math_floor (mkDec false 123 2) = 12300 /\ spec_floor (mkDec false 123 2) = 12300 /\
  math_floor (mkDec false 99999999999999999999999999999999995 (-1)) = 9999999999999999999999999999999999 /\
  math_round (mkDec true 25 (-1)) = -3 /\ math_trunc (mkDec true 25 (-1)) = -2 /\
  math_trunc (mkDec false 1 40) = 10 ^ 40 /\ math_round (mkDec false 1 40) = 10 ^ 40.
Proof. vm_compute. repeat split. Qed.

Theorem multiple_of_zero_divisor : forall x y, coeff y = 0%N -> math_multiple_of x y = Err.
Proof. intros x y H. unfold math_multiple_of, is_zero. rewrite H. reflexivity. Qed.

Theorem multiple_of_total : forall x y, coeff y <> 0%N -> exists b, math_multiple_of x y = Ok b.
Proof.
  intros x y H. unfold math_multiple_of, is_zero.
  destruct (N.eqb_spec (coeff y) 0); [contradiction|]. eexists; reflexivity.
Qed.

Lemma multiple_of_examples :
  math_multiple_of (mkDec false 10 0) (mkDec false 25 (-1)) = Ok true /\
  spec_multiple_of (mkDec false 10 0) (mkDec false 25 (-1)) = true /\
  math_multiple_of (mkDec false 10 0) (mkDec false 3 0) = Ok false /\
  spec_multiple_of (mkDec false 10 0) (mkDec false 3 0) = false /\
  math_multiple_of (mkDec true 75 (-1)) (mkDec false 25 (-1)) = Ok true.
Proof. vm_compute. repeat split. Qed.

(* the quotient is rounded to 34 digits first: 10^35 + 5 is "a multiple of" 10 *)
Lemma multiple_of_refuted :
  math_multiple_of (mkDec false 100000000000000000000000000000000005 0) (mkDec false 10 0) = Ok true /\
  spec_multiple_of (mkDec false 100000000000000000000000000000000005 0) (mkDec false 10 0) = false.
Proof. vm_compute. split; reflexivity. Qed.

Lemma math_abs_examples :
  math_abs (mkDec true 15 (-1)) = mkNum KFloat (mkDec false 15 (-1)) /\
  math_abs (mkDec true 7 0) = mkNum KInt (mkDec false 7 0) /\
  math_abs (mkDec true 1 3) = mkNum KInt (mkDec false 1000 0) /\
  math_abs (mkDec true 20 (-1)) = mkNum KInt (mkDec false 2 0).
Proof. vm_compute. repeat split. Qed.
