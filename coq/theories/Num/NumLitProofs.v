(* C06 - number literals: the exponents apd cannot represent, no NaN is left behind, and a
   literal that ParseNum accepts with its integrality check is accepted without it. *)
From Coq Require Import NArith ZArith List Bool.
From Verif Require Import Num.Decimal Num.NumLit Num.NumLitSpec.
Import ListNotations.
Local Open Scope N_scope.

(* "1e100001", "1e-400000", "1e2147483648": exponents apd cannot represent (C06-F9);
   NumInfo.decimal returns the error of UnmarshalText *)
Definition f9_witness : list N := [49; 101; 49; 48; 48; 48; 48; 49].
Definition f9_witness_neg : list N := [49; 101; 45; 52; 48; 48; 48; 48; 48].
Definition f9_witness_nan : list N := [49; 101; 50; 49; 52; 55; 52; 56; 51; 54; 52; 56].

(* NumInfo.decimal never returns a NaN decimal *)
Lemma decimal_of_never_nan : forall i, decimal_of i <> Some DNaN.
Proof.
  intros i. unfold decimal_of. destruct (negb (i_base i =? 10)).
  - destruct (i_buf i) as [|c r]; [discriminate|]. destruct (c =? c_minus); discriminate.
  - destruct (set_string _) as [v|]; [|discriminate].
    destruct (i_mul i); [|discriminate].
    destruct (to_integral_flag _) as [r [|]]; discriminate.
Qed.

Lemma lit_parse_never_nan : forall src k, lit_parse src <> LNaN k.
Proof.
  intros src k. unfold lit_parse. destruct (parse_num src) as [i|]; [|discriminate].
  pose proof (decimal_of_never_nan i) as H.
  destruct (decimal_of i) as [[d|]|]; try discriminate. contradiction.
Qed.

(* dropping the integrality check of the multiplier branch only accepts more *)
Lemma parse_num_noerr_of_parse_num : forall src i, parse_num src = Some i -> parse_num_noerr src = Some i.
Proof.
  intros src i. unfold parse_num, parse_num_noerr, parse_num_gen.
  destruct src as [|c0 src]; [discriminate|].
  set (s1 := next _).
  set (s2 := if s_ch s1 =? c_minus then _ else _).
  destruct (if s_ch s2 =? c_dot then (next s2, true) else (s2, false)) as [s3 seen].
  assert (forall o, scan_number true s3 seen = Some o -> scan_number false s3 seen = Some o) as H.
  { assert (forall s fl o, sn_exponent true s fl = Some o -> sn_exponent false s fl = Some o) as HE.
    { intros s fl o. unfold sn_exponent. destruct (mul_index (s_ch s)); [|auto].
      destruct (if s_ch (next s) =? c_i then _ else _) as [s2' bin].
      destruct (negb (s_ch s2' =? 0)); [auto|].
      destruct (decimal_of _); [auto|discriminate]. }
    assert (forall s fl o, sn_fraction true s fl = Some o -> sn_fraction false s fl = Some o) as HF.
    { intros s fl o. unfold sn_fraction. destruct (s_ch s =? c_dot).
      - destruct (scan_mantissa 10 (next s)). apply HE.
      - apply HE. }
    intros o. unfold scan_number. destruct seen.
    - destruct (scan_mantissa 10 s3) as [s1' has]. destruct has; [apply HE|auto].
    - destruct (s_ch s3 =? c_0).
      + destruct ((s_ch (next s3) =? 120) || (s_ch (next s3) =? 88)); [auto|].
        destruct (s_ch (next s3) =? 98); [auto|]. destruct (s_ch (next s3) =? 111); [auto|].
        destruct (scan_mantissa 10 (next s3)) as [s2' sd].
        destruct ((s_ch s2' =? c_e) || (s_ch s2' =? c_E)); [apply HF|].
        destruct (s_ch s2' =? c_dot); [apply HF|]. destruct sd; [auto|].
        destruct (negb (s_ch s2' =? 0)); [|auto]. destruct (mul_index (s_ch s2')); [apply HE|auto].
      + destruct (scan_mantissa 10 s3) as [s1' has]. destruct has; [apply HF|auto]. }
  destruct (scan_number true s3 seen) as [o|] eqn:S; [|discriminate].
  rewrite (H o eq_refl). auto.
Qed.
