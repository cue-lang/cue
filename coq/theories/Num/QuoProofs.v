(* C06 - Decimal.Reduce / reduceKeepingFloats preserve the value; Quo at precision p is
   correctly rounded (half-up) to p significant digits, and exact whenever the exact
   quotient is representable with p digits (in particular integer quotients below 10^34
   are never lost). *)
From Coq Require Import NArith ZArith QArith Qabs Bool Lia ZifyN ZifyBool.
From Verif Require Import Num.Decimal Num.DigitsProofs Num.DVal Num.RoundProofs.
Local Open Scope N_scope.

Lemma strip_zeros_spec : forall fuel c k c' k',
  strip_zeros fuel c k = (c', k') -> k <= k' /\ c = c' * pow10 (k' - k).
Proof.
  induction fuel as [|f IH]; intros c k c' k' H; cbn [strip_zeros] in H.
  - inversion H; subst. replace (k' - k') with 0 by lia. rewrite pow10_0. lia.
  - destruct (N.eqb_spec (c mod 10) 0) as [M|M].
    + pose proof (N.div_mod c 10 ltac:(lia)) as DM. rewrite M in DM. clear M.
      apply IH in H. destruct H as [L E]. rewrite E in DM. clear E. split; [lia|].
      replace (k' - k) with ((k' - (k + 1)) + 1) by lia. rewrite pow10_succ. lia.
    + inversion H; subst. replace (k' - k') with 0 by lia. rewrite pow10_0. lia.
Qed.

Local Open Scope Q_scope.

Theorem reduce_val : forall x, dval (reduce x) == dval x.
Proof.
  intros x. unfold reduce. destruct (N.eqb_spec (coeff x) 0) as [Z|NZ].
  - rewrite (dval_zero x Z). apply dval_zero. reflexivity.
  - destruct (strip_zeros _ _ _) as [c k] eqn:S. apply strip_zeros_spec in S. destruct S as [_ E].
    rewrite (dval_sg x), E, mkv_sg_pow10. replace (k - 0)%N with k by lia. reflexivity.
Qed.

Theorem reduce_keeping_floats_val : forall x, dval (reduce_keeping_floats x) == dval x.
Proof.
  intros x. unfold reduce_keeping_floats. transitivity (dval (reduce x)); [|apply reduce_val].
  destruct ((exp x <? 0)%Z && (0 <=? exp (reduce x))%Z); [|reflexivity].
  rewrite !dval_sg. cbn [neg coeff exp]. rewrite (mkv_sg_pow10 _ _ 1).
  replace (exp (reduce x) - 1 + Z.of_N 1)%Z with (exp (reduce x)) by lia. reflexivity.
Qed.

Lemma reduce_keeping_floats_neg : forall x, coeff x <> 0%N -> neg (reduce_keeping_floats x) = neg x.
Proof.
  intros x H. unfold reduce_keeping_floats, reduce.
  destruct (N.eqb_spec (coeff x) 0); [contradiction|].
  destruct (strip_zeros _ _ _) as [c k]. simpl.
  destruct ((exp x <? 0)%Z && (0 <=? exp x + Z.of_N k)%Z); reflexivity.
Qed.

Local Open Scope N_scope.

(* The long division of quo_raw: both coefficients are brought to the same number of
   digits, the dividend once more above the divisor, then p - 1 more digits are taken.
   With D = coeff x * 10^a and V = coeff y * 10^b the scaled operands, the coefficient of
   the result is D / V rounded half-up, and 10^(p-1) <= D / V < 10^p: it has p digits, or
   is 10^p after rounding up. *)
Lemma quo_raw_parts : forall p x y,
  coeff x <> 0 -> coeff y <> 0 ->
  exists a b,
    let D := coeff x * pow10 a in
    let V := coeff y * pow10 b in
    quo_raw p x y =
      mkDec (xorb (neg x) (neg y)) (half_up D V) (exp x - Z.of_N a - exp y + Z.of_N b) /\
    pow10 (p - 1) * V <= D < pow10 (p - 1) * (10 * V).
Proof.
  intros p x y Hx Hy. unfold quo_raw.
  destruct (N.eqb_spec (coeff x) 0) as [|_]; [contradiction|].
  set (ndx := digits (coeff x)). set (ndy := digits (coeff y)).
  set (dividend := if ndx <? ndy then coeff x * pow10 (ndy - ndx) else coeff x).
  set (divisor := if ndy <? ndx then coeff y * pow10 (ndx - ndy) else coeff y).
  set (a0 := if ndx <? ndy then ndy - ndx else 0).
  set (b := if ndy <? ndx then ndx - ndy else 0).
  assert (dividend = coeff x * pow10 a0) as Hdd.
  { unfold dividend, a0. destruct (ndx <? ndy); [reflexivity|]. rewrite pow10_0. lia. }
  assert (divisor = coeff y * pow10 b) as Hdv.
  { unfold divisor, b. destruct (ndy <? ndx); [reflexivity|]. rewrite pow10_0. lia. }
  assert (digits dividend = N.max ndx ndy) as Dd.
  { rewrite Hdd, digits_mul_pow10 by lia. fold ndx. unfold a0. destruct (N.ltb_spec ndx ndy); lia. }
  assert (digits divisor = N.max ndx ndy) as Dv.
  { rewrite Hdv, digits_mul_pow10 by lia. fold ndy. unfold b. destruct (N.ltb_spec ndy ndx); lia. }
  assert (0 < dividend) as Pdd by (rewrite Hdd; apply N.mul_pos_pos; [lia|apply pow10_pos]).
  set (bump := dividend <? divisor).
  exists (a0 + (if bump then 1 else 0) + (p - 1)), b. cbv zeta.
  destruct (if bump then (dividend * 10, (Z.of_N ndy - Z.of_N ndx + 1)%Z)
            else (dividend, (Z.of_N ndy - Z.of_N ndx)%Z)) as [dividend1 adj] eqn:B.
  assert (dividend1 = dividend * (if bump then 10 else 1) /\
          adj = (Z.of_N ndy - Z.of_N ndx + (if bump then 1 else 0))%Z) as [Hd1 Hadj].
  { destruct bump; inversion B; subst; split; lia. }
  (* the dividend has the digits of the divisor and is brought above it, less than ten times *)
  assert (divisor <= dividend1 < 10 * divisor) as GE.
  { assert (0 < divisor) as Pdv by (rewrite Hdv; apply N.mul_pos_pos; [lia|apply pow10_pos]).
    pose proof (digits_lower dividend Pdd) as Lo. pose proof (digits_upper divisor) as Up.
    pose proof (digits_lower divisor Pdv) as Lo'. pose proof (digits_upper dividend) as Up'.
    rewrite Dd in Lo, Up'. rewrite Dv in Up, Lo'.
    assert (pow10 (N.max ndx ndy) = 10 * pow10 (N.max ndx ndy - 1)) as E.
    { rewrite <- pow10_succ. f_equal. pose proof (digits_pos (coeff x)) as Px. fold ndx in Px. lia. }
    rewrite Hd1. unfold bump. destruct (N.ltb_spec dividend divisor) as [L|L]; lia. }
  assert (dividend1 * pow10 (p - 1) = coeff x * pow10 (a0 + (if bump then 1 else 0) + (p - 1))) as HD.
  { rewrite Hd1, Hdd, !pow10_add. destruct bump; rewrite ?pow10_0; change (pow10 1) with 10; ring. }
  rewrite <- HD, <- Hdv. split; [f_equal|].
  - apply compare_lt_if.
  - rewrite Hadj. clear. unfold a0, b.
    destruct (N.ltb_spec ndx ndy), (N.ltb_spec ndy ndx), bump; lia.
  - rewrite !(N.mul_comm (pow10 (p - 1))). split.
    + apply N.mul_le_mono_r. apply GE.
    + apply N.mul_lt_mono_pos_r; [apply pow10_pos|apply GE].
Qed.

Local Open Scope Q_scope.

(* the operands of the division and the unit of the result, all at the exponent t of the
   scaled dividend *)
Lemma quo_scaled : forall x y a b q,
  let t := (exp x - Z.of_N a)%Z in
  let Q := mkDec (xorb (neg x) (neg y)) q (t - exp y + Z.of_N b) in
  let V := (coeff y * pow10 b)%N in
  dval Q * dval y == mkv (sg (neg x) (Z.of_N (q * V))) t /\
  dval x == mkv (sg (neg x) (Z.of_N (coeff x * pow10 a))) t /\
  p10 (exp Q) * Qabs (dval y) == mkv (Z.of_N V) t.
Proof.
  intros x y a b q t Q V. unfold Q, V. split; [|split].
  - rewrite !dval_sg. cbn [neg coeff exp]. rewrite mkv_mul, sg_xor_mul.
    rewrite N.mul_assoc, mkv_sg_pow10, N2Z.inj_mul.
    replace (t - exp y + Z.of_N b + exp y)%Z with (t + Z.of_N b)%Z by lia. reflexivity.
  - rewrite mkv_sg_pow10. unfold t.
    replace (exp x - Z.of_N a + Z.of_N a)%Z with (exp x) by lia. reflexivity.
  - cbn [exp]. rewrite dval_abs, <- mkv_one, mkv_mul, Z.mul_1_l, N2Z.inj_mul, mkv_pow10.
    replace (t - exp y + Z.of_N b + exp y)%Z with (t + Z.of_N b)%Z by lia. reflexivity.
Qed.

Lemma quo_raw_zero : forall p x y, coeff x = 0%N -> dval (quo_raw p x y) == 0.
Proof.
  intros p x y H. unfold quo_raw. rewrite H. simpl. apply dval_zero. reflexivity.
Qed.

Theorem quo_raw_correct : forall p x y,
  coeff x <> 0%N -> coeff y <> 0%N ->
  let q := quo_raw p x y in
  2 * Qabs (dval q * dval y - dval x) <= p10 (exp q) * Qabs (dval y) /\
  p10 (exp q + Z.of_N (p - 1)) <= Qabs (dval q) <= p10 (exp q + Z.of_N (p - 1) + 1) /\
  neg q = xorb (neg x) (neg y) /\ coeff q <> 0%N.
Proof.
  intros p x y Hx Hy q.
  destruct (quo_raw_parts p x y Hx Hy) as (a & b & E & H4). cbv zeta in E, H4.
  subst q. rewrite E. clear E.
  set (V := (coeff y * pow10 b)%N) in *. set (D := (coeff x * pow10 a)%N) in *.
  destruct (quo_scaled x y a b (half_up D V)) as (L1 & L2 & L3). fold V D in L1, L2, L3.
  assert (0 < V)%N as PV by (apply N.mul_pos_pos; [lia|apply pow10_pos]).
  assert (pow10 (p - 1) <= half_up D V <= pow10 (p - 1 + 1))%N as Hq.
  { split.
    - apply N.le_trans with (D / V)%N; [|apply half_up_ge].
      apply N.div_le_lower_bound; [lia|]. rewrite N.mul_comm. apply H4.
    - apply N.le_trans with (D / V + 1)%N; [apply half_up_le|].
      assert (D / V < pow10 (p - 1 + 1))%N as LT
        by (apply N.div_lt_upper_bound; [lia|]; rewrite pow10_succ; lia).
      revert LT. generalize (D / V)%N. intros; lia. }
  split; [|split; [|split]].
  - rewrite L1, L2, L3, mkv_sub, sg_sub, mkv_abs, sg_abs.
    change 2 with (inject_Z 2). rewrite mkv_scale. apply mkv_le.
    destruct (half_up_error D V PV) as (H1 & H2 & _). lia.
  - rewrite dval_abs. cbn [coeff exp].
    replace (exp x - Z.of_N a - exp y + Z.of_N b + Z.of_N (p - 1) + 1)%Z
      with (exp x - Z.of_N a - exp y + Z.of_N b + Z.of_N (p - 1 + 1))%Z by lia.
    rewrite <- !mkv_pow. split; apply mkv_le; lia.
  - reflexivity.
  - cbn [coeff]. pose proof (pow10_pos (p - 1)). lia.
Qed.

(* internal.Context.Quo at precision 34: x / y rounded half-up to 34 significant digits;
   10^E is the unit of the 34th digit of the result *)
Theorem dquo_rounded : forall x y, coeff x <> 0%N -> coeff y <> 0%N ->
  exists E : Z,
    2 * Qabs (dval (dquo x y) * dval y - dval x) <= p10 E * Qabs (dval y) /\
    p10 (E + 33) <= Qabs (dval (dquo x y)) <= p10 (E + 34).
Proof.
  intros x y Hx Hy. unfold dquo. exists (exp (quo_raw prec x y)).
  rewrite reduce_keeping_floats_val.
  destruct (quo_raw_correct prec x y Hx Hy) as (A & B & _ & _). split; [exact A|].
  replace (exp (quo_raw prec x y) + 34)%Z with (exp (quo_raw prec x y) + 33 + 1)%Z by lia. exact B.
Qed.

Lemma dval_nonzero : forall d, coeff d <> 0%N -> ~ dval d == 0.
Proof. intros d H E. apply dval_zero_iff in E. contradiction. Qed.

Theorem quo_raw_exact_when_representable : forall p x y r,
  (1 <= p)%N -> coeff x <> 0%N -> coeff y <> 0%N -> (digits (coeff r) <= p)%N ->
  dval r * dval y == dval x ->
  dval (quo_raw p x y) == dval r.
Proof.
  intros p x y r Hp Hx Hy Hr HR.
  destruct (quo_raw_parts p x y Hx Hy) as (a & b & E & H4). cbv zeta in E, H4.
  rewrite E. clear E.
  set (t := (exp x - Z.of_N a)%Z).
  set (V := (coeff y * pow10 b)%N) in *. set (D := (coeff x * pow10 a)%N) in *.
  destruct (quo_scaled x y a b (half_up D V)) as (L1 & L2 & _). fold V D t in L1, L2.
  (* magnitudes: |r| * |y| = |x| written at exponent t, where g is the scale of r
     relative to the computed quotient *)
  set (m := coeff r). set (g := (exp r - (t - exp y + Z.of_N b))%Z).
  assert (mkv (Z.of_N (m * V)) (t + g) == mkv (Z.of_N D) t) as M.
  { assert (Qabs (dval r * dval y) == Qabs (dval x)) as A by (rewrite HR; reflexivity).
    rewrite L2, Qabs_Qmult, !dval_abs, mkv_mul, mkv_abs, sg_abs, Z.abs_eq in A by lia.
    rewrite <- A. unfold V. rewrite N.mul_assoc, !N2Z.inj_mul, mkv_pow10.
    replace (t + g + Z.of_N b)%Z with (exp r + exp y)%Z by (unfold g; lia). reflexivity. }
  assert (m < pow10 p)%N as Hm by (apply digits_le_iff; [exact Hp|exact Hr]).
  assert (0 < V)%N as PV by (apply N.mul_pos_pos; [lia|apply pow10_pos]).
  (* the scale difference is non-negative: D >= 10^(p-1) V and m < 10^p *)
  assert (0 <= g)%Z as Hg.
  { destruct (Z.le_gt_cases 0 g) as [|NG]; [assumption|exfalso].
    assert (mkv (Z.of_N (m * V)) (t + g) == mkv (Z.of_N D * 10 ^ (- g)) (t + g)) as M2.
    { rewrite M. replace t with ((t + g) + (- g))%Z at 1 by lia. rewrite mkv_lower_exp by lia. reflexivity. }
    apply mkv_eq in M2.
    assert (10 <= 10 ^ (- g))%Z as P10.
    { replace (- g)%Z with (1 + (- g - 1))%Z by lia. rewrite Z.pow_add_r by lia.
      pose proof (Z.pow_pos_nonneg 10 (- g - 1) ltac:(lia) ltac:(lia)). lia. }
    assert (pow10 p = 10 * pow10 (p - 1))%N as Ep
      by (rewrite <- pow10_succ; f_equal; lia).
    assert (m * V < pow10 p * V)%N as LT by (apply N.mul_lt_mono_pos_r; assumption).
    rewrite Ep in LT.
    assert (Z.of_N D * 10 <= Z.of_N D * 10 ^ (- g))%Z as LE by (apply Z.mul_le_mono_nonneg_l; lia).
    rewrite <- M2 in LE. lia. }
  (* hence V divides D and the rounded quotient is the exact one *)
  assert (exists n, D = (n * V)%N) as (n & Dn).
  { exists (m * Z.to_N (10 ^ g))%N. pose proof (Z.pow_pos_nonneg 10 g ltac:(lia) Hg) as PP.
    rewrite mkv_lower_exp in M by exact Hg. apply mkv_eq in M.
    apply N2Z.inj. rewrite <- M, !N2Z.inj_mul, Z2N.id by lia. ring. }
  rewrite Dn, half_up_multiple in L1 by exact PV.
  rewrite Dn, half_up_multiple by exact PV.
  (* q * y = x = r * y, and y <> 0 *)
  apply (Qmult_inj_r _ _ (dval y)); [apply dval_nonzero; exact Hy|].
  rewrite L1, HR, L2, Dn. reflexivity.
Qed.

Theorem dquo_exact_when_representable : forall x y r,
  coeff x <> 0%N -> coeff y <> 0%N -> (digits (coeff r) <= 34)%N ->
  dval r * dval y == dval x ->
  dval (dquo x y) == dval r.
Proof.
  intros. unfold dquo. rewrite reduce_keeping_floats_val.
  apply quo_raw_exact_when_representable; try assumption. unfold prec. lia.
Qed.
