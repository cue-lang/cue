(* C06 - rounding half-up to p significant digits (apd Rounder.Round, roundAddOne). *)
From Coq Require Import NArith ZArith QArith Qabs Bool Lia ZifyN ZifyBool.
From Verif Require Import Num.Decimal Num.DigitsProofs Num.DVal.
Local Open Scope N_scope.

(* a digit count grows by adding one only at 99..9 *)
Lemma digits_succ_grows : forall y, digits y < digits (y + 1) -> y + 1 = pow10 (digits y).
Proof.
  intros y H. pose proof (digits_upper y) as U.
  destruct (N.eq_dec (y + 1) (pow10 (digits y))) as [|NE]; auto.
  assert (y + 1 < pow10 (digits y)) as L by lia.
  apply (digits_le_iff (y + 1) (digits y) (digits_pos y)) in L. lia.
Qed.

Lemma round_add_one_spec : forall y diff y' diff',
  round_add_one y diff = (y', diff') ->
  y' * pow10 diff' = (y + 1) * pow10 diff /\ (diff' = diff \/ diff' = diff + 1) /\
  digits y' <= digits y.
Proof.
  intros y diff y' diff' H. unfold round_add_one in H.
  destruct (N.ltb_spec (digits y) (digits (y + 1))) as [L|L]; inversion H; subst; clear H.
  - apply digits_succ_grows in L. rewrite L.
    pose proof (digits_pos y) as P.
    assert (pow10 (digits y) = 10 * pow10 (digits y - 1)) as E.
    { rewrite <- pow10_succ. f_equal. lia. }
    rewrite E.
    assert (forall X, 10 * X / 10 = X) as D10 by (intros; rewrite N.mul_comm; apply N.div_mul; lia).
    rewrite D10.
    rewrite pow10_succ. split; [lia|]. split; [lia|].
    destruct (N.eq_dec (digits y) 1) as [E1|NE1].
    + rewrite E1. simpl. reflexivity.
    + rewrite digits_pow10. lia.
  - split; [reflexivity|]. split; [left; reflexivity|]. lia.
Qed.

(* c / e rounded half-up: what Rounder.Round, Quo and quantize each compute, the first
   two with a three-way comparison of twice the remainder (DigitsProofs.compare_lt_if) *)
Definition half_up (c e : N) : N := if 2 * (c mod e) <? e then c / e else c / e + 1.

(* within half of e, ties upwards, and exact only on multiples of e *)
Lemma half_up_error : forall c e, 0 < e ->
  let Y := half_up c e * e in
  (Y <= c -> 2 * (c - Y) < e) /\ (c <= Y -> 2 * (Y - c) <= e) /\ (Y = c <-> c mod e = 0).
Proof.
  intros c e He. unfold half_up.
  pose proof (N.div_mod c e ltac:(lia)) as DM. pose proof (N.mod_lt c e ltac:(lia)) as ML.
  revert DM ML. generalize (c / e) (c mod e). intros q m DM ML.
  destruct (N.ltb_spec (2 * m) e); cbv zeta; lia.
Qed.

Lemma half_up_ge : forall c e, c / e <= half_up c e.
Proof. intros. unfold half_up. destruct (2 * (c mod e) <? e); lia. Qed.

Lemma half_up_le : forall c e, half_up c e <= c / e + 1.
Proof. intros. unfold half_up. destruct (2 * (c mod e) <? e); lia. Qed.

Lemma half_up_multiple : forall n e, 0 < e -> half_up (n * e) e = n.
Proof.
  intros n e He. unfold half_up. rewrite N.mod_mul, N.div_mul by lia.
  destruct (N.ltb_spec (2 * 0) e); [reflexivity|lia].
Qed.

Lemma round_coeff_small : forall p c, digits c <= p -> round_coeff p c = (c, 0, false).
Proof. intros p c H. unfold round_coeff. destruct (N.leb_spec (digits c) p); [reflexivity|lia]. Qed.

(* with e = 10^(digits c - p): the result y*10^d is c/e rounded half-up, times e *)
Lemma round_coeff_big : forall p c y d ix,
  p < digits c -> round_coeff p c = (y, d, ix) ->
  let d0 := digits c - p in
  let e := pow10 d0 in
  y * pow10 d = half_up c e * e /\ (d = d0 \/ d = d0 + 1) /\
  ix = negb (c mod e =? 0) /\ (1 <= p -> digits y <= p).
Proof.
  intros p c y d ix Hp H d0 e. unfold round_coeff in H.
  destruct (N.leb_spec (digits c) p) as [L|_]; [lia|].
  fold d0 in H. fold e in H. rewrite compare_lt_if in H.
  assert (0 < e) as He by apply pow10_pos.
  assert (1 <= p -> digits (c / e) <= p) as Hdig.
  { intros P1. apply digits_le_iff; [exact P1|].
    apply N.div_lt_upper_bound; [lia|]. unfold e. rewrite <- pow10_add.
    replace (d0 + p) with (digits c) by lia. apply digits_upper. }
  unfold half_up.
  destruct (N.eqb_spec (c mod e) 0) as [M0|M0]; cbn [negb].
  - inversion H; subst y d ix. rewrite M0. change (2 * 0) with 0.
    rewrite (proj2 (N.ltb_lt 0 e) He). auto.
  - destruct (2 * (c mod e) <? e).
    + inversion H; subst y d ix. auto.
    + destruct (round_add_one (c / e) d0) as [y' d'] eqn:R. inversion H; subst y' d' ix.
      apply round_add_one_spec in R. destruct R as (V & D & G).
      split; [exact V|]. split; [exact D|]. split; [reflexivity|].
      intros P1. exact (N.le_trans _ _ _ G (Hdig P1)).
Qed.

Local Open Scope Q_scope.

Lemma dec_eta : forall d, mkDec (neg d) (coeff d) (exp d) = d.
Proof. destruct d; reflexivity. Qed.

Lemma round_unfold : forall p d y dd ix,
  round_coeff p (coeff d) = (y, dd, ix) ->
  round p d = mkDec (neg d) y (exp d + Z.of_N dd) /\ snd (round_flag p d) = ix.
Proof. intros. unfold round, round_flag. rewrite H. split; reflexivity. Qed.

Lemma round_neg : forall p d, neg (round p d) = neg d.
Proof.
  intros. destruct (round_coeff p (coeff d)) as [[y dd] ix] eqn:R.
  destruct (round_unfold _ _ _ _ _ R) as [-> _]. reflexivity.
Qed.

Lemma round_small : forall p d, (digits (coeff d) <= p)%N -> round p d = d.
Proof.
  intros p d H. pose proof (round_coeff_small p (coeff d) H) as R.
  destruct (round_unfold _ _ _ _ _ R) as [-> _].
  replace (exp d + Z.of_N 0)%Z with (exp d) by lia. apply dec_eta.
Qed.

Lemma round_small_flag : forall p d, (digits (coeff d) <= p)%N -> snd (round_flag p d) = false.
Proof.
  intros p d H. pose proof (round_coeff_small p (coeff d) H) as R.
  destruct (round_unfold _ _ _ _ _ R) as [_ ->]. reflexivity.
Qed.

Lemma round_digits : forall p d, (1 <= p)%N -> (digits (coeff (round p d)) <= p)%N.
Proof.
  intros p d Hp. destruct (N.le_gt_cases (digits (coeff d)) p) as [L|G].
  - rewrite round_small; assumption.
  - destruct (round_coeff p (coeff d)) as [[y dd] ix] eqn:R.
    destruct (round_unfold _ _ _ _ _ R) as [-> _].
    apply (round_coeff_big _ _ _ _ _ G R). exact Hp.
Qed.

(* when digits are dropped, with e = 10^(number of digits dropped): the value at the
   exponent of the input, and the Inexact bit *)
Lemma round_big : forall p d, (p < digits (coeff d))%N ->
  let e := pow10 (digits (coeff d) - p) in
  dval (round p d) == mkv (sg (neg d) (Z.of_N (half_up (coeff d) e * e))) (exp d) /\
  snd (round_flag p d) = negb (coeff d mod e =? 0)%N.
Proof.
  intros p d G e. destruct (round_coeff p (coeff d)) as [[y dd] ix] eqn:R.
  destruct (round_unfold _ _ _ _ _ R) as [-> ->].
  destruct (round_coeff_big _ _ _ _ _ G R) as (V & _ & IX & _).
  split; [|exact IX]. rewrite dval_sg. cbn [neg coeff exp].
  rewrite <- mkv_sg_pow10, V. reflexivity.
Qed.

Lemma round_diff : forall p d, (p < digits (coeff d))%N ->
  let e := pow10 (digits (coeff d) - p) in
  Qabs (dval (round p d) - dval d) ==
    mkv (Z.abs (Z.of_N (half_up (coeff d) e * e) - Z.of_N (coeff d))) (exp d).
Proof.
  intros p d G e. destruct (round_big p d G) as [V _]. rewrite V.
  rewrite (dval_sg d), mkv_sub, sg_sub, mkv_abs, sg_abs. reflexivity.
Qed.

(* the unit in the last place kept when rounding d to p digits *)
Definition ulp (p : N) (d : dec) : Q := p10 (exp d + Z.of_N (digits (coeff d) - p)).

Theorem round_error : forall p d, (p < digits (coeff d))%N ->
  2 * Qabs (dval (round p d) - dval d) <= ulp p d.
Proof.
  intros p d G. rewrite (round_diff p d G). unfold ulp. rewrite <- mkv_pow.
  change 2 with (inject_Z 2). rewrite mkv_scale. apply mkv_le.
  destruct (half_up_error (coeff d) _ (pow10_pos (digits (coeff d) - p))) as (A & B & _).
  lia.
Qed.

Theorem round_multiple : forall p d, (p < digits (coeff d))%N ->
  exists k : Z, dval (round p d) == inject_Z k * ulp p d.
Proof.
  intros p d G. destruct (round_big p d G) as [V _].
  exists (sg (neg d) (Z.of_N (half_up (coeff d) (pow10 (digits (coeff d) - p))))).
  rewrite V. unfold ulp. rewrite <- mkv_pow, mkv_scale, sg_mul, N2Z.inj_mul. reflexivity.
Qed.

Theorem round_tie_away : forall p d, (p < digits (coeff d))%N ->
  2 * Qabs (dval (round p d) - dval d) == ulp p d -> Qabs (dval d) < Qabs (dval (round p d)).
Proof.
  intros p d G. rewrite (round_diff p d G). unfold ulp. rewrite <- mkv_pow.
  change 2 with (inject_Z 2). rewrite mkv_scale. intros E. apply mkv_eq in E.
  destruct (round_big p d G) as [V _]. rewrite V, dval_abs, mkv_abs, sg_abs. apply mkv_lt.
  pose proof (pow10_pos (digits (coeff d) - p)) as He.
  destruct (half_up_error (coeff d) _ He) as (A & B & _).
  lia.
Qed.

Theorem round_exact_iff : forall p d,
  snd (round_flag p d) = false <-> dval (round p d) == dval d.
Proof.
  intros p d. destruct (N.le_gt_cases (digits (coeff d)) p) as [L|G].
  - rewrite round_small_flag, round_small by assumption. split; reflexivity.
  - destruct (round_big p d G) as [V ->]. rewrite V, (dval_sg d), <- mkv_eq.
    destruct (half_up_error (coeff d) _ (pow10_pos (digits (coeff d) - p))) as (_ & _ & X).
    destruct (N.eqb_spec (coeff d mod pow10 (digits (coeff d) - p)) 0) as [M0|MN]; cbn [negb].
    + rewrite (proj2 X M0). split; reflexivity.
    + split; [discriminate|]. intros E. apply sg_inj, N2Z.inj in E. contradiction (MN (proj1 X E)).
Qed.

(* relative error: at most half a unit of the p-th significant digit *)
Theorem round_relative : forall p d, (1 <= p)%N ->
  2 * Qabs (dval (round p d) - dval d) * p10 (Z.of_N p - 1) <= Qabs (dval d).
Proof.
  intros p d Hp. destruct (N.le_gt_cases (digits (coeff d)) p) as [L|G].
  - rewrite round_small by assumption.
    assert (Qabs (dval d - dval d) == 0) as ->.
    { setoid_replace (dval d - dval d) with 0 by ring. reflexivity. }
    rewrite Qmult_0_r, Qmult_0_l. apply Qabs_nonneg.
  - apply Qle_trans with (ulp p d * p10 (Z.of_N p - 1)).
    + apply Qmult_le_compat_r. apply round_error; assumption. apply Qlt_le_weak, p10_pos.
    + unfold ulp. rewrite <- p10_add. rewrite dval_abs.
      replace (exp d + Z.of_N (digits (coeff d) - p) + (Z.of_N p - 1))%Z
        with (exp d + Z.of_N (digits (coeff d) - 1))%Z by lia.
      rewrite <- mkv_pow. apply mkv_le.
      assert (0 < coeff d)%N.
      { destruct (N.eq_dec (coeff d) 0) as [E|]; [|lia]. rewrite E, digits_0 in G. lia. }
      pose proof (digits_lower _ H). lia.
Qed.
