(* C06 - the scanner of literal.ParseNum on the spellings of the grammar: scanMantissa. *)
From Coq Require Import NArith ZArith List Bool Lia ZifyN ZifyBool.
From Verif Require Import Num.Decimal Num.NumLit Num.NumLitGrammar.
Import ListNotations.
Local Open Scope N_scope.

(* state right after next() has been called with [rest] unread *)
Definition after (rest rbuf : list N) (err : bool) : st := next (mkSt rest 0 rbuf err).

Definition nonus (cs : list N) : list N := filter (fun c => negb (c =? c_us)) cs.
Definition has_digit (cs : list N) : bool := existsb (fun c => negb (c =? c_us)) cs.

(* the '_' errors accumulated while scanning cs when the previous byte was [last] *)
Fixpoint us_err (last : N) (cs : list N) : bool :=
  match cs with
  | [] => last =? c_us
  | c :: r => ((last =? c_us) && (c =? c_us)) || us_err c r
  end.

Definition stops (base : N) (rest : list N) : Prop :=
  match rest with [] => True | c :: _ => base <= digit_val c end.

(* the bytes with a digit value: 0-9, '_', a-f, A-F *)
Lemma digit_val_cases : forall c, digit_val c < 16 ->
  48 <= c <= 57 /\ digit_val c = c - 48 \/ c = c_us /\ digit_val c = 0 \/
  97 <= c <= 102 /\ digit_val c = c - 87 \/ 65 <= c <= 70 /\ digit_val c = c - 55.
Proof.
  intros c. unfold digit_val, c_us.
  destruct ((48 <=? c) && (c <=? 57)) eqn:A; [intros _; left; lia|].
  destruct (c =? 95) eqn:B; [intros _; right; left; lia|].
  destruct ((97 <=? c) && (c <=? 102)) eqn:C; [intros _; right; right; left; lia|].
  destruct ((65 <=? c) && (c <=? 70)) eqn:D; [intros _; right; right; right; lia|].
  lia.
Qed.

Lemma digit_val_special : forall c, digit_val c < 16 -> c <> 0 /\ c <> c_dot.
Proof. intros c H. apply digit_val_cases in H. unfold c_us, c_dot in *. lia. Qed.

Lemma dec_or_us : forall c, digit_val c < 10 -> 48 <= c <= 57 \/ c = c_us.
Proof. intros c H. pose proof (digit_val_cases c ltac:(lia)). lia. Qed.

Lemma on_read_plain : forall c rb, c <> c_dot -> on_read c rb = rb.
Proof. intros c rb H. unfold on_read. destruct (N.eqb_spec c c_dot); [contradiction|reflexivity]. Qed.

Lemma scan_mant_exit : forall base src ch last rbuf err has,
  base <= digit_val ch ->
  scan_mant base src ch last rbuf err has = (mkSt src ch rbuf (err || (last =? c_us)), has).
Proof.
  intros. destruct src; cbn [scan_mant]; destruct (N.ltb_spec (digit_val ch) base); try lia; reflexivity.
Qed.

Lemma scan_mant_run : forall base cs c0 last rbuf err has rest,
  base <= 16 -> Forall (fun c => digit_val c < base) (c0 :: cs) -> stops base rest ->
  scan_mant base (cs ++ rest) c0 last rbuf err has =
    (after rest (rev (nonus (c0 :: cs)) ++ rbuf) (err || us_err last (c0 :: cs)),
     has || has_digit (c0 :: cs)).
Proof.
  intros base cs. induction cs as [|c1 cs IH]; intros c0 last rbuf err has rest Hb Hall Hstop.
  - inversion Hall as [|? ? H0 _]; subst. simpl app.
    destruct rest as [|c r]; cbn [scan_mant].
    + destruct (N.ltb_spec (digit_val c0) base); [|lia].
      unfold after, next. cbn [s_src s_rbuf s_err us_err nonus filter has_digit existsb].
      destruct (c0 =? c_us); cbn [negb rev app]; f_equal; try f_equal;
        destruct err, (last =? c_us), has; reflexivity.
    + destruct (N.ltb_spec (digit_val c0) base); [|lia].
      simpl in Hstop. rewrite scan_mant_exit by exact Hstop.
      unfold after, next. cbn [s_src s_rbuf s_err us_err nonus filter has_digit existsb].
      destruct (c0 =? c_us); cbn [negb rev app]; f_equal; try f_equal;
        destruct err, (last =? c_us), has, (c =? 0); reflexivity.
  - inversion Hall as [|? ? H0 Hall']; subst.
    assert (digit_val c1 < base) as H1 by (inversion Hall'; assumption).
    assert (nonus (c0 :: c1 :: cs) = if c0 =? c_us then nonus (c1 :: cs) else c0 :: nonus (c1 :: cs)) as EN.
    { unfold nonus. cbn [filter]. destruct (c0 =? c_us); reflexivity. }
    assert (us_err last (c0 :: c1 :: cs) = ((last =? c_us) && (c0 =? c_us)) || us_err c0 (c1 :: cs)) as EU
      by reflexivity.
    assert (has_digit (c0 :: c1 :: cs) = negb (c0 =? c_us) || has_digit (c1 :: cs)) as EH by reflexivity.
    rewrite EN, EU, EH. clear EN EU EH.
    destruct (digit_val_special c1 ltac:(lia)) as [NZ ND].
    change ((c1 :: cs) ++ rest) with (c1 :: (cs ++ rest)). cbn [scan_mant].
    destruct (N.ltb_spec (digit_val c0) base); [|lia].
    rewrite on_read_plain by exact ND.
    rewrite (proj2 (N.eqb_neq c1 0) NZ).
    rewrite orb_false_r.
    rewrite IH by assumption.
    generalize (nonus (c1 :: cs)) (us_err c0 (c1 :: cs)) (has_digit (c1 :: cs)). intros NN UU HH.
    destruct (c0 =? c_us); cbn [negb rev]; rewrite <- ?app_assoc; cbn [app].
    + rewrite orb_assoc. reflexivity.
    + rewrite orb_assoc. destruct has; reflexivity.
Qed.

(* scanMantissa when the current byte is not a digit: nothing happens *)
Lemma scan_mantissa_stop : forall base s,
  base <= digit_val (s_ch s) -> scan_mantissa base s = (s, false).
Proof.
  intros base s H. unfold scan_mantissa. destruct (s_src s) as [|c r] eqn:E; cbn [scan_mant];
  destruct (N.ltb_spec (digit_val (s_ch s)) base); try lia;
  change (0 =? c_us) with false; rewrite orb_false_r; destruct s; simpl in *; subst; reflexivity.
Qed.

Lemma is_base_digit_true : forall base c, is_base_digit base c = true ->
  digit_val c < base /\ c <> c_us.
Proof.
  intros base c H. unfold is_base_digit in H. apply andb_prop in H. destruct H as [A B].
  apply N.ltb_lt in A. apply negb_true_iff in B. apply N.eqb_neq in B. auto.
Qed.

Lemma tail_render_forall : forall base t,
  forallb (fun p => is_base_digit base (snd p)) t = true -> 0 < base ->
  Forall (fun c => digit_val c < base) (tail_render t).
Proof.
  induction t as [|[u c] t IH]; intros H Hb; simpl in *.
  - constructor.
  - apply andb_prop in H. destruct H as [A B]. destruct (is_base_digit_true _ _ A) as [A1 _].
    destruct u; simpl; repeat constructor; auto.
Qed.

Lemma tail_render_nonus : forall base t,
  forallb (fun p => is_base_digit base (snd p)) t = true -> nonus (tail_render t) = map snd t.
Proof.
  induction t as [|[u c] t IH]; intros H; simpl in *; [reflexivity|].
  apply andb_prop in H. destruct H as [A B]. destruct (is_base_digit_true _ _ A) as [_ A2].
  unfold nonus in *. destruct u; simpl.
  - change (c_us =? c_us) with true. simpl.
    destruct (N.eqb_spec c c_us); [contradiction|]. simpl. f_equal. apply IH. exact B.
  - destruct (N.eqb_spec c c_us); [contradiction|]. simpl. f_equal. apply IH. exact B.
Qed.

Lemma tail_render_us_err : forall base t last,
  forallb (fun p => is_base_digit base (snd p)) t = true -> last <> c_us ->
  us_err last (tail_render t) = false.
Proof.
  induction t as [|[u c] t IH]; intros last H L; simpl in *.
  - apply N.eqb_neq. exact L.
  - apply andb_prop in H. destruct H as [A B]. destruct (is_base_digit_true _ _ A) as [_ A2].
    pose proof (proj2 (N.eqb_neq _ _) L) as EL. pose proof (proj2 (N.eqb_neq _ _) A2) as EC.
    destruct u; simpl; rewrite EL; simpl.
    + change (c_us =? c_us) with true. rewrite EC. simpl. apply IH; assumption.
    + apply IH; assumption.
Qed.

Lemma zero_not_us : 0 <> c_us. Proof. discriminate. Qed.

(* scanMantissa entered before a run of digit bytes that ends at [rest] *)
Lemma scan_run : forall base c0 cs rbuf rest,
  base <= 16 -> Forall (fun c => digit_val c < base) (c0 :: cs) -> stops base rest ->
  scan_mantissa base (after ((c0 :: cs) ++ rest) rbuf false) =
    (after rest (rev (nonus (c0 :: cs)) ++ rbuf) (us_err 0 (c0 :: cs)), has_digit (c0 :: cs)).
Proof.
  intros base c0 cs rbuf rest Hb Hall Hstop.
  destruct (digit_val_special c0) as [NZ ND]; [inversion Hall; lia|].
  unfold scan_mantissa, after, next. cbn [app s_src s_ch s_rbuf s_err].
  rewrite on_read_plain by exact ND. rewrite (proj2 (N.eqb_neq c0 0) NZ). cbn [orb].
  apply scan_mant_run; assumption.
Qed.

Lemma scan_dseq : forall base d rbuf rest,
  0 < base <= 16 -> ds_ok base d = true -> stops base rest ->
  scan_mantissa base (after (ds_render d ++ rest) rbuf false) =
    (after rest (rev (ds_chars d) ++ rbuf) false, true).
Proof.
  intros base d rbuf rest Hb Hok Hstop. unfold ds_ok in Hok. apply andb_prop in Hok. destruct Hok as [Hh Ht].
  destruct (is_base_digit_true _ _ Hh) as [H1 H2]. apply N.eqb_neq in H2.
  unfold ds_render. rewrite scan_run; [|lia| |exact Hstop].
  - unfold nonus, ds_chars. cbn [filter us_err has_digit existsb]. rewrite H2. cbn [negb andb orb].
    change (0 =? c_us) with false. cbn [andb orb].
    fold (nonus (tail_render (ds_tail d))). rewrite (tail_render_nonus base) by exact Ht.
    rewrite (tail_render_us_err base) by (try apply N.eqb_neq; assumption). reflexivity.
  - constructor; [exact H1|]. apply tail_render_forall; [exact Ht|lia].
Qed.

(* scanning what follows a consumed leading "0": the tail of a digit sequence *)
Lemma scan_tail : forall t rbuf rest,
  forallb (fun p => is_base_digit 10 (snd p)) t = true -> t <> [] -> stops 10 rest ->
  scan_mantissa 10 (after (tail_render t ++ rest) rbuf false) =
    (after rest (rev (map snd t) ++ rbuf) false, true).
Proof.
  intros t rbuf rest Ht NE Hstop.
  pose proof (tail_render_forall 10 t Ht ltac:(lia)) as Hall.
  destruct (tail_render t) as [|c0 cs] eqn:E.
  { destruct t as [|[[|] c] t]; [contradiction| |]; discriminate E. }
  rewrite scan_run by (try lia; assumption). rewrite <- E.
  rewrite (tail_render_nonus 10), (tail_render_us_err 10) by (try discriminate; exact Ht).
  f_equal.
  destruct t as [|[u c] t]; [contradiction|]. simpl in Ht. apply andb_prop in Ht. destruct Ht as [A _].
  destruct (is_base_digit_true _ _ A) as [_ A2]. apply N.eqb_neq in A2.
  destruct u; simpl; rewrite A2; reflexivity.
Qed.
