(* C07 - round trip of printed disjunctions with defaults (Print/DisjModel.v) w.r.t. the
   order-free disjunction semantics of Core/Disj.v. *)
From Verif Require Import Core.Syntax Core.Eval Core.Laws Core.Disj Print.Model Print.ScalProofs Print.Proofs Print.DisjModel.
From Coq Require Import List Bool ZArith NArith.
Import ListNotations.

Lemma tuples_single (D : disj) : tuples [D] = map (fun c => [c]) D.
Proof. induction D as [|c D IH]; [reflexivity|]. cbn in *. rewrite IH. reflexivity. Qed.

Lemma filter_all {A} (p : A -> bool) l : (forall x, In x l -> p x = true) -> filter p l = l.
Proof.
  induction l as [|x l IH]; [reflexivity|]. intros H. cbn. rewrite (H x (or_introl eq_refl)).
  f_equal. apply IH. intros y Hy. apply H. right. exact Hy.
Qed.

Lemma eff_marked_single (D : disj) :
  eff_marked (map (fun c => [c]) D) 0 = existsb fst D.
Proof.
  unfold eff_marked. induction D as [|[m e] D IH]; [reflexivity|]. cbn. rewrite IH. reflexivity.
Qed.

Lemma existsb_fst_print d : existsb fst (print_sdisj d) = sd_has_default d.
Proof. unfold print_sdisj, sd_has_default. induction d as [|x d IH]; [reflexivity|]. cbn. rewrite IH. reflexivity. Qed.

Lemma dedup_nil l : dedup l = [] -> l = [].
Proof.
  induction l as [|r l IH]; [reflexivity|]. cbn. destruct (mem_res r l) eqn:E; [|discriminate].
  intros H. rewrite (IH H) in E. discriminate.
Qed.

(* every statement is for fuel S f: with no fuel nothing is evaluated and pair_of holds no value *)
Section PrintedDisj.
  Variable labs : list label.
  Variable atoms : list atom.
  Variable f : nat.

  Lemma sres_err cs : res_err (sres atoms cs) = scalar_bottom cs.
  Proof. unfold sres. destruct (scalar_bottom cs); reflexivity. Qed.

  Lemma tuple_val_pure plain t :
    forallb pure_scalar plain = true -> forallb (fun c => pure_scalar (snd c)) t = true ->
    tuple_val labs atoms (S f) plain t = sres atoms (tuple_scal plain t).
  Proof.
    intros Hp Ht. unfold tuple_val, tuple_scal. apply eval_pure.
    rewrite forallb_app, Hp. apply forallb_forall. intros e (c & <- & Hc)%in_map_iff.
    rewrite forallb_forall in Ht. apply Ht, Hc.
  Qed.

  Lemma printed_tuple_val m cs :
    scalar_bottom cs = false ->
    tuple_val labs atoms (S f) [] [(m, print_scal cs)] = sres atoms cs.
  Proof.
    intros H. rewrite tuple_val_pure; [| reflexivity | cbn; unfold print_scal; rewrite pure_print_raw; reflexivity].
    unfold tuple_scal. cbn. rewrite app_nil_r. unfold print_scal. rewrite scal_of_print_raw.
    apply sres_equiv, canon_scal_equiv. exact H.
  Qed.

  Lemma pair_single (D : disj) :
    (forall c, In c D -> survives labs atoms (S f) [] [c] = true) ->
    pair_of labs atoms (S f) [] [D] =
    map (fun c => (tuple_val labs atoms (S f) [] [c], existsb fst D && fst c)) D.
  Proof.
    intros H. unfold pair_of, survivors. rewrite tuples_single.
    rewrite filter_all.
    2:{ intros t Ht. apply in_map_iff in Ht as (c & <- & Hc). apply H. exact Hc. }
    rewrite map_map. apply map_ext. intros c. f_equal.
    unfold is_default. cbn [length seq existsb forallb]. rewrite eff_marked_single.
    unfold uses_marked. cbn [nth_error]. destruct c as [m e]. cbn [fst].
    destruct (existsb fst D), m; reflexivity.
  Qed.

  (* eval (print v) = v for an evaluated disjunction: every disjunct survives with its value, and
     the default flags are the marks *)
  Theorem eval_print_sdisj d :
    sd_wf d = true ->
    pair_of labs atoms (S f) [] [print_sdisj d] = sd_denote atoms d.
  Proof.
    intros W. unfold sd_wf in W. rewrite forallb_forall in W.
    assert (V : forall x, In x d ->
                tuple_val labs atoms (S f) [] [(fst x, print_scal (snd x))] = sres atoms (snd x)).
    { intros x Hx. apply printed_tuple_val, negb_true_iff, W, Hx. }
    rewrite pair_single.
    - rewrite existsb_fst_print. unfold print_sdisj, sd_denote. rewrite map_map.
      apply map_ext_in. intros x Hx. cbn [fst snd]. rewrite (V x Hx). reflexivity.
    - intros c (x & <- & Hx)%in_map_iff. unfold survives. cbn [fst snd].
      rewrite (V x Hx), sres_err. apply W, Hx.
  Qed.

  Lemma has_default_take_none d : sd_has_default (take_defaults d) = false.
  Proof.
    unfold take_defaults. destruct (sd_has_default d) eqn:E; [|exact E].
    unfold sd_has_default. induction (filter fst d) as [|x l IH]; [reflexivity|]. exact IH.
  Qed.

  Lemma take_defaults_wf d : sd_wf d = true -> sd_wf (take_defaults d) = true.
  Proof.
    intros W. unfold take_defaults. destruct (sd_has_default d); [|exact W].
    unfold sd_wf in *. rewrite forallb_forall in *. intros x (y & <- & [Hy _]%filter_In)%in_map_iff.
    apply (W y Hy).
  Qed.

  Lemma denote_defaults_filter d :
    sd_has_default d = true ->
    map fst (filter snd (sd_denote atoms d)) = map fst (sd_denote atoms (take_defaults d)).
  Proof.
    intros E. unfold take_defaults. rewrite E. unfold sd_denote at 1. rewrite E.
    unfold sd_denote. rewrite !map_map. cbn [fst snd]. clear E.
    induction d as [|[m cs] d IH]; [reflexivity|]. cbn [map filter fst snd andb].
    destruct m; cbn [map fst snd]; [f_equal|]; exact IH.
  Qed.

  Lemma filter_snd_none d : sd_has_default d = false -> filter snd (sd_denote atoms d) = [].
  Proof.
    intros E. unfold sd_denote. rewrite E. clear E. induction d as [|x d IH]; [reflexivity|]. exact IH.
  Qed.

  Lemma defaults_nonempty d : sd_has_default d = true -> defaults (sd_denote atoms d) <> [].
  Proof.
    intros E F. apply dedup_nil, map_eq_nil in F. unfold sd_denote in F. rewrite E in F.
    apply existsb_exists in E as (x & Hx & Hm).
    assert (H : In (sres atoms (snd x), true && fst x)
                   (filter snd (map (fun x => (sres atoms (snd x), true && fst x)) d))).
    { apply filter_In. split; [apply in_map_iff; exists x; auto | exact Hm]. }
    rewrite F in H. exact H.
  Qed.

  (* the value written under TakeDefaults has no defaults of its own, and its values are the
     defaults of the original (all values when there is no default) *)
  Theorem take_defaults_values d :
    defaults (sd_denote atoms (take_defaults d)) = [] /\
    values (sd_denote atoms (take_defaults d)) =
      match defaults (sd_denote atoms d) with [] => values (sd_denote atoms d) | dv => dv end.
  Proof.
    split.
    - unfold defaults. rewrite filter_snd_none by apply has_default_take_none. reflexivity.
    - destruct (sd_has_default d) eqn:E.
      + pose proof (defaults_nonempty d E) as N. unfold values, defaults in *.
        rewrite <- (denote_defaults_filter d E).
        destruct (dedup (map fst (filter snd (sd_denote atoms d)))); [destruct N|]; reflexivity.
      + unfold take_defaults, defaults. rewrite E, (filter_snd_none d E). reflexivity.
  Qed.

  (* ... hence it resolves to the same value as the original: what cue export / a concrete
     consumer sees is unchanged by Final() *)
  Theorem take_defaults_resolve d :
    resolve (sd_denote atoms (take_defaults d)) = resolve (sd_denote atoms d).
  Proof.
    destruct (take_defaults_values d) as [D V]. unfold resolve. rewrite D, V.
    destruct (defaults (sd_denote atoms d)) as [|a [|b l]]; reflexivity.
  Qed.

  Lemma in_tuples_pure ds : forallb pure_disj ds = true ->
    forall t, In t (tuples ds) -> forallb (fun c => pure_scalar (snd c)) t = true.
  Proof.
    induction ds as [|D ds IH]; cbn [tuples]; intros H t Ht.
    - destruct Ht as [<-|[]]. reflexivity.
    - cbn in H. apply andb_true_iff in H as [HD Hds]. apply in_flat_map in Ht as (c & Hc & Ht).
      apply in_map_iff in Ht as (t' & <- & Ht'). cbn. rewrite (IH Hds t' Ht'), andb_true_r.
      unfold pure_disj in HD. rewrite forallb_forall in HD. apply HD. exact Hc.
  Qed.

  (* a surviving choice of disjuncts is a satisfiable scalar *)
  Lemma survivor_val plain ds t :
    forallb pure_scalar plain = true -> forallb pure_disj ds = true ->
    In t (survivors labs atoms (S f) plain ds) ->
    tuple_val labs atoms (S f) plain t = sres atoms (tuple_scal plain t) /\
    scalar_bottom (tuple_scal plain t) = false.
  Proof.
    intros Hp Hd [Ht S1]%filter_In.
    pose proof (tuple_val_pure plain t Hp (in_tuples_pure ds Hd t Ht)) as V. split; [exact V|].
    unfold survives in S1. rewrite V, sres_err in S1. apply negb_true_iff, S1.
  Qed.

  Lemma normalize_sdisj_wf plain ds :
    forallb pure_scalar plain = true -> forallb pure_disj ds = true ->
    sd_wf (normalize_sdisj labs atoms (S f) plain ds) = true.
  Proof.
    intros Hp Hd. apply forallb_forall. intros x (t & <- & Ht)%in_map_iff.
    apply negb_true_iff, (survivor_val plain ds t Hp Hd Ht).
  Qed.

  (* the evaluated disjunction denotes the value/default pair of the operands *)
  Lemma normalize_sdisj_sound plain ds :
    forallb pure_scalar plain = true -> forallb pure_disj ds = true ->
    sd_denote atoms (normalize_sdisj labs atoms (S f) plain ds) = pair_of labs atoms (S f) plain ds.
  Proof.
    intros Hp Hd. unfold sd_denote. unfold normalize_sdisj at 2. rewrite map_map. unfold pair_of.
    apply map_ext_in. intros t Ht. cbn [fst snd].
    rewrite (proj1 (survivor_val plain ds t Hp Hd Ht)). f_equal.
    destruct (is_default (length ds) (survivors labs atoms (S f) plain ds) t) eqn:E; [|apply andb_false_r].
    apply andb_true_iff. split; [|reflexivity]. apply existsb_exists.
    exists (is_default (length ds) (survivors labs atoms (S f) plain ds) t, tuple_scal plain t).
    split; [apply in_map_iff; exists t; auto | exact E].
  Qed.

  (* THE ROUND TRIP for disjunctions: the evaluated disjunction of a conjunction of scalars and
     disjunctions, printed with its default marks and evaluated again, has exactly the
     value/default pair of the original - the same surviving values in the same order, the same
     default flags, hence the same accepted atoms and the same resolution *)
  Theorem print_marked_roundtrip plain ds :
    forallb pure_scalar plain = true -> forallb pure_disj ds = true ->
    pair_of labs atoms (S f) [] [print_marked labs atoms (S f) plain ds] = pair_of labs atoms (S f) plain ds.
  Proof.
    intros Hp Hd. unfold print_marked. rewrite eval_print_sdisj by (apply normalize_sdisj_wf; assumption).
    apply normalize_sdisj_sound; assumption.
  Qed.

  (* under TakeDefaults (Final, Concrete, cue eval, cue export) the printed text resolves to the
     value the original resolves to, and its values are the original's defaults *)
  Theorem print_final_resolve plain ds :
    forallb pure_scalar plain = true -> forallb pure_disj ds = true ->
    resolve (pair_of labs atoms (S f) [] [print_final labs atoms (S f) plain ds]) =
    resolve (pair_of labs atoms (S f) plain ds).
  Proof.
    intros Hp Hd. unfold print_final.
    rewrite eval_print_sdisj by (apply take_defaults_wf, normalize_sdisj_wf; assumption).
    rewrite take_defaults_resolve, normalize_sdisj_sound by assumption. reflexivity.
  Qed.

  Theorem print_final_values plain ds :
    forallb pure_scalar plain = true -> forallb pure_disj ds = true ->
    let p := pair_of labs atoms (S f) plain ds in
    values (pair_of labs atoms (S f) [] [print_final labs atoms (S f) plain ds]) =
    match defaults p with [] => values p | dv => dv end.
  Proof.
    intros Hp Hd p. subst p. unfold print_final.
    rewrite eval_print_sdisj by (apply take_defaults_wf, normalize_sdisj_wf; assumption).
    destruct (take_defaults_values (normalize_sdisj labs atoms (S f) plain ds)) as [_ V].
    rewrite V, normalize_sdisj_sound by assumption. reflexivity.
  Qed.
End PrintedDisj.

Definition dx_atoms : list atom := [AInt 1; AInt 2; AInt 3; AStr 0].
(* ( *1 | 2 | 3) & >1 & ( *2 | *3 | int): survivors 2&2 (unmarked, marked), 2&int, 3&3, 3&int *)
Definition dx_plain : list expr := [EScalar (SGt 1)].
Definition dx_ds : list disj :=
  [[(true, EScalar (SAtom (AInt 1))); (false, EScalar (SAtom (AInt 2))); (false, EScalar (SAtom (AInt 3)))];
   [(true, EScalar (SAtom (AInt 2))); (true, EScalar (SAtom (AInt 3))); (false, EScalar (SKind KInt))]].

Example dx_normal_form :
  map fst (normalize_sdisj [] dx_atoms 5 dx_plain dx_ds) = [true; false; true; false] /\
  map fst (print_final [] dx_atoms 5 dx_plain dx_ds) = [false; false] /\
  length (values (pair_of [] dx_atoms 5 [] [print_final [] dx_atoms 5 dx_plain dx_ds])) = 2%nat /\
  resolve (pair_of [] dx_atoms 5 dx_plain dx_ds) = Ambiguous.
Proof. vm_compute. repeat split. Qed.
