(* Non-vacuity: the hypotheses of the C07 theorems are met by non-trivial values. *)
From Verif Require Import Core.Syntax Core.Eval Print.Model Print.ScalProofs Print.Proofs Print.ProjProofs.
From Coq Require Import List ZArith NArith.
Import ListNotations.
Local Open Scope Z_scope.

Definition ex_labs := [LReg 0; LReg 1; LReg 2; LReg 3; LReg 4; LHid 0; LDef 0]%N.
Definition ex_atoms := [AInt (-1); AInt 0; AInt 1; AInt 5; AStr 0; ABool true; ANull].

(* #D0: {a?: int, [=~"b$"]: string, b: close({"_c"?: >0}), _h0: 1}   x: #D0 & {a: 5} *)
Definition ex_D0 :=
  EStruct [(HField (LReg 0) FOptional, EScalar (SKind KInt));
           (HPattern [2; 4]%N, EScalar (SKind KStr));
           (HField (LReg 1) FRegular, EClose (EStruct [(HField (LReg 3) FOptional, EScalar (SGt 0))]));
           (HField (LHid 0) FRegular, EScalar (SAtom (AInt 1)))].
Definition ex_cs :=
  [mkConj false [ERefDef ex_D0]; mkConj false [EStruct [(HField (LReg 0) FRegular, EScalar (SAtom (AInt 5)))]]].
Definition ex_nf := normalize_conjs 10 ex_cs.

(* the normal form is inside the printable fragment, well formed, of depth 2; it has a pattern,
   closers at two levels, an optional and a hidden field *)
Example ex_nf_ok : nf_ok ex_nf = true /\ wfb ex_nf = true /\ depth ex_nf = 2%nat.
Proof. vm_compute. auto. Qed.

Example ex_nf_shape :
  match ex_nf with
  | NStruct fs ps cl => length fs = 3%nat /\ length ps = 1%nat /\ length cl = 1%nat
  | _ => False
  end.
Proof. vm_compute. auto. Qed.

(* the round trip on this value, computed (an instance of print_roundtrip) *)
Example ex_roundtrip :
  evalNode ex_labs ex_atoms 10 [mkConj false [print_nf ex_nf]] = evalNode ex_labs ex_atoms 10 ex_cs.
Proof. vm_compute. reflexivity. Qed.

(* the value is closed: the fresh label cannot be added, the declared optional one can *)
Example ex_closed :
  match evalNode ex_labs ex_atoms 10 ex_cs with
  | RStruct _ o => o = [true; true; true; false; true; true; true]
  | _ => False
  end.
Proof. vm_compute. reflexivity. Qed.

(* Final drops the hidden field, the pattern and closedness, keeps a and b *)
Example ex_project_final :
  project PFinal ex_nf =
  Some (NStruct [(LReg 1, FRegular, NStruct [] [] []); (LReg 0, FRegular, NScal [SAtom (AInt 5); SKind KInt])] [] []).
Proof. vm_compute. reflexivity. Qed.

(* Concrete refuses a value with a non-concrete shown position, accepts a concrete one *)
Example ex_project_concrete_none :
  project PConcrete (NStruct [(LReg 0, FRegular, NScal [SKind KInt])] [] []) = None.
Proof. reflexivity. Qed.
Example ex_project_concrete_some :
  project PConcrete ex_nf <> None.
Proof. vm_compute. discriminate. Qed.

(* a struct-valued pattern is outside the printable fragment, and reported as such *)
Example ex_out :
  nf_ok (normalize_conjs 10 [mkConj false [EStruct [(HPattern [0]%N, EStruct [])]]]) = false.
Proof. reflexivity. Qed.

(* the canonical shape of a concrete scalar is its atom; of a non-concrete one the distinct constraints *)
Example ex_canon_atom : canon_scal [SKind KInt; SGt 0; SAtom (AInt 5); SLt 10] = [SAtom (AInt 5)].
Proof. reflexivity. Qed.
Example ex_canon_bounds : canon_scal [SKind KInt; SGt 0; SKind KInt; SLt 10] = [SGt 0; SKind KInt; SLt 10].
Proof. reflexivity. Qed.

(* bounds.go and MatchBuiltinRange on small inputs *)
Example ex_range_uint : range_rewrite [SKind KInt; SGt 1; SLt 5] = [PUint; PC (SGt 1); PC (SLt 5)].
Proof. reflexivity. Qed.
Example ex_range_uint_ge0 : range_rewrite [SGe 0; SKind KInt; SLt 10] = [PUint; PC (SLt 10)].
Proof. reflexivity. Qed.
Example ex_range_int : range_rewrite [SKind KInt; SGt (-5); SLt 10; SNe 3] = [PInt; PC (SGt (-5)); PC (SLt 10); PC (SNe 3)].
Proof. reflexivity. Qed.
Example ex_range_noint : range_rewrite [SGt 1; SLt 5; SGt 0] = [PC (SGt 1); PC (SLt 5)].
Proof. reflexivity. Qed.
Example ex_range_nomax : range_rewrite [SGt 1; SKind KInt] = [PC (SKind KInt); PC (SGt 1)].
Proof. reflexivity. Qed.
Example ex_range_builtin : range_rewrite [SLe 127; SKind KInt; SGe (-128)] = [PRange (-128) 127] /\
                           range_rewrite [SKind KInt; SGe 0] = [PUint].
Proof. split; reflexivity. Qed.
