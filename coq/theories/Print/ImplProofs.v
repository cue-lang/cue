(* C07, implementation layer: the definition-mode printer (expr.go mergeValues, export.Def) agrees with the
   specification on conjunct lists of plain (embedding-free) struct literals; the witnesses on
   which it is refuted (closed values that receive a further conjunct, known findings F10, F11). *)
From Verif Require Import Core.Syntax Core.Eval Core.Laws Print.Model Print.Proofs Print.Impl.
From Coq Require Import List Bool ZArith NArith.
Import ListNotations.

Definition plain_lit (e : expr) : bool := match e with EStruct ds => embed_free ds | _ => false end.

Definition lit_own (e : expr) := fields_of (decls_of e).
Definition lit_ownp (e : expr) := pats_of (decls_of e).

Lemma flat_exprs_plain r es :
  forallb plain_lit es = true ->
  flat_exprs r es = mkFlat false [] (negb (null es)) (flat_map lit_own es) (flat_map lit_ownp es) [] [].
Proof.
  induction es as [|e es IH]; [reflexivity|]. intros H. cbn [forallb] in H. apply andb_true_iff in H as [He Hr].
  rewrite flat_exprs_cons, (IH Hr). destruct e; try discriminate. cbn [plain_lit] in He.
  rewrite (flatten_embed_free r al_empty ds He). reflexivity.
Qed.

(* a group of plain literals flattens to one open part and nothing else *)
Lemma flat_conj_plain es :
  forallb plain_lit es = true ->
  flat_conj (mkConj false es) =
  mkNFlat false [] (negb (null es)) [mkPart false (flat_map lit_own es) (flat_map lit_ownp es)] [].
Proof.
  intros H. unfold flat_conj. cbn [c_rec c_exprs andb]. rewrite (flat_exprs_plain false es H). reflexivity.
Qed.

(* Laws.neq is Core's equivalence of flattened nodes (equal up to order and multiplicity) *)
Lemma plain_neq es es' :
  forallb plain_lit es = true -> forallb plain_lit es' = true -> null es = null es' ->
  Laws.seq (flat_map lit_own es) (flat_map lit_own es') -> Laws.seq (flat_map lit_ownp es) (flat_map lit_ownp es') ->
  Laws.neq (flat_conj (mkConj false es)) (flat_conj (mkConj false es')).
Proof.
  intros Hp Hp' Hn Ho Hq. rewrite (flat_conj_plain es Hp), (flat_conj_plain es' Hp'), Hn.
  constructor; try reflexivity.
  - apply seq_refl.
  - intros l. reflexivity.
  - unfold ofields, open_parts. cbn. rewrite !app_nil_r. exact Ho.
  - unfold opats, open_parts. cbn. rewrite !app_nil_r. exact Hq.
  - apply pseq_refl.
Qed.

Lemma flat_conj_and_all ps : flat_conj (mkConj false [and_all ps]) = flat_conj (mkConj false ps).
Proof.
  unfold flat_conj. cbn [c_rec c_exprs andb].
  rewrite flat_exprs_cons. cbn [flat_exprs fold_right]. rewrite flat_app_empty_r, flatten_and_all. reflexivity.
Qed.

Lemma embed_free_app a b : embed_free (a ++ b) = embed_free a && embed_free b.
Proof. unfold embed_free. apply forallb_app. Qed.

Lemma plain_merged es : forallb plain_lit es = true -> embed_free (flat_map decls_of es) = true.
Proof.
  induction es as [|e es IH]; [reflexivity|]. cbn [forallb]. intros [He Hr]%andb_true_iff.
  cbn [flat_map]. rewrite embed_free_app, (IH Hr). destruct e; try discriminate.
  cbn [decls_of plain_lit] in *. rewrite He. reflexivity.
Qed.

Lemma fields_of_flat_map es : fields_of (flat_map decls_of es) = flat_map lit_own es.
Proof. unfold fields_of, lit_own. rewrite flat_map_flat_map. reflexivity. Qed.

Lemma pats_of_flat_map es : pats_of (flat_map decls_of es) = flat_map lit_ownp es.
Proof. unfold pats_of, lit_ownp. rewrite flat_map_flat_map. reflexivity. Qed.

Lemma plain_is_plain es : forallb plain_lit es = true -> filter is_plain es = es /\ filter (fun e => negb (is_plain e)) es = [].
Proof.
  induction es as [|e es IH]; [auto|]. cbn [forallb]. intros [He Hr]%andb_true_iff.
  destruct (IH Hr) as [A B]. destruct e; try discriminate. cbn [filter is_plain negb]. rewrite A, B. auto.
Qed.

Lemma reaches_close_embed_free ds : embed_free ds = true -> reaches_close (EStruct ds) = false.
Proof.
  cbn [reaches_close]. induction ds as [|[h e] ds IH]; [reflexivity|].
  cbn [embed_free forallb fst]. intros [Hh Hr]%andb_true_iff. destruct h; try discriminate; apply IH; exact Hr.
Qed.

Lemma plain_no_def es : forallb plain_lit es = true -> existsb reaches_def es = false /\ existsb reaches_close es = false.
Proof.
  induction es as [|e es IH]; [auto|]. cbn [forallb]. intros [He Hr]%andb_true_iff.
  destruct (IH Hr) as [A B]. destruct e; try discriminate. cbn [plain_lit] in He. cbn [existsb].
  rewrite A, B, (reaches_def_embed_free ds He), (reaches_close_embed_free ds He). split; reflexivity.
Qed.

Lemma plain_no_embed es : forallb plain_lit es = true -> filter is_embed_decl (flat_map decls_of es) = [].
Proof.
  intros H. pose proof (plain_merged es H) as Em. unfold embed_free in Em.
  induction (flat_map decls_of es) as [|d ds IH]; [reflexivity|]. cbn [forallb] in Em. apply andb_true_iff in Em as [A B].
  cbn [filter]. unfold is_embed_decl at 1. destruct (fst d); try discriminate; apply IH, B.
Qed.

(* a simple literal without field or "..." contributes nothing *)
Lemma simple_empty e :
  plain_lit e = true -> is_complex e = false -> existsb is_field_or_ellipsis (decls_of e) = false ->
  lit_own e = [] /\ lit_ownp e = [].
Proof.
  destruct e; try discriminate. cbn [plain_lit decls_of]. unfold is_complex, lit_own, lit_ownp. cbn [decls_of].
  intros He Hc Hf. induction ds as [|[h e] ds IH]; [auto|].
  cbn [embed_free forallb fst] in He. apply andb_true_iff in He as [Hh Hr].
  cbn [existsb fst] in Hc, Hf. apply orb_false_iff in Hc as [Hc1 Hc2]. apply orb_false_iff in Hf as [Hf1 Hf2].
  destruct h; cbn in Hh, Hc1, Hf1; discriminate.
Qed.

(* with exactly one complex literal x and every other literal contributing nothing, what is
   collected per literal over the whole list is what x alone gives *)
Lemma one_complex_collect {B} (G : expr -> list B) es x :
  filter is_complex es = [x] ->
  (forall e, In e es -> is_complex e = false -> G e = []) ->
  Laws.seq (flat_map G [x]) (flat_map G es).
Proof.
  intros Ee HG y. cbn [flat_map]. rewrite app_nil_r, in_flat_map. split.
  - intros Hy. exists x. split; [|exact Hy]. apply (filter_In is_complex). rewrite Ee. left. reflexivity.
  - intros (e & He & Hy). destruct (is_complex e) eqn:Hce.
    + assert (Hin : In e [x]) by (rewrite <- Ee; apply filter_In; auto). destruct Hin as [<-|[]]. exact Hy.
    + rewrite (HG e He Hce) in Hy. destruct Hy.
Qed.

(* mergeValues on plain literals: what it writes flattens to the same node as the literals *)
Lemma impl_parts_plain es :
  forallb plain_lit es = true ->
  Laws.neq (flat_conj (mkConj false (impl_parts es))) (flat_conj (mkConj false es)).
Proof.
  intros Hp. unfold impl_parts.
  destruct (plain_is_plain es Hp) as [P K]. destruct (plain_no_def es Hp) as [_ Hc]. rewrite P, K, Hc. cbn [andb app].
  destruct es as [|e0 es0]; [apply neq_refl|]. cbn [null]. set (es := e0 :: es0) in *.
  assert (M : Laws.neq (flat_conj (mkConj false [EStruct (flat_map decls_of es)])) (flat_conj (mkConj false es))).
  { apply plain_neq; [cbn [forallb plain_lit]; rewrite (plain_merged es Hp); reflexivity | exact Hp | reflexivity | |];
      cbn [flat_map]; rewrite app_nil_r; [rewrite <- fields_of_flat_map | rewrite <- pats_of_flat_map]; apply seq_refl. }
  destruct (existsb is_field_or_ellipsis (flat_map decls_of (filter (fun e => negb (is_complex e)) es))) eqn:Ef; [exact M|].
  assert (Hs : forallb plain_lit (filter (fun e => negb (is_complex e)) es) = true).
  { apply forallb_forall. intros e [He _]%filter_In. rewrite forallb_forall in Hp. apply Hp, He. }
  rewrite (plain_no_embed _ Hs). cbn [map app].
  destruct (filter is_complex es) as [|x [|y r]] eqn:Ee; try exact M.
  (* exactly one embedded thing: it is the one complex literal; every other literal is empty *)
  assert (Hx : In x es) by (apply (filter_In is_complex); rewrite Ee; left; reflexivity).
  assert (Px : plain_lit x = true) by (rewrite forallb_forall in Hp; apply Hp, Hx).
  assert (Simple : forall e, In e es -> is_complex e = false -> lit_own e = [] /\ lit_ownp e = []).
  { intros e He Hce. rewrite forallb_forall in Hp. apply simple_empty; auto.
    apply not_true_is_false. intros (d & Hd & Td)%existsb_exists. apply not_true_iff_false in Ef. apply Ef.
    apply existsb_exists. exists d. split; [|exact Td]. apply in_flat_map. exists e. split; [|exact Hd].
    apply filter_In. rewrite Hce. auto. }
  apply plain_neq; [cbn [forallb]; rewrite Px; reflexivity | exact Hp | reflexivity | |];
    apply (one_complex_collect _ es x Ee).
  - intros e He Hce. apply (Simple e He Hce).
  - intros e He Hce. apply (Simple e He Hce).
Qed.

(* on conjunct lists of plain struct literals the definition-mode printer (root level) writes an
   expression that flattens to the same node, hence evaluates alike in every context *)
Theorem impl_def_root_plain es :
  forallb plain_lit es = true ->
  Laws.neq (flat_conj (mkConj false [impl_def_root es])) (flat_conj (mkConj false es)).
Proof.
  intros Hp. unfold impl_def_root. destruct (plain_no_def es Hp) as [Hd _]. rewrite Hd.
  rewrite flat_conj_and_all. apply impl_parts_plain, Hp.
Qed.

Definition w_labs := [LReg 0; LReg 1; LReg 2; LReg 3; LReg 4; LHid 0; LDef 0]%N.
Definition w_atoms := [AInt 0; AInt 1; AStr 0].

(* F10:  x: close({a: 1, b?: int})   x: {a: int} *)
Definition w_close : list conj :=
  [mkConj false [EClose (EStruct [(HField (LReg 0) FRegular, EScalar (SAtom (AInt 1)));
                                  (HField (LReg 1) FOptional, EScalar (SKind KInt))])];
   mkConj false [EStruct [(HField (LReg 0) FRegular, EScalar (SKind KInt))]]].

(* F11:  #D0: {a?: int, ...}   x: #D0   x: {c?: {b: 1}} *)
Definition w_def : list conj :=
  [mkConj false [ERefDef (EStruct [(HField (LReg 0) FOptional, EScalar (SKind KInt)); (HEllipsis, ETop)])];
   mkConj false [EStruct [(HField (LReg 3) FOptional, EStruct [(HField (LReg 1) FRegular, EScalar (SAtom (AInt 1)))])]]].

(* what changes: the printed form of w_close is close({a: 1, b?: int}) & close({a: int}), so b is no
   longer admitted; that of w_def is _#def: {a?: int, ...} & {c?: {b: 1}}, so the struct under c
   becomes closed.  In the original b can be added to the close()d value and a can be added below c;
   in the printed form neither *)
Theorem impl_def_refuted_close :
  exists cs, evalNode w_labs w_atoms 10 (impl_def cs) <> evalNode w_labs w_atoms 10 cs.
Proof. exists w_close. vm_compute. discriminate. Qed.

Theorem impl_def_refuted_def :
  exists cs, evalNode w_labs w_atoms 10 (impl_def cs) <> evalNode w_labs w_atoms 10 cs.
Proof. exists w_def. vm_compute. discriminate. Qed.

Example w_close_observable :
  (match evalNode w_labs w_atoms 10 w_close with RStruct fs o => nth 1 (map fst fs) PAbsent = POptional /\ nth 1 o false = true | _ => False end) /\
  (match evalNode w_labs w_atoms 10 (impl_def w_close) with RStruct fs o => nth 1 o true = false | _ => False end).
Proof. vm_compute. auto. Qed.

Example w_def_observable :
  (match evalNode w_labs w_atoms 10 w_def with
   | RStruct fs _ => match nth 3 (map snd fs) RBot with RStruct _ o => nth 0 o false = true | _ => False end | _ => False end) /\
  (match evalNode w_labs w_atoms 10 (impl_def w_def) with
   | RStruct fs _ => match nth 3 (map snd fs) RBot with RStruct _ o => nth 0 o true = false | _ => False end | _ => False end).
Proof. vm_compute. auto. Qed.

(* non-vacuity of impl_def_root_plain: two plain declarations are merged into one literal *)
Example w_plain_merge :
  impl_def_root [EStruct [(HField (LReg 0) FRegular, EScalar (SKind KInt))];
                 EStruct [(HField (LReg 0) FRegular, EScalar (SAtom (AInt 1))); (HPattern [1]%N, EScalar (SKind KStr))]] =
  EStruct [(HField (LReg 0) FRegular, EScalar (SKind KInt)); (HField (LReg 0) FRegular, EScalar (SAtom (AInt 1)));
           (HPattern [1]%N, EScalar (SKind KStr))].
Proof. reflexivity. Qed.
