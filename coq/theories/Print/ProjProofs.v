(* C07: what an option profile promises to show is preserved by projection, printing and
   re-evaluation (project_sound, project_print_sound). *)
From Verif Require Import Core.Syntax Core.Eval Core.Laws Print.Model Print.ScalProofs Print.Proofs.
From Coq Require Import List Bool ZArith NArith.
Import ListNotations.

Definition proj_fields (cl : list allowset) (fs : list (label * fkind * nf)) : list (label * fkind * nf) :=
  flat_map (fun f => match f with
                     | (l, k, v) => if shown_value_mode l k
                                    then [(l, k, if allowed cl l then project_value v else NBot)]
                                    else []
                     end) fs.

Lemma project_value_struct fs ps cl : project_value (NStruct fs ps cl) = NStruct (proj_fields cl fs) [] [].
Proof. reflexivity. Qed.

Lemma proj_fields_cons cl l k v fs :
  proj_fields cl ((l, k, v) :: fs) =
  (if shown_value_mode l k then [(l, k, if allowed cl l then project_value v else NBot)] else []) ++
  proj_fields cl fs.
Proof. reflexivity. Qed.

Lemma proj_fields_labels_absent cl fs l :
  existsb (label_eqb l) (field_labels fs) = false ->
  existsb (label_eqb l) (field_labels (proj_fields cl fs)) = false.
Proof.
  induction fs as [|[[l0 k0] v0] fs IH]; [reflexivity|]. rewrite field_labels_cons, proj_fields_cons.
  cbn [existsb]. intros [H1 H2]%orb_false_iff.
  destruct (shown_value_mode l0 k0); cbn [app]; [rewrite field_labels_cons; cbn [existsb]; rewrite H1|]; apply IH, H2.
Qed.

Lemma proj_fields_nodup cl fs :
  nodup_labels (field_labels fs) = true -> nodup_labels (field_labels (proj_fields cl fs)) = true.
Proof.
  induction fs as [|[[l0 k0] v0] fs IH]; [reflexivity|].
  rewrite field_labels_cons, nodup_labels_cons, proj_fields_cons. intros [H1 H2]%andb_true_iff.
  destruct (shown_value_mode l0 k0); cbn [app]; [|apply IH, H2].
  apply negb_true_iff in H1.
  rewrite field_labels_cons, nodup_labels_cons, (proj_fields_labels_absent cl fs l0 H1), (IH H2). reflexivity.
Qed.

(* the projection keeps the shown declarations, each with its projected value *)
Lemma proj_fields_find cl fs l :
  nodup_labels (field_labels fs) = true ->
  assoc_find l (fs_assoc (proj_fields cl fs)) =
  match assoc_find l (fs_assoc fs) with
  | Some (k, v) => if shown_value_mode l k then Some (k, if allowed cl l then project_value v else NBot) else None
  | None => None
  end.
Proof.
  induction fs as [|[[l0 k0] v0] fs IH]; [reflexivity|].
  rewrite field_labels_cons, nodup_labels_cons, proj_fields_cons. intros [H1 H2]%andb_true_iff.
  apply negb_true_iff in H1. rewrite fs_assoc_cons, assoc_find_cons.
  destruct (label_eqb l0 l) eqn:E.
  - apply label_eqb_eq in E. subst l0.
    pose proof (assoc_find_absent _ l (proj_fields_labels_absent cl fs l H1)) as A.
    destruct (shown_value_mode l k0); cbn [app]; [|exact A].
    rewrite fs_assoc_cons, assoc_find_cons, label_eqb_refl. reflexivity.
  - destruct (shown_value_mode l0 k0); cbn [app]; [|apply IH, H2].
    rewrite fs_assoc_cons, assoc_find_cons, E. apply IH, H2.
Qed.

Lemma wfb_project r : wfb r = true -> wfb (project_value r) = true.
Proof.
  induction r as [| | |cs|fs ps cl IH] using nf_fields_ind; intros Hw; try exact Hw.
  rewrite project_value_struct. apply wfb_struct in Hw as [Hn Hf].
  apply wfb_struct. split; [apply proj_fields_nodup, Hn|].
  intros l k v ([[l0 k0] v0] & Hin0 & Hin)%in_flat_map.
  destruct (shown_value_mode l0 k0); [|destruct Hin]. destruct Hin as [E|[]]. injection E as <- <- <-.
  assert (W : wfb (if allowed cl l0 then project_value v0 else NBot) = true).
  { destruct (allowed cl l0); [|reflexivity]. apply (IH l0 k0 v0 Hin0), (Hf l0 k0 v0 Hin0). }
  split; [exact W | apply absorbs_nil, W].
Qed.

Section ProjectSound.
  Variable labs : list label.
  Variable atoms : list atom.

  (* the positional walks inside [project_res], over a list given by a function of the label *)
  Lemma zip_labels {B} (h : label -> fpres -> res -> B) (F : label -> fpres * res) ls :
    (fix go (ls1 : list label) (fs : list (fpres * res)) {struct fs} : list B :=
       match fs, ls1 with
       | (p, r') :: fs', l :: ls' => h l p r' :: go ls' fs'
       | _, _ => []
       end) ls (map F ls) =
    map (fun l => h l (fst (F l)) (snd (F l))) ls.
  Proof.
    induction ls as [|l ls IH]; [reflexivity|]. cbn [map]. destruct (F l) as [p r']. cbn [fst snd].
    rewrite IH. reflexivity.
  Qed.

  Lemma shown_res_pres l k : shown_res l (pres_of k) = shown_value_mode l k.
  Proof. destruct l, k; reflexivity. Qed.

  Lemma sres_nil_ok : res_err_aux (sres atoms []) = false.
  Proof. reflexivity. Qed.

  Lemma allowed_nil l : allowed [] l = true.
  Proof. unfold allowed. simpl. apply orb_true_r. Qed.

  Lemma project_value_sound r :
    wfb r = true -> denote labs atoms (project_value r) = project_res labs (denote labs atoms r).
  Proof.
    induction r as [| | |cs|fs ps cl IH] using nf_fields_ind; intros Hw; try reflexivity.
    - cbn [project_value denote]. unfold sres. destruct (scalar_bottom cs); reflexivity.
    - rewrite project_value_struct. cbn [denote]. unfold struct_res.
      apply wfb_struct in Hw as [Hn Hf].
      cbn [project_res]. rewrite !zip_labels.
      assert (V : forall l k v, assoc_find l (fs_assoc fs) = Some (k, v) ->
                                denote labs atoms (project_value v) = project_res labs (denote labs atoms v)).
      { intros l k v E. pose proof (assoc_find_in fs l k v E) as Hin.
        apply (IH l k v Hin), (Hf l k v Hin). }
      f_equal; apply map_ext; intros l; cbn beta; rewrite !denote_struct_assoc, (proj_fields_find cl fs l Hn);
        destruct (assoc_find l (fs_assoc fs)) as [[k v]|] eqn:E; cbn [fst snd]; try reflexivity.
      + rewrite shown_res_pres. destruct (shown_value_mode l k); [|reflexivity]. rewrite allowed_nil.
        destruct (allowed cl l); cbn [denote project_res]; rewrite ?(V l k v E); reflexivity.
      + destruct l; reflexivity.
      + rewrite shown_res_pres, allowed_nil. destruct (shown_value_mode l k); [|reflexivity].
        destruct (allowed cl l); cbn [andb denote project_res]; rewrite ?(V l k v E); reflexivity.
      + rewrite allowed_nil. destruct l; reflexivity.
  Qed.

  Definition project_res_p (p : profile) (r : res) : res :=
    match p with PAll => r | _ => project_res labs r end.

  (* C07 (project_sound): the normal form a profile shows denotes the projection of the value *)
  Theorem project_sound p r r' :
    wfb r = true -> project p r = Some r' ->
    wfb r' = true /\ denote labs atoms r' = project_res_p p (denote labs atoms r).
  Proof.
    intros Hw. destruct p; cbn [project project_res_p].
    - intros H. injection H as <-. split; [apply wfb_project, Hw | apply project_value_sound, Hw].
    - destruct (nf_concrete (project_value r)); [|discriminate]. intros H. injection H as <-.
      split; [apply wfb_project, Hw | apply project_value_sound, Hw].
    - intros H. injection H as <-. auto.
  Qed.

  (* ... and printing it and evaluating the text gives exactly that projection *)
  Theorem project_print_sound p r r' fuel :
    wfb r = true -> project p r = Some r' -> depth r' < fuel ->
    evalNode labs atoms fuel [mkConj false [print_nf r']] = project_res_p p (denote labs atoms r).
  Proof.
    intros Hw Hp Hd. destruct (project_sound p r r' Hw Hp) as [Hw' E].
    rewrite (eval_print labs atoms fuel r' Hw' Hd). exact E.
  Qed.
End ProjectSound.
