(* C07 at the value level: evaluating the printed normal form gives the value the normal
   form denotes (eval_print); the normal form computed from the conjuncts denotes the value of
   the conjuncts (normalize_sound_fuel, normalize_denotes); hence printing the evaluated value and evaluating the text
   again gives the same result tree, closedness included (print_roundtrip). *)
From Verif Require Import Core.Syntax Core.Eval Core.Laws Core.Spec2 Print.Model Print.ScalProofs.
From Coq Require Import List Bool ZArith NArith Lia.
Import ListNotations.

Lemma flat_map_map {A B C} (g : A -> B) (f : B -> list C) l :
  flat_map f (map g l) = flat_map (fun x => f (g x)) l.
Proof. induction l as [|a l IH]; [reflexivity|]. cbn [map flat_map]. rewrite IH. reflexivity. Qed.

Lemma label_eqb_sym a b : label_eqb a b = label_eqb b a.
Proof. apply bool_eq_iff. rewrite !label_eqb_eq. split; congruence. Qed.

Lemma existsb_label_in l ls : existsb (label_eqb l) ls = true <-> In l ls.
Proof.
  rewrite existsb_exists. split.
  - intros (x & Hx & E). apply label_eqb_eq in E. subst. exact Hx.
  - intros H. exists l. split; auto. apply label_eqb_refl.
Qed.

Lemma nodup_labels_cons l ls :
  nodup_labels (l :: ls) = negb (existsb (label_eqb l) ls) && nodup_labels ls.
Proof. reflexivity. Qed.

Lemma nodup_labels_NoDup ls : NoDup ls -> nodup_labels ls = true.
Proof.
  induction 1 as [|l ls Hn Hd IH]; [reflexivity|]. rewrite nodup_labels_cons, IH, andb_true_r.
  apply negb_true_iff. apply not_true_is_false. intros H. apply existsb_label_in in H. auto.
Qed.

Lemma assoc_find_cons {A} l l0 (x : A) rs :
  assoc_find l ((l0, x) :: rs) = if label_eqb l0 l then Some x else assoc_find l rs.
Proof. reflexivity. Qed.

Lemma assoc_find_labels {A} (g : label -> A) l ls :
  assoc_find l (map (fun l0 => (l0, g l0)) ls) = if existsb (label_eqb l) ls then Some (g l) else None.
Proof.
  induction ls as [|l0 ls IH]; [reflexivity|]. cbn [map existsb].
  rewrite assoc_find_cons, (label_eqb_sym l l0). destruct (label_eqb l0 l) eqn:E; cbn [orb]; [|exact IH].
  apply label_eqb_eq in E. subst. reflexivity.
Qed.

Definition sflat (cs : list sconstr) : flat := mkFlat false cs false [] [] [] [].

(* the impure cases are dismissed before flatten is unfolded on a struct literal *)
Lemma flatten_pure r x e : pure_scalar e = true -> flatten r x e = sflat (scal_of e).
Proof.
  induction e; intros H; try discriminate H; try reflexivity.
  simpl in H. apply andb_true_iff in H as [H1 H2].
  cbn [flatten scal_of]. rewrite (IHe1 H1), (IHe2 H2). reflexivity.
Qed.

Lemma flat_exprs_pure r es :
  forallb pure_scalar es = true -> flat_exprs r es = sflat (flat_map scal_of es).
Proof.
  induction es as [|e es IH]; [reflexivity|]. cbn [forallb]. intros [H1 H2]%andb_true_iff.
  rewrite flat_exprs_cons, (flatten_pure _ _ _ H1), (IH H2). reflexivity.
Qed.

Lemma and_all_cons e e' es : and_all (e :: e' :: es) = EAnd e (and_all (e' :: es)).
Proof. reflexivity. Qed.

Lemma flatten_and_all r es : flatten r al_empty (and_all es) = flat_exprs r es.
Proof.
  induction es as [|e [|e' es] IH]; [reflexivity | symmetry; apply flat_app_empty_r |].
  rewrite and_all_cons, flat_exprs_cons, <- IH. reflexivity.
Qed.

Lemma pure_and_all es : forallb pure_scalar es = true -> pure_scalar (and_all es) = true.
Proof.
  induction es as [|e [|e' es] IH]; cbn [forallb]; intros H.
  - reflexivity.
  - rewrite andb_true_r in H. exact H.
  - apply andb_true_iff in H as [H1 H2]. rewrite and_all_cons. simpl. rewrite H1. apply IH, H2.
Qed.

Lemma scal_of_and_all es : scal_of (and_all es) = flat_map scal_of es.
Proof.
  induction es as [|e [|e' es] IH]; [reflexivity | symmetry; apply app_nil_r |].
  rewrite and_all_cons. cbn [scal_of]. rewrite IH. reflexivity.
Qed.

Lemma pure_print_raw cs : pure_scalar (print_raw cs) = true.
Proof. apply pure_and_all, forallb_forall. intros e (c & <- & _)%in_map_iff. reflexivity. Qed.

Lemma scal_of_print_raw cs : scal_of (print_raw cs) = cs.
Proof.
  unfold print_raw. rewrite scal_of_and_all, flat_map_map.
  induction cs as [|c cs IH]; [reflexivity|]. cbn [flat_map]. rewrite IH. reflexivity.
Qed.

Lemma closer_decls_in a d :
  In d (closer_decls a) -> snd d = ETop /\ (fst d = HEllipsis \/ exists p, fst d = HPattern p).
Proof.
  unfold closer_decls. rewrite !in_app_iff, in_flat_map, in_map_iff.
  intros [(l & _ & H) | [(p & <- & _) | H]].
  - destruct l as [s|s|s]; [destruct H as [<-|[]] | destruct H | destruct H]. cbn. eauto.
  - cbn. eauto.
  - destruct (al_open a); [destruct H as [<-|[]] | destruct H]. auto.
Qed.

Lemma closer_decls_embed_free a : embed_free (closer_decls a) = true.
Proof.
  apply forallb_forall. intros d Hd.
  destruct (closer_decls_in a d Hd) as [_ [E|(p & E)]]; rewrite E; reflexivity.
Qed.

Lemma closer_decls_fields a : fields_of (closer_decls a) = [].
Proof.
  apply flat_map_nil. intros d Hd.
  destruct (closer_decls_in a d Hd) as [_ [E|(p & E)]]; rewrite E; reflexivity.
Qed.

(* the printed closer allows exactly what the allow-set allows *)
Lemma allows_closer a l :
  is_special l = false ->
  allows (al_union (declared (EStruct (closer_decls a))) al_empty) l = allows a l.
Proof.
  intros Hs. destruct l as [s|s|s]; try discriminate Hs.
  rewrite al_union_empty_r, allows_declared_struct.
  unfold closer_decls. rewrite !existsb_app, existsb_flat_map.
  rewrite (existsb_ext _ (label_eqb (LReg s)) (al_labels a)).
  2:{ intros [t|t|t]; try reflexivity. unfold allows. cbn. rewrite !orb_false_r. reflexivity. }
  assert (P : existsb (fun d => allows (decl_declared d) (LReg s)) (map (fun p => (HPattern p, ETop)) (al_pats a)) =
              existsb (memN s) (al_pats a)).
  { induction (al_pats a) as [|p ps IH]; [reflexivity|]. cbn [map existsb]. rewrite IH.
    unfold allows at 1. cbn. rewrite orb_false_r. reflexivity. }
  rewrite P. unfold allows at 2. destruct (al_open a); cbn [existsb orb].
  - rewrite !orb_true_r. reflexivity.
  - rewrite orb_false_r. reflexivity.
Qed.

Definition cl_pats (cl : list allowset) := flat_map (fun a => pats_of (closer_decls a)) cl.
Definition cl_closers (cl : list allowset) :=
  map (fun a => al_union (declared (EStruct (closer_decls a))) al_empty) cl.

Lemma cl_pats_top cl q : In q (cl_pats cl) -> snd q = ETop.
Proof.
  intros (a & _ & (d & Hd & Hq)%in_flat_map)%in_flat_map. destruct (closer_decls_in a d Hd) as [T _].
  destruct (fst d); try destruct Hq as [<-|[]]; try destruct Hq. exact T.
Qed.

Lemma allowed_cl_closers cl l : allowed (cl_closers cl) l = allowed cl l.
Proof.
  unfold allowed. destruct (is_special l) eqn:Hs; [reflexivity|]. cbn [orb].
  induction cl as [|a cl IH]; [reflexivity|]. cbn [cl_closers map forallb].
  rewrite (allows_closer a l Hs). f_equal. exact IH.
Qed.

Lemma flat_exprs_closers cl :
  flat_exprs false (map print_closer cl) = mkFlat false [] (negb (null cl)) [] (cl_pats cl) [] (cl_closers cl).
Proof.
  induction cl as [|a cl IH]; [reflexivity|]. cbn [map]. rewrite flat_exprs_cons, IH.
  unfold print_closer. rewrite flatten_close.
  rewrite (flatten_embed_free false al_empty _ (closer_decls_embed_free a)), closer_decls_fields. reflexivity.
Qed.

Definition lit_fields (fs : list (label * fkind * nf)) : list (label * fkind * expr) :=
  map (fun f => match f with (l, k, v) => (l, k, print_nf v) end) fs.
Definition lit_pats (ps : list (list N * list sconstr)) : list (list N * expr) :=
  map (fun q => (fst q, print_raw (snd q))) ps.

Definition lit_decls fs ps : list (dhead * expr) :=
  map (fun f : label * fkind * nf => match f with (l, k, v) => (HField l k, print_nf v) end) fs ++
  map (fun q : list N * list sconstr => (HPattern (fst q), print_raw (snd q))) ps.

Lemma lit_decls_embed_free fs ps : embed_free (lit_decls fs ps) = true.
Proof.
  apply forallb_forall. intros d [([[l k] v] & <- & _)%in_map_iff | (q & <- & _)%in_map_iff]%in_app_iff; reflexivity.
Qed.

Lemma lit_decls_fields fs ps : fields_of (lit_decls fs ps) = lit_fields fs.
Proof.
  unfold fields_of, lit_decls. rewrite flat_map_app, !flat_map_map.
  rewrite (flat_map_nil _ ps), app_nil_r by reflexivity.
  induction fs as [|[[l k] v] fs IH]; [reflexivity|]. cbn [flat_map lit_fields map app fst snd].
  rewrite IH. reflexivity.
Qed.

Lemma lit_decls_pats fs ps : pats_of (lit_decls fs ps) = lit_pats ps.
Proof.
  unfold pats_of, lit_decls. rewrite flat_map_app, !flat_map_map.
  rewrite (flat_map_nil _ fs) by (intros [[l k] v] _; reflexivity). cbn [app fst snd].
  induction ps as [|q ps IH]; [reflexivity|]. cbn [flat_map lit_pats map app fst snd].
  rewrite IH. reflexivity.
Qed.

Definition struct_nflat fs ps cl : nflat :=
  mkNFlat false [] true [mkPart false (lit_fields fs) (lit_pats ps ++ cl_pats cl)] (cl_closers cl).

(* further scalar conjuncts that carry no constraint leave the flattened struct as it is *)
Lemma flat_all_print_struct fs ps cl X :
  forallb pure_scalar X = true -> flat_map scal_of X = [] ->
  flat_all [mkConj false (print_nf (NStruct fs ps cl) :: X)] = struct_nflat fs ps cl.
Proof.
  intros Hp Hx. cbn [print_nf]. fold (lit_decls fs ps).
  unfold flat_all, fold_right, flat_conj. cbn [c_rec c_exprs andb].
  rewrite flat_exprs_cons, (flat_exprs_pure false X Hp), Hx. fold flat_empty. rewrite flat_app_empty_r.
  rewrite flatten_and_all, flat_exprs_cons, flat_exprs_closers.
  rewrite (flatten_embed_free false al_empty _ (lit_decls_embed_free fs ps)), lit_decls_fields, lit_decls_pats.
  unfold nflat_app, struct_nflat, flat_app. cbn. rewrite ?app_nil_r. reflexivity.
Qed.

(* the two halves of Core.Eval.part_values, and the test inside Core.Eval.has_field *)
Definition field_values (fs : list (label * fkind * expr)) (l : label) : list expr :=
  flat_map (fun f => if label_eqb (fst (fst f)) l then [snd f] else []) fs.
Definition pat_values (ps : list (list N * expr)) (l : label) : list expr :=
  flat_map (fun q => if pat_matches (fst q) l then [snd q] else []) ps.
Definition is_field (l : label) (k : fkind) (f : label * fkind * expr) : bool :=
  label_eqb (fst (fst f)) l && fk_is (snd (fst f)) k.

Lemma pat_values_in ps l e :
  In e (pat_values ps l) <-> exists q, In q ps /\ pat_matches (fst q) l = true /\ snd q = e.
Proof.
  rewrite (part_values_in (mkPart false [] ps) l e). cbn [gp_fields gp_pats]. split.
  - intros [(f & [] & _)|H]. exact H.
  - intros H. right. exact H.
Qed.

Definition fs_assoc (fs : list (label * fkind * nf)) : list (label * (fkind * nf)) :=
  map (fun f => match f with (l, k, v) => (l, (k, v)) end) fs.
Definition field_labels (fs : list (label * fkind * nf)) : list label :=
  map (fun f => fst (fst f)) fs.

Lemma field_labels_cons l k v fs : field_labels ((l, k, v) :: fs) = l :: field_labels fs.
Proof. reflexivity. Qed.

Lemma fs_assoc_cons l k v fs : fs_assoc ((l, k, v) :: fs) = (l, (k, v)) :: fs_assoc fs.
Proof. reflexivity. Qed.

Lemma assoc_find_absent fs l :
  existsb (label_eqb l) (field_labels fs) = false -> assoc_find l (fs_assoc fs) = None.
Proof.
  induction fs as [|[[l0 k0] v0] fs IH]; [reflexivity|]. rewrite field_labels_cons. cbn [existsb].
  intros [H1 H2]%orb_false_iff. rewrite fs_assoc_cons, assoc_find_cons, label_eqb_sym, H1. apply IH, H2.
Qed.

Lemma assoc_find_in fs l k v : assoc_find l (fs_assoc fs) = Some (k, v) -> In (l, k, v) fs.
Proof.
  induction fs as [|[[l0 k0] v0] fs IH]; [discriminate|].
  rewrite fs_assoc_cons, assoc_find_cons. destruct (label_eqb l0 l) eqn:E.
  - intros H. injection H as -> ->. apply label_eqb_eq in E. subst. left. reflexivity.
  - intros H. right. apply IH, H.
Qed.

(* with distinct labels, the declaration found for l is the only one the evaluator sees at l *)
Lemma lit_fields_at fs l :
  nodup_labels (field_labels fs) = true ->
  field_values (lit_fields fs) l =
    match assoc_find l (fs_assoc fs) with Some (_, v) => [print_nf v] | None => [] end /\
  forall k', existsb (is_field l k') (lit_fields fs) =
    match assoc_find l (fs_assoc fs) with Some (k, _) => fk_is k k' | None => false end.
Proof.
  induction fs as [|[[l0 k0] v0] fs IH]; [split; reflexivity|].
  rewrite field_labels_cons, nodup_labels_cons. intros [Hn1 Hn2]%andb_true_iff.
  apply negb_true_iff in Hn1. destruct (IH Hn2) as [V K].
  rewrite fs_assoc_cons, assoc_find_cons. cbn [lit_fields map]. fold (lit_fields fs).
  cbn [field_values flat_map existsb]. fold (field_values (lit_fields fs) l).
  unfold is_field at 1. cbn [fst snd]. destruct (label_eqb l0 l) eqn:E.
  - apply label_eqb_eq in E. subst l0. rewrite (assoc_find_absent fs l Hn1) in V, K.
    split; [rewrite V; reflexivity|]. intros k'. rewrite K. apply orb_false_r.
  - split; [exact V | exact K].
Qed.

Lemma presence_struct fs ps cl l :
  nodup_labels (field_labels fs) = true ->
  presence (struct_nflat fs ps cl) l =
  match assoc_find l (fs_assoc fs) with Some (k, _) => pres_of k | None => PAbsent end.
Proof.
  intros Hn. destruct (lit_fields_at fs l Hn) as [_ K].
  assert (H : forall k, has_field (struct_nflat fs ps cl) l k = existsb (is_field l k) (lit_fields fs))
    by (intros k; apply orb_false_r).
  unfold presence. rewrite !H, !K. destruct (assoc_find l (fs_assoc fs)) as [[[] v]|]; reflexivity.
Qed.

Definition pvals (ps : list (list N * list sconstr)) (cl : list allowset) (l : label) : list expr :=
  pat_values (lit_pats ps ++ cl_pats cl) l.

Lemma pvals_pure ps cl l : forallb pure_scalar (pvals ps cl l) = true.
Proof.
  apply forallb_forall. intros e (q & Hq & _ & <-)%pat_values_in.
  apply in_app_or in Hq as [(q0 & <- & _)%in_map_iff | Hq].
  - apply pure_print_raw.
  - rewrite (cl_pats_top cl q Hq). reflexivity.
Qed.

Lemma pvals_scal ps cl l : flat_map scal_of (pvals ps cl l) = pat_constraints ps l.
Proof.
  unfold pvals, pat_values. rewrite !flat_map_app.
  rewrite (flat_map_nil scal_of (flat_map _ (cl_pats cl))), app_nil_r.
  2:{ intros e (q & Hq & _ & <-)%pat_values_in. rewrite (cl_pats_top cl q Hq). reflexivity. }
  unfold lit_pats, pat_constraints. rewrite flat_map_map, flat_map_flat_map.
  apply flat_map_ext. intros q. cbn [fst snd]. destruct (pat_matches (fst q) l); [|reflexivity].
  cbn [flat_map]. rewrite scal_of_print_raw. apply app_nil_r.
Qed.

Lemma children_struct fs ps cl l :
  children (struct_nflat fs ps cl) l =
  let vs := field_values (lit_fields fs) l ++ pvals ps cl l in
  if null vs then [] else [mkConj false vs].
Proof.
  unfold children, open_values, rec_children, struct_nflat, part_values.
  cbn [n_parts flat_map gp_rec gp_fields gp_pats]. rewrite !app_nil_r. reflexivity.
Qed.

Lemma flat_all_pure cs :
  (forall c, In c cs -> forallb pure_scalar (c_exprs c) = true) ->
  n_bot (flat_all cs) = false /\ n_struct (flat_all cs) = false /\
  n_scal (flat_all cs) = flat_map scal_of (flat_map c_exprs cs).
Proof.
  induction cs as [|c cs IH]; intros H; [repeat split|].
  destruct IH as (A & B & C); [intros c' Hc'; apply H; right; exact Hc'|].
  rewrite flat_all_cons. unfold nflat_app, flat_conj. cbn [n_bot n_struct n_scal flat_map].
  rewrite A, B, C, (flat_exprs_pure (c_rec c) (c_exprs c)), flat_map_app by (apply H; left; reflexivity).
  repeat split.
Qed.

Lemma depth_in fs l k v ps cl : In (l, k, v) fs -> depth v < depth (NStruct fs ps cl).
Proof.
  cbn [depth]. induction fs as [|[[l0 k0] v0] fs IH]; [intros []|].
  intros [E|H]; cbn [fold_right].
  - injection E as -> -> ->. lia.
  - specialize (IH H). lia.
Qed.

(* structural induction on normal forms: the hypothesis holds for every field value *)
Lemma nf_fields_ind (P : nf -> Prop) :
  P NBot -> P NFuel -> P NOut -> (forall cs, P (NScal cs)) ->
  (forall fs ps cl, (forall l k v, In (l, k, v) fs -> P v) -> P (NStruct fs ps cl)) ->
  forall r, P r.
Proof.
  intros Hb Hf Ho Hs Hst.
  assert (G : forall n r, depth r < n -> P r).
  { induction n as [|n IH]; intros r Hd; [lia|]. destruct r as [| | |cs|fs ps cl]; auto.
    apply Hst. intros l k v Hin. apply IH. pose proof (depth_in fs l k v ps cl Hin). lia. }
  intros r. apply (G (S (depth r))). lia.
Qed.

Lemma wfb_struct fs ps cl :
  wfb (NStruct fs ps cl) = true <->
  nodup_labels (field_labels fs) = true /\
  forall l k v, In (l, k, v) fs -> wfb v = true /\ absorbs v (pat_constraints ps l) = true.
Proof.
  cbn [wfb]. rewrite andb_true_iff, forallb_forall. apply and_iff_compat_l. split.
  - intros H l k v Hin. apply andb_true_iff, (H _ Hin).
  - intros H [[l k] v] Hin. apply andb_true_iff, (H l k v Hin).
Qed.

Lemma absorbs_nil v : wfb v = true -> absorbs v [] = true.
Proof. destruct v; try discriminate; reflexivity. Qed.

Section EvalPrint.
  Variable labs : list label.
  Variable atoms : list atom.

  Lemma evalFlat_scalar f fl :
    n_bot fl = false -> n_struct fl = false ->
    evalFlat labs atoms (S f) fl = sres atoms (n_scal fl).
  Proof. intros Hb Hs. cbn [evalFlat]. rewrite Hb, Hs. reflexivity. Qed.

  (* a group of scalar conjuncts evaluates to the scalar result of their constraints
     ([children] makes no group of an empty list of values, hence the [if]) *)
  Lemma eval_pure_child f X :
    forallb pure_scalar X = true ->
    evalFlat labs atoms f (flat_all (if null X then [] else [mkConj false X])) =
    match f with O => RFuel | S _ => sres atoms (flat_map scal_of X) end.
  Proof.
    intros H. destruct f as [|f]; [reflexivity|].
    destruct (flat_all_pure (if null X then [] else [mkConj false X])) as (A & B & C).
    { intros c Hc. destruct X; [destruct Hc | destruct Hc as [<-|[]]; exact H]. }
    rewrite evalFlat_scalar, C by assumption. destruct X; [reflexivity|].
    cbn [null flat_map c_exprs]. rewrite app_nil_r. reflexivity.
  Qed.

  Lemma eval_pure f es :
    forallb pure_scalar es = true ->
    evalNode labs atoms (S f) [mkConj false es] = sres atoms (flat_map scal_of es).
  Proof.
    intros H. unfold evalNode. destruct es as [|e es]; [reflexivity|].
    exact (eval_pure_child (S f) (e :: es) H).
  Qed.

  (* the evaluator's struct step against the reading of a struct normal form: presence, closers and
     the children at the allowed labels have to agree *)
  Lemma evalFlat_struct f fl fs ps cl :
    n_bot fl = false -> n_struct fl = true -> null (n_scal fl) = true ->
    (forall l, presence fl l = match assoc_find l (fs_assoc fs) with Some (k, _) => pres_of k | None => PAbsent end) ->
    (forall l, allowed (n_closers fl) l = allowed cl l) ->
    (forall l, allowed cl l = true ->
               evalFlat labs atoms f (flat_all (children fl l)) =
               match assoc_find l (fs_assoc fs) with
               | Some (_, v) => denoteF labs atoms f v
               | None => match f with O => RFuel | S _ => sres atoms (pat_constraints ps l) end
               end) ->
    evalFlat labs atoms (S f) fl = denoteF labs atoms (S f) (NStruct fs ps cl).
  Proof.
    intros Hb Hs Hn Hp Ha Hc. cbn [evalFlat denoteF]. rewrite Hb, Hs, Hn. cbn [negb andb]. fold (fs_assoc fs).
    f_equal; apply map_ext; intros l; rewrite ?Hp, Ha; (destruct (allowed cl l) eqn:A; [rewrite (Hc l A)|]);
      destruct (assoc_find l (fs_assoc fs)) as [[[] v]|]; reflexivity.
  Qed.

  (* The printed normal form may stand next to further scalar conjuncts X whose constraints it
     already carries: this is the situation of a declared field that also matches patterns, and
     the form in which the induction goes through. *)
  Theorem eval_print_absorbed fuel : forall r X,
    wfb r = true -> forallb pure_scalar X = true -> absorbs r (flat_map scal_of X) = true ->
    evalNode labs atoms fuel [mkConj false (print_nf r :: X)] = denoteF labs atoms fuel r.
  Proof.
    induction fuel as [|f IH]; intros r X Hw Hp Ha; [reflexivity|].
    destruct r as [| | |cs|fs ps cl]; try discriminate Hw.
    - reflexivity.
    - cbn [wfb] in Hw. apply negb_true_iff in Hw. cbn [absorbs] in Ha.
      cbn [print_nf denoteF]. unfold print_scal. rewrite eval_pure.
      2:{ cbn [forallb]. rewrite pure_print_raw. exact Hp. }
      cbn [flat_map]. rewrite scal_of_print_raw.
      apply sres_equiv, canon_absorb_equiv; [exact Hw | apply inclb_incl, Ha].
    - (* the patterns matching a struct-valued field are all _ *)
      cbn [absorbs] in Ha. destruct (flat_map scal_of X) eqn:Hx; [|discriminate Ha].
      unfold evalNode. rewrite (flat_all_print_struct fs ps cl X Hp Hx).
      apply wfb_struct in Hw as [Hn Hf].
      apply evalFlat_struct; try reflexivity; intros l; [apply presence_struct, Hn | apply allowed_cl_closers | intros _].
      rewrite children_struct. cbv zeta. destruct (lit_fields_at fs l Hn) as [V _]. rewrite V.
      destruct (assoc_find l (fs_assoc fs)) as [[k v]|] eqn:E; cbn [app null].
      + destruct (Hf l k v (assoc_find_in fs l k v E)) as [Hv1 Hv2].
        apply IH; [exact Hv1 | apply pvals_pure | rewrite pvals_scal; exact Hv2].
      + rewrite (eval_pure_child f _ (pvals_pure ps cl l)), pvals_scal. reflexivity.
  Qed.

  (* the _fuel forms hold for every fuel, against denoteF (the reading of a normal form under the
     evaluator's fuel discipline); eval_print and normalize_denotes are the readings against denote *)
  Theorem eval_print_fuel fuel r :
    wfb r = true -> evalNode labs atoms fuel [mkConj false [print_nf r]] = denoteF labs atoms fuel r.
  Proof. intros Hw. apply eval_print_absorbed; [exact Hw | reflexivity | apply absorbs_nil, Hw]. Qed.

  Lemma denote_struct_assoc fs l :
    assoc_find l (map (fun f : label * fkind * nf => match f with (l, k, v) => (l, (k, denote labs atoms v)) end) fs) =
    match assoc_find l (fs_assoc fs) with Some (k, v) => Some (k, denote labs atoms v) | None => None end.
  Proof.
    induction fs as [|[[l0 k0] v0] fs IH]; [reflexivity|]. cbn [map].
    rewrite fs_assoc_cons, !assoc_find_cons. destruct (label_eqb l0 l); [reflexivity | exact IH].
  Qed.

  Lemma denoteF_denote fuel : forall r, depth r < fuel -> denoteF labs atoms fuel r = denote labs atoms r.
  Proof.
    induction fuel as [|f IH]; intros r Hd; [lia|].
    destruct r as [| | |cs|fs ps cl]; try reflexivity.
    cbn [denoteF denote]. unfold struct_res. fold (fs_assoc fs).
    assert (V : forall l k v, assoc_find l (fs_assoc fs) = Some (k, v) -> denoteF labs atoms f v = denote labs atoms v).
    { intros l k v E. apply IH. pose proof (depth_in fs l k v ps cl (assoc_find_in fs l k v E)). lia. }
    f_equal; apply map_ext; intros l; rewrite denote_struct_assoc;
      destruct (assoc_find l (fs_assoc fs)) as [[k v]|] eqn:E; try reflexivity.
    - rewrite (V l k v E). reflexivity.
    - rewrite (V l k v E). reflexivity.
    - destruct f as [|f']; [cbn [depth] in Hd; lia | reflexivity].
  Qed.

  (* C07 (eval_print) *)
  Theorem eval_print fuel r :
    wfb r = true -> depth r < fuel ->
    evalNode labs atoms fuel [mkConj false [print_nf r]] = denote labs atoms r.
  Proof. intros Hw Hd. rewrite eval_print_fuel by exact Hw. apply denoteF_denote, Hd. Qed.
End EvalPrint.

Lemma decl_labels_in fl l :
  In l (decl_labels fl) <-> exists f, In f (all_fields fl) /\ fst (fst f) = l.
Proof.
  unfold decl_labels. rewrite nodup_In, in_map_iff. split; intros (f & A & B); exists f; auto.
Qed.

Lemma presence_absent fl l : presence fl l = PAbsent <-> forall k, has_field fl l k = false.
Proof.
  unfold presence. split.
  - intros P k.
    destruct (has_field fl l FRegular) eqn:A, (has_field fl l FRequired) eqn:B, (has_field fl l FOptional) eqn:C;
      try discriminate P.
    destruct k; assumption.
  - intros H. rewrite !H. reflexivity.
Qed.

Lemma presence_absent_iff fl l :
  presence fl l = PAbsent <-> ~ In l (decl_labels fl).
Proof.
  rewrite presence_absent, decl_labels_in. split.
  - intros H (f & Hf & El). specialize (H (snd (fst f))). rewrite has_field_all in H.
    apply not_true_iff_false in H. apply H, existsb_exists. exists f. split; [exact Hf|].
    rewrite El, label_eqb_refl. destruct (snd (fst f)); reflexivity.
  - intros H k. rewrite has_field_all. apply not_true_is_false. intros (f & Hf & E)%existsb_exists.
    apply andb_true_iff in E as [E _]. apply label_eqb_eq in E. apply H. exists f. auto.
Qed.

Lemma pres_of_fk_of_pres p : p <> PAbsent -> pres_of (fk_of_pres p) = p.
Proof. destruct p; try reflexivity. congruence. Qed.

(* the expressions that reach the child l *)
Definition child_exprs (fl : nflat) (l : label) : list expr := flat_map c_exprs (children fl l).

(* a pure pattern value that reaches the child contributes its constraints to the child *)
Lemma child_scal_incl fl l e x :
  In e (child_exprs fl l) -> pure_scalar e = true -> In x (scal_of e) -> In x (n_scal (flat_all (children fl l))).
Proof.
  intros (c & Hc & He)%in_flat_map Hp Hx. rewrite fa_scal.
  apply in_flat_map. exists c. split; [exact Hc|]. unfold flat_conj. cbn [n_scal]. rewrite fe_scal.
  apply in_flat_map. exists e. split; [exact He|]. rewrite (flatten_pure _ _ _ Hp). exact Hx.
Qed.

Definition pats_nf (fl : nflat) : list (list N * list sconstr) :=
  map (fun q => (fst q, scal_of (snd q))) (all_pats fl).

Lemma pat_constraints_in fl l x :
  In x (pat_constraints (pats_nf fl) l) <->
  exists q, In q (all_pats fl) /\ pat_matches (fst q) l = true /\ In x (scal_of (snd q)).
Proof.
  unfold pat_constraints, pats_nf. rewrite flat_map_map, in_flat_map. cbn [fst snd].
  split; intros (q & Hq & H); exists q.
  - destruct (pat_matches (fst q) l); [auto | destruct H].
  - destruct H as [-> H]. auto.
Qed.

Lemma pat_value_reaches fl l q :
  In q (all_pats fl) -> pat_matches (fst q) l = true -> In (snd q) (child_exprs fl l).
Proof.
  intros (p & Hp & Hq)%in_flat_map Hm.
  apply in_flat_map, children_values. exists p. split; auto. apply part_values_in. right. exists q. auto.
Qed.

Lemma pat_constraints_incl fl l :
  forallb (fun q => pure_scalar (snd q)) (all_pats fl) = true ->
  incl (pat_constraints (pats_nf fl) l) (n_scal (flat_all (children fl l))).
Proof.
  intros Hpure x (q & Hq & Hm & Hx)%pat_constraints_in.
  rewrite forallb_forall in Hpure.
  apply (child_scal_incl fl l (snd q) x); auto using pat_value_reaches.
Qed.

(* an undeclared label is reached by pattern values only *)
Lemma undeclared_child_exprs fl l e :
  ~ In l (decl_labels fl) -> In e (child_exprs fl l) ->
  exists q, In q (all_pats fl) /\ pat_matches (fst q) l = true /\ snd q = e.
Proof.
  intros Hl (p & Hp & He)%in_flat_map%children_values.
  apply part_values_in in He as [(f & Hf & Hm & _)|(q & Hq & Hm & E)].
  - destruct Hl. apply decl_labels_in. exists f. split; [apply in_flat_map; eauto | apply label_eqb_eq, Hm].
  - exists q. split; [apply in_flat_map; eauto | auto].
Qed.

Definition norm_field (f : nat) (fl : nflat) (l : label) : label * fkind * nf :=
  (l, fk_of_pres (presence fl l),
   if allowed (n_closers fl) l then normalize f (flat_all (children fl l)) else NBot).

Lemma normalize_S f fl :
  normalize (S f) fl =
  if n_bot fl then NBot
  else if n_struct fl && negb (null (n_scal fl)) then NBot
  else if n_struct fl then
    if forallb (fun q => pure_scalar (snd q)) (all_pats fl)
    then NStruct (map (norm_field f fl) (decl_labels fl)) (pats_nf fl) (n_closers fl)
    else NOut
  else if scalar_bottom (n_scal fl) then NBot
  else NScal (n_scal fl).
Proof. reflexivity. Qed.

Lemma normalize_struct_ok f fl :
  n_bot fl = false -> n_struct fl = true -> null (n_scal fl) = true ->
  nf_ok (normalize (S f) fl) = true ->
  normalize (S f) fl = NStruct (map (norm_field f fl) (decl_labels fl)) (pats_nf fl) (n_closers fl) /\
  forallb (fun q => pure_scalar (snd q)) (all_pats fl) = true /\
  forall l, In l (decl_labels fl) -> allowed (n_closers fl) l = true ->
            nf_ok (normalize f (flat_all (children fl l))) = true.
Proof.
  intros Hb Hs Hn. rewrite normalize_S, Hb, Hs, Hn. cbn [negb andb].
  destruct (forallb _ (all_pats fl)); [|discriminate].
  cbn [nf_ok]. rewrite forallb_forall. intros H. repeat split. intros l Hl Ha.
  specialize (H (norm_field f fl l) (in_map _ _ _ Hl)). unfold norm_field in H. rewrite Ha in H. exact H.
Qed.

Lemma assoc_find_norm f fl l :
  assoc_find l (fs_assoc (map (norm_field f fl) (decl_labels fl))) =
  if existsb (label_eqb l) (decl_labels fl)
  then Some (fk_of_pres (presence fl l),
             if allowed (n_closers fl) l then normalize f (flat_all (children fl l)) else NBot)
  else None.
Proof.
  unfold fs_assoc. rewrite map_map.
  exact (assoc_find_labels (fun l0 => (fk_of_pres (presence fl l0),
                                       if allowed (n_closers fl) l0 then normalize f (flat_all (children fl l0)) else NBot))
                           l (decl_labels fl)).
Qed.

Section NormalizeSound.
  Variable labs : list label.
  Variable atoms : list atom.

  Lemma undeclared_child_eval f fl l :
    forallb (fun q => pure_scalar (snd q)) (all_pats fl) = true ->
    ~ In l (decl_labels fl) ->
    evalFlat labs atoms f (flat_all (children fl l)) =
    match f with O => RFuel | S _ => sres atoms (pat_constraints (pats_nf fl) l) end.
  Proof.
    intros Hpure Hl. destruct f as [|f]; [reflexivity|].
    destruct (flat_all_pure (children fl l)) as (A & B & C).
    { intros c Hc. apply forallb_forall. intros e He.
      destruct (undeclared_child_exprs fl l e Hl) as (q & Hq & _ & <-); [apply in_flat_map; eauto|].
      rewrite forallb_forall in Hpure. apply Hpure, Hq. }
    rewrite evalFlat_scalar by assumption. apply sres_equiv, sc_equiv_seq. intros x. split.
    - rewrite C. intros (e & He & Hx)%in_flat_map.
      destruct (undeclared_child_exprs fl l e Hl He) as (q & Hq & Hm & <-).
      apply pat_constraints_in. eauto.
    - apply pat_constraints_incl, Hpure.
  Qed.

  Theorem normalize_sound_fuel fuel : forall fl,
    nf_ok (normalize fuel fl) = true ->
    denoteF labs atoms fuel (normalize fuel fl) = evalFlat labs atoms fuel fl.
  Proof.
    induction fuel as [|f IH]; intros fl Hok; [reflexivity|].
    destruct (n_bot fl) eqn:Hb; [cbn [evalFlat]; rewrite normalize_S, Hb; reflexivity|].
    destruct (n_struct fl) eqn:Hs.
    - destruct (null (n_scal fl)) eqn:Hn; [|cbn [evalFlat]; rewrite normalize_S, Hb, Hs, Hn; reflexivity].
      destruct (normalize_struct_ok f fl Hb Hs Hn Hok) as (-> & Hpure & Hkids).
      symmetry. apply evalFlat_struct; try assumption; try reflexivity; intros l; [|intros Ha];
        rewrite assoc_find_norm, ?Ha; destruct (existsb (label_eqb l) (decl_labels fl)) eqn:El.
      + symmetry. apply pres_of_fk_of_pres. rewrite presence_absent_iff, <- existsb_label_in, El. auto.
      + apply presence_absent_iff. rewrite <- existsb_label_in, El. discriminate.
      + symmetry. apply IH, Hkids; [apply existsb_label_in, El | exact Ha].
      + apply undeclared_child_eval; [exact Hpure|]. rewrite <- existsb_label_in, El. discriminate.
    - cbn [evalFlat]. rewrite normalize_S, Hb, Hs. cbn [andb].
      destruct (scalar_bottom (n_scal fl)) eqn:Hsb; cbn [denoteF]; unfold sres; rewrite ?Hsb; reflexivity.
  Qed.
End NormalizeSound.

(* whatever shape the normal form of a node has, it carries the constraints of the node *)
Lemma normalize_absorbs f fl pcs :
  nf_ok (normalize f fl) = true -> incl pcs (n_scal fl) -> absorbs (normalize f fl) pcs = true.
Proof.
  destruct f as [|f]; [discriminate|]. rewrite normalize_S.
  destruct (n_bot fl); [reflexivity|]. destruct (n_struct fl); cbn [andb].
  - destruct (n_scal fl) as [|c cs]; cbn [null negb]; [|reflexivity].
    intros Hok ->%incl_l_nil. destruct (forallb _ _); [reflexivity | discriminate Hok].
  - intros _ Hi. destruct (scalar_bottom (n_scal fl)); [reflexivity|]. apply incl_inclb, Hi.
Qed.

Theorem normalize_wf fuel : forall fl, nf_ok (normalize fuel fl) = true -> wfb (normalize fuel fl) = true.
Proof.
  induction fuel as [|f IH]; intros fl Hok; [discriminate|].
  destruct (n_bot fl) eqn:Hb; [rewrite normalize_S, Hb; reflexivity|].
  destruct (n_struct fl) eqn:Hs.
  - destruct (null (n_scal fl)) eqn:Hn; [|rewrite normalize_S, Hb, Hs, Hn; reflexivity].
    destruct (normalize_struct_ok f fl Hb Hs Hn Hok) as (-> & Hpure & Hkids).
    cbn [wfb]. apply andb_true_iff. split.
    + rewrite map_map. cbn [norm_field fst]. rewrite map_id. apply nodup_labels_NoDup, NoDup_nodup.
    + apply forallb_forall. intros x (l & <- & Hl)%in_map_iff. unfold norm_field.
      destruct (allowed (n_closers fl) l) eqn:Ha; [|reflexivity].
      pose proof (Hkids l Hl Ha) as Hk. rewrite (IH _ Hk).
      apply normalize_absorbs; [exact Hk | apply pat_constraints_incl, Hpure].
  - rewrite normalize_S, Hb, Hs. cbn [andb].
    destruct (scalar_bottom (n_scal fl)) eqn:Hsb; cbn [wfb]; rewrite ?Hsb; reflexivity.
Qed.

Section RoundTrip.
  Variable labs : list label.
  Variable atoms : list atom.

  Theorem print_roundtrip_flat fuel fl :
    nf_ok (normalize fuel fl) = true ->
    evalNode labs atoms fuel [mkConj false [print_nf (normalize fuel fl)]] = evalFlat labs atoms fuel fl.
  Proof.
    intros Hok. rewrite eval_print_fuel by (apply normalize_wf, Hok). apply normalize_sound_fuel, Hok.
  Qed.

  (* For every list of conjunct groups whose normal form is inside the printable fragment
     (scalar-valued patterns; enough fuel for normalisation - both decided by [nf_ok]):
     evaluating the printed normal form gives exactly the result tree of the original
     conjuncts - fields, presence, scalar observables and closedness at every node. *)
  Theorem print_roundtrip fuel cs :
    nf_ok (normalize_conjs fuel cs) = true ->
    evalNode labs atoms fuel [mkConj false [print_nf (normalize_conjs fuel cs)]] = evalNode labs atoms fuel cs.
  Proof. apply print_roundtrip_flat. Qed.

  Corollary normalize_denotes fuel cs :
    nf_ok (normalize_conjs fuel cs) = true -> depth (normalize_conjs fuel cs) < fuel ->
    denote labs atoms (normalize_conjs fuel cs) = evalNode labs atoms fuel cs.
  Proof.
    intros Hok Hd. rewrite <- (denoteF_denote labs atoms fuel _ Hd). apply normalize_sound_fuel, Hok.
  Qed.
End RoundTrip.
