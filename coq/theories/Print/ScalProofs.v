(* Scalar part of C07: canonical shape of a scalar, semantic equivalence of constraint
   lists, soundness of the predeclared-range rewriting of bounds.go. *)
From Verif Require Import Core.Syntax Core.Eval Core.Laws Core.Spec Print.Model.
From Coq Require Import List Bool ZArith NArith Lia.
Import ListNotations.

(* two constraint lists are equivalent when they admit the same kinds and atoms and pin the
   same atoms *)
Definition sc_equiv (cs cs' : list sconstr) : Prop :=
  (forall k, forallb (sc_kind_ok k) cs = forallb (sc_kind_ok k) cs') /\
  (forall a, forallb (ssat a) cs = forallb (ssat a) cs') /\
  (forall a, existsb (is_atom_c a) cs = existsb (is_atom_c a) cs').

Lemma sc_equiv_refl cs : sc_equiv cs cs.
Proof. repeat split; auto. Qed.

Lemma sc_equiv_sym a b : sc_equiv a b -> sc_equiv b a.
Proof. intros (A & B & C). repeat split; intros; symmetry; auto. Qed.

Lemma sc_equiv_trans a b c : sc_equiv a b -> sc_equiv b c -> sc_equiv a c.
Proof.
  intros (A & B & C) (A' & B' & C'). repeat split; intros.
  - rewrite A; auto. - rewrite B; auto. - rewrite C; auto.
Qed.

Lemma sc_equiv_seq cs cs' : Laws.seq cs cs' -> sc_equiv cs cs'.
Proof.
  intros H. repeat split; intros; [apply forallb_seq | apply forallb_seq | apply existsb_seq]; exact H.
Qed.

Lemma sc_equiv_app a a' b b' : sc_equiv a a' -> sc_equiv b b' -> sc_equiv (a ++ b) (a' ++ b').
Proof.
  intros (A & B & C) (A' & B' & C'). repeat split; intros.
  - rewrite !forallb_app, A, A'. reflexivity.
  - rewrite !forallb_app, B, B'. reflexivity.
  - rewrite !existsb_app, C, C'. reflexivity.
Qed.

Lemma is_atom_in cs a : existsb (is_atom_c a) cs = true <-> In (SAtom a) cs.
Proof.
  rewrite existsb_exists. split.
  - intros (c & Hc & E). destruct c; try discriminate. apply atom_eqb_eq in E. subst. exact Hc.
  - intros H. exists (SAtom a). split; [exact H | apply atom_eqb_eq; reflexivity].
Qed.

(* the "some atom among the constraints violates a constraint" half of scalar_bottom, by observables *)
Lemma atom_conflict_iff cs :
  existsb (fun c => match c with SAtom a => negb (forallb (ssat a) cs) | _ => false end) cs = true <->
  exists a, existsb (is_atom_c a) cs = true /\ forallb (ssat a) cs = false.
Proof.
  rewrite existsb_exists. split.
  - intros (c & Hc & H). destruct c as [a| | | | | |]; try discriminate.
    exists a. split; [apply is_atom_in, Hc | apply negb_true_iff, H].
  - intros (a & Hp & Ha). exists (SAtom a). split; [apply is_atom_in, Hp | rewrite Ha; reflexivity].
Qed.

Lemma scalar_bottom_equiv cs cs' : sc_equiv cs cs' -> scalar_bottom cs = scalar_bottom cs'.
Proof.
  intros (A & B & C). unfold scalar_bottom. f_equal.
  - f_equal. apply existsb_ext. intros k. apply A.
  - apply bool_eq_iff. rewrite !atom_conflict_iff.
    split; intros (a & H1 & H2); exists a; [rewrite <- C, <- B | rewrite C, B]; auto.
Qed.

Lemma sres_equiv atoms cs cs' : sc_equiv cs cs' -> sres atoms cs = sres atoms cs'.
Proof.
  intros E. unfold sres. rewrite (scalar_bottom_equiv _ _ E). destruct E as (A & B & C).
  destruct (scalar_bottom cs'); [reflexivity|]. f_equal; apply map_ext; auto.
Qed.

Lemma first_atom_in cs a : first_atom cs = Some a -> In (SAtom a) cs.
Proof.
  induction cs as [|c cs IH]; simpl; [discriminate|].
  destruct c; try (intros H; right; apply IH; exact H).
  intros H. injection H as ->. left. reflexivity.
Qed.

Lemma first_atom_none cs a : first_atom cs = None -> ~ In (SAtom a) cs.
Proof.
  induction cs as [|c cs IH]; simpl; [tauto|].
  destruct c; try discriminate; intros H [E|E]; try discriminate; apply (IH H E).
Qed.

Lemma not_bottom_atom_sat cs a :
  scalar_bottom cs = false -> In (SAtom a) cs -> forallb (ssat a) cs = true.
Proof.
  intros [_ Hb]%orb_false_iff Hin. apply not_false_iff_true. intros E.
  apply not_true_iff_false in Hb. apply Hb, atom_conflict_iff. exists a. split; [apply is_atom_in, Hin | exact E].
Qed.

(* C07: a non-erroneous scalar is equivalent to its canonical shape (the atom alone when it
   is concrete) *)
Theorem canon_scal_equiv cs : scalar_bottom cs = false -> sc_equiv (canon_scal cs) cs.
Proof.
  intros Hb. unfold canon_scal. destruct (first_atom cs) as [a|] eqn:Ef.
  - (* the atom is in cs and satisfies all of cs: it decides every observable *)
    pose proof (first_atom_in _ _ Ef) as Hin.
    pose proof (not_bottom_atom_sat _ _ Hb Hin) as Hsat. rewrite forallb_forall in Hsat.
    repeat split; intros x; apply bool_eq_iff; cbn [forallb existsb sc_kind_ok ssat is_atom_c].
    + rewrite andb_true_r, forallb_forall. split.
      * intros Ek c Hc. replace x with (atom_kind a) by (destruct a, x; try discriminate Ek; reflexivity).
        apply ssat_kind_ok, Hsat, Hc.
      * intros H. exact (H _ Hin).
    + rewrite andb_true_r, atom_eqb_eq, forallb_forall. split.
      * intros ->. exact Hsat.
      * intros H. apply atom_eqb_eq. exact (H _ Hin).
    + rewrite orb_false_r, atom_eqb_eq, is_atom_in. split.
      * intros ->. exact Hin.
      * intros Hx. symmetry. apply atom_eqb_eq. exact (Hsat _ Hx).
  - apply sc_equiv_seq. intros x. apply nodup_In.
Qed.

Lemma inclb_incl a b : inclb a b = true -> incl a b.
Proof.
  unfold inclb. rewrite forallb_forall. intros H x Hx. specialize (H x Hx).
  apply existsb_exists in H as (y & Hy & E). destruct (sconstr_eq_dec x y); [subst; auto | discriminate].
Qed.

Lemma incl_inclb a b : incl a b -> inclb a b = true.
Proof.
  intros H. unfold inclb. apply forallb_forall. intros x Hx. apply existsb_exists.
  exists x. split; [apply H, Hx|]. destruct (sconstr_eq_dec x x); congruence.
Qed.

(* constraints that are already part of the value add nothing *)
Lemma absorb_equiv cs pcs : incl pcs cs -> sc_equiv (cs ++ pcs) cs.
Proof.
  intros H. apply sc_equiv_seq. intros x. rewrite in_app_iff. split; [intros [A|A]; auto | auto].
Qed.

Lemma canon_absorb_equiv cs pcs :
  scalar_bottom cs = false -> incl pcs cs -> sc_equiv (canon_scal cs ++ pcs) cs.
Proof.
  intros Hb Hi. eapply sc_equiv_trans; [|apply absorb_equiv, Hi].
  apply sc_equiv_app; [apply canon_scal_equiv, Hb | apply sc_equiv_refl].
Qed.

Definition sat_all (a : atom) (cs : list sconstr) : bool := forallb (ssat a) cs.
Definition psat_all (a : atom) (ts : list ptok) : bool := forallb (psat a) ts.

Definition opt_min_sat (a : atom) (m : option (bool * Z)) : bool :=
  match m with None => true | Some mn => psat a (min_tok mn) end.
Definition opt_max_sat (a : atom) (m : option (bool * Z)) : bool :=
  match m with None => true | Some mx => psat a (max_tok mx) end.

(* what a simplifier state together with the unused values stands for *)
Definition bs_sat (a : atom) (s : bsimp) (rest : list sconstr) : bool :=
  (if bs_int s then ssat a (SKind KInt) else true) && opt_min_sat a (bs_min s) && opt_max_sat a (bs_max s) &&
  sat_all a rest.

(* >n, >=n and <n, <=n with the flag of [bsimp] (true: the bound is not strict) *)
Definition lower (b : bool) (n : Z) : sconstr := if b then SGe n else SGt n.
Definition upper (b : bool) (n : Z) : sconstr := if b then SLe n else SLt n.

(* boundSimplifier.add on a bound: the stronger of the two bounds is kept *)
Definition add_min (mn : option (bool * Z)) (b : bool) (n : Z) : option (bool * Z) :=
  match mn with
  | Some (_, m) => if (if b then Z.ltb m n else negb (Z.gtb m n)) then Some (b, n) else mn
  | None => Some (b, n)
  end.
Definition add_max (mx : option (bool * Z)) (b : bool) (n : Z) : option (bool * Z) :=
  match mx with
  | Some (_, m) => if (if b then Z.gtb m n else negb (Z.ltb m n)) then Some (b, n) else mx
  | None => Some (b, n)
  end.

Lemma bs_add_lower s b n :
  bs_add s (lower b n) = (mkBS (bs_int s) (add_min (bs_min s) b n) (bs_max s), true).
Proof.
  destruct s as [i [[ge m]|] mx], b; cbn; try reflexivity; [destruct (Z.ltb m n) | destruct (Z.gtb m n)]; reflexivity.
Qed.

Lemma bs_add_upper s b n :
  bs_add s (upper b n) = (mkBS (bs_int s) (bs_min s) (add_max (bs_max s) b n), true).
Proof.
  destruct s as [i mn [[le m]|]], b; cbn; try reflexivity; [destruct (Z.gtb m n) | destruct (Z.ltb m n)]; reflexivity.
Qed.

Lemma add_min_sat a mn b n : opt_min_sat a (add_min mn b n) = opt_min_sat a mn && ssat a (lower b n).
Proof.
  destruct mn as [[ge m]|]; [|destruct b; reflexivity]. cbn [add_min].
  destruct b; [destruct (Z.ltb m n) eqn:E | destruct (Z.gtb m n) eqn:E];
    destruct a as [x| | |], ge; cbn; try reflexivity; lia.
Qed.

Lemma add_max_sat a mx b n : opt_max_sat a (add_max mx b n) = opt_max_sat a mx && ssat a (upper b n).
Proof.
  destruct mx as [[le m]|]; [|destruct b; reflexivity]. cbn [add_max].
  destruct b; [destruct (Z.gtb m n) eqn:E | destruct (Z.ltb m n) eqn:E];
    destruct a as [x| | |], le; cbn; try reflexivity; lia.
Qed.

Lemma bs_add_lower_sound a s b n :
  let '(s', used) := bs_add s (lower b n) in
  forall rest, bs_sat a s' (if used then rest else rest ++ [lower b n]) = bs_sat a s rest && ssat a (lower b n).
Proof.
  rewrite bs_add_lower. intros rest. unfold bs_sat. cbn [bs_int bs_min bs_max]. rewrite add_min_sat.
  destruct (opt_min_sat a (bs_min s)), (ssat a (lower b n)); rewrite ?andb_true_r, ?andb_false_r; reflexivity.
Qed.

Lemma bs_add_upper_sound a s b n :
  let '(s', used) := bs_add s (upper b n) in
  forall rest, bs_sat a s' (if used then rest else rest ++ [upper b n]) = bs_sat a s rest && ssat a (upper b n).
Proof.
  rewrite bs_add_upper. intros rest. unfold bs_sat. cbn [bs_int bs_min bs_max]. rewrite add_max_sat.
  destruct (opt_max_sat a (bs_max s)), (ssat a (upper b n)); rewrite ?andb_true_r, ?andb_false_r; reflexivity.
Qed.

Lemma bs_add_sound a s c :
  let '(s', used) := bs_add s c in
  forall rest, bs_sat a s' (if used then rest else rest ++ [c]) = bs_sat a s rest && ssat a c.
Proof.
  assert (U : forall rest, bs_sat a s (rest ++ [c]) = bs_sat a s rest && ssat a c).
  { intros rest. unfold bs_sat, sat_all. rewrite forallb_app. cbn [forallb]. rewrite andb_true_r. apply andb_assoc. }
  destruct c as [b|k|n|n|n|n|n]; try exact U.
  - destruct k; try exact U. intros rest. unfold bs_sat. cbn [bs_int bs_min bs_max].
    destruct (bs_int s), (ssat a (SKind KInt)); rewrite ?andb_true_r, ?andb_false_r; reflexivity.
  - exact (bs_add_lower_sound a s false n).
  - exact (bs_add_lower_sound a s true n).
  - exact (bs_add_upper_sound a s false n).
  - exact (bs_add_upper_sound a s true n).
Qed.

Lemma bs_fold_sound a cs : forall s rest,
  let '(s', rest') := fold_left (fun acc c => let '(s, rest) := acc in
                                              let '(s', used) := bs_add s c in
                                              (s', if used then rest else rest ++ [c])) cs (s, rest) in
  bs_sat a s' rest' = bs_sat a s rest && sat_all a cs.
Proof.
  induction cs as [|c cs IH]; intros s rest; cbn [fold_left].
  - unfold sat_all. cbn [forallb]. rewrite andb_true_r. reflexivity.
  - pose proof (bs_add_sound a s c) as H. destruct (bs_add s c) as [s1 used].
    specialize (IH s1 (if used then rest else rest ++ [c])).
    destruct (fold_left _ cs (s1, if used then rest else rest ++ [c])) as [s' rest'].
    rewrite IH, H. unfold sat_all. cbn [forallb]. rewrite andb_assoc. reflexivity.
Qed.

Lemma psat_all_map_PC a cs : psat_all a (map PC cs) = sat_all a cs.
Proof. unfold psat_all, sat_all. induction cs as [|c cs IH]; simpl; auto. rewrite IH. reflexivity. Qed.

Lemma sat_all_sort_kinds a cs : sat_all a (sort_kinds cs) = sat_all a cs.
Proof.
  apply forallb_seq. intros c. unfold sort_kinds. rewrite in_app_iff, !filter_In.
  destruct (is_kind_c c); cbn [negb]; intuition discriminate.
Qed.

Definition mb_sat (a : atom) (s : mbr) : bool :=
  (if mb_int s then ssat a (SKind KInt) else true) &&
  (match mb_lo s with Some n => ssat a (SGe n) | None => true end) &&
  (match mb_hi s with Some n => ssat a (SLe n) | None => true end).

Lemma mb_fold_none cs : fold_left mb_step cs None = None.
Proof. induction cs as [|c cs IH]; [reflexivity|]. exact IH. Qed.

Lemma mb_step_sound a s c s' : mb_step (Some s) c = Some s' -> mb_sat a s' = mb_sat a s && ssat a c.
Proof.
  destruct s as [i lo hi]. unfold mb_sat.
  destruct c as [b|[]|n|n|n|n|n]; cbn [mb_step mb_int mb_lo mb_hi]; try discriminate.
  - destruct i; [discriminate|]. intros [= <-]. cbn [mb_int mb_lo mb_hi].
    destruct (ssat a (SKind KInt)); rewrite ?andb_true_r, ?andb_false_r; reflexivity.
  - destruct lo; [discriminate|]. intros [= <-]. cbn [mb_int mb_lo mb_hi].
    destruct (ssat a (SGe n)); rewrite ?andb_true_r, ?andb_false_r; reflexivity.
  - destruct hi; [discriminate|]. intros [= <-]. cbn [mb_int mb_lo mb_hi].
    destruct (ssat a (SLe n)); rewrite ?andb_true_r, ?andb_false_r; reflexivity.
Qed.

Lemma mb_fold_sound a cs : forall s s',
  fold_left mb_step cs (Some s) = Some s' -> mb_sat a s' = mb_sat a s && sat_all a cs.
Proof.
  induction cs as [|c cs IH]; intros s s'; cbn [fold_left].
  - intros H. injection H as <-. unfold sat_all. cbn. rewrite andb_true_r. reflexivity.
  - destruct (mb_step (Some s) c) as [s1|] eqn:E; [|rewrite mb_fold_none; discriminate].
    intros H. rewrite (IH _ _ H), (mb_step_sound a s c s1 E). unfold sat_all. cbn [forallb].
    rewrite andb_assoc. reflexivity.
Qed.

Lemma match_builtin_sound a cs t : match_builtin_range cs = Some t -> psat a t = sat_all a cs.
Proof.
  unfold match_builtin_range.
  destruct (fold_left mb_step cs (Some (mkMB false None None))) as [[i lo hi]|] eqn:E; [|discriminate].
  pose proof (mb_fold_sound a cs _ _ E) as H. unfold mb_sat in H at 2. cbn in H.
  destruct i; [|discriminate]. destruct lo as [lo|]; [|discriminate]. destruct hi as [hi|].
  - destruct (existsb _ int_builtin_ranges); [|discriminate]. intros T. injection T as <-.
    rewrite <- H. unfold mb_sat. cbn [mb_int mb_lo mb_hi psat]. reflexivity.
  - destruct (Z.eqb lo 0) eqn:Ez; [|discriminate]. intros T. injection T as <-.
    apply Z.eqb_eq in Ez. subst lo. rewrite <- H. unfold mb_sat. cbn [mb_int mb_lo mb_hi psat].
    rewrite andb_true_r. reflexivity.
Qed.

(* what boundSimplifier.expr writes for the basic type and the minimum: int or uint, then the
   minimum unless uint already says it *)
Lemma head_sat a (i : bool) (mn : bool * Z) :
  forallb (psat a) (if i then if Z.ltb (snd mn) 0 then [PInt; min_tok mn]
                             else if Z.eqb (snd mn) 0 && fst mn then [PUint] else [PUint; min_tok mn]
                   else [min_tok mn]) =
  (if i then ssat a (SKind KInt) else true) && psat a (min_tok mn).
Proof.
  destruct i; [|cbn [forallb]; apply andb_true_r].
  destruct mn as [ge n], a as [x| | |]; cbn [fst snd];
    destruct (Z.ltb n 0) eqn:E1, (Z.eqb n 0) eqn:E2, ge; cbn; try reflexivity; lia.
Qed.

(* C07 (bounds.go): the predeclared-range form written for a conjunction of a basic type and
   integer bounds admits exactly the atoms that all the original conjuncts admit - for every
   list of constraints in every order, whatever the evaluator left in the conjunction *)
Theorem range_rewrite_sound a cs : psat_all a (range_rewrite cs) = sat_all a cs.
Proof.
  unfold range_rewrite. destruct (match_builtin_range cs) as [t|] eqn:Em.
  { unfold psat_all. cbn [forallb]. rewrite andb_true_r. apply match_builtin_sound, Em. }
  pose proof (bs_fold_sound a cs bs_init []) as E. unfold bs_fold.
  destruct (fold_left _ cs (bs_init, [])) as [[i mn mx] rest]. cbn [bs_min bs_max bs_int].
  destruct mn as [mn|], mx as [mx|]; try (rewrite psat_all_map_PC; apply sat_all_sort_kinds).
  change (bs_sat a bs_init []) with true in E. rewrite <- (andb_true_l (sat_all a cs)), <- E.
  unfold psat_all. rewrite !forallb_app, head_sat. fold (psat_all a (map PC (sort_kinds rest))).
  rewrite psat_all_map_PC, sat_all_sort_kinds.
  unfold bs_sat. cbn [bs_int bs_min bs_max opt_min_sat opt_max_sat forallb].
  rewrite andb_true_r, !andb_assoc. reflexivity.
Qed.
