(* C01 - Evaluation result is independent of declaration and conjunct order.
   Stated for CoreCUE (Core/Syntax.v): [evalNode labs atoms fuel cs] is the value of
   a node whose conjunct groups are cs, reported over the label universe [labs] and
   the probe atoms [atoms]; all laws hold for every universe and every fuel, as
   EQUALITIES of result trees (fields, field kinds, closedness, scalar constraints,
   error status at every path). *)
From Verif Require Import Core.Syntax Core.Eval Core.Laws Core.Congr Core.Disj Core.DisjGen Core.Nest Core.NestLaws.
From Coq Require Import List Permutation.
Import ListNotations.

(* the value depends only on the SET of conjunct groups, each taken as a set of operands *)
Theorem C01_eval_set_of_conjuncts : forall labs atoms fuel cs cs',
  ceqs cs cs' -> evalNode labs atoms fuel cs = evalNode labs atoms fuel cs'.
Proof. exact evalNode_ceqs. Qed.
Print Assumptions C01_eval_set_of_conjuncts.

Theorem C01_eval_perm : forall labs atoms fuel cs cs',
  Permutation cs cs' -> evalNode labs atoms fuel cs = evalNode labs atoms fuel cs'.
Proof. exact eval_perm. Qed.
Print Assumptions C01_eval_perm.

Theorem C01_eval_dup : forall labs atoms fuel c cs,
  evalNode labs atoms fuel (c :: c :: cs) = evalNode labs atoms fuel (c :: cs).
Proof. exact eval_dup. Qed.
Print Assumptions C01_eval_dup.

Theorem C01_eval_and_flatten : forall labs atoms fuel r a b es cs,
  evalNode labs atoms fuel (mkConj r (EAnd a b :: es) :: cs) =
  evalNode labs atoms fuel (mkConj r (a :: b :: es) :: cs).
Proof. exact eval_and_flatten. Qed.
Print Assumptions C01_eval_and_flatten.

Theorem C01_eval_and_comm : forall labs atoms fuel r a b es cs,
  evalNode labs atoms fuel (mkConj r (EAnd a b :: es) :: cs) =
  evalNode labs atoms fuel (mkConj r (EAnd b a :: es) :: cs).
Proof. exact eval_and_comm. Qed.
Print Assumptions C01_eval_and_comm.

Theorem C01_eval_and_assoc : forall labs atoms fuel r a b c es cs,
  evalNode labs atoms fuel (mkConj r (EAnd (EAnd a b) c :: es) :: cs) =
  evalNode labs atoms fuel (mkConj r (EAnd a (EAnd b c) :: es) :: cs).
Proof. exact eval_and_assoc. Qed.
Print Assumptions C01_eval_and_assoc.

Theorem C01_eval_and_idem : forall labs atoms fuel r a es cs,
  evalNode labs atoms fuel (mkConj r (EAnd a a :: es) :: cs) =
  evalNode labs atoms fuel (mkConj r (a :: es) :: cs).
Proof. exact eval_and_idem. Qed.
Print Assumptions C01_eval_and_idem.

Theorem C01_eval_and_top : forall labs atoms fuel r a es cs,
  evalNode labs atoms fuel (mkConj r (EAnd a ETop :: es) :: cs) =
  evalNode labs atoms fuel (mkConj r (a :: es) :: cs).
Proof. exact eval_and_top. Qed.
Print Assumptions C01_eval_and_top.

Theorem C01_eval_top_decl : forall labs atoms fuel cs,
  evalNode labs atoms fuel (mkConj false [ETop] :: cs) = evalNode labs atoms fuel cs.
Proof. exact eval_top_decl. Qed.
Print Assumptions C01_eval_top_decl.

Theorem C01_eval_split_and : forall labs atoms fuel a b cs,
  evalNode labs atoms fuel (mkConj false [EAnd a b] :: cs) =
  evalNode labs atoms fuel (mkConj false [a] :: mkConj false [b] :: cs).
Proof. exact eval_split_and. Qed.
Print Assumptions C01_eval_split_and.

Theorem C01_eval_split_decl : forall labs atoms fuel es1 es2 cs,
  evalNode labs atoms fuel (mkConj false (es1 ++ es2) :: cs) =
  evalNode labs atoms fuel (mkConj false es1 :: mkConj false es2 :: cs).
Proof. exact eval_split_decl. Qed.
Print Assumptions C01_eval_split_decl.

(* wrapping a definition reference, close() or a scalar in { } as a sole embedding *)
Theorem C01_eval_sole_embed : forall labs atoms fuel e es cs,
  simple_embed e = true ->
  evalNode labs atoms fuel (mkConj false (EStruct [(HEmbed, e)] :: es) :: cs) =
  evalNode labs atoms fuel (mkConj false (e :: es) :: cs).
Proof. exact eval_sole_embed. Qed.
Print Assumptions C01_eval_sole_embed.

Theorem C01_eval_decl_perm : forall labs atoms fuel r ds ds' es cs,
  embed_free ds = true -> embed_free ds' = true -> Laws.seq ds ds' ->
  evalNode labs atoms fuel (mkConj r (EStruct ds :: es) :: cs) =
  evalNode labs atoms fuel (mkConj r (EStruct ds' :: es) :: cs).
Proof. exact eval_decl_perm. Qed.
Print Assumptions C01_eval_decl_perm.

(* the laws apply at any depth: contextual equivalence is preserved by & and by the value
   position of a field *)
Theorem C01_veq_and_congr : forall labs atoms a a' b,
  veq labs atoms a a' -> veq labs atoms (EAnd a b) (EAnd a' b).
Proof. exact veq_and_congr. Qed.
Print Assumptions C01_veq_and_congr.

Theorem C01_veq_field_congr : forall labs atoms v v' ds1 l k ds2,
  veq labs atoms v v' -> embed_free (ds1 ++ (HField l k, v) :: ds2) = true ->
  veq labs atoms (EStruct (ds1 ++ (HField l k, v) :: ds2)) (EStruct (ds1 ++ (HField l k, v') :: ds2)).
Proof. exact veq_field_congr. Qed.
Print Assumptions C01_veq_field_congr.

Theorem C01_veq_trans : forall labs atoms a b c, veq labs atoms a b -> veq labs atoms b c -> veq labs atoms a c.
Proof. exact veq_trans. Qed.
Print Assumptions C01_veq_trans.

Theorem C01_veq_nested_decl_perm : forall labs atoms l k ds ds' pre post,
  embed_free ds = true -> embed_free ds' = true -> Laws.seq ds ds' ->
  embed_free (pre ++ (HField l k, EStruct ds) :: post) = true ->
  veq labs atoms (EStruct (pre ++ (HField l k, EStruct ds) :: post)) (EStruct (pre ++ (HField l k, EStruct ds') :: post)).
Proof. exact veq_nested_decl_perm. Qed.
Print Assumptions C01_veq_nested_decl_perm.

(* non-vacuity: a non-trivial program, evaluated in two rearrangements *)
Definition ex_labs := [LReg 0%N; LReg 1%N; LReg 9%N].
Definition ex_atoms := [AInt 1%Z; AInt 5%Z].
Definition ex_def := ERefDef (EStruct [(HField (LReg 0%N) FOptional, EScalar (SKind KInt))]).
Definition ex_data := EStruct [(HField (LReg 0%N) FRegular, EScalar (SAtom (AInt 1%Z)))].
Example C01_example_nontrivial :
  evalNode ex_labs ex_atoms 5 [mkConj false [ex_def]; mkConj false [ex_data]] =
  evalNode ex_labs ex_atoms 5 [mkConj false [EAnd ex_data ex_def]]
  /\ res_err (evalNode ex_labs ex_atoms 5 [mkConj false [ex_def]; mkConj false [ex_data]]) = false
  /\ res_err (evalNode ex_labs ex_atoms 5
       [mkConj false [ex_def]; mkConj false [EStruct [(HField (LReg 1%N) FRegular, EScalar (SAtom (AInt 1%Z)))]]]) = true.
Proof. vm_compute. repeat split. Qed.
Print Assumptions C01_example_nontrivial.

(* NestCUE (Core/Nest.v): structs whose fields hold disjunctions *)

(* the value of a conjunction of terms (literals with disjunction-valued fields, scalars) does not depend
   on the order of the terms: every field's value/default outcome, presence and the error status are EQUAL *)
Theorem C01_nest_term_order : forall labs atoms fuel ts ts',
  Permutation ts ts' -> alt_val labs atoms fuel ts = alt_val labs atoms fuel ts'.
Proof. exact alt_val_perm. Qed.
Print Assumptions C01_nest_term_order.

(* ... nor does the value/default pair of a node depend on the order of its plain terms *)
Theorem C01_nest_plain_perm : forall labs atoms fuel plain plain' ds,
  Permutation plain plain' -> nest_pair labs atoms fuel plain ds = nest_pair labs atoms fuel plain' ds.
Proof.
  intros labs atoms fuel plain plain' ds H. apply DisjGenLaws.g_pair_ext. intros t.
  apply alt_val_perm. apply Permutation_app_tail. exact H.
Qed.
Print Assumptions C01_nest_plain_perm.

(* splitting a literal into two (and merging two into one): {fs1, fs2} = {fs1} & {fs2} *)
Theorem C01_nest_split_literal : forall labs atoms fuel fs1 fs2 ts,
  alt_val labs atoms fuel (TLit (fs1 ++ fs2) :: ts) = alt_val labs atoms fuel (TLit fs1 :: TLit fs2 :: ts).
Proof.
  intros labs atoms fuel fs1 fs2 ts. unfold alt_val. cbn [lits scals flat_map app].
  assert (F : forall l, field_vals (TLit (fs1 ++ fs2) :: ts) l = field_vals (TLit fs1 :: TLit fs2 :: ts) l).
  { intros l. unfold field_vals. cbn [lits flat_map app]. rewrite flat_map_app, app_assoc. reflexivity. }
  assert (R : map (field_row labs atoms fuel (TLit (fs1 ++ fs2) :: ts)) labs =
              map (field_row labs atoms fuel (TLit fs1 :: TLit fs2 :: ts)) labs).
  { apply map_ext. intros l. unfold field_row, field_out, f_plain, f_disjs. rewrite F. reflexivity. }
  rewrite R. reflexivity.
Qed.
Print Assumptions C01_nest_split_literal.

Example C01_nest_example :
  let d12 := [(true, EScalar (SAtom (AInt 1%Z))); (false, EScalar (SAtom (AInt 2%Z)))] in
  let d23 := [(false, EScalar (SAtom (AInt 2%Z))); (false, EScalar (SAtom (AInt 3%Z)))] in
  let a := TLit [(LReg 0%N, mkFval [] [d12])] in
  let b := TLit [(LReg 0%N, mkFval [] [d23]); (LReg 1%N, mkFval [EScalar (SKind KInt)] [])] in
  alt_val [LReg 0%N; LReg 1%N] [AInt 1%Z; AInt 2%Z; AInt 3%Z] 5 [a; b] =
  alt_val [LReg 0%N; LReg 1%N] [AInt 1%Z; AInt 2%Z; AInt 3%Z] 5 [b; a] /\
  aval_err (alt_val [LReg 0%N; LReg 1%N] [AInt 1%Z; AInt 2%Z; AInt 3%Z] 5 [a; b]) = false.
Proof. vm_compute. split; reflexivity. Qed.
Print Assumptions C01_nest_example.
