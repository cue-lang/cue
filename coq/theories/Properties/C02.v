(* C02 - parsing, compiling, evaluating and exporting never crash and are repeatable.
   PARTIAL: theorems about the modelled logic that termination and determinism
   rest on.  Panics, stack and memory exhaustion inside the unmodelled Go code
   (parser, compiler, evaluator, exporter) are not theorems; they are explored by
   the isolated-worker run reported in the evidence as exploration.

   cue/scanner comes first: [Scan.run]/[Scan.scan1]/[Scan.tokenize] are the
   model of Scanner.Init/Scan/ResumeInterpolation with Go's index and slice
   operations explicit ([Panic]) and loops fuelled ([Fuel]). *)
From Coq Require Import Lia.
From Verif Require Import Utf8.Model Robust.Scan Robust.ScanProofs Robust.ScanExamples.
From Verif Require Import Base.Order Robust.Sanitize Robust.SanitizeProofs Robust.Topo Robust.TopoProofs Robust.SanTopoExamples.
From Coq Require Import ZArith List Bool Sorting.Sorted Sorting.Permutation.
Import ListNotations.
Local Open Scope Z_scope.

(* Init establishes the scanner invariant for every source text. *)
Theorem C02_scan_init_inv : forall (src : list N) (isL isD : Z -> bool),
  wp False (Inv src) (init src).
Proof. intros src _ _. exact (Inv_init src). Qed.
Print Assumptions C02_scan_init_inv.

(* From every state satisfying the invariant one Scan call returns
   (no index/slice operation of the Go code is out of range, the fuel
   4*len+8 is not exhausted) and re-establishes the invariant; for every
   unicode oracle and both scanner modes. *)
Theorem C02_scan_total : forall (src : list N) (isL isD : Z -> bool) (comments noins : bool) (s : st),
  Inv src s -> exists r s', scan1 src isL isD comments noins s = Ok (r, s') /\ Inv src s'.
Proof.
  intros src isL isD comments noins s I.
  destruct (wp_False_ok _ _ (scan1_spec src isL isD comments noins s I)) as ([r s'] & E & I' & _).
  exists r, s'. split; [exact E | exact I'].
Qed.
Print Assumptions C02_scan_total.

Theorem C02_scan_no_panic : forall (src : list N) (isL isD : Z -> bool) (comments noins : bool) (f : nat) (s : st),
  Inv src s -> scan src isL isD comments noins f s <> Panic.
Proof.
  intros src isL isD comments noins f s I H.
  pose proof (proj1 (scan_attr_spec src isL isD comments noins f) s I) as W. rewrite H in W. exact W.
Qed.
Print Assumptions C02_scan_no_panic.

Theorem C02_scan_fuel_enough : forall (src : list N) (isL isD : Z -> bool) (comments noins : bool) (f : nat) (s : st),
  Inv src s -> 2 * mu src s + 2 <= Z.of_nat f -> scan src isL isD comments noins f s <> Fuel.
Proof. exact scan_fuel_enough. Qed.
Print Assumptions C02_scan_fuel_enough.

(* Every Scan call that does not return EOF strictly decreases
   2*(len - offset) + [insertEOL]; a token other than an inserted comma is not
   empty. *)
Theorem C02_scan_progress : forall (src : list N) (isL isD : Z -> bool) (comments noins : bool) (s : st) (r : res) (s' : st),
  Inv src s -> scan1 src isL isD comments noins s = Ok (r, s') -> r_tok r <> EOF ->
  mu src s' < mu src s /\ (r_elided r = false -> r_start r < off s').
Proof. exact scan_progress. Qed.
Print Assumptions C02_scan_progress.

(* position monotonicity of one call: offsets stay in [0,len] and only grow;
   ErrorCount only grows *)
Theorem C02_scan_offsets : forall (src : list N) (isL isD : Z -> bool) (comments noins : bool) (s : st) (r : res) (s' : st),
  Inv src s -> scan1 src isL isD comments noins s = Ok (r, s') ->
  0 <= off s <= r_start r /\ r_start r <= off s' <= len src /\ errs s <= errs s'.
Proof.
  intros src isL isD comments noins s r s' I H.
  pose proof (scan1_spec src isL isD comments noins s I) as W. rewrite H in W.
  destruct W as (I' & P1 & P2 & P3 & _). simpl in I', P1, P2, P3.
  pose proof (inv_off _ _ I). pose proof (inv_off_rd _ _ I'). pose proof (inv_rd _ _ I'). lia.
Qed.
Print Assumptions C02_scan_offsets.

(* ResumeInterpolation is total whenever an interpolation is open *)
Theorem C02_resume_total : forall (src : list N) (isL isD : Z -> bool) (s : st),
  Inv src s -> qs s <> [] -> wp False (resume_post src s) (resume src s).
Proof. intros src _ _. exact (resume_spec src (F := False)). Qed.
Print Assumptions C02_resume_total.

(* Tokenising a file (Init, then Scan until EOF) never panics, terminates within
   2*len+2 Scan calls - the fuel given to [tokenize] is never exhausted -, ends
   with its only EOF, and the token starts are non-decreasing, within [0,len],
   and strictly increasing except after inserted commas. *)
Theorem C02_tokenize_total : forall (src : list N) (isL isD : Z -> bool) (comments noins : bool),
  wp False (fun l => starts_from src 0 l /\ strict_starts l /\ eof_last l /\
                     Z.of_nat (length l) <= 2 * len src + 2 /\
                     (forall r, In r l -> r_elided r = true -> r_tok r = COMMA))
     (tokenize src isL isD comments noins).
Proof.
  intros src isL isD comments noins. unfold tokenize.
  eapply wp_bind; [apply (Inv_init src)|].
  intros s I. pose proof (mu_bounds src s I).
  eapply wp_weaken; [apply (tokens_from_spec src isL isD comments noins _ s I) | unfold len in *; lia |].
  intros l (R1 & R2 & R3 & R4 & R5).
  repeat split; try assumption; try lia.
  apply (starts_from_weaken src (off s)); [exact (inv_off _ _ I) | exact R1].
Qed.
Print Assumptions C02_tokenize_total.

(* No sequence of Scan / ResumeInterpolation calls after Init makes the scanner
   panic or loop; the only failure is the API misuse of resuming with no open
   interpolation (reported apart as RunMisuse). *)
Theorem C02_scan_run_total : forall (src : list N) (isL isD : Z -> bool) (comments noins : bool) (ops : list op),
  run_fine (run src isL isD comments noins ops).
Proof.
  intros src isL isD comments noins ops. unfold run.
  destruct (wp_False_ok _ _ (Inv_init src)) as (s & -> & I). apply run_ops_total. exact I.
Qed.
Print Assumptions C02_scan_run_total.

(* The hypotheses above are met and the side conditions are needed: *)
Example C02_ex_comment_comma :
  toks [97; 58; 32; 49; 32; 47; 47; 32; 99; 10]%N
  = Some [(IDENT, 0, false); (COLON, 1, false); (INT, 3, false); (COMMA, 5, true);
          (COMMENT, 5, false); (EOF, 10, false)].
Proof. exact ex_comment_comma. Qed.
Print Assumptions C02_ex_comment_comma.

Example C02_ex_token_bound_reached :
  toks [97]%N = Some [(IDENT, 0, false); (COMMA, 1, true); (EOF, 1, false)].
Proof. exact ex_len_plus_two. Qed.
Print Assumptions C02_ex_token_bound_reached.

Example C02_ex_misuse_is_reachable :
  run [97]%N no no true false [OScan; OResume] = RunMisuse [ObsTok (mkRes IDENT 0 false) 1 0 0].
Proof. exact ex_misuse. Qed.
Print Assumptions C02_ex_misuse_is_reachable.

Example C02_ex_partial_ops_do_fail :
  byte_at [97]%N 1 = Panic /\ byte_at [97]%N (-1) = Panic.
Proof. exact ex_byte_at_panics. Qed.
Print Assumptions C02_ex_partial_ops_do_fail.

Example C02_ex_invariant_needed : scan_comment [47; 47]%N (mkSt 47 0 1 false [] 0) = Panic.
Proof. exact ex_inv_needed. Qed.
Print Assumptions C02_ex_invariant_needed.

(* cue/errors Sanitize (model Robust/Sanitize.v): errors are collected in
   evaluation / map order; the TEXT that is printed goes through
   list.sanitize.  [coherent] = positions the comparator calls equal are ==,
   and errors with equal (position, path, message) are the same value.
   internal/core/toposort (model Robust/Topo.v): the field order is a function
   of the node SET and edge SET, not of the Go map iteration order. *)
Local Close Scope Z_scope.
Local Open Scope nat_scope.

Theorem C02_sanitize_order_independent : forall es es',
  coherent es -> Permutation es es' -> sanitize (CList es) = sanitize (CList es') /\ printed (CList es) = printed (CList es').
Proof. intros es es' H P. split; [exact (sanitize_perm es es' H P) | exact (printed_perm es es' H P)]. Qed.
Print Assumptions C02_sanitize_order_independent.

Theorem C02_sanitize_keys_order_independent : forall es es',
  pos_coherent es -> Permutation es es' -> map key (sanitize_list es) = map key (sanitize_list es').
Proof.
  intros es es' Hp Hperm. apply sanitize_list_keys_set_invariant; [exact Hp|].
  apply perm_in_iff, Permutation_map. exact Hperm.
Qed.
Print Assumptions C02_sanitize_keys_order_independent.

Theorem C02_sanitize_idempotent : forall e, sanitize (sanitize e) = sanitize e.
Proof.
  intros [| x | l]; try reflexivity. cbn [sanitize].
  destruct (sanitize_list l) as [|x [|y r]] eqn:E; cbn [sanitize]; try reflexivity.
  replace (sanitize_list (x :: y :: r)) with (x :: y :: r); [reflexivity|].
  rewrite <- E. symmetry. apply sanitize_list_idempotent.
Qed.
Print Assumptions C02_sanitize_idempotent.

Theorem C02_sanitize_sorted_nodup : forall es, pos_coherent es ->
  StronglySorted key_lt (map key (sanitize_list es)) /\ NoDup (map key (sanitize_list es)).
Proof. exact sanitize_list_sorted_nodup. Qed.
Print Assumptions C02_sanitize_sorted_nodup.

Theorem C02_sanitize_loses_nothing : forall es x, In x es -> exists y, In y (sanitize_list es) /\ key y = key x.
Proof. exact sanitize_list_complete. Qed.
Print Assumptions C02_sanitize_loses_nothing.

Theorem C02_sanitize_invents_nothing : forall es x, In x (sanitize_list es) -> In x es.
Proof. exact sanitize_list_subset. Qed.
Print Assumptions C02_sanitize_invents_nothing.

Theorem C02_sanitize_any_sort : forall es s, coherent es -> Permutation es s ->
  StronglySorted (le_of err_cmp) s -> group_phase s = sanitize_list es.
Proof.
  intros es s [Hp Hr] Hperm Hs. apply (map_inj_on key).
  - apply sanitize_list_any_sort_keys; assumption.
  - intros x y Hx Hy. apply Hr; [|apply sanitize_list_subset; exact Hy].
    apply gp_subset in Hx. eapply Permutation_in; [symmetry; exact Hperm | exact Hx].
Qed.
Print Assumptions C02_sanitize_any_sort.

Theorem C02_sanitize_perm_refuted : exists es es', Permutation es es' /\ rec_coherent es /\
  sanitize_list es <> sanitize_list es' /\ length (sanitize_list es) <> length (sanitize_list es').
Proof.
  exists [A; B; A], [A; A; B]. split; [apply perm_skip; apply perm_swap|]. split.
  - apply rec_coherentb_spec. reflexivity.
  - split; vm_compute; intros H; discriminate H.
Qed.
Print Assumptions C02_sanitize_perm_refuted.

Theorem C02_sanitize_payload_refuted : exists es es', Permutation es es' /\ pos_coherent es /\
  map key (sanitize_list es) = map key (sanitize_list es') /\ sanitize_list es <> sanitize_list es'.
Proof.
  exists [Epay3; Epay9], [Epay9; Epay3]. split; [apply perm_swap|]. split.
  - apply pos_coherentb_spec. reflexivity.
  - split; [reflexivity|]. vm_compute. intros H; discriminate H.
Qed.
Print Assumptions C02_sanitize_payload_refuted.

Theorem C02_field_order_independent_of_map_order : forall nodes nodes' edges edges',
  Permutation nodes nodes' -> (forall e, In e edges <-> In e edges') ->
  topo_sort label_cmp nodes edges = topo_sort label_cmp nodes' edges'.
Proof. exact (topo_sort_perm_invariant label_cmp label_cmp_total). Qed.
Print Assumptions C02_field_order_independent_of_map_order.

Theorem C02_field_order_dag : forall nodes edges,
  ranked edges -> NoDup nodes -> closed nodes edges ->
  exists t, topo_sort label_cmp nodes edges = Some t /\ Permutation nodes t /\
    (forall a b, In (a, b) edges -> idx label_cmp t a < idx label_cmp t b) /\
    (forall t', Permutation nodes t' -> topo_ok edges t' -> list_cmp label_cmp t t' <> Gt).
Proof.
  intros nodes edges Hr Hn Hc.
  destruct (topo_sort_dag label_cmp label_cmp_total nodes edges Hr Hn) as [t [E [Hp [_ Hm]]]].
  exists t. split; [exact E|]. split; [exact Hp|]. split; [|exact Hm].
  intros a b Hab. exact (proj1 (topo_sort_respects_edges label_cmp label_cmp_total nodes edges t Hr Hn Hc E a b Hab)).
Qed.
Print Assumptions C02_field_order_dag.

Theorem C02_merge_orders_respects_each_order : forall os, consistent os ->
  exists t, merge_orders label_cmp os = Some t /\ NoDup t /\
    (forall x, In x t <-> exists o, In o os /\ In x o) /\ forall o, In o os -> subseq o t.
Proof. exact (merge_orders_respects_each_order label_cmp label_cmp_total). Qed.
Print Assumptions C02_merge_orders_respects_each_order.

Theorem C02_merge_orders_function_of_orders : forall os os',
  (forall o, In o os <-> In o os') -> merge_orders label_cmp os = merge_orders label_cmp os'.
Proof. exact (merge_orders_function_of_orders label_cmp label_cmp_total). Qed.
Print Assumptions C02_merge_orders_function_of_orders.

Theorem C02_implicit_orders : forall os, implicit_orders label_cmp os = Some (first_occ label_cmp (concat os)).
Proof. exact (implicit_orders_spec label_cmp label_cmp_total). Qed.
Print Assumptions C02_implicit_orders.

(* The hypotheses of the Sanitize / toposort theorems are met: *)
Example C02_ex_sanitize_coherent :
  coherent [E1; E2; E3; E4; E1; E5] /\
  sanitize_list [E1; E2; E3; E4; E1; E5] = [E2; E3; E5; E1; E4] /\
  sanitize_list [E5; E1; E4; E3; E2; E1] = [E2; E3; E5; E1; E4].
Proof. exact sanitize_coherent_example. Qed.
Print Assumptions C02_ex_sanitize_coherent.

Example C02_ex_consistent_orders : consistent [[lb; lc; lf; ld; lg]; [lc; la; le; ld]].
Proof. exact consistent_example. Qed.
Print Assumptions C02_ex_consistent_orders.

Example C02_ex_merge_orders :
  merge_orders label_cmp [[lb; lc; lf; ld; lg]; [lc; la; le; ld]] = Some [lb; lc; la; le; lf; ld; lg].
Proof. exact merge_linked_multiple. Qed.
Print Assumptions C02_ex_merge_orders.

Example C02_ex_inconsistent_not_respected :
  merge_orders label_cmp [[lb; la]; [la; lb]] = Some [la; lb] /\ ~ subseq [lb; la] [la; lb].
Proof. exact inconsistent_not_respected. Qed.
Print Assumptions C02_ex_inconsistent_not_respected.
