(* C04 - Disjunctions and defaults follow the value/default-pair rules of the spec.
   Stated for the order-free semantics of Core/Disj.v: a conjunction of plain operands
   and flat disjunctions with marks; survivors, effectively marked disjunctions, defaults,
   resolution.  Most laws are those of Core/DisjGenLaws.v, read at the instance of Core/DisjLaws.v. *)
From Verif Require Import Core.Syntax Core.Eval Core.Laws Core.Disj Core.DisjLaws Core.DisjLaws2
     Core.DisjGen Core.DisjGenLaws Core.Nest Core.NestLaws.
From Coq Require Import List Permutation Bool.
Import ListNotations.

(* the atoms the value accepts: union over the disjuncts, distributed over & *)
Theorem C04_accept_is_union : forall labs atoms fuel plain ds i,
  accepts (pair_of labs atoms fuel plain ds) i =
  existsb (fun t => res_accepts i (tuple_val labs atoms fuel plain t)) (tuples ds).
Proof. exact accept_is_union. Qed.
Print Assumptions C04_accept_is_union.

(* never a silently chosen value: a resolution is the unique default or, without defaults, the unique value *)
Theorem C04_resolve_never_silent : forall p v,
  resolve p = Chosen v -> (defaults p = [v]) \/ (defaults p = [] /\ values p = [v]).
Proof. exact resolve_never_silent. Qed.
Print Assumptions C04_resolve_never_silent.

(* ... and it is the value of a surviving choice of one disjunct per disjunction *)
Theorem C04_chosen_is_survivor : forall labs atoms fuel plain ds v,
  resolve (pair_of labs atoms fuel plain ds) = Chosen v ->
  exists t, is_tuple t ds /\ survives labs atoms fuel plain t = true /\ tuple_val labs atoms fuel plain t = v.
Proof.
  intros labs atoms fuel plain ds v H.
  exact (DisjGenLaws.g_chosen_is_survivor expr res res_eqb res_eqb_eq res_err (choice_val labs atoms fuel plain) ds v
           (resolve_chosen_gen _ v H)).
Qed.
Print Assumptions C04_chosen_is_survivor.

(* a failed disjunct, marked or not, never changes values, defaults or resolution *)
Theorem C04_failed_disjunct_irrelevant : forall labs atoms fuel plain d r m,
  fuel <> 0 ->
  pair_of labs atoms fuel plain ((d ++ [(m, EBot)]) :: r) = pair_of labs atoms fuel plain (d :: r).
Proof.
  intros labs atoms fuel plain d r m Hf.
  apply (DisjGenLaws.g_eliminated_disjunct_irrelevant expr res res_err (choice_val labs atoms fuel plain)).
  intros t _. apply (bottom_disjunct_fails labs atoms fuel plain ((m, EBot) :: t) m Hf). left. reflexivity.
Qed.
Print Assumptions C04_failed_disjunct_irrelevant.

(* duplicates: a or a, with any marks, resolve to a *)
Theorem C04_duplicate_resolves : forall v f1 f2,
  res_eqb v v = true -> resolve [(v, f1); (v, f2)] = Chosen v.
Proof.
  intros v f1 f2 E. unfold resolve, defaults, values.
  destruct f1, f2; simpl; unfold mem_res; simpl; rewrite ?E; simpl; reflexivity.
Qed.
Print Assumptions C04_duplicate_resolves.

(* the value of a choice does not depend on the order of the operands *)
Theorem C04_tuple_order_free : forall labs atoms fuel plain plain' t t',
  Laws.seq (plain ++ map snd t) (plain' ++ map snd t') ->
  tuple_val labs atoms fuel plain t = tuple_val labs atoms fuel plain' t'.
Proof. intros labs atoms fuel plain plain' t t' H. unfold tuple_val. apply eval_group_perm, H. Qed.
Print Assumptions C04_tuple_order_free.

(* rows of the spec's table, and the order-free answer on the F2 witness in both orders *)
Definition L := [LReg 0%N].
Definition A := [AInt 1%Z; AInt 2%Z; AInt 3%Z].
Definition i (z : Z) := EScalar (SAtom (AInt z)).
(* the resolution as the examples read it: the pinned-atom row of a chosen scalar; [Some []] stands for
   ambiguity, [None] for no value (or a chosen struct) *)
Definition chosen (plain : list expr) (ds : list disj) :=
  match resolve (pair_of L A 5 plain ds) with
  | Chosen (RVal _ _ pin) => Some pin
  | Chosen _ => None
  | Ambiguous => Some []
  | NoValue => None
  end.
Example C04_example_spec_rows :
  chosen [] [[(true, i 1); (false, i 2)]] = Some [true; false; false] /\                     (* marked 1 or 2 gives 1 *)
  chosen [] [[(true, i 1); (false, i 2)]; [(false, i 1); (true, i 2)]] = Some [] /\          (* marks on different values: ambiguous *)
  chosen [] [[(true, i 1); (false, i 2)]; [(false, i 2); (true, i 1)]] = Some [true; false; false] /\
  chosen [] [[(true, i 1); (false, i 2)]; [(false, i 2); (false, i 1)]] = Some [true; false; false] /\
  chosen [i 2] [[(true, i 1); (false, i 2)]] = Some [false; true; false] /\                  (* the marked disjunct is eliminated: 2 *)
  (* F2 witness, both orders: the answer is 3 *)
  chosen [] [[(true, i 1); (false, i 2); (false, i 3)]; [(true, i 3); (false, i 2); (false, i 1)];
             [(false, i 2); (false, i 3)]] = Some [false; false; true] /\
  chosen [] [[(true, i 1); (false, i 2); (false, i 3)]; [(false, i 2); (false, i 3)];
             [(true, i 3); (false, i 2); (false, i 1)]] = Some [false; false; true].
Proof. vm_compute. repeat split. Qed.
Print Assumptions C04_example_spec_rows.


(* the order of the operands of & (the list of disjunctions) never changes the outcome: known
   finding F2 (cue's default depends on the operand order) is a deviation from this semantics,
   not an ambiguity of it *)
Theorem C04_operand_order_independent : forall labs atoms fuel plain ds ds',
  Permutation ds ds' ->
  (forall k, accepts (pair_of labs atoms fuel plain ds) k = accepts (pair_of labs atoms fuel plain ds') k) /\
  resolve (pair_of labs atoms fuel plain ds) = resolve (pair_of labs atoms fuel plain ds').
Proof. exact operand_order_independent. Qed.
Print Assumptions C04_operand_order_independent.

(* ... nor does the order or the repetition of the plain operands: the value/default pair is the same *)
Theorem C04_plain_operands_as_set : forall labs atoms fuel plain plain' ds,
  (forall e, In e plain <-> In e plain') ->
  pair_of labs atoms fuel plain ds = pair_of labs atoms fuel plain' ds.
Proof. exact plain_operands_as_set. Qed.
Print Assumptions C04_plain_operands_as_set.

(* only the SET of disjuncts of every disjunction matters (commutativity and idempotence of |) *)
Theorem C04_disjuncts_as_sets : forall labs atoms fuel plain ds ds',
  Forall2 (fun d d' : disj => forall c, In c d <-> In c d') ds ds' ->
  (forall k, accepts (pair_of labs atoms fuel plain ds) k = accepts (pair_of labs atoms fuel plain ds') k) /\
  resolve (pair_of labs atoms fuel plain ds) = resolve (pair_of labs atoms fuel plain ds').
Proof.
  intros labs atoms fuel plain ds ds' H. apply flat_outcome, DisjGenLaws.g_disjuncts_as_sets; [apply res_eqb_eq | exact H].
Qed.
Print Assumptions C04_disjuncts_as_sets.

(* the order of the disjuncts of a disjunction, at any operand position *)
Theorem C04_disjunct_order_independent : forall labs atoms fuel plain l1 d d' l2,
  Permutation d d' ->
  (forall k, accepts (pair_of labs atoms fuel plain (l1 ++ d :: l2)) k =
             accepts (pair_of labs atoms fuel plain (l1 ++ d' :: l2)) k) /\
  resolve (pair_of labs atoms fuel plain (l1 ++ d :: l2)) = resolve (pair_of labs atoms fuel plain (l1 ++ d' :: l2)).
Proof.
  intros labs atoms fuel plain l1 d d' l2 H.
  apply flat_outcome, DisjGenLaws.g_disjunct_order_independent; [apply res_eqb_eq | exact H].
Qed.
Print Assumptions C04_disjunct_order_independent.

(* a duplicate disjunct (same mark, same expression) never changes the outcome *)
Theorem C04_duplicate_disjunct : forall labs atoms fuel plain l1 d c l2,
  In c d ->
  (forall k, accepts (pair_of labs atoms fuel plain (l1 ++ (d ++ [c]) :: l2)) k =
             accepts (pair_of labs atoms fuel plain (l1 ++ d :: l2)) k) /\
  resolve (pair_of labs atoms fuel plain (l1 ++ (d ++ [c]) :: l2)) = resolve (pair_of labs atoms fuel plain (l1 ++ d :: l2)).
Proof.
  intros labs atoms fuel plain l1 d c l2 H.
  apply flat_outcome, DisjGenLaws.g_duplicate_disjunct; [apply res_eqb_eq | exact H].
Qed.
Print Assumptions C04_duplicate_disjunct.

(* ... nor does a copy carrying at most the mark of the original (an unmarked copy of a marked disjunct) *)
Theorem C04_weaker_copy_irrelevant : forall labs atoms fuel plain d r m m' e,
  In (m, e) d -> implb m' m = true ->
  (forall k, accepts (pair_of labs atoms fuel plain ((d ++ [(m', e)]) :: r)) k =
             accepts (pair_of labs atoms fuel plain (d :: r)) k) /\
  resolve (pair_of labs atoms fuel plain ((d ++ [(m', e)]) :: r)) = resolve (pair_of labs atoms fuel plain (d :: r)).
Proof.
  intros labs atoms fuel plain d r m m' e H1 H2.
  apply flat_outcome. eapply DisjGenLaws.g_weaker_copy_irrelevant; [apply res_eqb_eq | exact H1 | exact H2].
Qed.
Print Assumptions C04_weaker_copy_irrelevant.

(* ... but a MARKED copy of an unmarked disjunct does: 1 | 2 is ambiguous, 1 | 2 | *1 is 1 *)
Theorem C04_marked_copy_refuted : exists labs atoms fuel plain d r e,
  In (false, e) d /\
  resolve (pair_of labs atoms fuel plain ((d ++ [(true, e)]) :: r)) <> resolve (pair_of labs atoms fuel plain (d :: r)).
Proof.
  exists [LReg 0%N], [AInt 1%Z; AInt 2%Z], 5, [],
         [(false, EScalar (SAtom (AInt 1%Z))); (false, EScalar (SAtom (AInt 2%Z)))], [],
         (EScalar (SAtom (AInt 1%Z))).
  split; [left; reflexivity|]. vm_compute. discriminate.
Qed.
Print Assumptions C04_marked_copy_refuted.

(* no marks: no defaults, and a value is chosen iff it is the only one *)
Theorem C04_no_marks_no_defaults : forall labs atoms fuel plain ds,
  forallb (fun d => negb (has_marks d)) ds = true ->
  defaults (pair_of labs atoms fuel plain ds) = [] /\
  forall v, resolve (pair_of labs atoms fuel plain ds) = Chosen v <-> values (pair_of labs atoms fuel plain ds) = [v].
Proof.
  intros labs atoms fuel plain ds H.
  destruct (DisjGenLaws.g_no_marks_no_defaults expr res res_eqb res_err (choice_val labs atoms fuel plain) ds H) as [D _].
  split; [exact D|]. intros v. apply resolve_no_defaults, D.
Qed.
Print Assumptions C04_no_marks_no_defaults.

(* no disjunctions: the value of the plain operands, or no value when that is an error *)
Theorem C04_no_disjunctions : forall labs atoms fuel plain,
  let v := evalNode labs atoms fuel [mkConj false plain] in
  resolve (pair_of labs atoms fuel plain []) = (if res_err v then NoValue else Chosen v) /\
  forall k, accepts (pair_of labs atoms fuel plain []) k = res_accepts k v.
Proof.
  intros labs atoms fuel plain v.
  assert (E : choice_val labs atoms fuel plain [] = v) by (unfold choice_val; rewrite app_nil_r; reflexivity).
  destruct (DisjGenLaws.g_no_disjunctions expr res res_eqb res_err res_accepts (choice_val labs atoms fuel plain)
              (fun k => res_accepts_err k)) as [R Acc].
  rewrite E in R, Acc. split; [|exact Acc].
  rewrite resolve_gen. etransitivity; [exact (f_equal resolution_of R)|]. destruct (res_err v); reflexivity.
Qed.
Print Assumptions C04_no_disjunctions.

(* rule M: a disjunction all of whose disjuncts are marked behaves as the unmarked one, for acceptance
   and for resolution, at any operand position ... *)
Theorem C04_marks_on_every_disjunct : forall labs atoms fuel plain l1 d l2,
  forallb fst d = true ->
  (forall k, accepts (pair_of labs atoms fuel plain (l1 ++ d :: l2)) k =
             accepts (pair_of labs atoms fuel plain (l1 ++ unmark d :: l2)) k) /\
  resolve (pair_of labs atoms fuel plain (l1 ++ d :: l2)) = resolve (pair_of labs atoms fuel plain (l1 ++ unmark d :: l2)).
Proof.
  intros labs atoms fuel plain l1 d l2 H.
  apply flat_outcome, DisjGenLaws.g_marks_on_every_disjunct_at; [apply res_eqb_eq | apply choice_val_perm | exact H].
Qed.
Print Assumptions C04_marks_on_every_disjunct.

(* ... and for any number of such disjunctions at once *)
Theorem C04_all_marked_as_unmarked : forall labs atoms fuel plain ds,
  Forall (fun d => forallb fst d = true) ds ->
  (forall k, accepts (pair_of labs atoms fuel plain ds) k = accepts (pair_of labs atoms fuel plain (map unmark ds)) k) /\
  resolve (pair_of labs atoms fuel plain ds) = resolve (pair_of labs atoms fuel plain (map unmark ds)).
Proof.
  intros labs atoms fuel plain ds H. apply (flat_outcome labs atoms fuel plain ([] ++ ds) ([] ++ map unmark ds)).
  apply DisjGenLaws.g_all_marked_as_unmarked; [apply res_eqb_eq | apply choice_val_perm | exact H].
Qed.
Print Assumptions C04_all_marked_as_unmarked.

(* non-vacuity of the hypotheses above, with non-trivial outcomes *)
Definition D1 : disj := [(true, i 1); (false, i 2); (false, i 3)].
Definition D2 : disj := [(true, i 3); (false, i 2); (false, i 1)].
Definition D3 : disj := [(false, i 2); (false, i 3)].
Example C04_example_order_and_duplicates :
  (* operands permuted (the F2 witness) *)
  Permutation [D1; D2; D3] [D3; D1; D2] /\
  chosen [] [D1; D2; D3] = Some [false; false; true] /\ chosen [] [D3; D1; D2] = Some [false; false; true] /\
  (* disjuncts permuted *)
  Permutation D1 [(false, i 3); (true, i 1); (false, i 2)] /\
  chosen [] [D3; D1] = Some [] /\ chosen [] [D3; [(false, i 3); (true, i 1); (false, i 2)]] = Some [] /\
  chosen [i 1] [D3; D1] = None /\ chosen [i 1] [D1] = Some [true; false; false] /\
  (* an exact duplicate, an unmarked copy of the marked disjunct *)
  In (true, i 1) D1 /\ implb false true = true /\
  chosen [] [D1] = Some [true; false; false] /\
  chosen [] [D1 ++ [(true, i 1)]] = Some [true; false; false] /\
  chosen [] [D1 ++ [(false, i 1)]] = Some [true; false; false] /\
  (* a marked copy of an unmarked disjunct changes the outcome *)
  chosen [] [D3] = Some [] /\ chosen [] [D3 ++ [(true, i 2)]] = Some [false; true; false].
Proof.
  split; [apply Permutation_sym; apply (Permutation_cons_app [D1; D2] [] D3); apply Permutation_refl|].
  split; [vm_compute; reflexivity|]. split; [vm_compute; reflexivity|].
  split; [unfold D1; apply Permutation_sym, (Permutation_cons_app [(true, i 1); (false, i 2)] [] (false, i 3)), Permutation_refl|].
  vm_compute. repeat split; auto.
Qed.
Print Assumptions C04_example_order_and_duplicates.

Example C04_example_marks :
  (* no marks *)
  forallb (fun d => negb (has_marks d)) [D3; [(false, i 3); (false, i 1)]] = true /\
  chosen [] [D3; [(false, i 3); (false, i 1)]] = Some [false; false; true] /\
  chosen [] [D3] = Some [] /\
  (* no disjunctions *)
  chosen [i 2] [] = Some [false; true; false] /\
  resolve (pair_of L A 5 [i 1; i 2] []) = NoValue /\
  (* every disjunct marked *)
  forallb fst [(true, i 1); (true, i 2)] = true /\
  unmark [(true, i 1); (true, i 2)] = [(false, i 1); (false, i 2)] /\
  chosen [] [[(true, i 1); (true, i 2)]] = Some [] /\ chosen [] [[(false, i 1); (false, i 2)]] = Some [] /\
  chosen [i 1] [[(true, i 1); (true, i 2)]] = Some [true; false; false] /\
  chosen [i 1] [[(false, i 1); (false, i 2)]] = Some [true; false; false] /\
  chosen [] [D1; [(true, i 1); (true, i 2)]] = Some [true; false; false] /\
  chosen [] [D1; [(false, i 1); (false, i 2)]] = Some [true; false; false].
Proof. vm_compute. repeat split. Qed.
Print Assumptions C04_example_marks.

(* a single surviving value is chosen whatever the marks (general form of C04_duplicate_resolves) *)
Theorem C04_single_value_chosen : forall p v, values p = [v] -> resolve p = Chosen v.
Proof.
  intros p v H. rewrite resolve_gen, (DisjGenLaws.g_single_value_chosen res res_eqb res_eqb_eq p v H). reflexivity.
Qed.
Print Assumptions C04_single_value_chosen.

(* failed disjuncts, general form: a disjunct - marked or not - that fails with every choice of the
   other disjunctions changes neither values, nor defaults, nor resolution, nor acceptance *)
Theorem C04_eliminated_disjunct_irrelevant : forall labs atoms fuel plain d c r,
  (forall t, is_tuple t r -> survives labs atoms fuel plain (c :: t) = false) ->
  pair_of labs atoms fuel plain ((d ++ [c]) :: r) = pair_of labs atoms fuel plain (d :: r).
Proof.
  intros labs atoms fuel plain.
  exact (DisjGenLaws.g_eliminated_disjunct_irrelevant expr res res_err (choice_val labs atoms fuel plain)).
Qed.
Print Assumptions C04_eliminated_disjunct_irrelevant.

(* marks never change the value of the value/default pair: same accepted atoms, same set of values *)
Theorem C04_marks_never_change_the_value : forall labs atoms fuel plain ds ds',
  Forall2 (fun d d' : disj => map snd d = map snd d') ds ds' ->
  (forall k, accepts (pair_of labs atoms fuel plain ds) k = accepts (pair_of labs atoms fuel plain ds') k) /\
  Permutation (values (pair_of labs atoms fuel plain ds)) (values (pair_of labs atoms fuel plain ds')).
Proof.
  intros labs atoms fuel plain. exact (DisjGenLaws.g_marks_never_change_the_value expr res res_eqb res_eqb_eq res_err res_accepts (choice_val labs atoms fuel plain)).
Qed.
Print Assumptions C04_marks_never_change_the_value.

(* a plain operand is a one-disjunct disjunction: same value/default pair when unmarked, same outcome when marked *)
Theorem C04_singleton_disjunction_is_operand : forall labs atoms fuel plain e r,
  pair_of labs atoms fuel plain ([(false, e)] :: r) = pair_of labs atoms fuel (plain ++ [e]) r.
Proof.
  intros labs atoms fuel plain e r. rewrite !pair_of_gen, DisjGenLaws.g_singleton_disjunction_is_operand.
  apply DisjGenLaws.g_pair_ext. intros t. unfold choice_val. rewrite <- app_assoc. reflexivity.
Qed.
Print Assumptions C04_singleton_disjunction_is_operand.

Theorem C04_marked_singleton_is_operand : forall labs atoms fuel plain e r,
  (forall k, accepts (pair_of labs atoms fuel plain ([(true, e)] :: r)) k = accepts (pair_of labs atoms fuel (plain ++ [e]) r) k) /\
  resolve (pair_of labs atoms fuel plain ([(true, e)] :: r)) = resolve (pair_of labs atoms fuel (plain ++ [e]) r).
Proof.
  intros labs atoms fuel plain e r. rewrite <- C04_singleton_disjunction_is_operand.
  apply flat_outcome, DisjGenLaws.g_marks_on_every_disjunct; [apply res_eqb_eq | reflexivity].
Qed.
Print Assumptions C04_marked_singleton_is_operand.

Example C04_example_more :
  (* one surviving value, reached through two choices with different marks *)
  (exists v, values (pair_of L A 5 [] [D1; [(false, i 1)]]) = [v] /\ length (pair_of L A 5 [] [D1; [(true, i 1); (false, i 1)]]) = 2) /\
  (* an eliminated marked disjunct that is not bottom *)
  (forall t, is_tuple t [] -> survives L A 5 [i 2] ((true, i 1) :: t) = false) /\
  chosen [i 2] [[(false, i 2); (false, i 3)] ++ [(true, i 1)]] = Some [false; true; false] /\
  (* same expressions, different marks: same values, different resolution *)
  Forall2 (fun d d' : disj => map snd d = map snd d') [D1] [unmark D1] /\
  chosen [] [D1] = Some [true; false; false] /\ chosen [] [unmark D1] = Some [] /\
  (* an operand written as a one-disjunct disjunction *)
  chosen [] [[(false, i 1)]; D1] = Some [true; false; false] /\ chosen [i 1] [D1] = Some [true; false; false] /\
  chosen [] [[(true, i 3)]; D1] = Some [false; false; true] /\ chosen [i 3] [D1] = Some [false; false; true].
Proof.
  split; [eexists; vm_compute; split; reflexivity|].
  split; [intros t H; inversion H; vm_compute; reflexivity|].
  split; [vm_compute; reflexivity|].
  split; [repeat constructor|].
  vm_compute. repeat split.
Qed.
Print Assumptions C04_example_more.

(* NestCUE (Core/Nest.v): disjunctions as values of struct fields, and disjunctions of such
   structs.  [nest_pair labs atoms fuel plain ds] is the value/default pair of the node
   plain terms & struct-level disjunctions ds; an alternative [AStruct rows] records, per label of
   the universe, whether the field is present and the OUTCOME (resolution, acceptance) of the
   value/default pair of the conjunction of everything given to that field. *)

(* value/default pairs propagate through fields: a surviving struct alternative reports at every
   label exactly the Core/Disj.v outcome of ALL the field values its literals give to that label
   (plain operands and disjunctions alike), and none of its present fields is left without a value *)
Theorem C04_nest_struct_alternative_fields : forall labs atoms fuel ts fs,
  alt_val labs atoms fuel ts = AStruct fs ->
  fs = map (fun l => (negb (null (field_vals ts l)),
                      (resolve (pair_of labs atoms fuel (f_plain ts l) (f_disjs ts l)),
                       map (accepts (pair_of labs atoms fuel (f_plain ts l) (f_disjs ts l))) (seq 0 (length atoms))))) labs /\
  (forall l, In l labs -> null (field_vals ts l) = false ->
             resolve (pair_of labs atoms fuel (f_plain ts l) (f_disjs ts l)) <> NoValue).
Proof.
  intros labs atoms fuel ts fs. unfold alt_val. destruct (lits ts) as [|a la].
  - destruct (res_err _); discriminate.
  - destruct (negb (null (scals ts))); [discriminate|].
    destruct (existsb row_failed (map (field_row labs atoms fuel ts) labs)) eqn:E; [discriminate|].
    intros [= <-]. split; [reflexivity|].
    intros l Hl Hn Hr. rewrite (row_failed_in labs atoms fuel ts l Hl Hn Hr) in E. discriminate.
Qed.
Print Assumptions C04_nest_struct_alternative_fields.

(* failed disjuncts vanish THROUGH fields: a field whose disjuncts are all eliminated fails the struct *)
Theorem C04_nest_failed_field_fails_struct : forall labs atoms fuel ts l,
  lits ts <> [] -> In l labs -> null (field_vals ts l) = false ->
  resolve (pair_of labs atoms fuel (f_plain ts l) (f_disjs ts l)) = NoValue ->
  alt_val labs atoms fuel ts = AErr.
Proof.
  intros labs atoms fuel ts l HL Hl Hn Hr. unfold alt_val. destruct (lits ts) as [|a la]; [congruence|].
  destruct (negb (null (scals ts))); [reflexivity|].
  rewrite (row_failed_in labs atoms fuel ts l Hl Hn Hr). reflexivity.
Qed.
Print Assumptions C04_nest_failed_field_fails_struct.

(* ... and such a struct disjunct - like one containing bottom - changes neither values nor default flags *)
Theorem C04_nest_eliminated_disjunct_irrelevant : forall labs atoms fuel plain d r c,
  (forall t, g_is_tuple sdisjunct t r -> nest_tval labs atoms fuel plain (map snd (c :: t)) = AErr) ->
  nest_pair labs atoms fuel plain ((d ++ [c]) :: r) = nest_pair labs atoms fuel plain (d :: r).
Proof.
  intros labs atoms fuel plain d r c H. apply g_eliminated_disjunct_irrelevant.
  intros t Ht. unfold gsurvives, gtv. rewrite (H t Ht). reflexivity.
Qed.
Print Assumptions C04_nest_eliminated_disjunct_irrelevant.

Theorem C04_nest_failed_disjunct_irrelevant : forall labs atoms fuel plain d r m c,
  fuel <> 0 -> In TBot c ->
  nest_pair labs atoms fuel plain ((d ++ [(m, c)]) :: r) = nest_pair labs atoms fuel plain (d :: r).
Proof.
  intros labs atoms fuel plain d r m c Hf Hc. apply g_eliminated_disjunct_irrelevant.
  intros t _. unfold gsurvives, gtv, nest_tval. cbn [map snd concat].
  rewrite bot_term_fails; [reflexivity | exact Hf |].
  apply in_or_app. right. apply in_or_app. left. exact Hc.
Qed.
Print Assumptions C04_nest_failed_disjunct_irrelevant.

(* ambiguity is never silently resolved, one level up *)
Theorem C04_nest_resolve_never_silent : forall (p : list (aval * bool)) v,
  nest_resolve p = GChosen v ->
  gdefaults aval aval_eqb p = [v] \/ (gdefaults aval aval_eqb p = [] /\ gvalues aval aval_eqb p = [v]).
Proof. intros p v. apply g_resolve_never_silent. Qed.
Print Assumptions C04_nest_resolve_never_silent.

Theorem C04_nest_chosen_is_survivor : forall labs atoms fuel plain ds v,
  nest_resolve (nest_pair labs atoms fuel plain ds) = GChosen v ->
  exists t, g_is_tuple sdisjunct t ds /\ aval_err (nest_tval labs atoms fuel plain (map snd t)) = false /\
            nest_tval labs atoms fuel plain (map snd t) = v.
Proof.
  intros labs atoms fuel plain ds v H.
  destruct (g_chosen_is_survivor sdisjunct aval aval_eqb aval_eqb_eq aval_err (nest_tval labs atoms fuel plain) ds v H)
    as (t & Ht & Hs & Hv).
  exists t. split; [exact Ht|]. split; [|exact Hv].
  unfold gsurvives, gtv in Hs. apply negb_true_iff in Hs. exact Hs.
Qed.
Print Assumptions C04_nest_chosen_is_survivor.

Theorem C04_nest_accept_is_union : forall labs atoms fuel plain ds i,
  nest_accepts (nest_pair labs atoms fuel plain ds) i =
  existsb (fun t => aval_acc i (nest_tval labs atoms fuel plain (map snd t))) (gtuples sdisjunct ds).
Proof.
  intros labs atoms fuel plain ds i.
  apply (g_accept_is_union sdisjunct aval aval_err aval_acc (nest_tval labs atoms fuel plain) ds i).
  intros v Hv. destruct v; simpl in *; try reflexivity; discriminate.
Qed.
Print Assumptions C04_nest_accept_is_union.

(* order independence: of the struct-level disjunctions, of the disjuncts of each, of duplicates and weaker copies *)
Theorem C04_nest_operand_order_independent : forall labs atoms fuel plain ds ds',
  Permutation ds ds' ->
  (forall i, nest_accepts (nest_pair labs atoms fuel plain ds) i = nest_accepts (nest_pair labs atoms fuel plain ds') i) /\
  nest_resolve (nest_pair labs atoms fuel plain ds) = nest_resolve (nest_pair labs atoms fuel plain ds').
Proof.
  intros labs atoms fuel plain. apply g_operand_order_independent; [apply aval_eqb_eq | apply nest_tval_perm].
Qed.
Print Assumptions C04_nest_operand_order_independent.

Theorem C04_nest_disjuncts_as_sets : forall labs atoms fuel plain ds ds',
  Forall2 (fun d d' : sdisj => forall c, In c d <-> In c d') ds ds' ->
  (forall i, nest_accepts (nest_pair labs atoms fuel plain ds) i = nest_accepts (nest_pair labs atoms fuel plain ds') i) /\
  nest_resolve (nest_pair labs atoms fuel plain ds) = nest_resolve (nest_pair labs atoms fuel plain ds').
Proof. intros labs atoms fuel plain. apply g_disjuncts_as_sets, aval_eqb_eq. Qed.
Print Assumptions C04_nest_disjuncts_as_sets.

Theorem C04_nest_disjunct_order_independent : forall labs atoms fuel plain l1 d d' l2,
  Permutation d d' ->
  (forall i, nest_accepts (nest_pair labs atoms fuel plain (l1 ++ d :: l2)) i =
             nest_accepts (nest_pair labs atoms fuel plain (l1 ++ d' :: l2)) i) /\
  nest_resolve (nest_pair labs atoms fuel plain (l1 ++ d :: l2)) = nest_resolve (nest_pair labs atoms fuel plain (l1 ++ d' :: l2)).
Proof. intros labs atoms fuel plain. apply g_disjunct_order_independent, aval_eqb_eq. Qed.
Print Assumptions C04_nest_disjunct_order_independent.

Theorem C04_nest_duplicate_disjunct : forall labs atoms fuel plain l1 d c l2,
  In c d ->
  (forall i, nest_accepts (nest_pair labs atoms fuel plain (l1 ++ (d ++ [c]) :: l2)) i =
             nest_accepts (nest_pair labs atoms fuel plain (l1 ++ d :: l2)) i) /\
  nest_resolve (nest_pair labs atoms fuel plain (l1 ++ (d ++ [c]) :: l2)) = nest_resolve (nest_pair labs atoms fuel plain (l1 ++ d :: l2)).
Proof. intros labs atoms fuel plain. apply g_duplicate_disjunct, aval_eqb_eq. Qed.
Print Assumptions C04_nest_duplicate_disjunct.

Theorem C04_nest_weaker_copy_irrelevant : forall labs atoms fuel plain d r m m' e,
  In (m, e) d -> implb m' m = true ->
  (forall i, nest_accepts (nest_pair labs atoms fuel plain ((d ++ [(m', e)]) :: r)) i =
             nest_accepts (nest_pair labs atoms fuel plain (d :: r)) i) /\
  nest_resolve (nest_pair labs atoms fuel plain ((d ++ [(m', e)]) :: r)) = nest_resolve (nest_pair labs atoms fuel plain (d :: r)).
Proof. intros labs atoms fuel plain d r m m' e H1 H2. eapply g_weaker_copy_irrelevant; [apply aval_eqb_eq | exact H1 | exact H2]. Qed.
Print Assumptions C04_nest_weaker_copy_irrelevant.

(* non-vacuity: {a: *1 | 2} resolves a to 1; & {a: 2 | 3} leaves a = 2; ({a: 1 | 2} | {a: 3}) & {a: 3} keeps the
   second disjunct only; {a: 1 | 2} | {a: 3} is ambiguous; *{a: 1} | {a: 2} resolves to the marked struct *)
Definition nx_i (z : Z) := EScalar (SAtom (AInt z)).
Definition nx_lit (d : disj) : sterm := TLit [(LReg 0%N, mkFval [] [d])].
Definition nx_one (z : Z) : sterm := TLit [(LReg 0%N, mkFval [nx_i z] [])].
Definition nx_L := [LReg 0%N; LReg 9%N].
Definition nx_A := [AInt 1%Z; AInt 2%Z; AInt 3%Z].
Definition nx_res plain ds := nest_resolve (nest_pair nx_L nx_A 5 plain ds).
Definition nx_field (r : gresolution aval) : option (resolution * list bool) :=
  match r with GChosen (AStruct ((true, o) :: _)) => Some o | _ => None end.

Example C04_nest_example :
  (exists v, nx_field (nx_res [nx_lit [(true, nx_i 1); (false, nx_i 2)]] []) = Some (Chosen v, [true; true; false])) /\
  (exists v, nx_field (nx_res [nx_lit [(true, nx_i 1); (false, nx_i 2)]; nx_lit [(false, nx_i 2); (false, nx_i 3)]] [])
             = Some (Chosen v, [false; true; false])) /\
  nx_field (nx_res [nx_lit [(false, nx_i 1); (false, nx_i 2)]] []) = Some (Ambiguous, [true; true; false]) /\
  nx_res [nx_one 3] [[(false, [nx_lit [(false, nx_i 1); (false, nx_i 2)]]); (false, [nx_one 3])]] = nx_res [nx_one 3] [] /\
  nx_res [] [[(false, [nx_lit [(false, nx_i 1); (false, nx_i 2)]]); (false, [nx_one 3])]] = GAmbiguous /\
  nx_res [] [[(true, [nx_one 1]); (false, [nx_one 2])]] = nx_res [nx_one 1] [] /\
  nx_res [nx_one 3] [[(false, [nx_one 1]); (false, [nx_one 2])]] = GNoValue /\
  alt_val nx_L nx_A 5 [nx_lit [(false, nx_i 1)]; nx_one 2] = AErr.
Proof.
  split; [eexists; vm_compute; reflexivity|].
  split; [eexists; vm_compute; reflexivity|].
  vm_compute. repeat split.
Qed.
Print Assumptions C04_nest_example.
