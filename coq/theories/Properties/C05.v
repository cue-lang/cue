(* C05 - Field constraints, patterns and closedness admit exactly what the spec allows.
   [admits] (Core/Spec.v) is the declarative reading of the property; [admission] shows
   that the evaluator's result tree is concrete and error free exactly when the conjuncts
   (schemas and the data struct) admit. *)
From Verif Require Import Core.Syntax Core.Eval Core.Laws Core.Spec Core.Spec2.
From Coq Require Import List.
Import ListNotations.

Theorem C05_admission : forall labs atoms fuel cs,
  res_ok (evalNode labs atoms fuel cs) = admits_conjs labs atoms fuel cs.
Proof. exact admission_conjs. Qed.
Print Assumptions C05_admission.

(* the verdict does not depend on the order / grouping of the schema conjuncts and the data *)
Theorem C05_admits_order_free : forall labs atoms fuel cs cs',
  ceqs cs cs' -> res_ok (evalNode labs atoms fuel cs) = res_ok (evalNode labs atoms fuel cs').
Proof. intros labs atoms fuel cs cs' H. rewrite (evalNode_ceqs labs atoms fuel cs cs' H). reflexivity. Qed.
Print Assumptions C05_admits_order_free.

(* a closed struct never silently gains a disallowed field *)
Theorem C05_closed_never_gains : forall labs atoms fuel cs l,
  In l labs -> presence (flat_all cs) l = PRegular -> allowed (n_closers (flat_all cs)) l = false ->
  n_struct (flat_all cs) = true -> res_ok (evalNode labs atoms fuel cs) = false.
Proof. exact closed_never_gains. Qed.
Print Assumptions C05_closed_never_gains.

(* hidden and definition fields are never restricted; an open struct never rejects *)
Theorem C05_special_always_allowed : forall closers l, is_special l = true -> allowed closers l = true.
Proof. intros closers l H. unfold allowed. rewrite H. reflexivity. Qed.
Print Assumptions C05_special_always_allowed.

Theorem C05_open_never_rejects : forall closers l, closers = [] -> allowed closers l = true.
Proof. exact open_never_rejects. Qed.
Print Assumptions C05_open_never_rejects.

(* every required field must be present *)
Theorem C05_required_must_be_present : forall labs atoms fuel cs l,
  In l labs -> presence (flat_all cs) l = PRequired -> n_struct (flat_all cs) = true ->
  res_ok (evalNode labs atoms fuel cs) = false.
Proof. exact required_must_be_present. Qed.
Print Assumptions C05_required_must_be_present.

(* non-vacuity: #A & {a: 1} admits, #A & {b: 1} does not, {#A, b: 1} admits (embedding widens),
   close one level vs definition recursively *)
Definition la := LReg 0%N.  Definition lb := LReg 1%N.
Definition labs := [la; lb; LReg 9%N].
Definition atoms := [AInt 1%Z].
Definition one := EScalar (SAtom (AInt 1%Z)).
Definition defA := ERefDef (EStruct [(HField la FOptional, EScalar (SKind KInt))]).
Definition g (e : expr) := mkConj false [e].
Example C05_example_closedness :
  admits_conjs labs atoms 6 [g defA; g (EStruct [(HField la FRegular, one)])] = true /\
  admits_conjs labs atoms 6 [g defA; g (EStruct [(HField lb FRegular, one)])] = false /\
  admits_conjs labs atoms 6 [g (EStruct [(HEmbed, defA); (HField lb FRegular, one)])] = true /\
  admits_conjs labs atoms 6 [g (EStruct [(HEmbed, defA); (HField lb FRegular, one)]);
                            g (EStruct [(HField (LReg 9%N) FRegular, one)])] = false /\
  (* close() closes one level only: close({a: {}}) & {a: {b: 1}} admits *)
  admits_conjs labs atoms 6 [g (EClose (EStruct [(HField la FRegular, EStruct [])]));
                            g (EStruct [(HField la FRegular, EStruct [(HField lb FRegular, one)])])] = true /\
  (* a definition closes recursively *)
  admits_conjs labs atoms 6 [g (ERefDef (EStruct [(HField la FRegular, EStruct [])]));
                            g (EStruct [(HField la FRegular, EStruct [(HField lb FRegular, one)])])] = false.
Proof. vm_compute. repeat split. Qed.
Print Assumptions C05_example_closedness.

(* clause by clause (Core/Spec2.v)                                                          *)

(* 1. optional constraints on absent fields never make a struct fail *)
Theorem C05_optional_absent_admits : forall labs atoms fuel cs l e,
  n_struct (flat_all cs) = true ->
  presence (flat_all cs) l <> PRegular ->
  admits_conjs labs atoms fuel (opt_conj l e :: cs) = admits_conjs labs atoms fuel cs.
Proof.
  intros labs atoms fuel cs l e Hs H1. unfold admits_conjs. rewrite flat_all_cons. set (fl := flat_all cs) in *.
  destruct fuel as [|f]; [reflexivity|]. cbn [admits].
  change (n_bot (nflat_app (flat_conj (opt_conj l e)) fl)) with (n_bot fl).
  change (n_struct (nflat_app (flat_conj (opt_conj l e)) fl)) with true.
  change (n_scal (nflat_app (flat_conj (opt_conj l e)) fl)) with (n_scal fl).
  change (n_closers (nflat_app (flat_conj (opt_conj l e)) fl)) with (n_closers fl).
  rewrite Hs. f_equal. f_equal.
  apply forallb_ext. intros l'. unfold presence. rewrite !has_field_opt.
  destruct (label_eqb l l') eqn:E.
  - apply label_eqb_eq in E. subst l'. unfold presence in H1.
    destruct (has_field fl l FRegular); [congruence|].
    destruct (has_field fl l FRequired); [reflexivity|].
    cbn [andb orb fk_is]. destruct (has_field fl l FOptional); reflexivity.
  - cbn [andb orb]. rewrite (children_opt_other fl l e l' E). reflexivity.
Qed.
Print Assumptions C05_optional_absent_admits.

Theorem C05_optional_absent_never_fails : forall labs atoms fuel cs l e,
  n_struct (flat_all cs) = true ->
  presence (flat_all cs) l <> PRegular ->
  res_ok (evalNode labs atoms fuel cs) = true ->
  res_ok (evalNode labs atoms fuel (cs ++ [mkConj false [EStruct [(HField l FOptional, e)]]])) = true.
Proof.
  intros labs atoms fuel cs l e Hs H1 H. change (mkConj false [EStruct [(HField l FOptional, e)]]) with (opt_conj l e).
  rewrite (eval_perm labs atoms fuel (cs ++ [opt_conj l e]) (opt_conj l e :: cs))
    by (apply Permutation.Permutation_sym, Permutation.Permutation_cons_append).
  rewrite admission_conjs, C05_optional_absent_admits, <- admission_conjs; auto.
Qed.
Print Assumptions C05_optional_absent_never_fails.

Theorem C05_optional_absent_in_literal : forall labs atoms fuel ds es cs l e,
  embed_free ds = true ->
  presence (flat_all (mkConj false (EStruct ds :: es) :: cs)) l <> PRegular ->
  res_ok (evalNode labs atoms fuel (mkConj false (EStruct ((HField l FOptional, e) :: ds) :: es) :: cs)) =
  res_ok (evalNode labs atoms fuel (mkConj false (EStruct ds :: es) :: cs)).
Proof.
  intros labs atoms fuel ds es cs l e Hf H1.
  assert (Hf' : embed_free ((HField l FOptional, e) :: ds) = true) by (cbn; exact Hf).
  assert (E : flat_conj (mkConj false (EStruct ((HField l FOptional, e) :: ds) :: es)) =
              flat_conj (mkConj false ([EStruct [(HField l FOptional, e)]] ++ EStruct ds :: es))).
  { unfold flat_conj. cbn [c_rec c_exprs app andb]. rewrite !flat_exprs_cons.
    rewrite (flatten_embed_free false al_empty _ Hf'), (flatten_embed_free false al_empty _ Hf).
    reflexivity. }
  transitivity (res_ok (evalNode labs atoms fuel (opt_conj l e :: mkConj false (EStruct ds :: es) :: cs))).
  - f_equal. unfold opt_conj. rewrite <- eval_split_decl. apply eval_head_neq. rewrite E. apply neq_refl.
  - rewrite !admission_conjs. apply C05_optional_absent_admits; auto.
    apply (lit_struct _ (mkConj false (EStruct ds :: es)) ds); [left; reflexivity | left; reflexivity | exact Hf].
Qed.
Print Assumptions C05_optional_absent_in_literal.

Definition two := EScalar (SAtom (AInt 2%Z)).
Definition int := EScalar (SKind KInt).
(* non-vacuity: #A & {a: 1} stays ok when b?: 2 is added (b absent); the side condition is exact:
   a?: 2 for the PRESENT field a makes it fail *)
Example C05_example_optional_absent :
  let cs := [g defA; g (EStruct [(HField la FRegular, one)])] in
  n_struct (flat_all cs) = true /\ presence (flat_all cs) lb = PAbsent /\ presence (flat_all cs) la = PRegular /\
  res_ok (evalNode labs atoms 6 cs) = true /\
  res_ok (evalNode labs atoms 6 (cs ++ [opt_conj lb two])) = true /\
  res_ok (evalNode labs atoms 6 (cs ++ [opt_conj la two])) = false.
Proof. vm_compute. repeat split. Qed.
Print Assumptions C05_example_optional_absent.

(* 2. the constraints matching a present field are satisfied *)
(* the groups handed to the child at l hold exactly the values declared for l and the values of
   the patterns matching l, of every conjunct *)
Theorem C05_children_values : forall fl l v,
  (exists c, In c (children fl l) /\ In v (c_exprs c)) <->
  (exists p, In p (n_parts fl) /\
     ((exists f, In f (gp_fields p) /\ label_eqb (fst (fst f)) l = true /\ snd f = v) \/
      (exists q, In q (gp_pats p) /\ pat_matches (fst q) l = true /\ snd q = v))).
Proof.
  intros fl l v. rewrite children_values.
  split; intros (p & Hp & H); exists p; split; auto; apply part_values_in; exact H.
Qed.
Print Assumptions C05_children_values.

Theorem C05_present_field_child : forall labs atoms f cs l,
  n_struct (flat_all cs) = true -> In l labs -> presence (flat_all cs) l = PRegular ->
  res_ok (evalNode labs atoms (S f) cs) = true ->
  field_at labs (evalNode labs atoms (S f) cs) l =
    Some (PRegular, evalNode labs atoms f (children (flat_all cs) l)) /\
  allowed (n_closers (flat_all cs)) l = true /\
  res_ok (evalNode labs atoms f (children (flat_all cs) l)) = true.
Proof.
  intros labs atoms f cs l Hs Hl Hp H. rewrite admission_conjs in H.
  destruct (admits_struct_inv labs atoms f _ H Hs) as (Hb & Hn & Hall). specialize (Hall l Hl).
  rewrite Hp in Hall. destruct Hall as [Ha Hc].
  split; [|split; [exact Ha | rewrite admission_conjs; exact Hc]].
  unfold evalNode. cbn [evalFlat]. rewrite Hb, Hs, Hn. cbn [negb andb field_at].
  rewrite (lookup_field_map _ labs l Hl), Hp, Ha. reflexivity.
Qed.
Print Assumptions C05_present_field_child.

Theorem C05_present_scalar_constraints_hold : forall labs atoms f cs l,
  n_struct (flat_all cs) = true -> In l labs -> presence (flat_all cs) l = PRegular ->
  res_ok (evalNode labs atoms (S (S f)) cs) = true ->
  forall p0 c0, In p0 (n_parts (flat_all cs)) -> In (EScalar c0) (part_values p0 l) ->
  exists a, In a atoms /\
            forall p c, In p (n_parts (flat_all cs)) -> In (EScalar c) (part_values p l) -> ssat a c = true.
Proof.
  intros labs atoms f cs l Hs Hl Hp H p0 c0 Hp0 Hc0.
  destruct (C05_present_field_child labs atoms (S f) cs l Hs Hl Hp H) as (_ & _ & Hc).
  rewrite admission_conjs in Hc. unfold admits_conjs in Hc.
  set (ch := children (flat_all cs) l) in *.
  assert (IN : forall p c, In p (n_parts (flat_all cs)) -> In (EScalar c) (part_values p l) ->
                           In c (n_scal (flat_all ch))).
  { intros p c Hpp Hcc. destruct (proj2 (children_values (flat_all cs) l (EScalar c))) as (g0 & Hg & Hv); [eauto|].
    apply (scal_in_flat_all ch g0 c Hg Hv). }
  cbn [admits] in Hc. apply andb_true_iff in Hc as [_ Hc].
  destruct (n_struct (flat_all ch)).
  - apply andb_true_iff in Hc as [Hn _]. pose proof (IN p0 c0 Hp0 Hc0) as X.
    destruct (n_scal (flat_all ch)); [destruct X | discriminate].
  - apply existsb_exists in Hc as (a & Ha & Hc). apply andb_true_iff in Hc as [_ Hc].
    exists a. split; [exact Ha|]. intros p c Hpp Hcc. rewrite forallb_forall in Hc. apply Hc. eauto.
Qed.
Print Assumptions C05_present_scalar_constraints_hold.

(* non-vacuity: {a: 1} & {[a or b]: int} & {a?: >0}: the child at a is the evaluation of the three
   constraints; with the pattern value string instead of int the struct fails *)
Example C05_example_present_field :
  let cs := [g (EStruct [(HField la FRegular, one)]); g (EStruct [(HPattern [0%N; 1%N], int)]);
             g (EStruct [(HField la FOptional, EScalar (SGt 0))])] in
  children (flat_all cs) la = [mkConj false [one; int; EScalar (SGt 0)]] /\
  res_ok (evalNode labs atoms 6 cs) = true /\
  field_at labs (evalNode labs atoms 6 cs) la = Some (PRegular, evalNode labs atoms 5 (children (flat_all cs) la)) /\
  res_ok (evalNode labs atoms 6
     [g (EStruct [(HField la FRegular, one)]); g (EStruct [(HPattern [0%N; 1%N], EScalar (SKind KStr))])]) = false.
Proof. vm_compute. repeat split. Qed.
Print Assumptions C05_example_present_field.

(* 3. definitions close recursively *)
Theorem C05_rec_children_rec : forall cs l,
  (forall g, In g cs -> c_rec g = true) -> forall c, In c (children (flat_all cs) l) -> c_rec c = true.
Proof.
  intros cs l Hall c Hc. destruct (children_rec_or_open _ _ _ Hc) as [->|Hr]; [|exact Hr]. exfalso.
  assert (O : open_values (flat_all cs) l = []).
  { unfold open_values. apply flat_map_nil. intros p Hp. rewrite fa_parts in Hp.
    apply in_flat_map in Hp as (g0 & Hg & Hp). rewrite (rec_group_parts g0 p (Hall g0 Hg) Hp). reflexivity. }
  unfold children in Hc. rewrite O in Hc. cbn [null app] in Hc.
  apply rec_children_in in Hc as (p & _ & _ & E). discriminate E.
Qed.
Print Assumptions C05_rec_children_rec.

(* ... at every depth *)
Theorem C05_rec_descend_rec : forall path cs,
  (forall g, In g cs -> c_rec g = true) -> forall c, In c (descend cs path) -> c_rec c = true.
Proof.
  induction path as [|l path IH]; intros cs Hall; cbn [descend]; [exact Hall|].
  apply IH. apply C05_rec_children_rec. exact Hall.
Qed.
Print Assumptions C05_rec_descend_rec.

Theorem C05_def_child_group : forall cs g ds l,
  In g cs -> In (ERefDef (EStruct ds)) (c_exprs g) -> embed_free ds = true ->
  null (part_values (mkPart true (fields_of ds) (pats_of ds)) l) = false ->
  In (mkConj true (part_values (mkPart true (fields_of ds) (pats_of ds)) l)) (children (flat_all cs) l).
Proof.
  intros cs g0 ds l Hg He Hf Hn. apply rec_part_child; [apply (def_part cs g0 ds Hg He Hf) | reflexivity | exact Hn].
Qed.
Print Assumptions C05_def_child_group.

Theorem C05_rec_group_rejects : forall cs g l,
  In g cs -> c_rec g = true -> existsb own_lit (c_exprs g) = true ->
  allows (all_declared (c_exprs g)) l = false -> is_special l = false ->
  allowed (n_closers (flat_all cs)) l = false.
Proof.
  intros cs g0 l Hg Hr Hl Ha Hs. apply (closer_rejects _ (all_declared (c_exprs g0))); auto.
  apply rec_group_closer; auto.
Qed.
Print Assumptions C05_rec_group_rejects.

Theorem C05_rec_descend_rejects : forall path cs c l,
  (forall g, In g cs -> c_rec g = true) -> In c (descend cs path) ->
  existsb own_lit (c_exprs c) = true -> allows (all_declared (c_exprs c)) l = false -> is_special l = false ->
  allowed (n_closers (flat_all (descend cs path))) l = false.
Proof.
  intros path cs c l Hall Hc Hl Ha Hs. apply (C05_rec_group_rejects _ c); auto.
  apply (C05_rec_descend_rec path cs Hall c Hc).
Qed.
Print Assumptions C05_rec_descend_rejects.

Theorem C05_def_closes_recursively : forall labs atoms fuel cs g ds gd dds dds2 l1 l2 v,
  In g cs -> In (ERefDef (EStruct ds)) (c_exprs g) -> embed_free ds = true ->
  In gd cs -> In (EStruct dds) (c_exprs gd) -> embed_free dds = true ->
  In (HField l1 FRegular, EStruct dds2) dds -> embed_free dds2 = true -> In (HField l2 FRegular, v) dds2 ->
  existsb own_lit (part_values (mkPart true (fields_of ds) (pats_of ds)) l1) = true ->
  allows (all_declared (part_values (mkPart true (fields_of ds) (pats_of ds)) l1)) l2 = false ->
  is_special l2 = false -> In l1 labs -> In l2 labs ->
  res_ok (evalNode labs atoms fuel cs) = false.
Proof.
  intros labs atoms fuel cs g0 ds gd dds dds2 l1 l2 v Hg He Hf Hgd Hed Hfd Hd1 Hf2 Hd2 Hlit Hno Hsp Hl1 Hl2.
  set (vs := part_values (mkPart true (fields_of ds) (pats_of ds)) l1) in *.
  destruct (res_ok (evalNode labs atoms fuel cs)) eqn:R; [exfalso|reflexivity].
  destruct fuel as [|f]; [discriminate R|].
  (* the data field l1 is present and its value reaches the child, where l2 is present in turn *)
  destruct (lit_field_present cs gd dds l1 _ Hgd Hed Hfd Hd1) as (S1 & P1 & c & Hc & Hcv).
  destruct (C05_present_field_child labs atoms f cs l1 S1 Hl1 P1 R) as (_ & _ & Rc).
  set (ch := children (flat_all cs) l1) in *.
  destruct (lit_field_present ch c dds2 l2 v Hc Hcv Hf2 Hd2) as (S2 & P2 & _).
  (* so does the closed group of the definition *)
  assert (Hn : null vs = false) by (destruct vs; [discriminate Hlit | reflexivity]).
  pose proof (C05_def_child_group cs g0 ds l1 Hg He Hf Hn) as Hgrp. fold vs in Hgrp. fold ch in Hgrp.
  assert (A2 : allowed (n_closers (flat_all ch)) l2 = false)
    by (apply (C05_rec_group_rejects ch (mkConj true vs)); auto).
  rewrite (closed_never_gains labs atoms f ch l2 Hl2 P2 A2 S2) in Rc. discriminate.
Qed.
Print Assumptions C05_def_closes_recursively.

(* non-vacuity: #D: {a: {c?: int}} & {a: {b: 1}}: the hypotheses hold and it fails; with the declared c it
   is ok; the groups two levels down are still recursively closed *)
Definition lc := LReg 2%N.
Definition labs3 := [la; lb; lc].
Definition dsD := [(HField la FRegular, EStruct [(HField lc FOptional, int)])].
Example C05_example_def_recursive :
  existsb own_lit (part_values (mkPart true (fields_of dsD) (pats_of dsD)) la) = true /\
  allows (all_declared (part_values (mkPart true (fields_of dsD) (pats_of dsD)) la)) lb = false /\
  allows (all_declared (part_values (mkPart true (fields_of dsD) (pats_of dsD)) la)) lc = true /\
  res_ok (evalNode labs3 atoms 6 [g (ERefDef (EStruct dsD));
                                  g (EStruct [(HField la FRegular, EStruct [(HField lb FRegular, one)])])]) = false /\
  res_ok (evalNode labs3 atoms 6 [g (ERefDef (EStruct dsD));
                                  g (EStruct [(HField la FRegular, EStruct [(HField lc FRegular, one)])])]) = true /\
  descend [mkConj true [EStruct [(HField la FRegular, EStruct [(HField lb FRegular, EStruct [])])]]] [la; lb]
    = [mkConj true [EStruct []]] /\
  allowed (n_closers (flat_all (descend
    [mkConj true [EStruct [(HField la FRegular, EStruct [(HField lb FRegular, EStruct [])])]]] [la; lb]))) lc = false.
Proof. vm_compute. repeat split. Qed.
Print Assumptions C05_example_def_recursive.

(* 4. close() closes one level *)
Theorem C05_close_one_level : forall cs l,
  (forall g, In g cs -> c_rec g = false /\ forall e, In e (c_exprs g) -> one_level e = true) ->
  n_closers (flat_all (children (flat_all cs) l)) = [].
Proof. intros cs l H. apply open_plain_children_open, one_level_open_plain, H. Qed.
Print Assumptions C05_close_one_level.

Theorem C05_close_one_level_allows : forall cs l l',
  (forall g, In g cs -> c_rec g = false /\ forall e, In e (c_exprs g) -> one_level e = true) ->
  allowed (n_closers (flat_all (children (flat_all cs) l))) l' = true.
Proof. intros cs l l' H. apply open_never_rejects, C05_close_one_level, H. Qed.
Print Assumptions C05_close_one_level_allows.

Theorem C05_close_rejects_undeclared : forall cs g b l,
  In g cs -> In (EClose b) (c_exprs g) -> allows (declared b) l = false -> is_special l = false ->
  allowed (n_closers (flat_all cs)) l = false.
Proof.
  intros cs g0 b l Hg He Ha Hs. apply (closer_rejects _ (al_union (declared b) al_empty)); auto.
  - apply (close_closer cs g0 b Hg He).
  - rewrite allows_union, Ha, allows_empty. reflexivity.
Qed.
Print Assumptions C05_close_rejects_undeclared.

(* an open struct (no definition, no close() at its level, not below a definition) has no closer *)
Theorem C05_plain_never_rejects : forall cs l,
  (forall g, In g cs -> c_rec g = false /\ forall e, In e (c_exprs g) -> plain e = true) ->
  allowed (n_closers (flat_all cs)) l = true.
Proof.
  intros cs l H. apply open_never_rejects. rewrite fa_closers. apply flat_map_nil. intros g0 Hg.
  destruct (H g0 Hg) as [Hr Hes]. unfold flat_conj. cbn [n_closers]. rewrite Hr. cbn [andb app].
  rewrite fe_closers. apply flat_map_nil. intros e He. apply plain_flat, Hes, He.
Qed.
Print Assumptions C05_plain_never_rejects.

(* non-vacuity: close({a: {}}) & {a: {b: 1}}: one closer at the top (b rejected there), none below *)
Example C05_example_close_one_level :
  let cs := [g (EClose (EStruct [(HField la FRegular, EStruct [])]));
             g (EStruct [(HField la FRegular, EStruct [(HField lb FRegular, one)])])] in
  forallb (fun c => negb (c_rec c) && forallb one_level (c_exprs c)) cs = true /\
  allowed (n_closers (flat_all cs)) lb = false /\
  n_closers (flat_all (children (flat_all cs) la)) = [] /\
  res_ok (evalNode labs atoms 6 cs) = true /\
  res_ok (evalNode labs atoms 6 [g (EClose (EStruct [(HField la FRegular, EStruct [])]));
                                 g (EStruct [(HField lb FRegular, one)])]) = false.
Proof. vm_compute. repeat split. Qed.
Print Assumptions C05_example_close_one_level.

(* 5. embeddings widen the enclosing struct *)
Theorem C05_embedding_widens : forall pre ds0 post l,
  embed_free pre = true -> embed_free post = true -> embed_free ds0 = true ->
  allowed (n_closers (flat_all [mkConj false [EStruct (pre ++ (HEmbed, ERefDef (EStruct ds0)) :: post)]])) l =
  is_special l || allows (declared (EStruct ds0)) l ||
  existsb (fun d => allows (decl_declared d) l) (pre ++ post).
Proof. exact embedding_widens. Qed.
Print Assumptions C05_embedding_widens.

Theorem C05_definition_alone_allows : forall ds0 l,
  embed_free ds0 = true ->
  allowed (n_closers (flat_all [mkConj false [ERefDef (EStruct ds0)]])) l =
  is_special l || allows (declared (EStruct ds0)) l.
Proof.
  intros ds0 l H0. rewrite closers_single, flatten_refdef. cbn [andb app with_closer f_closers seal].
  rewrite (flatten_embed_free _ _ ds0 H0). cbn [f_closers].
  rewrite allowed_single, allows_union, allows_empty, orb_false_r. reflexivity.
Qed.
Print Assumptions C05_definition_alone_allows.

Theorem C05_embedding_widens_declared : forall pre ds0 post l k v,
  embed_free pre = true -> embed_free post = true -> embed_free ds0 = true ->
  In (HField l k, v) (pre ++ post) ->
  allowed (n_closers (flat_all [mkConj false [EStruct (pre ++ (HEmbed, ERefDef (EStruct ds0)) :: post)]])) l = true.
Proof.
  intros pre ds0 post l k v Hpre Hpost H0 Hin. rewrite C05_embedding_widens by auto.
  assert (X : existsb (fun d => allows (decl_declared d) l) (pre ++ post) = true).
  { apply existsb_exists. exists (HField l k, v). split; [exact Hin|].
    unfold decl_declared, allows. cbn [fst decl_head_declared al_open al_labels existsb orb].
    rewrite label_eqb_refl. reflexivity. }
  rewrite X. apply orb_true_r.
Qed.
Print Assumptions C05_embedding_widens_declared.

Theorem C05_embedding_still_closed : forall pre ds0 post cs l,
  embed_free pre = true -> embed_free post = true -> embed_free ds0 = true ->
  is_special l = false -> allows (declared (EStruct ds0)) l = false ->
  existsb (fun d => allows (decl_declared d) l) (pre ++ post) = false ->
  allowed (n_closers (flat_all (mkConj false [EStruct (pre ++ (HEmbed, ERefDef (EStruct ds0)) :: post)] :: cs))) l = false.
Proof.
  intros pre ds0 post cs l Hpre Hpost H0 Hs Ha Hd. rewrite allowed_cons, C05_embedding_widens by auto.
  rewrite Hs, Ha, Hd. reflexivity.
Qed.
Print Assumptions C05_embedding_still_closed.

(* non-vacuity: #A: {a?: int}; {#A, b: 1} allows b, #A alone does not, and label 9 stays rejected *)
Example C05_example_embedding :
  let dsA := [(HField la FOptional, int)] in
  allowed (n_closers (flat_all [g (ERefDef (EStruct dsA))])) lb = false /\
  allowed (n_closers (flat_all [g (EStruct ([] ++ (HEmbed, ERefDef (EStruct dsA)) :: [(HField lb FRegular, one)]))])) lb = true /\
  allowed (n_closers (flat_all [g (EStruct ([] ++ (HEmbed, ERefDef (EStruct dsA)) :: [(HField lb FRegular, one)]))])) (LReg 9%N) = false /\
  allowed (n_closers (flat_all [g (EStruct ([(HField lb FRegular, one)] ++ (HEmbed, ERefDef (EStruct dsA)) :: []))])) lb = true.
Proof. vm_compute. repeat split. Qed.
Print Assumptions C05_example_embedding.

(* 6. an ellipsis opens *)
Theorem C05_ellipsis_opens_definition : forall ds x l,
  embed_free ds = true -> In (HEllipsis, x) ds ->
  allowed (n_closers (flat_all [mkConj false [ERefDef (EStruct ds)]])) l = true.
Proof.
  intros ds x l Hf H. rewrite (C05_definition_alone_allows ds l Hf), (ellipsis_declared_open ds x l H). apply orb_true_r.
Qed.
Print Assumptions C05_ellipsis_opens_definition.

Theorem C05_ellipsis_opens_close : forall ds x l,
  embed_free ds = true -> In (HEllipsis, x) ds ->
  allowed (n_closers (flat_all [mkConj false [EClose (EStruct ds)]])) l = true.
Proof.
  intros ds x l Hf H. rewrite closers_single, flatten_close. cbn [andb app with_closer f_closers].
  rewrite (flatten_embed_free _ _ ds Hf). cbn [f_closers].
  rewrite allowed_single, allows_union, (ellipsis_declared_open ds x l H). apply orb_true_r.
Qed.
Print Assumptions C05_ellipsis_opens_close.

Theorem C05_ellipsis_opens_nested : forall ds x l,
  embed_free ds = true -> In (HEllipsis, x) ds ->
  allowed (n_closers (flat_all [mkConj true [EStruct ds]])) l = true.
Proof.
  intros ds x l Hf H. rewrite closers_single, (flatten_embed_free _ _ ds Hf). cbn [andb own_lit f_closers app].
  rewrite allowed_single, allows_union, (ellipsis_declared_open ds x l H). apply orb_true_r.
Qed.
Print Assumptions C05_ellipsis_opens_nested.

Theorem C05_no_ellipsis_nested_rejects : forall ds l,
  embed_free ds = true -> is_special l = false -> allows (declared (EStruct ds)) l = false ->
  allowed (n_closers (flat_all [mkConj true [EStruct ds]])) l = false.
Proof.
  intros ds l Hf Hs H. apply (C05_rec_group_rejects _ (mkConj true [EStruct ds])); auto.
  - left. reflexivity.
  - cbn [c_exprs all_declared fold_right]. rewrite allows_union, H, allows_empty. reflexivity.
Qed.
Print Assumptions C05_no_ellipsis_nested_rejects.

(* non-vacuity: #D: {a?: int, ...} & {b: 1} is ok, without the ellipsis it fails; also one level down *)
Example C05_example_ellipsis :
  res_ok (evalNode labs atoms 6 [g (ERefDef (EStruct [(HField la FOptional, int); (HEllipsis, ETop)]));
                                 g (EStruct [(HField lb FRegular, one)])]) = true /\
  res_ok (evalNode labs atoms 6 [g (ERefDef (EStruct [(HField la FOptional, int)]));
                                 g (EStruct [(HField lb FRegular, one)])]) = false /\
  res_ok (evalNode labs atoms 6 [g (ERefDef (EStruct [(HField la FRegular, EStruct [(HEllipsis, ETop)])]));
                                 g (EStruct [(HField la FRegular, EStruct [(HField lb FRegular, one)])])]) = true /\
  allowed (n_closers (flat_all [mkConj true [EStruct [(HField la FOptional, int)]]])) lb = false.
Proof. vm_compute. repeat split. Qed.
Print Assumptions C05_example_ellipsis.

(* 7. monotonicity *)
(* an error never goes away by unifying more: more conjuncts, or more members of an open group *)
Theorem C05_err_monotone_cle : forall labs atoms fuel cs cs',
  (forall c, In c cs -> exists c', In c' cs' /\ c_rec c = c_rec c' /\
     if c_rec c then (forall x, In x (c_exprs c) <-> In x (c_exprs c')) else incl (c_exprs c) (c_exprs c')) ->
  res_err (evalNode labs atoms fuel cs) = true -> res_err (evalNode labs atoms fuel cs') = true.
Proof. intros labs atoms fuel cs cs' H. apply evalFlat_err_mono. exact (flat_all_cle cs cs' H). Qed.
Print Assumptions C05_err_monotone_cle.

Theorem C05_err_monotone : forall labs atoms fuel cs extra,
  res_err (evalNode labs atoms fuel cs) = true -> res_err (evalNode labs atoms fuel (cs ++ extra)) = true.
Proof. intros labs atoms fuel cs extra. apply C05_err_monotone_cle, cle_app. Qed.
Print Assumptions C05_err_monotone.

Theorem C05_ok_with_more_not_err : forall labs atoms fuel cs extra,
  res_ok (evalNode labs atoms fuel (cs ++ extra)) = true -> res_err (evalNode labs atoms fuel cs) = false.
Proof.
  intros labs atoms fuel cs extra H. destruct (res_err (evalNode labs atoms fuel cs)) eqn:E; [|reflexivity].
  apply (C05_err_monotone labs atoms fuel cs extra) in E. unfold res_ok in H. rewrite E in H. discriminate.
Qed.
Print Assumptions C05_ok_with_more_not_err.

(* the verdict itself is not antitone (a schema alone is not concrete): {a: int} vs {a: int} & {a: 1} *)
Theorem C05_ok_not_antitone_refuted :
  exists labs atoms fuel cs c,
    res_ok (evalNode labs atoms fuel (cs ++ [c])) = true /\ res_ok (evalNode labs atoms fuel cs) = false.
Proof.
  exists [LReg 0%N], [AInt 1%Z], 3,
    [mkConj false [EStruct [(HField (LReg 0%N) FRegular, EScalar (SKind KInt))]]],
    (mkConj false [EStruct [(HField (LReg 0%N) FRegular, EScalar (SAtom (AInt 1%Z)))]]).
  vm_compute. split; reflexivity.
Qed.
Print Assumptions C05_ok_not_antitone_refuted.

(* non-vacuity: #A & {b: 1} is in error and stays so when {b?: _} / more data is unified in *)
Example C05_example_err_monotone :
  let cs := [g defA; g (EStruct [(HField lb FRegular, one)])] in
  res_err (evalNode labs atoms 6 cs) = true /\
  res_err (evalNode labs atoms 6 (cs ++ [g (EStruct [(HField lb FOptional, ETop); (HEllipsis, ETop)])])) = true /\
  res_ok (evalNode labs atoms 6 ([g defA] ++ [g (EStruct [(HField la FRegular, one)])])) = true /\
  res_err (evalNode labs atoms 6 [g defA]) = false.
Proof. vm_compute. repeat split. Qed.
Print Assumptions C05_example_err_monotone.
