(* C06 - Arithmetic, comparison and numeric builtins are exact.
   Each statement is followed by Print Assumptions.

   Models (implementation-faithful, see the headers of the files):
     Num/Decimal.v  apd decimals at precision 34 as used by adt.numOp (dadd dsub dmul dquo dcmp ...)
     Num/IntDiv.v   intDivOp: div mod quo rem
     Num/NumLit.v   literal.ParseNum + NumInfo.decimal, byte level
     Num/Eval.v     expressions over these, evaluated at both layers (used by the examples)
   Specification layer:
     Num/DVal.v           dval : dec -> Q, the rational a decimal denotes (p10 e = 10^e in Q)
     Num/IntDivProofs.v   ival : dec -> Z, the integer an int-kinded decimal denotes
     Num/NumLitGrammar.v  the literals of doc/ref/spec.md as a generative grammar (render : lit -> bytes)
     Num/NumLitSpec.v     the value a scanned literal denotes exactly
   Related statements are grouped into one conjunction each. *)
From Coq Require Import Lia.
From Verif Require Import Base.Order Num.Decimal Num.IntDiv Num.Eval Num.NumLit Num.NumLitSpec
     Num.DVal Num.DigitsProofs Num.RoundProofs Num.ArithProofs Num.QuoProofs Num.DcmpProofs
     Num.IntDivProofs Num.NumLitProofs Num.NumLitGrammar Num.LitProofs Num.LitValueProofs
     Num.Examples.
From Coq Require Import List NArith ZArith QArith Qabs.
Import ListNotations.
Local Open Scope Q_scope.

Theorem C06_digits_characterised : forall n,
  (n < pow10 (digits n))%N /\ (digits n = 1 \/ pow10 (digits n - 1) <= n)%N /\ (1 <= digits n)%N.
Proof. exact digits_spec. Qed.
Print Assumptions C06_digits_characterised.

(* Round to p digits: at most p digits; identity when the coefficient fits *)
Theorem C06_round_digits_and_identity : forall p d,
  ((1 <= p)%N -> (digits (coeff (round p d)) <= p)%N) /\ ((digits (coeff d) <= p)%N -> round p d = d).
Proof. exact (fun p d => conj (round_digits p d) (round_small p d)). Qed.
Print Assumptions C06_round_digits_and_identity.

(* otherwise: within half a unit of the last kept digit, a multiple of that unit, ties away
   from zero - i.e. THE half-up rounding of the value *)
Theorem C06_round_correct : forall p d, (p < digits (coeff d))%N ->
  2 * Qabs (dval (round p d) - dval d) <= ulp p d /\
  (exists k : Z, dval (round p d) == inject_Z k * ulp p d) /\
  (2 * Qabs (dval (round p d) - dval d) == ulp p d -> Qabs (dval d) < Qabs (dval (round p d))).
Proof. exact (fun p d H => conj (round_error p d H) (conj (round_multiple p d H) (round_tie_away p d H))). Qed.
Print Assumptions C06_round_correct.

(* the Inexact condition bit is exactly "the value changed" *)
Theorem C06_round_inexact_flag : forall p d,
  snd (round_flag p d) = false <-> dval (round p d) == dval d.
Proof. exact round_exact_iff. Qed.
Print Assumptions C06_round_inexact_flag.

Theorem C06_exact_layer_values : forall x y,
  dval (add_exact x y) == dval x + dval y /\ dval (sub_exact x y) == dval x - dval y /\
  dval (mul_exact x y) == dval x * dval y /\ dval (dneg x) == - dval x.
Proof.
  exact (fun x y => conj (add_exact_val x y) (conj (sub_exact_val x y) (conj (mul_exact_val x y) (dneg_val x)))).
Qed.
Print Assumptions C06_exact_layer_values.

(* add (dadd = round34 o add_exact): correctly rounded to 34 significant digits *)
Theorem C06_add_correctly_rounded : forall x y,
  (34 < digits (coeff (add_exact x y)))%N ->
  let u := ulp 34 (add_exact x y) in
  2 * Qabs (dval (dadd x y) - (dval x + dval y)) <= u /\
  (exists k : Z, dval (dadd x y) == inject_Z k * u) /\
  (2 * Qabs (dval (dadd x y) - (dval x + dval y)) == u -> Qabs (dval x + dval y) < Qabs (dval (dadd x y))).
Proof. exact (rop_correctly_rounded add_exact Qplus add_exact_val). Qed.
Print Assumptions C06_add_correctly_rounded.

Theorem C06_sub_mul_correctly_rounded : forall x y,
  ((34 < digits (coeff (sub_exact x y)))%N ->
   let u := ulp 34 (sub_exact x y) in
   2 * Qabs (dval (dsub x y) - (dval x - dval y)) <= u /\
   (exists k : Z, dval (dsub x y) == inject_Z k * u) /\
   (2 * Qabs (dval (dsub x y) - (dval x - dval y)) == u -> Qabs (dval x - dval y) < Qabs (dval (dsub x y)))) /\
  ((34 < digits (coeff (mul_exact x y)))%N ->
   let u := ulp 34 (mul_exact x y) in
   2 * Qabs (dval (dmul x y) - (dval x * dval y)) <= u /\
   (exists k : Z, dval (dmul x y) == inject_Z k * u) /\
   (2 * Qabs (dval (dmul x y) - (dval x * dval y)) == u -> Qabs (dval x * dval y) < Qabs (dval (dmul x y)))).
Proof.
  exact (fun x y => conj (rop_correctly_rounded sub_exact Qminus sub_exact_val x y)
                         (rop_correctly_rounded mul_exact Qmult mul_exact_val x y)).
Qed.
Print Assumptions C06_sub_mul_correctly_rounded.

(* representation-independent: relative error at most 5 * 10^-34, for all operands *)
Theorem C06_add_sub_mul_relative_error : forall x y,
  2 * Qabs (dval (dadd x y) - (dval x + dval y)) * p10 33 <= Qabs (dval x + dval y) /\
  2 * Qabs (dval (dsub x y) - (dval x - dval y)) * p10 33 <= Qabs (dval x - dval y) /\
  2 * Qabs (dval (dmul x y) - (dval x * dval y)) * p10 33 <= Qabs (dval x * dval y).
Proof.
  exact (fun x y => conj (rop_relative_error add_exact Qplus add_exact_val x y)
                   (conj (rop_relative_error sub_exact Qminus sub_exact_val x y)
                         (rop_relative_error mul_exact Qmult mul_exact_val x y))).
Qed.
Print Assumptions C06_add_sub_mul_relative_error.

(* exact whenever the exact result has at most 34 digits *)
Theorem C06_add_sub_mul_exact_when_fits : forall x y,
  ((digits (coeff (add_exact x y)) <= 34)%N -> dval (dadd x y) == dval x + dval y) /\
  ((digits (coeff (sub_exact x y)) <= 34)%N -> dval (dsub x y) == dval x - dval y) /\
  ((digits (coeff (mul_exact x y)) <= 34)%N -> dval (dmul x y) == dval x * dval y).
Proof.
  exact (fun x y => conj (rop_exact_when_fits add_exact Qplus add_exact_val x y)
                   (conj (rop_exact_when_fits sub_exact Qminus sub_exact_val x y)
                         (rop_exact_when_fits mul_exact Qmult mul_exact_val x y))).
Qed.
Print Assumptions C06_add_sub_mul_exact_when_fits.

(* and exactly then (the Inexact bit of the rounding step) *)
Theorem C06_add_sub_mul_exact_iff : forall x y,
  (snd (round_flag 34 (add_exact x y)) = false <-> dval (dadd x y) == dval x + dval y) /\
  (snd (round_flag 34 (sub_exact x y)) = false <-> dval (dsub x y) == dval x - dval y) /\
  (snd (round_flag 34 (mul_exact x y)) = false <-> dval (dmul x y) == dval x * dval y).
Proof.
  exact (fun x y => conj (rop_exact_iff add_exact Qplus add_exact_val x y)
                   (conj (rop_exact_iff sub_exact Qminus sub_exact_val x y)
                         (rop_exact_iff mul_exact Qmult mul_exact_val x y))).
Qed.
Print Assumptions C06_add_sub_mul_exact_iff.

(* integers below 10^34 in magnitude: exact, and still an integer representation *)
Theorem C06_int_arith_exact_when : forall x y,
  exp x = 0%Z -> exp y = 0%Z ->
  ((Z.abs (sc x + sc y) < 10 ^ 34)%Z -> exp (dadd x y) = 0%Z /\ sc (dadd x y) = (sc x + sc y)%Z) /\
  ((Z.abs (sc x - sc y) < 10 ^ 34)%Z -> exp (dsub x y) = 0%Z /\ sc (dsub x y) = (sc x - sc y)%Z) /\
  ((Z.abs (sc x * sc y) < 10 ^ 34)%Z -> exp (dmul x y) = 0%Z /\ sc (dmul x y) = (sc x * sc y)%Z).
Proof.
  intros x y Ex Ey. split; [|split]; intros B.
  - exact (int_addsub_exact false x y Ex Ey B).
  - exact (int_addsub_exact true x y Ex Ey B).
  - unfold dmul. rewrite round34_small_sc by (rewrite mul_exact_sc; exact B).
    split; [cbn [mul_exact exp]; lia | apply mul_exact_sc].
Qed.
Print Assumptions C06_int_arith_exact_when.

(* THE PROPERTY AS WORDED IS FALSE OF THE FAITHFUL MODEL (finding F1):
   two int operands whose int-kinded sum is not their sum (10^36 + 1) *)
Theorem C06_int_add_exact_refuted :
  exists a b r, num_op OpAdd (int_lit a) (int_lit b) = Ok r /\ nk r = KInt /\
                ~ dval (nd r) == dval (nd (int_lit a)) + dval (nd (int_lit b)).
Proof.
  exists (10 ^ 36)%N, 1%N. eexists. split; [reflexivity|]. split; [reflexivity|].
  rewrite <- add_exact_val. intro H.
  apply Qeq_alt in H. vm_compute in H. discriminate H.
Qed.
Print Assumptions C06_int_add_exact_refuted.

Theorem C06_int_mul_exact_refuted :
  exists a b r, num_op OpMul (int_lit a) (int_lit b) = Ok r /\ nk r = KInt /\
                ~ dval (nd r) == dval (nd (int_lit a)) * dval (nd (int_lit b)).
Proof.
  exists (10 ^ 18 + 1)%N, (10 ^ 18 + 1)%N. eexists. split; [reflexivity|]. split; [reflexivity|].
  rewrite <- mul_exact_val. intro H.
  apply Qeq_alt in H. vm_compute in H. discriminate H.
Qed.
Print Assumptions C06_int_mul_exact_refuted.

Theorem C06_result_kind_and_errors : forall op x y,
  (forall r, num_op op x y = Ok r ->
     nk r = match op with
            | OpQuo => KFloat
            | _ => match nk x, nk y with KInt, KInt => KInt | _, _ => KFloat end
            end) /\
  (num_op op x y = Err <-> (op = OpQuo /\ coeff (nd y) = 0%N)).
Proof.
  intros op x y. split.
  - intros r H. destruct op; simpl in H.
    1-3: inversion H; subst; reflexivity.
    destruct (is_zero (nd y)); inversion H; reflexivity.
  - destruct op; simpl; unfold is_zero.
    1-3: split; [discriminate | intros [H _]; discriminate].
    destruct (N.eqb_spec (coeff (nd y)) 0); split; auto; try discriminate.
    intros [_ H]. contradiction.
Qed.
Print Assumptions C06_result_kind_and_errors.

(* q = x / y: |q*y - x| <= 1/2 * 10^E * |y| where 10^E is at most the unit of the 34th
   significant digit of q *)
Theorem C06_quo_correctly_rounded : forall x y,
  coeff y <> 0%N ->
  exists E : Z,
    2 * Qabs (dval (dquo x y) * dval y - dval x) <= p10 E * Qabs (dval y) /\
    (coeff x <> 0%N -> p10 (E + 33) <= Qabs (dval (dquo x y))) /\
    (coeff x = 0%N -> dval (dquo x y) == 0).
Proof.
  intros x y Hy. destruct (N.eq_dec (coeff x) 0) as [Z|NZ].
  - exists 0%Z. unfold dquo. rewrite reduce_keeping_floats_val.
    pose proof (quo_raw_zero prec x y Z) as Q0. split; [|split].
    + rewrite Q0, (dval_zero x Z).
      assert (2 * Qabs (0 * dval y - 0) == 0) as ->.
      { setoid_replace (0 * dval y - 0) with 0 by ring. reflexivity. }
      apply Qmult_le_0_compat. apply Qlt_le_weak, p10_pos. apply Qabs_nonneg.
    + intros; contradiction.
    + intros; exact Q0.
  - destruct (dquo_rounded x y NZ Hy) as (E & A & B & _). exists E.
    split; [exact A|]. split; [intros _; exact B|intros; contradiction].
Qed.
Print Assumptions C06_quo_correctly_rounded.

(* no representable quotient is lost: if x / y is a decimal of at most 34 digits, dquo returns it;
   in particular every integer quotient below 10^34 ("never loses integer exactness") *)
Theorem C06_quo_exact_when_representable :
  (forall x y r, coeff x <> 0%N -> coeff y <> 0%N -> (digits (coeff r) <= 34)%N ->
     dval r * dval y == dval x -> dval (dquo x y) == dval r) /\
  (forall x y (n : Z), coeff x <> 0%N -> coeff y <> 0%N -> (Z.abs n < 10 ^ 34)%Z ->
     inject_Z n * dval y == dval x -> dval (dquo x y) == inject_Z n).
Proof.
  split; [exact dquo_exact_when_representable|].
  intros x y n Hx Hy Hn HE.
  set (r := mkDec (n <? 0)%Z (Z.to_N (Z.abs n)) 0).
  assert (dval r == inject_Z n) as R.
  { unfold r, dval, sc, mkv. cbn [neg coeff exp]. rewrite p10_0, Qmult_1_r, Z2N.id by lia.
    destruct (Z.ltb_spec n 0); f_equiv; lia. }
  rewrite <- R. apply dquo_exact_when_representable; auto.
  - unfold r. cbn [coeff]. apply digits_le_iff; [lia|]. unfold pow10. lia.
  - rewrite R. exact HE.
Qed.
Print Assumptions C06_quo_exact_when_representable.

Theorem C06_quo_sign_and_reduce : forall x y,
  (coeff x <> 0%N -> coeff y <> 0%N -> neg (dquo x y) = xorb (neg x) (neg y)) /\
  dval (reduce_keeping_floats x) == dval x.
Proof.
  intros x y. split; [|apply reduce_keeping_floats_val].
  intros Hx Hy. unfold dquo.
  destruct (quo_raw_correct prec x y Hx Hy) as (_ & _ & N & C).
  rewrite reduce_keeping_floats_neg by exact C. exact N.
Qed.
Print Assumptions C06_quo_sign_and_reduce.

(* Decimal.Cmp is the order of the denoted rationals, hence a total preorder on
   representations (a total order on values) *)
Theorem C06_cmp_spec : forall d x, dcmp d x = (dval d ?= dval x).
Proof. exact dcmp_spec. Qed.
Print Assumptions C06_cmp_spec.

Theorem C06_cmp_total_order : total_pre dcmp /\ (forall d x, dcmp d x = Eq <-> dval d == dval x).
Proof.
  split; [|exact dcmp_eq_iff].
  constructor; [apply dcmp_refl|apply dcmp_opp|apply dcmp_trans|apply dcmp_eq_l].
Qed.
Print Assumptions C06_cmp_total_order.

(* the six operators on two numbers, int or float alike *)
Theorem C06_comparison_operators : forall x y,
  (num_cmp CLt x y = true <-> dval (nd x) < dval (nd y)) /\
  (num_cmp CLe x y = true <-> dval (nd x) <= dval (nd y)) /\
  (num_cmp CEq x y = true <-> dval (nd x) == dval (nd y)) /\
  (num_cmp CNe x y = true <-> ~ dval (nd x) == dval (nd y)) /\
  (num_cmp CGe x y = true <-> dval (nd y) <= dval (nd x)) /\
  (num_cmp CGt x y = true <-> dval (nd y) < dval (nd x)).
Proof.
  intros x y. unfold num_cmp. rewrite dcmp_spec.
  rewrite (Qlt_alt (dval (nd x))), (Qle_alt (dval (nd x))), (Qeq_alt (dval (nd x))),
    (Qge_alt (dval (nd x))), (Qgt_alt (dval (nd x))).
  destruct (dval (nd x) ?= dval (nd y)); cbn [cmp_to_bool]; intuition congruence.
Qed.
Print Assumptions C06_comparison_operators.

(* strings.Compare / bytes.Compare: a total order on byte strings; the six operators are the
   six relations of one three-way comparison *)
Theorem C06_bytes_cmp_total_order :
  total_cmp bytes_cmp /\
  forall r,
    cmp_to_bool CNe r = negb (cmp_to_bool CEq r) /\
    cmp_to_bool CGe r = negb (cmp_to_bool CLt r) /\
    cmp_to_bool CLe r = negb (cmp_to_bool CGt r) /\
    cmp_to_bool CLe r = (cmp_to_bool CLt r || cmp_to_bool CEq r)%bool /\
    (cmp_to_bool CLt r = true <-> r = Lt) /\
    (cmp_to_bool CEq r = true <-> r = Eq) /\
    (cmp_to_bool CGt r = true <-> r = Gt).
Proof.
  split.
  - pose proof (list_cmp_total N.compare N_compare_total) as H.
    constructor.
    + intros x y. rewrite bytes_cmp_is_list_cmp. apply (tc_eq _ H).
    + intros x y. rewrite !bytes_cmp_is_list_cmp. apply (tc_opp _ H).
    + intros x y z. rewrite !bytes_cmp_is_list_cmp. apply (tc_trans _ H).
  - destruct r; simpl; repeat split; intros; congruence.
Qed.
Print Assumptions C06_bytes_cmp_total_order.

Theorem C06_div_mod_euclid : forall a b,
  nk a = KInt -> nk b = KInt -> (0 <= exp (nd a))%Z -> (0 <= exp (nd b))%Z -> ival (nd b) <> 0%Z ->
  exists q m, int_div_op FDiv a b = Ok q /\ int_div_op FMod a b = Ok m /\
    nk q = KInt /\ nk m = KInt /\
    ival (nd a) = (ival (nd b) * ival (nd q) + ival (nd m))%Z /\
    (0 <= ival (nd m) < Z.abs (ival (nd b)))%Z.
Proof. exact div_mod_euclid. Qed.
Print Assumptions C06_div_mod_euclid.

Theorem C06_quo_rem_trunc : forall a b,
  nk a = KInt -> nk b = KInt -> (0 <= exp (nd a))%Z -> (0 <= exp (nd b))%Z -> ival (nd b) <> 0%Z ->
  exists q r, int_div_op FQuo a b = Ok q /\ int_div_op FRem a b = Ok r /\
    nk q = KInt /\ nk r = KInt /\
    ival (nd a) = (ival (nd b) * ival (nd q) + ival (nd r))%Z /\
    (Z.abs (ival (nd r)) < Z.abs (ival (nd b)))%Z /\
    (ival (nd r) = 0%Z \/ Z.sgn (ival (nd r)) = Z.sgn (ival (nd a))) /\
    (Z.abs (ival (nd b) * ival (nd q)) <= Z.abs (ival (nd a)))%Z.
Proof. exact quo_rem_trunc. Qed.
Print Assumptions C06_quo_rem_trunc.

(* zero divisor = error; exact at any size: the result IS big.Int's, whatever the magnitudes
   and the representation (an int may carry a positive exponent after F1) *)
Theorem C06_int_div_exact_any_size : forall f a b,
  nk a = KInt -> nk b = KInt -> (0 <= exp (nd a))%Z -> (0 <= exp (nd b))%Z ->
  (ival (nd b) = 0%Z -> int_div_op f a b = Err) /\
  (ival (nd b) <> 0%Z ->
     exists r, int_div_op f a b = Ok r /\ nk r = KInt /\ exp (nd r) = 0%Z /\
               ival (nd r) = big_fn f (ival (nd a)) (ival (nd b))).
Proof. exact int_div_op_spec. Qed.
Print Assumptions C06_int_div_exact_any_size.

(* ival is the denoted integer; the Euclidean pair is unique (so div/mod are the functions of
   the specification); float arguments are rejected *)
Theorem C06_int_div_aux :
  (forall d, (0 <= exp d)%Z -> dval d == inject_Z (ival d)) /\
  (forall x y q m q' m',
     (x = y * q + m -> 0 <= m < Z.abs y -> x = y * q' + m' -> 0 <= m' < Z.abs y -> q = q' /\ m = m')%Z) /\
  (forall f a b, (nk a = KFloat \/ nk b = KFloat) -> int_div_op f a b = Err).
Proof.
  split; [|split].
  - intros d H. unfold dval, ival. rewrite <- (mkv_shift (sc d) (exp d) (exp d) H).
    replace (exp d - exp d)%Z with 0%Z by lia. unfold mkv. rewrite p10_0. ring.
  - intros. assert (q = q') by nia. subst. lia.
  - intros f a b [H|H]; unfold int_div_op; rewrite H; [|destruct (nk a)]; reflexivity.
Qed.
Print Assumptions C06_int_div_aux.

Theorem C06_to_integral : forall x,
  ((0 <= exp x)%Z ->
     to_integral_flag x = (mkDec (neg x) (coeff x * pow10 (Z.to_N (exp x))) 0, false)) /\
  ((exp x < 0)%Z ->
     let e := pow10 (Z.to_N (- exp x)) in
     let c := coeff x in
     to_integral_flag x =
       (mkDec (neg x) (if (2 * (c mod e) <? e)%N then (c / e)%N else (c / e + 1)%N) 0,
        negb (c mod e =? 0)%N)).
Proof. exact (fun x => conj (to_integral_nonneg_exp x) (to_integral_neg_exp x)). Qed.
Print Assumptions C06_to_integral.

Theorem C06_literal_decimal_and_based : forall d p,
  (lit_ok (GDec d) = true -> (Z.of_N (digits (chars_value 10 (ds_chars d))) <= 100001)%Z ->
     lit_parse (render (GDec d)) = LNum (mkNum KInt (mkDec false (chars_value 10 (ds_chars d)) 0))) /\
  (lit_ok (GBased p d) = true ->
     lit_parse (render (GBased p d)) =
       LNum (mkNum KInt (mkDec false (chars_value (prefix_base p) (ds_chars d)) 0))).
Proof.
  exact (fun d p => conj (fun ok len => lit_parse_render (GDec d) ok len)
                         (fun ok => lit_parse_render (GBased p d) ok I)).
Qed.
Print Assumptions C06_literal_decimal_and_based.

(* float_lit = digits * 10^(exponent - #fraction digits), kind float, while the exponent stays
   inside apd's range *)
Theorem C06_literal_float_value : forall ip fp e,
  lit_ok (GFloat ip fp e) = true ->
  exp_in_range (chars_value 10 (opt_chars ip ++ fp_chars fp)) (expo_value e) (length (fp_chars fp)) ->
  lit_parse (render (GFloat ip fp e)) =
    LNum (mkNum KFloat (mantissa ip (fp_flat fp) (expo_value e))).
Proof. exact (fun ip fp e ok r => lit_parse_render (GFloat ip fp e) ok r). Qed.
Print Assumptions C06_literal_float_value.

(* ... and outside that range the literal is an error, never another value (C06-F9:
   NumInfo.decimal returns the error of apd's UnmarshalText) *)
Theorem C06_literal_float_out_of_range_rejected : forall ip fp e,
  lit_ok (GFloat ip fp e) = true ->
  ~ exp_in_range (chars_value 10 (opt_chars ip ++ fp_chars fp)) (expo_value e) (length (fp_chars fp)) ->
  lit_parse (render (GFloat ip fp e)) = LErr.
Proof.
  intros ip fp e Hok HR. rewrite float_parse by exact Hok. cbv zeta.
  destruct (int32_ok (expo_value e)); [|reflexivity].
  destruct (float_exponent_sides fp e) as [S1 S2].
  rewrite (proj2 (set_exponent_lit _ e _ _ (has_dot fp) S1 S2) HR). reflexivity.
Qed.
Print Assumptions C06_literal_float_out_of_range_rejected.

(* si_lit: the product at precision 34, then RoundToIntegralExact (implementation-faithful) *)
Theorem C06_literal_si_value : forall ip fp m,
  lit_ok (GSi ip fp m) = true -> si_no_leading_zero ip fp = true ->
  exp_in_range (chars_value 10 (opt_chars ip ++ opt_chars fp)) 0 (length (opt_chars fp)) ->
  lit_parse (render (GSi ip fp m)) =
    match to_integral_flag (dmul (mantissa ip fp 0) (mkDec false (mult_value m) 0)) with
    | (r, false) => LNum (mkNum KInt r)
    | (_, true) => LErr
    end.
Proof. exact (fun ip fp m ok nz r => lit_parse_render (GSi ip fp m) ok (conj nz r)). Qed.
Print Assumptions C06_literal_si_value.

(* ... which is the exact product - or an error exactly when that is not an integer -
   whenever the exact product has at most 34 digits (beyond: finding F5) *)
Theorem C06_mult_literal_exact_when : forall ip fp m,
  lit_ok (GSi ip fp m) = true -> si_no_leading_zero ip fp = true ->
  exp_in_range (chars_value 10 (opt_chars ip ++ opt_chars fp)) 0 (length (opt_chars fp)) ->
  let P := mul_exact (mantissa ip fp 0) (mkDec false (mult_value m) 0) in
  (digits (coeff P) <= 34)%N ->
  match lit_parse (render (GSi ip fp m)) with
  | LNum n => nk n = KInt /\ exp (nd n) = 0%Z /\ dval (nd n) == dval P
  | LErr => ~ exists z : Z, dval P == inject_Z z
  | LNaN _ => False
  end.
Proof. exact mult_literal_exact_when. Qed.
Print Assumptions C06_mult_literal_exact_when.

(* kind int iff not a float_lit; base; every spelling is accepted by the scanner *)
Theorem C06_literal_kind_int_iff : forall l,
  lit_ok l = true ->
  match l with GSi ip fp _ => si_no_leading_zero ip fp = true | _ => True end ->
  exists i, parse_num_noerr (render l) = Some i /\
            i_float i = (match l with GFloat _ _ _ => true | _ => false end) /\
            i_base i = (match l with GBased p _ => prefix_base p | _ => 10%N end).
Proof.
  intros l Hok Hs. unfold parse_num_noerr. destruct l as [d|p d|ip fp e|ip fp m].
  - rewrite (dec_scan false d Hok). eexists. repeat split.
  - rewrite (based_scan false p d Hok). eexists. repeat split.
  - rewrite (float_scan false ip fp e Hok). eexists. repeat split.
  - rewrite (si_scan false ip fp m Hok Hs). eexists. repeat split.
Qed.
Print Assumptions C06_literal_kind_int_iff.

(* F5: 1000000000000000000000000000000000.001K = 10^36 + 1 is read as 10^36 *)
Theorem C06_mult_literal_exact_refuted :
  exists src i n s,
    parse_num src = Some i /\ lit_parse src = LNum n /\ lit_exact i = Some s /\
    nk n = KInt /\ nk s = KInt /\
    dval (nd s) == inject_Z (10 ^ 36 + 1) /\ dval (nd n) == inject_Z (10 ^ 36).
Proof.
  exists (49 :: repeat 48 33 ++ [46; 48; 48; 49; 75])%N.
  exists (mkInfo (49 :: repeat 48 33 ++ [46; 48; 48; 49])%N 10%N (Some (mkMult 1 false)) false).
  exists (mkNum KInt (mkDec false (10 ^ 36) 0)), (mkNum KInt (mkDec false (10 ^ 36 + 1) 0)).
  split; [vm_compute; reflexivity|]. split; [vm_compute; reflexivity|].
  split; [vm_compute; reflexivity|]. split; [reflexivity|]. split; [reflexivity|].
  split; apply Qeq_alt; vm_compute; reflexivity.
Qed.
Print Assumptions C06_mult_literal_exact_refuted.

(* 1.3Ki: the specification truncates to 1331, ParseNum rejects *)
Theorem C06_mult_literal_truncation_refuted :
  exists src i,
    lit_parse src = LErr /\ parse_num_noerr src = Some i /\
    lit_exact i = Some (mkNum KInt (mkDec false 1331 0)).
Proof.
  exists [49; 46; 51; 75; 105]%N, (mkInfo [49; 46; 51]%N 10%N (Some (mkMult 1 true)) false).
  split; [vm_compute; reflexivity|]. split; vm_compute; reflexivity.
Qed.
Print Assumptions C06_mult_literal_truncation_refuted.

(* 1e100001, 1e-400000, 1e2147483648 are rejected (C06-F9); 1e100000 is the largest accepted
   exponent; no literal leaves a NaN decimal behind *)
Theorem C06_literal_exponent_range_rejected :
  (lit_parse f9_witness = LErr /\ lit_parse f9_witness_neg = LErr /\ lit_parse f9_witness_nan = LErr /\
   lit_parse [49; 101; 49; 48; 48; 48; 48; 48]%N = LNum (mkNum KFloat (mkDec false 1 100000)) /\
   classify f9_witness = LcSame /\ classify f9_witness_nan = LcSame) /\
  (forall src k, lit_parse src <> LNaN k).
Proof. split; [repeat split; vm_compute; reflexivity|exact lit_parse_never_nan]. Qed.
Print Assumptions C06_literal_exponent_range_rejected.

Example C06_arith_examples :
  (* F1 and a sum that fits *)
  (num_op OpAdd (i_ (10 ^ 36)) (i_ 1) = Ok (mkNum KInt (mkDec false (10 ^ 33) 3)) /\
   num_op OpAdd (i_ (10 ^ 33)) (i_ 1) = Ok (i_ (10 ^ 33 + 1))) /\
  (* a tie at digit 35 goes away from zero; 99..9|5 rolls over *)
  (dadd (mkDec false (10 ^ 34 + 5) 0) (mkDec false 0 0) = mkDec false (10 ^ 33 + 1) 1 /\
   dmul (mkDec false (10 ^ 35 - 5) 0) (mkDec false 1 0) = mkDec false (10 ^ 33) 2) /\
  (* quotients *)
  (num_op OpQuo (i_ 1) (i_ 3) = Ok (f_ 3333333333333333333333333333333333 (-34)) /\
   num_op OpQuo (i_ 2) (i_ 3) = Ok (f_ 6666666666666666666666666666666667 (-34)) /\
   num_op OpQuo (i_ 6) (i_ 2) = Ok (f_ 30 (-1)) /\
   num_op OpQuo (i_ 1) (i_ 0) = Err) /\
  (* comparisons across kinds and representations *)
  (num_cmp CEq (i_ 1) (f_ 1000 (-3)) = true /\ num_cmp CLt (f_ 999 (-3)) (i_ 1) = true /\
   num_cmp CGt (i_ (10 ^ 40)) (f_ 9 39) = true /\ num_cmp CLe (ni_ 1) (f_ 0 5) = true).
Proof.
  exact (conj (conj ex_f1 ex_add_fits) (conj (conj ex_tie ex_rollover)
        (conj (conj ex_third (conj ex_two_thirds (conj ex_six_two ex_div_zero))) ex_cmp))).
Qed.
Print Assumptions C06_arith_examples.

(* int against float beyond the precision of float64, as an operator and as bound validation *)
Example C06_mixed_order_examples :
  num_cmp CGt (i_ 9007199254740993) (f_ 90071992547409920 (-1)) = true /\
  num_cmp CLe (i_ 9007199254740993) (f_ 90071992547409920 (-1)) = false /\
  num_cmp CGt (i_ (2 ^ 63)) (f_ (2 ^ 63 * 10 - 5) (-1)) = true /\
  num_cmp CGt (i_ (10 ^ 34 + 1)) (f_ 10 33) = true /\
  num_cmp CLt (i_ 0) (f_ 1 (-400)) = true /\
  eval true (EBound CGt (ELit (i_ 9007199254740993)) (ELit (f_ 90071992547409920 (-1)))) = Ok (VNum (i_ 9007199254740993)) /\
  eval true (EBound CLt (ELit (i_ 9007199254740993)) (ELit (f_ 90071992547409920 (-1)))) = Err.
Proof. exact ex_mixed_order. Qed.
Print Assumptions C06_mixed_order_examples.

(* the tables of doc/ref/spec.md, and big operands *)
Example C06_int_div_examples :
  (map (fun '(x, y) => (int_div_op FDiv x y, int_div_op FMod x y))
       [(i_ 5, i_ 3); (ni_ 5, i_ 3); (i_ 5, ni_ 3); (ni_ 5, ni_ 3)]
   = [(Ok (i_ 1), Ok (i_ 2)); (Ok (ni_ 2), Ok (i_ 1)); (Ok (ni_ 1), Ok (i_ 2)); (Ok (i_ 2), Ok (i_ 1))] /\
   map (fun '(x, y) => (int_div_op FQuo x y, int_div_op FRem x y))
       [(i_ 5, i_ 3); (ni_ 5, i_ 3); (i_ 5, ni_ 3); (ni_ 5, ni_ 3)]
   = [(Ok (i_ 1), Ok (i_ 2)); (Ok (ni_ 1), Ok (ni_ 2)); (Ok (ni_ 1), Ok (i_ 2)); (Ok (i_ 1), Ok (ni_ 2))]) /\
  (int_div_op FDiv (i_ (10 ^ 40)) (i_ 7) = Ok (i_ (10 ^ 40 / 7)) /\
   int_div_op FDiv (mkNum KInt (mkDec false (10 ^ 33) 3)) (i_ 7) = Ok (i_ (10 ^ 36 / 7))).
Proof. exact (conj (conj ex_divmod ex_quorem) (conj ex_div_big ex_div_rounded)). Qed.
Print Assumptions C06_int_div_examples.

Example C06_literal_examples :
  (* 1.5G  0xBad_Face  072.40  .12345E+5 *)
  (lit_parse [49; 46; 53; 71]%N = LNum (i_ 1500000000) /\
   lit_parse [48; 120; 66; 97; 100; 95; 70; 97; 99; 101]%N = LNum (i_ 195951310) /\
   lit_parse [48; 55; 50; 46; 52; 48]%N = LNum (f_ 7240 (-2)) /\
   lit_parse [46; 49; 50; 51; 52; 53; 69; 43; 53]%N = LNum (f_ 12345 0)) /\
  (* 1__0  0x  1e  01  1A  ""  1<NUL> *)
  map lit_parse [[49; 95; 95; 48]; [48; 120]; [49; 101]; [48; 49]; [49; 65]; []; [49; 0]]%N =
  [LErr; LErr; LErr; LErr; LErr; LErr; LErr] /\
  (* members of the grammar: the hypotheses of the literal theorems are satisfiable *)
  (render g_float = [48; 55; 50; 46; 52; 48]%N /\ lit_ok g_float = true) /\
  (render g_float2 = [49; 95; 48; 46; 53; 101; 45; 51]%N /\ lit_ok g_float2 = true /\
     lit_parse (render g_float2) = LNum (f_ 105 (-4))) /\
  (render g_si = [49; 46; 53; 71]%N /\ lit_ok g_si = true) /\
  (render g_si0 = [48; 75; 105]%N /\ lit_ok g_si0 = true /\ lit_parse (render g_si0) = LNum (i_ 0)) /\
  (render g_hex = [48; 120; 66; 97; 100; 95; 70; 97; 99; 101]%N /\ lit_ok g_hex = true) /\
  (render g_dec = [49; 55; 48; 95; 49; 52; 49]%N /\ lit_ok g_dec = true /\
     lit_parse (render g_dec) = LNum (i_ 170141)).
Proof.
  exact (conj (conj ex_lit_si (conj ex_lit_hex (conj ex_lit_float ex_lit_exp)))
        (conj ex_lit_errors
        (conj ex_g_float (conj ex_g_float2 (conj ex_g_si (conj ex_g_si0 (conj ex_g_hex ex_g_dec))))))).
Qed.
Print Assumptions C06_literal_examples.
