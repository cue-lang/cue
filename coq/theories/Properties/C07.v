(* C07 - Printing an evaluated value as CUE and evaluating it again gives the same value.
   Value-level printing of CoreCUE normal forms, the option profiles, the predeclared-range
   rewriting of bounds.go.  The statements of the property, each with its Print Assumptions; a proof
   script stands here where no other file uses the fact. *)
From Verif Require Import Core.Syntax Core.Eval Print.Model Print.ScalProofs Print.Proofs Print.ProjProofs Print.Examples Print.Impl Print.ImplProofs Core.Disj Print.DisjModel Print.DisjProofs.
From Coq Require Import List ZArith NArith.
Import ListNotations.

(* evaluating the printed normal form gives the value the normal form denotes: every well-formed
   normal form, label universe, probe atoms, and any fuel above its depth *)
Theorem C07_eval_print : forall labs atoms fuel r,
  wfb r = true -> (depth r < fuel)%nat ->
  evalNode labs atoms fuel [mkConj false [print_nf r]] = denote labs atoms r.
Proof. exact eval_print. Qed.
Print Assumptions C07_eval_print.

(* the same for EVERY fuel, against the reading of r with the evaluator's fuel discipline *)
Theorem C07_eval_print_every_fuel : forall labs atoms fuel r,
  wfb r = true -> evalNode labs atoms fuel [mkConj false [print_nf r]] = denoteF labs atoms fuel r.
Proof. exact eval_print_fuel. Qed.
Print Assumptions C07_eval_print_every_fuel.

(* the normal form computed from the flattened conjuncts denotes their value ... *)
Theorem C07_normalize_sound : forall labs atoms fuel fl,
  nf_ok (normalize fuel fl) = true ->
  denoteF labs atoms fuel (normalize fuel fl) = evalFlat labs atoms fuel fl.
Proof. exact normalize_sound_fuel. Qed.
Print Assumptions C07_normalize_sound.

(* ... and is well formed (unique labels, pattern constraints absorbed, scalars not in error) *)
Theorem C07_normalize_wf : forall fuel fl, nf_ok (normalize fuel fl) = true -> wfb (normalize fuel fl) = true.
Proof. exact normalize_wf. Qed.
Print Assumptions C07_normalize_wf.

(* THE property for the model: print the evaluated value, evaluate the text again - the same
   result tree (fields, presence, kinds, acceptance, atoms the value equals, closedness at every node) *)
Theorem C07_print_roundtrip : forall labs atoms fuel cs,
  nf_ok (normalize_conjs fuel cs) = true ->
  evalNode labs atoms fuel [mkConj false [print_nf (normalize_conjs fuel cs)]] = evalNode labs atoms fuel cs.
Proof. exact print_roundtrip. Qed.
Print Assumptions C07_print_roundtrip.

(* what a profile shows denotes the projection of the value (Final/Concrete: regular and required
   fields with regular labels, recursively, nothing else; All: everything) *)
Theorem C07_project_sound : forall labs atoms p r r',
  wfb r = true -> project p r = Some r' ->
  wfb r' = true /\ denote labs atoms r' = project_res_p labs p (denote labs atoms r).
Proof. exact project_sound. Qed.
Print Assumptions C07_project_sound.

(* ... and is preserved by projection, then print, then evaluation *)
Theorem C07_project_print_sound : forall labs atoms p r r' fuel,
  wfb r = true -> project p r = Some r' -> (depth r' < fuel)%nat ->
  evalNode labs atoms fuel [mkConj false [print_nf r']] = project_res_p labs p (denote labs atoms r).
Proof. exact project_print_sound. Qed.
Print Assumptions C07_project_print_sound.

Theorem C07_project_concrete_refuses : forall r,
  project PConcrete r = None <-> nf_concrete (project_value r) = false.
Proof. intros r. cbn [project]. destruct (nf_concrete (project_value r)); split; congruence. Qed.
Print Assumptions C07_project_concrete_refuses.

(* a scalar that is not in error is equivalent to its canonical shape (its atom when concrete) *)
Theorem C07_canon_scal_equiv : forall cs, scalar_bottom cs = false -> sc_equiv (canon_scal cs) cs.
Proof. exact canon_scal_equiv. Qed.
Print Assumptions C07_canon_scal_equiv.

(* bounds.go + MatchBuiltinRange: the predeclared-range form admits exactly what the conjuncts admit *)
Theorem C07_range_rewrite_sound : forall a cs, psat_all a (range_rewrite cs) = sat_all a cs.
Proof. exact range_rewrite_sound. Qed.
Print Assumptions C07_range_rewrite_sound.

(* ---- implementation layer of the definition-mode profiles (expr.go mergeValues + export.Def at
   the root of the printed value) ---- *)
(* it agrees with the specification on conjunct lists of plain struct literals ... *)
Theorem C07_impl_def_plain_sound : forall labs atoms fuel es cs,
  es <> [] -> forallb plain_lit es = true ->
  evalNode labs atoms fuel (mkConj false [impl_def_root es] :: cs) = evalNode labs atoms fuel (mkConj false es :: cs).
Proof.
  intros labs atoms fuel es cs _ Hp. apply Verif.Core.Laws.eval_head_neq, impl_def_root_plain, Hp.
Qed.
Print Assumptions C07_impl_def_plain_sound.

(* ... and is refuted on a close()d value that receives a further conjunct (known finding F10:
   close({a: 1, b?: int}) & {a: int} is printed as close({...}) & close({a: int})) ... *)
Theorem C07_impl_def_refuted_close :
  exists cs, evalNode w_labs w_atoms 10 (impl_def cs) <> evalNode w_labs w_atoms 10 cs.
Proof. exact impl_def_refuted_close. Qed.
Print Assumptions C07_impl_def_refuted_close.

(* ... and on a recursively closed value that receives a further conjunct (known finding F11:
   everything is wrapped in _#def) *)
Theorem C07_impl_def_refuted_def :
  exists cs, evalNode w_labs w_atoms 10 (impl_def cs) <> evalNode w_labs w_atoms 10 cs.
Proof. exact impl_def_refuted_def. Qed.
Print Assumptions C07_impl_def_refuted_def.

Example C07_w_close_observable :
  (match evalNode w_labs w_atoms 10 w_close with RStruct fs o => nth 1 (map fst fs) PAbsent = POptional /\ nth 1 o false = true | _ => False end) /\
  (match evalNode w_labs w_atoms 10 (impl_def w_close) with RStruct fs o => nth 1 o true = false | _ => False end).
Proof. exact w_close_observable. Qed.
Print Assumptions C07_w_close_observable.

(* ---- disjunctions with defaults (Print/DisjModel.v: exporter.value, case *adt.Disjunction,
   adt.Default under TakeDefaults) over the order-free semantics of Core/Disj.v ------------------- *)
(* eval (print v) = v for an evaluated disjunction with default marks *)
Theorem C07_eval_print_sdisj :
  forall labs atoms f d, sd_wf d = true ->
    pair_of labs atoms (S f) [] [print_sdisj d] = sd_denote atoms d.
Proof. exact eval_print_sdisj. Qed.
Print Assumptions C07_eval_print_sdisj.

(* the round trip: evaluate a conjunction of scalars and disjunctions, print the evaluated
   disjunction with its marks, evaluate the text: the same value/default pair *)
Theorem C07_print_marked_roundtrip :
  forall labs atoms f plain ds,
    forallb pure_scalar plain = true -> forallb pure_disj ds = true ->
    pair_of labs atoms (S f) [] [print_marked labs atoms (S f) plain ds] = pair_of labs atoms (S f) plain ds.
Proof. exact print_marked_roundtrip. Qed.
Print Assumptions C07_print_marked_roundtrip.

(* value-mode profiles (TakeDefaults): the printed text resolves to what the original resolves to *)
Theorem C07_print_final_resolve :
  forall labs atoms f plain ds,
    forallb pure_scalar plain = true -> forallb pure_disj ds = true ->
    resolve (pair_of labs atoms (S f) [] [print_final labs atoms (S f) plain ds]) =
    resolve (pair_of labs atoms (S f) plain ds).
Proof. exact print_final_resolve. Qed.
Print Assumptions C07_print_final_resolve.

(* ... and its values are exactly the defaults of the original (all values when there is none) *)
Theorem C07_print_final_values :
  forall labs atoms f plain ds,
    forallb pure_scalar plain = true -> forallb pure_disj ds = true ->
    let p := pair_of labs atoms (S f) plain ds in
    values (pair_of labs atoms (S f) [] [print_final labs atoms (S f) plain ds]) =
    match defaults p with [] => values p | dv => dv end.
Proof. exact print_final_values. Qed.
Print Assumptions C07_print_final_values.

(* adt.Default alone leaves the resolution as it is *)
Theorem C07_take_defaults_resolve :
  forall atoms d, resolve (sd_denote atoms (take_defaults d)) = resolve (sd_denote atoms d).
Proof. exact take_defaults_resolve. Qed.
Print Assumptions C07_take_defaults_resolve.

Example C07_ex_disj_normal_form :
  map fst (normalize_sdisj [] dx_atoms 5 dx_plain dx_ds) = [true; false; true; false] /\
  map fst (print_final [] dx_atoms 5 dx_plain dx_ds) = [false; false] /\
  length (values (pair_of [] dx_atoms 5 [] [print_final [] dx_atoms 5 dx_plain dx_ds])) = 2%nat /\
  resolve (pair_of [] dx_atoms 5 dx_plain dx_ds) = Ambiguous.
Proof. exact dx_normal_form. Qed.
Print Assumptions C07_ex_disj_normal_form.

Example C07_ex_roundtrip :
  evalNode ex_labs ex_atoms 10 [mkConj false [print_nf ex_nf]] = evalNode ex_labs ex_atoms 10 ex_cs.
Proof. exact ex_roundtrip. Qed.
Print Assumptions C07_ex_roundtrip.

Example C07_ex_nf_ok : nf_ok ex_nf = true /\ wfb ex_nf = true /\ depth ex_nf = 2%nat.
Proof. exact ex_nf_ok. Qed.
Print Assumptions C07_ex_nf_ok.

Example C07_ex_range_uint : range_rewrite [SKind KInt; SGt 1; SLt 5] = [PUint; PC (SGt 1); PC (SLt 5)].
Proof. exact ex_range_uint. Qed.
Print Assumptions C07_ex_range_uint.
