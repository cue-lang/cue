(* C08 - cue fmt is idempotent and never changes what a file means (expression
   level; the C07 items about precedence printing and token separation). *)
From Verif Require Import Syn.Lex Syn.LexProofs Syn.Expr Syn.Basics Syn.Proofs Syn.Space Syn.Layout Syn.Examples.
From Coq Require Import List NArith Bool.
Import ListNotations.

(* a token sequence in which every pair printed without a blank is allowed by the
   separation table scans back to exactly the same tokens *)
Theorem C08_scan_render : forall ts, Forall tok_wf (map snd ts) -> separated ts = true ->
  scan (render ts) = Some (map snd ts).
Proof. exact scan_render. Qed.
Print Assumptions C08_scan_render.

(* F3: `<` followed by unary `-` needs a blank, glued it is the arrow token *)
Theorem C08_lss_sub_needs_sep :
  needs_sep (TOp LSS) (TOp SUB) = true /\
  scan (render [(false, TOp LSS); (false, TOp SUB); (false, TInt [49%N])]) = Some [TOp ARROW; TInt [49%N]] /\
  scan (render [(false, TOp LSS); (true, TOp SUB); (false, TInt [49%N])]) = Some [TOp LSS; TOp SUB; TInt [49%N]].
Proof. exact lss_sub_needs_sep. Qed.
Print Assumptions C08_lss_sub_needs_sep.

Theorem C08_int_period_needs_sep :
  needs_sep (TInt [49%N]) (TP PERIOD) = true /\
  scan (render [(false, TInt [49%N]); (false, TP PERIOD); (false, TIdent [97%N])]) = Some [TFloat [49%N; 46%N]; TIdent [97%N]] /\
  scan (render [(false, TInt [49%N]); (true, TP PERIOD); (false, TIdent [97%N])]) = Some [TInt [49%N]; TP PERIOD; TIdent [97%N]].
Proof. repeat split; reflexivity. Qed.
Print Assumptions C08_int_period_needs_sep.

Theorem C08_underscore_or_needs_sep :
  needs_sep (TIdent [95%N]) (TOp OR) = true /\
  scan (render [(false, TIdent [95%N]); (false, TOp OR); (false, TIdent [95%N])]) = Some [TBottom].
Proof. split; reflexivity. Qed.
Print Assumptions C08_underscore_or_needs_sep.

(* internal/pretty's unary merge test is exactly the separation table on pairs of
   unary operators; printer.go's mayCombine (with opCombinesWith) covers every such
   pair, in particular the seven of finding K1 *)
Theorem C08_v2_unary_merges_exact : forall o o', In o unops -> In o' unops ->
  v2_unary_merges o o' = needs_sep (TOp o) (TOp o').
Proof.
  (* one evaluation of the whole 12 x 12 table *)
  assert (T : forallb (fun o => forallb (fun o' =>
                Bool.eqb (v2_unary_merges o o') (needs_sep (TOp o) (TOp o'))) unops) unops = true) by reflexivity.
  intros o o' H H'. rewrite forallb_forall in T. specialize (T o H).
  rewrite forallb_forall in T. apply Bool.eqb_prop. exact (T o' H').
Qed.
Print Assumptions C08_v2_unary_merges_exact.

Theorem C08_v1_may_combine_complete : forall o o', In o unops -> In o' unops ->
  needs_sep (TOp o) (TOp o') = true -> v1_may_combine (TOp o) (TOp o') = true.
Proof.
  assert (T : forallb (fun o => forallb (fun o' =>
                implb (needs_sep (TOp o) (TOp o')) (v1_may_combine (TOp o) (TOp o'))) unops) unops = true) by reflexivity.
  intros o o' H H' N. rewrite forallb_forall in T. specialize (T o H).
  rewrite forallb_forall in T. specialize (T o' H'). rewrite N in T. exact T.
Qed.
Print Assumptions C08_v1_may_combine_complete.

Theorem C08_v1_formerly_missed_now_separated : forall o o', In (o, o') v1_missed ->
  needs_sep (TOp o) (TOp o') = true /\ v1_may_combine (TOp o) (TOp o') = true.
Proof.
  intros o o' H. simpl in H.
  repeat (destruct H as [H | H]; [inversion H; subst; split; reflexivity|]). contradiction.
Qed.
Print Assumptions C08_v1_formerly_missed_now_separated.

(* parse (print e) = e for every parser-shaped tree *)
Theorem C08_parse_print_wf : forall e, wf e -> parse (print1 e) = Some e.
Proof. exact parse_print_wf. Qed.
Print Assumptions C08_parse_print_wf.

(* for EVERY tree of valid operators (any shape, ParenExpr nodes anywhere): the
   printed tokens parse to the tree with exactly the printed parentheses *)
Theorem C08_parse_print1 : forall e, valid e -> parse (print1 e) = Some (canon e 0).
Proof. exact parse_print1. Qed.
Print Assumptions C08_parse_print1.

Theorem C08_unparen_canon : forall e q, unparen (canon e q) = unparen e.
Proof. exact unparen_canon. Qed.
Print Assumptions C08_unparen_canon.

(* parse_print_expr: no parenthesis can be dropped or misplaced *)
Theorem C08_parse_print_expr : forall e, valid e -> noparen e ->
  exists e', parse (print1 e) = Some e' /\ unparen e' = e.
Proof. exact parse_print_expr. Qed.
Print Assumptions C08_parse_print_expr.

(* what the parser returns is parser-shaped *)
Theorem C08_parse_pwf : forall ts e, parse ts = Some e -> pwf e.
Proof.
  intros ts e H. unfold parse in H.
  destruct (p_binary (fuel_of ts) 1 ts) as [[x [|? ?]]|] eqn:E; try discriminate.
  inversion H; subst. apply (p_binary_out _ _ _ _ _ E); repeat constructor.
Qed.
Print Assumptions C08_parse_pwf.

(* formatting printed text again changes nothing *)
Theorem C08_fmt1_print : forall e, valid e -> fmt1 (print1 e) = Some (print1 e).
Proof.
  intros e V. unfold fmt1. rewrite (parse_print1 e V). unfold print1.
  rewrite (pr1_canon e 0 0 (PeanoNat.Nat.le_0_l _)). reflexivity.
Qed.
Print Assumptions C08_fmt1_print.

(* on every token list, whatever redundant parentheses it has, one step reaches the normal form *)
Theorem C08_fmt1_idempotent : forall ts ts', fmt1 ts = Some ts' -> fmt1 ts' = Some ts'.
Proof.
  intros ts ts' H. unfold fmt1 in H. destruct (parse ts) as [e|] eqn:P; [|discriminate].
  inversion H; subst. apply C08_fmt1_print. eapply shape_valid. eapply C08_parse_pwf. exact P.
Qed.
Print Assumptions C08_fmt1_idempotent.

(* the tree is preserved up to the one documented normalisation ((x)) -> (x) *)
Theorem C08_fmt1_preserves_tree : forall ts e, parse ts = Some e ->
  exists ts', fmt1 ts = Some ts' /\ parse ts' = Some (collapse e).
Proof.
  intros ts e P. exists (print1 e). unfold fmt1. rewrite P. split; [reflexivity|].
  pose proof (C08_parse_pwf _ _ P) as W.
  rewrite (parse_print1 e (shape_valid _ _ W)), (canon_collapse e W 0 (PeanoNat.Nat.le_0_l _)). reflexivity.
Qed.
Print Assumptions C08_fmt1_preserves_tree.

Theorem C08_unparen_collapse : forall e, unparen (collapse e) = unparen e.
Proof.
  induction e using expr_ind2; simpl; try congruence.
  - rewrite IHe, map_map, (All_map_ext _ _ _ _ _ _ H (fun x Hx => Hx)). reflexivity.
  - destruct (is_paren e); simpl; exact IHe.
Qed.
Print Assumptions C08_unparen_collapse.

Theorem C08_collapse_wf_id : forall e, wf e -> collapse e = e.
Proof.
  unfold wf. induction e using expr_ind2; intros W; simpl in W; simpl.
  - reflexivity.
  - destruct W as (_ & _ & _ & Wx & Wy). rewrite IHe1, IHe2 by assumption. reflexivity.
  - destruct W as (_ & _ & Wx). rewrite IHe by assumption. reflexivity.
  - destruct W as (_ & _ & Wx). rewrite IHe by assumption. reflexivity.
  - destruct W as (_ & Wx & Wi). rewrite IHe1, IHe2 by assumption. reflexivity.
  - destruct W as (_ & Wf & Wa).
    rewrite IHe, (All_map_ext _ _ _ _ _ _ (All_mp _ _ _ _ H Wa) (fun x Hx => Hx)), map_id by assumption. reflexivity.
  - destruct W as (NP & Wx). rewrite (NP eq_refl). rewrite IHe by assumption. reflexivity.
Qed.
Print Assumptions C08_collapse_wf_id.

Theorem C08_print2_eq_print1_when : forall e, v2_safe e = true -> print2 e = print1 e.
Proof.
  intros e S. unfold v2_safe in S. apply negb_true_iff in S.
  exact (v2_eq e S MDisp I).
Qed.
Print Assumptions C08_print2_eq_print1_when.

Theorem C08_pwf_v2_safe : forall e, pwf e -> v2_safe e = true.
Proof.
  intros e W. unfold v2_safe. apply negb_true_iff.
  revert W. unfold pwf. induction e using expr_ind2; simpl; intros W; auto.
  - destruct W as (_ & _ & Ly & Wx & Wy). rewrite IHe1, IHe2 by assumption.
    replace (same_chain_op o e2) with false; [rewrite andb_false_r; reflexivity|].
    destruct e2; try reflexivity. simpl in *. destruct (op_eqb o0 o) eqn:E; [|reflexivity].
    apply op_eqb_eq in E. subst. destruct (PeanoNat.Nat.nle_succ_diag_l _ Ly).
  - destruct W as (_ & _ & Wx). auto.
  - destruct W as (_ & _ & Wx). auto.
  - destruct W as (_ & Wx & Wi). rewrite IHe1, IHe2 by assumption. reflexivity.
  - destruct W as (_ & Wf & Wa). rewrite IHe by assumption. simpl.
    clear -H Wa. induction a as [|x l IH]; [reflexivity|]. simpl in *.
    destruct H as [Hx Hl], Wa as [Wx Wl]. rewrite Hx, IH by assumption. reflexivity.
  - destruct W as (_ & Wx). auto.
Qed.
Print Assumptions C08_pwf_v2_safe.

(* so on every token list (format.Source) both formatters print the same tokens *)
Theorem C08_fmt2_eq_fmt1 : forall ts, fmt2 ts = fmt1 ts.
Proof.
  intros ts. unfold fmt2, fmt1. destruct (parse ts) as [e|] eqn:P; [|reflexivity].
  rewrite (C08_print2_eq_print1_when e); [reflexivity|]. apply C08_pwf_v2_safe. eapply C08_parse_pwf. exact P.
Qed.
Print Assumptions C08_fmt2_eq_fmt1.

Theorem C08_fmt2_idempotent : forall ts ts', fmt2 ts = Some ts' -> fmt2 ts' = Some ts'.
Proof. intros ts ts'. rewrite !C08_fmt2_eq_fmt1. apply C08_fmt1_idempotent. Qed.
Print Assumptions C08_fmt2_idempotent.

Theorem C08_fmt2_preserves_tree : forall ts e, parse ts = Some e ->
  exists ts', fmt2 ts = Some ts' /\ parse ts' = Some (collapse e).
Proof. intros ts e P. rewrite C08_fmt2_eq_fmt1. apply C08_fmt1_preserves_tree. exact P. Qed.
Print Assumptions C08_fmt2_preserves_tree.

(* on trees WITHOUT ParenExpr nodes (format.Node on programmatic ASTs) V2 keeps the
   parentheses of a unary operand of a postfix operator (finding K25) *)
Theorem C08_print2_unary_postfix_parenthesised :
  let e := ESel (EUn SUB ex_a) (TIdent [98%N]) in
  valid e /\ noparen e /\ print2 e = print1 e /\
  parse (print2 e) = Some (ESel (EParen (EUn SUB ex_a)) (TIdent [98%N])).
Proof. exact print2_unary_postfix_parenthesised. Qed.
Print Assumptions C08_print2_unary_postfix_parenthesised.

(* ... but still loses the grouping of a right-nested chain (K26) *)
Theorem C08_print2_chain_refuted :
  let e := EBin OR ex_a (EBin OR (EUn MUL ex_b) ex_c) in
  valid e /\ noparen e /\
  parse (print2 e) = Some (EBin OR (EBin OR ex_a (EUn MUL ex_b)) ex_c) /\
  parse (print1 e) = Some (EBin OR ex_a (EParen (EBin OR (EUn MUL ex_b) ex_c))).
Proof. exact print2_chain_refuted. Qed.
Print Assumptions C08_print2_chain_refuted.

(* if every pair the printer does not separate by a blank is allowed by the table,
   the text reads back to the printed tokens whatever the layout engine chooses *)
Theorem C08_sp_scan : forall l, Forall tok_wf (map snd l) -> sep_ok l = true ->
  forall ch, scan (render (resolve ch 0 l)) = Some (map snd l).
Proof.
  intros l W S ch. rewrite <- (resolve_toks ch l 0). apply scan_render.
  - rewrite resolve_toks. exact W.
  - apply sep_ok_separated. exact S.
Qed.
Print Assumptions C08_sp_scan.

Theorem C08_v1_text_reads_back : forall e, valid e -> Forall tok_wf (print1 e) ->
  sep_ok (sp1 e 0) = true -> forall ch,
  scan (render (resolve ch 0 (sp1 e 0))) = Some (print1 e) /\ parse (print1 e) = Some (canon e 0).
Proof.
  intros e V W S ch. split; [|apply parse_print1; exact V].
  unfold print1 in *. rewrite <- (sp1_toks e 0) in *. apply C08_sp_scan; assumption.
Qed.
Print Assumptions C08_v1_text_reads_back.

Theorem C08_v2_text_reads_back : forall e, valid e -> v2_safe e = true -> Forall tok_wf (print2 e) ->
  sep_ok (sp2 MDisp e) = true -> forall ch,
  scan (render (resolve ch 0 (sp2 MDisp e))) = Some (print2 e) /\ parse (print2 e) = Some (canon e 0).
Proof.
  intros e V SF W S ch. split.
  - unfold print2 in *. rewrite <- (sp2_toks e MDisp) in *. apply C08_sp_scan; assumption.
  - rewrite (C08_print2_eq_print1_when e SF). apply parse_print1. exact V.
Qed.
Print Assumptions C08_v2_text_reads_back.

(* the blanks the model leaves to the layout engine (around + - * /) are never needed *)
Theorem C08_sp1_layout_never_needed : forall e, valid e -> atoms_wf e -> forall q, lay_ok (sp1 e q).
Proof. exact (fun e V W q => proj1 (sp1_layout_ok e V W q)). Qed.
Print Assumptions C08_sp1_layout_never_needed.

Theorem C08_sp2_layout_never_needed : forall e, valid e -> atoms_wf e -> forall m, lay_ok (sp2 m e).
Proof. exact (fun e V W m => proj1 (sp2_layout_ok e V W m)). Qed.
Print Assumptions C08_sp2_layout_never_needed.

(* hence: whenever the model predicts no hazardous pair, the printed text reads back *)
Theorem C08_v1_reads_back_when_no_hazard : forall e, valid e -> atoms_wf e -> Forall tok_wf (print1 e) ->
  hazards (sp1 e 0) = [] -> forall ch,
  scan (render (resolve ch 0 (sp1 e 0))) = Some (print1 e) /\ parse (print1 e) = Some (canon e 0).
Proof.
  intros e V W T H ch. apply C08_v1_text_reads_back; try assumption.
  apply hazards_lay_sep; [exact H | apply (sp1_layout_ok e V W 0)].
Qed.
Print Assumptions C08_v1_reads_back_when_no_hazard.

Theorem C08_v2_reads_back_when_no_hazard : forall e, valid e -> atoms_wf e -> v2_safe e = true ->
  Forall tok_wf (print2 e) -> hazards (sp2 MDisp e) = [] -> forall ch,
  scan (render (resolve ch 0 (sp2 MDisp e))) = Some (print2 e) /\ parse (print2 e) = Some (canon e 0).
Proof.
  intros e V W S T H ch. apply C08_v2_text_reads_back; try assumption.
  apply hazards_lay_sep; [exact H | apply (sp2_layout_ok e V W MDisp)].
Qed.
Print Assumptions C08_v2_reads_back_when_no_hazard.

(* finding K1: formatter V1 keeps the blank of `< -1`;  finding K2: formatter V2 keeps the blank of `1 .a` *)
Theorem C08_v1_separates_lss_sub :
  let e := EUn LSS (EUn SUB one) in
  valid e /\ Forall tok_wf (print1 e) /\
  hazards (sp1 e 0) = [] /\ sep_ok (sp1 e 0) = true /\
  scan (render (resolve (fun _ => false) 0 (sp1 e 0))) = Some (print1 e) /\
  parse (print1 e) = Some e /\
  hazards (sp2 MDisp e) = [] /\
  scan (render (resolve (fun _ => true) 0 (sp2 MDisp e))) = Some (print2 e).
Proof. intros e. repeat split; repeat constructor. Qed.
Print Assumptions C08_v1_separates_lss_sub.

Theorem C08_v2_separates_int_period :
  let e := ESel one (TIdent [97%N]) in
  valid e /\ Forall tok_wf (print2 e) /\
  hazards (sp2 MDisp e) = [] /\ sep_ok (sp2 MDisp e) = true /\
  scan (render (resolve (fun _ => false) 0 (sp2 MDisp e))) = Some (print2 e) /\
  parse (print2 e) = Some e /\
  hazards (sp1 e 0) = [] /\
  scan (render (resolve (fun _ => true) 0 (sp1 e 0))) = Some (print1 e).
Proof. intros e. repeat split; repeat constructor. Qed.
Print Assumptions C08_v2_separates_int_period.

Example C08_example_wf_tree : wf ex_tree /\ parse (print1 ex_tree) = Some ex_tree /\ length (print1 ex_tree) = 29.
Proof.
  split; [|split; vm_compute; reflexivity].
  unfold wf. simpl. repeat split; auto; try discriminate; repeat constructor.
Qed.
Print Assumptions C08_example_wf_tree.

Example C08_example_redundant_parens :
  parse ex_soup = Some ex_soup_tree /\ fmt1 ex_soup = Some ex_soup_fmt /\ fmt2 ex_soup = Some ex_soup_fmt /\
  fmt1 ex_soup_fmt = Some ex_soup_fmt /\ parse ex_soup_fmt = Some (collapse ex_soup_tree) /\
  collapse ex_soup_tree <> ex_soup_tree /\ length ex_soup = 15 /\ length ex_soup_fmt = 9.
Proof. repeat split; try (vm_compute; reflexivity). intro H; vm_compute in H; discriminate. Qed.
Print Assumptions C08_example_redundant_parens.

Example C08_example_separated :
  Forall tok_wf (map snd ex_sep) /\ separated ex_sep = true /\ scan (render ex_sep) = Some (map snd ex_sep) /\
  sep_ok (sp1 ex_tree 0) = true /\ sep_ok (sp2 MDisp ex_tree) = true /\ Forall tok_wf (print1 ex_tree).
Proof.
  (* no vm_compute on the whole goal: it would normalise tok_wf itself *)
  repeat split; repeat constructor.
Qed.
Print Assumptions C08_example_separated.
