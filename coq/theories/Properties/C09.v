(* C09 - literals round-trip through quoting; the modelled Unquote is total.
   The statements of the property, each with Print Assumptions.
   Strings are byte lists; [pr_tbl]/[gr_tbl] are strconv.IsPrint / IsGraphic for
   runes > 0xFF (Go's Unicode tables) and are universally quantified WITHOUT any
   hypothesis; [wrap] = false is literal.Unquote ([unquote_impl]); [wrap] = true
   is the layer [unquote_int32] (an int32 accumulator of \U escapes: design/C09.md,
   finding unquote-U) -- the round-trip theorems hold for both. *)
From Verif Require Import Utf8.Model Utf8.Proofs Lit.Quote Lit.Unquote Lit.Basics Lit.Steps Lit.Loops
  Lit.HashCount Lit.Raw Lit.RoundTrip Lit.NoPanic Lit.Examples Lit.Indent Lit.IndentProofs.
From Coq Require Import List NArith ZArith Lia.
Import ListNotations.

(* decoding what AppendRune wrote for any scalar value gives it back, with its width *)
Theorem C09_utf8_decode_encode : forall r rest, scalar r ->
  utf8_decode (utf8_encode r ++ rest) = (r, length (utf8_encode r)).
Proof. exact decode_encode. Qed.
Print Assumptions C09_utf8_decode_encode.

(* DecodeRuneInString on ANY byte list: either (RuneError, 1), or the bytes consumed
   are exactly the encoding of the scalar value returned *)
Theorem C09_utf8_decode_spec : forall b t,
  let '(r, w) := utf8_decode (b :: t) in
  (r = rune_error /\ w = 1%nat) \/
  (scalar r /\ firstn w (b :: t) = utf8_encode r /\ length (utf8_encode r) = w /\
   (w <= length (b :: t))%nat /\ (b < 0x80 <-> r < 0x80) /\ (r < 0x80 -> r = b)).
Proof. exact decode_spec. Qed.
Print Assumptions C09_utf8_decode_spec.

(* what string forms lose: nothing iff the text is valid UTF-8 *)
Theorem C09_sanitize_valid : forall s, valid_utf8 s -> sanitize s = s.
Proof. exact sanitize_valid. Qed.
Print Assumptions C09_sanitize_valid.

Theorem C09_sanitize_fixed_valid : forall s, is_bytes s -> sanitize s = s -> valid_utf8 s.
Proof. intros s _. apply sanitize_fixed. Qed.
Print Assumptions C09_sanitize_fixed_valid.

(* single line, no hashes (String, Bytes, Label; ASCII-only; graphic-only) *)
Theorem C09_unquote_quote_single : forall wrap pr_tbl gr_tbl f s,
  public_form f -> is_bytes s ->
  eff_multiline f s = false -> eff_hash pr_tbl gr_tbl f s = 0%nat ->
  unquote wrap (quote pr_tbl gr_tbl f s) = Ok (expected f s).
Proof. exact unquote_quote_single. Qed.
Print Assumptions C09_unquote_quote_single.

(* multi-line with n tabs (WithTabIndent, WithOptionalTabIndent on text with a
   newline), any required number of hashes *)
Theorem C09_unquote_quote_multi : forall wrap pr_tbl gr_tbl f s,
  public_form f -> is_bytes s -> eff_multiline f s = true ->
  unquote wrap (quote pr_tbl gr_tbl f s) = Ok (expected f s).
Proof. exact unquote_quote_multi. Qed.
Print Assumptions C09_unquote_quote_multi.

(* single line with hashes (WithOptionalHashes) *)
Theorem C09_unquote_quote_hash : forall wrap pr_tbl gr_tbl f s,
  public_form f -> is_bytes s ->
  eff_multiline f s = false -> eff_hash pr_tbl gr_tbl f s <> 0%nat ->
  unquote wrap (quote pr_tbl gr_tbl f s) = Ok (expected f s).
Proof. exact unquote_quote_hash. Qed.
Print Assumptions C09_unquote_quote_hash.

(* round trip, every public form, EVERY byte sequence, unconditionally:
   bytes forms return every byte sequence unchanged, string forms every valid
   UTF-8 text unchanged and otherwise exactly [sanitize s] (each undecodable
   byte becomes U+FFFD) *)
Theorem C09_unquote_quote_all : forall wrap pr_tbl gr_tbl f s,
  public_form f -> is_bytes s ->
  unquote wrap (quote pr_tbl gr_tbl f s) = Ok (expected f s).
Proof. exact unquote_quote_all. Qed.
Print Assumptions C09_unquote_quote_all.

Theorem C09_unquote_quote_bytes_forms : forall wrap pr_tbl gr_tbl f s,
  public_form f -> f_exact f = true -> is_bytes s ->
  unquote wrap (quote pr_tbl gr_tbl f s) = Ok s.
Proof.
  intros wrap pr gr f s Hp He Hb. rewrite unquote_quote_all by assumption.
  unfold expected. now rewrite He.
Qed.
Print Assumptions C09_unquote_quote_bytes_forms.

Theorem C09_unquote_quote_string_forms : forall wrap pr_tbl gr_tbl f s,
  public_form f -> is_bytes s -> valid_utf8 s ->
  unquote wrap (quote pr_tbl gr_tbl f s) = Ok s.
Proof.
  intros wrap pr gr f s Hp Hb Hv. rewrite unquote_quote_all by assumption.
  unfold expected. destruct (f_exact f); [reflexivity|]. now rewrite sanitize_valid.
Qed.
Print Assumptions C09_unquote_quote_string_forms.

(* the raw hash form is never chosen for a text starting with two quote characters,
   so what follows the opening quote never reads as a multi-line opening (design/C09.md, finding autohash) *)
Theorem C09_hash_form_not_multiline_opening : forall pr_tbl gr_tbl f s, public_form f ->
  eff_multiline f s = false -> eff_hash pr_tbl gr_tbl f s <> 0%nat ->
  look3 (f_quote f) (s ++ f_quote f :: hashes (eff_hash pr_tbl gr_tbl f s)) = false /\
  lead_qq (f_quote f) s = false.
Proof.
  intros pr gr f s Hpub Hml Hne.
  destruct (eff_hash_chosen pr gr f s Hpub Hml Hne) as [Hl _]. split; [|exact Hl].
  pose proof (public_quote f Hpub) as Hq.
  rewrite look3_opens_multiline; [now apply opens_multiline_lead_qq| |exact Hne].
  chars.
Qed.
Print Assumptions C09_hash_form_not_multiline_opening.

(* requiredHashCount: three quotes followed by hashCount hashes occur nowhere in the text *)
Theorem C09_required_hash_count_sufficient : forall q s, q <> ch_hash ->
  no_delim q (required_hash_count q s) s.
Proof. exact required_hash_count_sufficient. Qed.
Print Assumptions C09_required_hash_count_sufficient.

(* multi-line: at no rune boundary of the escaped body (in particular at no line
   start) does the closing delimiter begin *)
Theorem C09_multi_body_no_closing : forall pr_tbl gr_tbl f s x t rest,
  public_form f -> is_bytes s -> s = x ++ t ->
  prefixb (triple (f_quote f) ++ hashes (required_hash_count (f_quote f) s))
          (esc pr_tbl gr_tbl f true (required_hash_count (f_quote f) s) t ++ ch_nl :: rest) = false.
Proof.
  intros pr gr f s x t rest Hpub Hb ->. pose proof (public_quote f Hpub) as Hq.
  apply no_closing_prefix; [exact Hpub|apply Forall_app in Hb; tauto|].
  apply (no_delim_suffix _ _ x), required_hash_count_sufficient.
  chars.
Qed.
Print Assumptions C09_multi_body_no_closing.

(* single line with hashes: the raw body has only valid printable runes and every
   quote / backslash is followed by fewer hashes than the delimiter has *)
Theorem C09_single_line_hash_count_sufficient : forall pr_tbl gr_tbl f s, public_form f ->
  eff_multiline f s = false -> eff_hash pr_tbl gr_tbl f s <> 0%nat ->
  plain (f_quote f) (eff_hash pr_tbl gr_tbl f s)
        (f_quote f :: hashes (eff_hash pr_tbl gr_tbl f s)) s.
Proof. exact hash_form_plain. Qed.
Print Assumptions C09_single_line_hash_count_sufficient.

Theorem C09_plain_occurrence : forall qc nh rest a c b,
  plain qc nh rest (a ++ c :: b) -> c = qc \/ c = ch_bs -> c < 0x80 -> valid_utf8 a ->
  (count_prefix ch_hash (b ++ rest) < nh)%nat.
Proof.
  intros qc nh rest a c b Hp Hc Hc80 Ha. revert Hp.
  induction Ha as [|r a' Hsc Ha' IH]; intro Hp.
  - cbn [app] in Hp. inversion Hp as [|r tl Hsc H0 Hnl Hcr Hrun Hp' E]; subst.
    destruct (N.ltb_spec r 0x80) as [Hlt|Hge].
    + rewrite encode_ascii in E by assumption. cbn [app] in E. inversion E; subst. auto.
    + destruct (encode_high r Hge) as [_ [b0 [t0 [E0 Hb0]]]]. rewrite E0 in E. cbn [app] in E.
      inversion E; subst. lia.
  - rewrite <- app_assoc in Hp.
    inversion Hp as [|r0 tl Hsc0 H0 Hnl Hcr Hrun Hp' E]; subst.
    { destruct (utf8_encode r) eqn:Er; [exfalso; eapply encode_nonempty; eauto|discriminate]. }
    (* the first rune of both decompositions is the same *)
    assert (Hd1 := decode_encode r (a' ++ c :: b) Hsc).
    assert (Hd2 := decode_encode r0 tl Hsc0).
    rewrite <- E in Hd1. rewrite Hd2 in Hd1. inversion Hd1; subst r0.
    apply app_inv_head in E. subst tl. apply IH. exact Hp'.
Qed.
Print Assumptions C09_plain_occurrence.

(* fuel (= len(s)+1 iterations) always suffices, for both layers *)
Theorem C09_unquote_fuel_sufficient : forall wrap s, unquote wrap s <> OutOfFuel.
Proof. exact (fun wrap s => proj1 (unquote_total wrap s)). Qed.
Print Assumptions C09_unquote_fuel_sufficient.

(* literal.Unquote never reaches unquoteChar on an empty string,
   buf[:len(buf)-1] on an empty buffer, or panic(unreachable), and never runs
   out of fuel: for EVERY input *)
Theorem C09_unquote_impl_no_panic : forall s, unquote_impl s <> Panic /\ unquote_impl s <> OutOfFuel.
Proof.
  intro s. destruct (unquote_total false s) as [H1 H2]. split; [now apply H2|exact H1].
Qed.
Print Assumptions C09_unquote_impl_no_panic.

Theorem C09_unquote_spec_no_panic : forall s, unquote_spec s <> Panic /\ unquote_spec s <> OutOfFuel.
Proof. exact C09_unquote_impl_no_panic. Qed.
Print Assumptions C09_unquote_spec_no_panic.

(* the implementation layer IS the specification layer (uint32 accumulator) *)
Theorem C09_unquote_impl_eq_spec : forall s, unquote_impl s = unquote_spec s.
Proof. reflexivity. Qed.
Print Assumptions C09_unquote_impl_eq_spec.

(* regression layer: what an int32 accumulator would do, and exactly where it
   can differ (a byte U directly followed by a hex digit >= 8) *)
Theorem C09_unquote_int32_no_panic_refuted : exists s, unquote_int32 s = Panic.
Proof. eexists. exact (proj1 unquote_int32_panics). Qed.
Print Assumptions C09_unquote_int32_no_panic_refuted.

Theorem C09_unquote_int32_eq_impl_when : forall s, no_big_U s = true -> unquote_int32 s = unquote_impl s.
Proof.
  intros s H. unfold unquote_int32, unquote_impl, unquote.
  destruct (parse_quotes s s) as [[[q ns] ne]|e| |] eqn:E; [|reflexivity|reflexivity|reflexivity].
  destruct (parse_quotes_ends_ok _ _ _ _ E) as [Hq _].
  unfold qi_unquote.
  destruct (negb (q_multi q) && _ && _); [reflexivity|].
  match goal with |- context [match ?o with Some r => Ok r | None => _ end] => destruct o end; [reflexivity|].
  destruct (q_multi q && _ && _); [reflexivity|].
  apply unq_loop_wrap_irrelevant; auto.
  destruct (skipn_suffix ns s) as [pre Hpre]. rewrite Hpre in H. eapply no_big_U_suffix; eauto.
Qed.
Print Assumptions C09_unquote_int32_eq_impl_when.

(* Quote's escape loop: fuel = len(s) suffices *)
Theorem C09_quote_fuel_sufficient : forall pr_tbl gr_tbl f ml hc fuel s, (length s <= fuel)%nat ->
  esc_loop pr_tbl gr_tbl f ml hc fuel s = esc pr_tbl gr_tbl f ml hc s.
Proof. exact esc_loop_fuel. Qed.
Print Assumptions C09_quote_fuel_sufficient.

Example C09_ex_hash_form : forall pr gr,
  let f := with_optional_hashes string_form in
  let s := [97; 34; 35; 98] in
  eff_multiline f s = false /\ eff_hash pr gr f s = 2%nat /\
  quote pr gr f s = [35; 35; 34; 97; 34; 35; 98; 34; 35; 35] /\
  unquote_impl (quote pr gr f s) = Ok s.
Proof. exact ex_hash_form. Qed.
Print Assumptions C09_ex_hash_form.

Example C09_ex_multi_form : forall pr gr,
  let f := with_tab_indent bytes_form 2 in
  let s := [97; 10; 39; 39; 39; 35; 10; 255] in
  eff_multiline f s = true /\ eff_hash pr gr f s = 2%nat /\
  unquote_impl (quote pr gr f s) = Ok s /\ ~ valid_utf8 s.
Proof. exact ex_multi_form. Qed.
Print Assumptions C09_ex_multi_form.

Example C09_ex_string_lossy : forall pr gr,
  let s := [97; 255; 98] in
  unquote_impl (quote pr gr string_form s) = Ok [97; 0xEF; 0xBF; 0xBD; 98] /\
  expected string_form s = [97; 0xEF; 0xBF; 0xBD; 98] /\
  expected bytes_form s = s.
Proof. exact ex_string_lossy. Qed.
Print Assumptions C09_ex_string_lossy.

Example C09_ex_autohash_lead_quotes : forall pr gr,
  quote pr gr (with_optional_hashes string_form) [34; 34; 120] = [34; 92; 34; 92; 34; 120; 34] /\
  unquote_impl (quote pr gr (with_optional_hashes string_form) [34; 34; 120]) = Ok [34; 34; 120] /\
  quote pr gr (with_optional_hashes string_form) [34; 34; 35] = [34; 92; 34; 92; 34; 35; 34] /\
  quote pr gr (with_optional_hashes string_form) [34; 120] = [35; 34; 34; 120; 34; 35] /\
  unquote_impl [35; 34; 34; 34; 120; 34; 35] = Err EMissingOpeningNewline.
Proof. exact autohash_lead_quotes. Qed.
Print Assumptions C09_ex_autohash_lead_quotes.

Example C09_ex_unquote_big_U_rejected :
  unquote_impl [34; 97; 98; 99; 92; 85; 70; 70; 70; 70; 70; 70; 70; 70; 100; 101; 102; 34] = Err ESyntax /\
  unquote_int32 [34; 97; 98; 99; 92; 85; 70; 70; 70; 70; 70; 70; 70; 70; 100; 101; 102; 34] = Ok [97; 98; 99].
Proof. exact unquote_big_U_rejected. Qed.
Print Assumptions C09_ex_unquote_big_U_rejected.

(* IndentTabs(f.Quote(s), n) is, byte for byte, f.WithTabIndent(n).Quote(s): for every
   text, every public form and any tables, whenever Quote wrote a multi-line literal
   indented with at least one tab (strings.ReplaceAll over the escape loop's output:
   line starts are rewritten, empty lines and escape sequences are left alone) *)
Theorem C09_indent_tabs_quote : forall pr_tbl gr_tbl f s n,
  public_form f -> eff_multiline f s = true -> (0 < f_indent f)%nat ->
  indent_tabs (quote pr_tbl gr_tbl f s) n = quote pr_tbl gr_tbl (set_indent f n) s.
Proof. exact indent_tabs_quote. Qed.
Print Assumptions C09_indent_tabs_quote.

(* ... hence re-indentation never changes what the literal means *)
Theorem C09_unquote_indent_tabs_quote : forall pr_tbl gr_tbl wrap f s n,
  public_form f -> is_bytes s -> eff_multiline f s = true -> (0 < f_indent f)%nat ->
  unquote wrap (indent_tabs (quote pr_tbl gr_tbl f s) n) = Ok (expected f s).
Proof.
  intros pr gr wrap f s n Hpub Hb Hml Hind. rewrite indent_tabs_quote by assumption.
  exact (unquote_quote_all wrap pr gr (set_indent f n) s Hpub Hb).
Qed.
Print Assumptions C09_unquote_indent_tabs_quote.

Theorem C09_indent_tabs_quote_compose : forall pr_tbl gr_tbl f s n m,
  public_form f -> eff_multiline f s = true -> (0 < f_indent f)%nat -> (0 < n)%nat ->
  indent_tabs (indent_tabs (quote pr_tbl gr_tbl f s) n) m = indent_tabs (quote pr_tbl gr_tbl f s) m.
Proof.
  intros pr gr f s n m Hpub Hml Hind Hn.
  rewrite (indent_tabs_quote pr gr f s n Hpub Hml Hind).
  rewrite (indent_tabs_quote pr gr (set_indent f n) s m Hpub Hml Hn).
  now rewrite (indent_tabs_quote pr gr f s m Hpub Hml Hind).
Qed.
Print Assumptions C09_indent_tabs_quote_compose.

(* the side condition is exact: written with NO indentation the search string is a
   bare newline and ReplaceAll also indents the empty lines, which Quote never does
   (the bytes differ; the value read back is still the text) *)
Theorem C09_indent_tabs_quote_indent0_refuted : exists f s n,
  public_form f /\ eff_multiline f s = true /\ f_indent f = 0%nat /\
  indent_tabs (quote no_tbl no_tbl f s) n <> quote no_tbl no_tbl (set_indent f n) s /\
  unquote_impl (indent_tabs (quote no_tbl no_tbl f s) n) = Ok s.
Proof.
  exists (with_tab_indent string_form 0), [97; 10; 10; 98], 1%nat.
  split; [split; [reflexivity|left; split; reflexivity]|].
  split; [reflexivity|]. split; [reflexivity|].
  split; [vm_compute; discriminate|vm_compute; reflexivity].
Qed.
Print Assumptions C09_indent_tabs_quote_indent0_refuted.

(* every input: what is not a multi-line literal, or is already indented so, is returned
   as is; the only partial operation is strings.Repeat with a negative count *)
Theorem C09_indent_tabs_not_multiline : forall s n, pq_ws s = None -> indent_tabs s n = s.
Proof. intros s n H. unfold indent_tabs. now rewrite H. Qed.
Print Assumptions C09_indent_tabs_not_multiline.

Theorem C09_indent_tabs_same : forall s n, pq_ws s = Some (tabs n) -> indent_tabs s n = s.
Proof.
  intros s n H. unfold indent_tabs. rewrite H.
  now replace (beq_str (tabs n) (tabs n)) with true by (symmetry; now apply beq_str_spec).
Qed.
Print Assumptions C09_indent_tabs_same.

Theorem C09_indent_tabs_go_panics_iff : forall s n, indent_tabs_go s n = Panic <-> (n < 0)%Z.
Proof.
  intros s n. unfold indent_tabs_go. destruct (Z.ltb_spec n 0); split; intro H'; try reflexivity; try lia; try discriminate.
Qed.
Print Assumptions C09_indent_tabs_go_panics_iff.

Theorem C09_indent_tabs_go_total : forall s n, (0 <= n)%Z ->
  indent_tabs_go s n = Ok (indent_tabs s (Z.to_nat n)).
Proof. intros s n H. unfold indent_tabs_go. destruct (Z.ltb_spec n 0); [lia|reflexivity]. Qed.
Print Assumptions C09_indent_tabs_go_total.

Example C09_ex_indent_tabs_quote :
  let f := with_tab_indent string_form 1 in
  let s := [97; 10; 10; 9; 98] in
  quote no_tbl no_tbl f s = [34;34;34;10; 9;97;10; 10; 9;92;116;98;10; 9;34;34;34] /\
  indent_tabs (quote no_tbl no_tbl f s) 3 = [34;34;34;10; 9;9;9;97;10; 10; 9;9;9;92;116;98;10; 9;9;9;34;34;34] /\
  indent_tabs (quote no_tbl no_tbl f s) 3 = quote no_tbl no_tbl (set_indent f 3) s /\
  unquote_impl (indent_tabs (quote no_tbl no_tbl f s) 3) = Ok s.
Proof. exact ex_indent_tabs_quote. Qed.
Print Assumptions C09_ex_indent_tabs_quote.

Example C09_ex_indent_tabs_other :
  indent_tabs [34; 97; 34] 2 = [34; 97; 34] /\
  indent_tabs [34; 34; 34; 120] 2 = [34; 34; 34; 120] /\
  indent_tabs_go [34; 97; 34] (-1) = Panic /\
  indent_tabs [34;34;34;10; 32;32;32;97;10; 32;32;34;34;34] 1 = [34;34;34;10; 9;32;97;10; 9;34;34;34].
Proof. exact ex_indent_tabs_other. Qed.
Print Assumptions C09_ex_indent_tabs_other.
