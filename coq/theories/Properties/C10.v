(* C10 - JSON in and out agrees with the JSON standard (RFC 8259) and round-trips exactly.
   The theorems of the property, each with Print Assumptions; a proof that other files
   use as well stands there and is referred to by [exact].
   Models: Json/Model.v (RFC 8259 reader/printer, Go's string escaper), Json/Cue.v
   (transcriptions of cue/literal Unquote and ParseNum, apd SetString/Neg/'G'),
   Json/Data.v (Spec and Impl data). *)
From Coq Require Import Lia ZifyN ZifyNat ZifyBool.
From Verif Require Import Json.Model Json.Cue Json.Data Json.Utf8Proofs Json.StringProofs Json.NumProofs
  Json.RoundTrip Json.CueStrProofs Json.CueNumProofs Json.FormatProofs Json.DataProofs Json.Reject
  Json.Refine Json.Examples.

(* ALL well-formed values: any nesting, repeated and empty member names, every string of
   Unicode scalar values, every number the value type holds *)
Theorem C10_json_parse_print : forall v, wf_value v = true -> json_parse (json_print v) = Some v.
Proof. exact json_parse_print. Qed.
Print Assumptions C10_json_parse_print.

(* the same through the Cue-mode reader, for values without U+FEFF in strings *)
Theorem C10_cue_parse_print : forall v, wf_value v = true -> bom_free v = true ->
  json_parse_gen Cue (json_print v) = Some v.
Proof. intros v H Hb. apply json_parse_print_gen. split; auto. Qed.
Print Assumptions C10_cue_parse_print.

(* inside any document: a printed value followed by a delimiter is read back, with fuel jfuel v *)
Theorem C10_parse_value_print_context : forall m v tail, wf_value v = true ->
  (rej_bom m = true -> bom_free v = true) -> follow_ok tail = true ->
  parse_value m (jfuel v) (json_print v ++ tail) = Some (v, tail).
Proof. intros m v tail Hw Hb Ht. apply parse_value_print; [split|..]; auto. Qed.
Print Assumptions C10_parse_value_print_context.

Theorem C10_fuel_sufficient : forall v, wf_value v = true -> (jfuel v <= length (json_print v))%nat.
Proof. exact jfuel_le_length. Qed.
Print Assumptions C10_fuel_sufficient.

(* Go's escaper (escapeHTML off) is inverted by the JSON string reader *)
Theorem C10_escape_valid_and_inverse : forall cs, forallb is_scalar cs = true ->
  json_unescape (json_escape cs) = Some cs.
Proof. exact escape_valid_and_inverse. Qed.
Print Assumptions C10_escape_valid_and_inverse.

(* the UTF-8 codec both ways *)
Theorem C10_utf8_decode_encode : forall c r, is_scalar c = true -> utf8_decode (utf8_encode c ++ r) = Some (c, r).
Proof. exact decode_encode. Qed.
Print Assumptions C10_utf8_decode_encode.

Theorem C10_utf8_decode_inv : forall s c r, utf8_decode s = Some (c, r) ->
  is_scalar c = true /\ s = utf8_encode c ++ r.
Proof. exact decode_inv. Qed.
Print Assumptions C10_utf8_decode_inv.

(* handing a JSON string literal to literal.Unquote preserves the string, unless it has an
   unpaired surrogate escape (then the strict reader rejects it) *)
Theorem C10_json_string_is_cue_string : forall t v,
  json_unescape_gen Strict t = Some v -> cue_unquote t = UOk (utf8_encode_all v).
Proof. exact json_string_is_cue_string. Qed.
Print Assumptions C10_json_string_is_cue_string.

Theorem C10_strict_refines_std : forall t v, json_unescape_gen Strict t = Some v -> json_unescape t = Some v.
Proof. exact strict_refines_std. Qed.
Print Assumptions C10_strict_refines_std.

(* conversely: among valid JSON string literals Unquote refuses exactly those the strict reader
   refuses (an unpaired surrogate escape) *)
Theorem C10_cue_unquote_rejects_lone : forall t v,
  json_unescape t = Some v -> json_unescape_gen Strict t = None -> cue_unquote t = UErr.
Proof. intros t v H HF. rewrite (cue_unquote_json_string t v H), HF. reflexivity. Qed.
Print Assumptions C10_cue_unquote_rejects_lone.

(* F6 *)
Theorem C10_lone_surrogate_refuted : exists t, json_unescape t = Some [0xFFFD] /\ cue_unquote t = UErr.
Proof. exists [34; 92; 117; 100; 56; 48; 48; 34]. split; vm_compute; reflexivity. Qed.
Print Assumptions C10_lone_surrogate_refuted.

(* grammar inclusion and the kind rule: no fraction and no exponent <-> int *)
Theorem C10_json_number_is_cue_literal : forall t n, parse_number t = Some (n, []) ->
  exists u buf, t = (if jneg n then [45] else []) ++ u /\
    parse_num u = PNOk 10 (negb (jnum_is_int n)) buf.
Proof.
  intros t n H. destruct (parse_number_inv _ _ _ H) as (ftxt & etxt & -> & Hwf & Hf & He).
  unfold num_text. rewrite app_nil_r.
  exists (jint n ++ ftxt ++ etxt), (jint n ++ ftxt ++ exp_buf etxt).
  split; [reflexivity|apply parse_num_json; assumption].
Qed.
Print Assumptions C10_json_number_is_cue_literal.

(* the complete description: inside apd's exponent range the same value, exactly (coefficient
   and exponent); outside it the literal is an error *)
Theorem C10_cue_read_json_number : forall t n, parse_number t = Some (n, []) ->
  cue_read_number t = if num_in_range n then Some (jnum_is_int n, cue_dec_of n) else None.
Proof. exact cue_read_json_number. Qed.
Print Assumptions C10_cue_read_json_number.

Theorem C10_json_number_is_cue_number : forall t n,
  parse_number t = Some (n, []) -> num_in_range n = true ->
  cue_read_number t = Some (jnum_is_int n, cue_dec_of n).
Proof. exact json_number_is_cue_number. Qed.
Print Assumptions C10_json_number_is_cue_number.

(* never a silently different value, never NaN: whatever cue reads is the number as written *)
Theorem C10_cue_read_number_exact : forall t n k d,
  parse_number t = Some (n, []) -> cue_read_number t = Some (k, d) ->
  k = jnum_is_int n /\ d = cue_dec_of n.
Proof.
  intros t n k d H Hc. rewrite (cue_read_json_number _ _ H) in Hc.
  destruct (num_in_range n); inversion Hc; auto.
Qed.
Print Assumptions C10_cue_read_number_exact.

Theorem C10_json_number_out_of_range_rejected : forall t n,
  parse_number t = Some (n, []) -> num_in_range n = false -> cue_read_number t = None.
Proof. intros t n H Hr. rewrite (cue_read_json_number _ _ H), Hr. reflexivity. Qed.
Print Assumptions C10_json_number_out_of_range_rejected.

(* C10-exponent-range-rejected: valid JSON numbers (1e100001, 1e2147483648) are refused *)
Theorem C10_number_exponent_refuted :
  (exists t n, parse_number t = Some (n, []) /\ dexp (jnum_dec n) = 100001%Z /\ cue_read_number t = None) /\
  (exists t n, parse_number t = Some (n, []) /\ cue_read_number t = None /\
               jexp n = Some 2147483648%Z).
Proof.
  split.
  - exists [49; 101; 49; 48; 48; 48; 48; 49]. eexists. split; [vm_compute; reflexivity|].
    split; vm_compute; reflexivity.
  - exists [49; 101; 50; 49; 52; 55; 52; 56; 51; 54; 52; 56]. eexists. split; [vm_compute; reflexivity|].
    split; vm_compute; reflexivity.
Qed.
Print Assumptions C10_number_exponent_refuted.

Theorem C10_parse_number_print : forall n rest, wf_num n = true -> num_follow_ok rest = true ->
  parse_number (print_num n ++ rest) = Some (n, rest).
Proof. exact parse_number_print. Qed.
Print Assumptions C10_parse_number_print.

(* what Value.MarshalJSON writes for a number is a JSON number denoting exactly that decimal *)
Theorem C10_format_G_is_json_number : forall d,
  parse_number (format_G d) = Some (format_G_num d, []) /\
  wf_num (format_G_num d) = true /\ jnum_dec (format_G_num d) = d.
Proof. exact format_G_is_json_number. Qed.
Print Assumptions C10_format_G_is_json_number.

Theorem C10_cue_data_spec_when : forall v, wf_value v = true -> dup_keys v = false ->
  nums_in_range v = true -> cue_data v = Some (spec_data v).
Proof. exact cue_data_spec_when. Qed.
Print Assumptions C10_cue_data_spec_when.

(* the Cue-mode reader only ever rejects more: same value whenever it accepts *)
Theorem C10_cue_parse_refines_std : forall s v, json_parse_gen Cue s = Some v -> json_parse s = Some v.
Proof. exact cue_parse_refines_std. Qed.
Print Assumptions C10_cue_parse_refines_std.

(* readers only produce well-formed values: print . parse is a normal form *)
Theorem C10_parse_wf : forall m s v, json_parse_gen m s = Some v -> wf_value v = true.
Proof. exact parse_wf. Qed.
Print Assumptions C10_parse_wf.

Theorem C10_parse_print_parse : forall s v, json_parse s = Some v -> json_parse (json_print v) = Some v.
Proof. intros s v H. apply json_parse_print. eapply parse_wf; eassumption. Qed.
Print Assumptions C10_parse_print_parse.

(* document level: Impl = Spec under the exact side condition *)
Theorem C10_cue_decode_is_spec_when : forall s v, json_parse_gen Cue s = Some v ->
  dup_keys v = false -> nums_in_range v = true ->
  cue_decode s = spec_decode s /\ spec_decode s = Some (spec_data v).
Proof.
  intros s v H Hd Hr. unfold cue_decode, spec_decode.
  rewrite H, (cue_parse_refines_std _ _ H). cbn [option_map].
  rewrite (cue_data_spec_when v (parse_wf _ _ _ H) Hd Hr). auto.
Qed.
Print Assumptions C10_cue_decode_is_spec_when.

(* F12, F10 *)
Theorem C10_dup_keys_refuted :
  (exists d, spec_decode doc_dup_conflict = Some d /\ cue_decode doc_dup_conflict = None) /\
  (exists d1 d2, spec_decode doc_dup_merge = Some d1 /\ cue_decode doc_dup_merge = Some d2 /\ d1 <> d2).
Proof.
  split.
  - eexists. split; vm_compute; reflexivity.
  - eexists. eexists. split; [vm_compute; reflexivity|]. split; [vm_compute; reflexivity|]. discriminate.
Qed.
Print Assumptions C10_dup_keys_refuted.

Theorem C10_raw_bom_refuted : exists doc d, spec_decode doc = Some d /\ cue_decode doc = None.
Proof. exists [34; 0xEF; 0xBB; 0xBF; 34]. eexists. split; vm_compute; reflexivity. Qed.
Print Assumptions C10_raw_bom_refuted.

Theorem C10_bom_reprint_refuted :
  exists v, wf_value v = true /\ json_parse (json_print v) = Some v /\ json_parse_gen Cue (json_print v) = None.
Proof. exists (JStr [0xFEFF]). split; [reflexivity|]. split; vm_compute; reflexivity. Qed.
Print Assumptions C10_bom_reprint_refuted.

Theorem C10_reject_blank : forall m ws, forallb is_ws ws = true -> json_parse_gen m ws = None.
Proof.
  intros m ws H. unfold json_parse_gen. rewrite <- (app_nil_r ws) at 2.
  rewrite parse_value_ws by assumption. reflexivity.
Qed.
Print Assumptions C10_reject_blank.

Theorem C10_reject_bad_start : forall m ws c rest, forallb is_ws ws = true ->
  is_ws c = false -> value_start c = false -> json_parse_gen m (ws ++ c :: rest) = None.
Proof.
  intros m ws c rest Hws Hc Hs. unfold json_parse_gen.
  rewrite parse_value_ws, parse_value_bad_start by assumption. reflexivity.
Qed.
Print Assumptions C10_reject_bad_start.

Theorem C10_reject_trailing_garbage : forall m v c rest, wf_value v = true ->
  (rej_bom m = true -> bom_free v = true) ->
  is_ws c = false -> follow_ok (c :: rest) = true ->
  json_parse_gen m (json_print v ++ c :: rest) = None.
Proof.
  intros m v c rest Hwf Hb Hc Hf. unfold json_parse_gen.
  pose proof (jfuel_le_length v Hwf) as Hl.
  rewrite parse_value_print; [|split; assumption|rewrite app_length; lia|assumption].
  rewrite skip_ws_head by assumption. reflexivity.
Qed.
Print Assumptions C10_reject_trailing_garbage.

Theorem C10_reject_leading_zero : forall m d rest, is_digit d = true ->
  json_parse_gen m (48 :: d :: rest) = None /\ json_parse_gen m (45 :: 48 :: d :: rest) = None.
Proof.
  intros m d rest Hd.
  assert (Hs : span_digits (48 :: d :: rest) = (48 :: d :: fst (span_digits rest), snd (span_digits rest))).
  { cbn [span_digits]. change (is_digit 48) with true. cbv iota. rewrite Hd.
    destruct (span_digits rest). reflexivity. }
  split; apply doc_number_none; try reflexivity; unfold parse_number.
  - change (48 =? 45) with false. cbv iota. rewrite Hs. reflexivity.
  - change (45 =? 45) with true. cbv iota. rewrite Hs. reflexivity.
Qed.
Print Assumptions C10_reject_leading_zero.

Theorem C10_reject_point_without_digits : forall m d ds rest, forallb is_digit (d :: ds) = true ->
  no_digit_head rest = true -> json_parse_gen m ((d :: ds) ++ 46 :: rest) = None.
Proof.
  intros m d ds rest Hd Hr. cbn [app]. apply doc_number_none.
  - cbn in Hd. apply andb_true_iff in Hd. destruct Hd as [Hd _]. rewrite Hd. apply orb_true_r.
  - change (d :: ds ++ 46 :: rest) with ((d :: ds) ++ 46 :: rest).
    apply parse_number_after_int; [assumption|reflexivity|]. left.
    unfold parse_frac. change (46 =? 46) with true. cbv iota. rewrite span_no_digit by assumption. reflexivity.
Qed.
Print Assumptions C10_reject_point_without_digits.

Theorem C10_reject_exponent_without_digits : forall m d ds ee sg rest, forallb is_digit (d :: ds) = true ->
  (ee = 101 \/ ee = 69) -> (sg = [] \/ sg = [43] \/ sg = [45]) ->
  no_digit_head rest = true -> (sg = [] -> match rest with c :: _ => c <> 43 /\ c <> 45 | [] => True end) ->
  json_parse_gen m ((d :: ds) ++ ee :: sg ++ rest) = None.
Proof.
  intros m d ds ee sg rest Hd Hee Hsg Hr Hs. cbn [app]. apply doc_number_none.
  - cbn in Hd. apply andb_true_iff in Hd. destruct Hd as [Hd _]. rewrite Hd. apply orb_true_r.
  - change (d :: ds ++ ee :: sg ++ rest) with ((d :: ds) ++ ee :: sg ++ rest).
    apply parse_number_after_int; [assumption|destruct Hee; subst; reflexivity|]. right.
    exists [], (ee :: sg ++ rest). split.
    + unfold parse_frac. destruct Hee; subst; reflexivity.
    + rewrite parse_exp_sign, span_no_digit by assumption. reflexivity.
Qed.
Print Assumptions C10_reject_exponent_without_digits.

(* unterminated strings, bare control characters, a lone backslash, escapes that are not JSON
   (\a \v \x \U \( \' \0 ...), bad \u digits, bytes that are not UTF-8 *)
Theorem C10_reject_bad_string : forall m pre tail, forallb plain pre = true -> bad_string_tail m tail ->
  json_parse_gen m (34 :: pre ++ tail) = None.
Proof.
  intros m pre tail Hp Ht. apply doc_string_none. apply parse_str_plain_prefix_none; [assumption|].
  apply bad_tail_none. assumption.
Qed.
Print Assumptions C10_reject_bad_string.

Theorem C10_reject_trailing_comma_array : forall m v0 l0, Forall (ok_for m) (v0 :: l0) ->
  json_parse_gen m (91 :: json_print v0 ++ print_rest l0 ++ [44; 93]) = None.
Proof.
  intros m v0 l0 HF. unfold json_parse_gen.
  assert (Hwf : wf_value (JArr (v0 :: l0)) = true).
  { cbn [wf_value]. apply forallb_forall. intros x Hx. rewrite Forall_forall in HF. apply (HF x Hx). }
  pose proof (jfuel_le_length _ Hwf) as Hl. rewrite print_arr_cons in Hl.
  cbn [length] in Hl |- *. rewrite !app_length in *. cbn [length] in *.
  rewrite parse_value_arr by (apply andb_prop in Hwf; apply Hwf).
  rewrite elems_trailing_comma; [reflexivity|assumption|lia].
Qed.
Print Assumptions C10_reject_trailing_comma_array.

Theorem C10_reject_member_without_name : forall m c rest, is_ws c = false -> c <> 34 -> c <> 125 ->
  json_parse_gen m (123 :: c :: rest) = None.
Proof.
  intros m c rest Hws H34 H125. unfold json_parse_gen. cbn [length parse_value].
  rewrite skip_ws_head by reflexivity. change (123 =? 123) with true. cbv iota.
  rewrite skip_ws_head by assumption. destruct (N.eqb_spec c 125); [contradiction|].
  cbn [parse_members]. rewrite skip_ws_head by assumption.
  destruct (N.eqb_spec c 34); [contradiction|]. reflexivity.
Qed.
Print Assumptions C10_reject_member_without_name.

Theorem C10_reject_member_without_colon : forall m k c rest, forallb is_scalar k = true ->
  (rej_bom m = true -> ~ In 0xFEFF k) -> is_ws c = false -> c <> 58 ->
  json_parse_gen m (123 :: json_escape k ++ c :: rest) = None.
Proof.
  intros m k c rest Hk Hb Hws H58. unfold json_parse_gen.
  destruct (json_escape_parse m k (c :: rest) Hk Hb) as (body & Ebody & Hlen & Hparse).
  specialize (Hparse _ Hlen).
  cbn [length parse_value]. rewrite skip_ws_head by reflexivity. change (123 =? 123) with true. cbv iota.
  rewrite Ebody. rewrite skip_ws_head by reflexivity. change (34 =? 125) with false. cbv iota.
  cbn [parse_members]. rewrite skip_ws_head by reflexivity. change (34 =? 34) with true. cbv iota.
  rewrite Hparse. rewrite skip_ws_head by assumption. destruct (N.eqb_spec c 58); [contradiction|]. reflexivity.
Qed.
Print Assumptions C10_reject_member_without_colon.

Theorem C10_cue_rejects_raw_bom : forall pre rest, forallb plain pre = true ->
  json_parse_gen Cue (34 :: pre ++ [0xEF; 0xBB; 0xBF] ++ rest) = None.
Proof.
  intros pre rest Hp. apply doc_string_none. apply parse_str_plain_prefix_none; [assumption|].
  intros [|f]; reflexivity.
Qed.
Print Assumptions C10_cue_rejects_raw_bom.

Theorem C10_strict_rejects_lone_low : forall m pre u rest r2, rej_lone m = true -> forallb plain pre = true ->
  hex4 rest = Some (u, r2) -> is_low u = true ->
  json_parse_gen m (34 :: pre ++ 92 :: 117 :: rest) = None.
Proof.
  intros m pre u rest r2 Hm Hp Hh Hl. apply doc_string_none. apply parse_str_plain_prefix_none; [assumption|].
  intros [|f]; [reflexivity|]. rewrite parse_str_u, Hh.
  assert (is_high u = false) by (unfold is_high, is_low in *; lia). rewrite H, Hl, Hm. reflexivity.
Qed.
Print Assumptions C10_strict_rejects_lone_low.

From Coq Require Import String.
Open Scope string_scope.
Example C10_ex_value_roundtrip : wf_value ex_value = true /\ json_parse (json_print ex_value) = Some ex_value.
Proof. exact (conj ex_value_wf ex_value_roundtrip). Qed.
Print Assumptions C10_ex_value_roundtrip.

Example C10_ex_string : json_unescape_gen Strict (b """a\n😀é\""\\\/""") = Some [97; 10; 0x1F600; 233; 34; 92; 47].
Proof. exact ex_string_hyp. Qed.
Print Assumptions C10_ex_string.

Example C10_ex_number :
  exists n, parse_number (b "-12.50E+2") = Some (n, []) /\ num_in_range n = true /\
            jnum_is_int n = false /\ cue_dec_of n = {| dneg := true; dcoeff := 1250; dexp := 0 |}.
Proof. exact ex_number_hyp. Qed.
Print Assumptions C10_ex_number.

Example C10_ex_data : wf_value ex_value2 = true /\ dup_keys ex_value2 = false /\ nums_in_range ex_value2 = true.
Proof. exact ex_data_hyp. Qed.
Print Assumptions C10_ex_data.

Example C10_ex_bad_tail : bad_string_tail Std (b "\x41""") /\ bad_string_tail Std [9; 34] /\ plain 97 = true.
Proof. exact ex_bad_tail. Qed.
Print Assumptions C10_ex_bad_tail.
