(* C11 - YAML output reads back as the same data; JSON fed to the YAML decoder
   means JSON.  The statements of the property, each with Print Assumptions; the
   lemmas they are proved from are in Yaml/*.v.

   Strings are lists of code points.  [choose_style], [emit_*] model the encoder
   of /repo (internal/encoding/yaml/goccy/encode.go + the third-party
   emitter), [parse_*], [read_any] the YAML 1.2 reading of what it writes.  The
   oracles (unicode.IsPrint, token.ToNumber, token.isNumber, token.isTimestamp)
   are universally quantified; the two hypotheses about them are validated on
   every generated case by the harness. *)
From Verif Require Import Yaml.Scalar Yaml.Proofs Yaml.Literal Yaml.Style Yaml.Json Yaml.Examples.
From Coq Require Import List NArith Bool.
Import ListNotations.
Open Scope N_scope.

(* every string written by strconv.Quote (the encoder's double-quoted form) reads back *)
Theorem C11_double_roundtrip : forall is_print : N -> bool,
  (forall c, is_print c = true -> is_break c = false) ->
  forall s, Forall rune32 s -> parse_double (emit_double is_print s) = Some s.
Proof. exact double_roundtrip. Qed.
Print Assumptions C11_double_roundtrip.

(* the literal block written for s reads back as s under literal_ok *)
Theorem C11_literal_roundtrip_when : forall n p root s,
  literal_ok s = true -> (p < n)%nat -> parse_literal p root (emit_literal n s) = Some s.
Proof. exact literal_roundtrip_when. Qed.
Print Assumptions C11_literal_roundtrip_when.

(* what blockLiteralSafe (the encoder's test) does not imply: exactly the two classes of literal_gap *)
Theorem C11_literal_safe_gap : forall s,
  block_literal_safe s = true -> literal_ok s = false -> literal_gap s = true.
Proof.
  intros s Hsafe Hnok.
  unfold block_literal_safe in Hsafe. destruct s as [|c0 r0]; [discriminate|].
  set (s := c0 :: r0) in *.
  apply andb_true_iff in Hsafe. destruct Hsafe as [Hsafe Hunp].
  apply andb_true_iff in Hsafe. destruct Hsafe as [_ Hsp].
  apply negb_true_iff in Hunp. apply negb_true_iff in Hsp.
  apply orb_false_iff in Hsp. destruct Hsp as [Hc He].
  unfold literal_ok in Hnok.
  rewrite (unprintable_cr s Hunp) in Hnok. rewrite (lines_clean_of_safe s Hc He) in Hnok.
  cbn [negb andb] in Hnok.
  unfold literal_gap.
  destruct (first_real (split_nl s)) as [[|c l]|] eqn:E.
  - apply first_real_not_blank in E. discriminate.
  - apply negb_false_iff in Hnok. rewrite Hnok. apply orb_true_r.
  - (* only empty lines: s is made of newlines, and of one only as it does not end with two *)
    assert (Hall : Forall (fun l : str => l = []) (split_nl s)).
    { apply all_empty_of_none; auto. apply lines_clean_of_safe; auto. }
    pose proof (join_all_empty _ Hall) as Hj. rewrite join_split in Hj.
    destruct (List.length (split_nl s) - 1)%nat as [|[|k]] eqn:Ek.
    + discriminate.
    + rewrite Hj. reflexivity.
    + exfalso. rewrite Hj in Hnok.
      rewrite (repeat_cons (S k) c_nl : repeat c_nl (S (S k)) = _), ends_nlnl_snoc in Hnok.
      rewrite (repeat_cons k c_nl : repeat c_nl (S k) = _), ends_nl_snoc in Hnok. discriminate.
Qed.
Print Assumptions C11_literal_safe_gap.

(* F4: the value "\n" is written as "|\n\n" and reads back as "" *)
Theorem C11_literal_refuted_newline :
  block_literal_safe nl1 = true /\
  ex_choose false true nl1 = Literal /\
  ex_doc Literal 2 nl1 val_suffix = [124; 10; 10] /\
  ex_read 0 false false val_suffix (ex_doc Literal 2 nl1 val_suffix) = Some [] /\
  literal_ok nl1 = false /\ literal_gap nl1 = true.
Proof. repeat split; vm_compute; reflexivity. Qed.
Print Assumptions C11_literal_refuted_newline.

(* "\n a" is written as "|-\n\n   a\n" and reads back as "\na" *)
Theorem C11_literal_refuted_space :
  block_literal_safe nl_sp_a = true /\
  ex_choose false true nl_sp_a = Literal /\
  ex_read 0 false false val_suffix (ex_doc Literal 2 nl_sp_a val_suffix) = Some [10; 97] /\
  literal_ok nl_sp_a = false /\ literal_gap nl_sp_a = true.
Proof. repeat split; vm_compute; reflexivity. Qed.
Print Assumptions C11_literal_refuted_space.

(* a string satisfying plain_ok, followed by the end of the line or by ": ", is scanned as itself *)
Theorem C11_plain_roundtrip_when : forall col0 s tail,
  plain_ok col0 s = true -> stops_scan tail -> parse_plain (s ++ tail) = (s, tail).
Proof. exact plain_roundtrip_when. Qed.
Print Assumptions C11_plain_roundtrip_when.

Theorem C11_single_cue_roundtrip_when : forall s,
  existsb is_break s = false -> parse_single (emit_single_cue s) = Some s.
Proof.
  intros s H. unfold parse_single, emit_single_cue.
  change (c_sq =? c_sq) with true. cbv iota.
  rewrite (ps_loop_cue s [] []); auto.
Qed.
Print Assumptions C11_single_cue_roundtrip_when.

Theorem C11_single_go_roundtrip_when : forall is_print : N -> bool,
  (forall c, is_print c = true -> is_break c = false) ->
  forall s, forallb (sq_safe is_print) s = true -> parse_single (emit_single_go is_print s) = Some s.
Proof.
  intros is_print Hp s H. unfold emit_single_go. rewrite (flat_go_eq is_print) by exact H.
  apply C11_single_cue_roundtrip_when. exact (sq_safe_no_break is_print Hp s H).
Qed.
Print Assumptions C11_single_go_roundtrip_when.

(* a scalar the encoder leaves plain resolves to a string (not number / bool / null) in the decoder *)
Theorem C11_plain_choice_resolves_str : forall tok_number tok_isnumber tok_timestamp : str -> bool,
  (forall t, tok_number t = true -> tok_isnumber t = true) ->
  forall is_key multi s,
    choose_style tok_number tok_isnumber tok_timestamp is_key multi s = Plain ->
    resolve_plain tok_number s = TStr.
Proof. exact plain_choice_resolves_str. Qed.
Print Assumptions C11_plain_choice_resolves_str.

(* ... and is syntactically a plain scalar, in every position *)
Theorem C11_plain_choice_ok : forall tok_number tok_isnumber tok_timestamp is_key multi col0 s,
  choose_style tok_number tok_isnumber tok_timestamp is_key multi s = Plain ->
  plain_ok col0 s = true.
Proof. exact plain_choice_ok. Qed.
Print Assumptions C11_plain_choice_ok.

(* the style decision as a whole: outside style_gap the document text of the scalar reads back as the string *)
Theorem C11_style_choice_safe_when :
  forall (is_print : N -> bool) (tok_number tok_isnumber tok_timestamp : str -> bool),
  (forall c, is_print c = true -> is_break c = false) ->
  (forall t, tok_number t = true -> tok_isnumber t = true) ->
  forall is_key multi col0 root p n s suffix,
    Forall rune32 s -> (p < n)%nat -> suffix_ok suffix ->
    style_gap is_print col0 (choose_style tok_number tok_isnumber tok_timestamp is_key multi s) s = false ->
    read_any tok_number p root col0 suffix
      (emit_doc is_print (choose_style tok_number tok_isnumber tok_timestamp is_key multi s) n s suffix) = Some s.
Proof. exact style_choice_safe_when. Qed.
Print Assumptions C11_style_choice_safe_when.

(* for literal blocks the gap is exactly literal_gap *)
Theorem C11_literal_choice_gap : forall tok_number tok_isnumber tok_timestamp is_key multi s,
  choose_style tok_number tok_isnumber tok_timestamp is_key multi s = Literal ->
  literal_ok s = false -> literal_gap s = true.
Proof.
  intros tok_number tok_isnumber tok_timestamp is_key multi s H Hn. apply C11_literal_safe_gap; [|exact Hn].
  pose proof (choose_style_cases tok_number tok_isnumber tok_timestamp is_key multi s) as C.
  rewrite H in C. exact C.
Qed.
Print Assumptions C11_literal_choice_gap.

(* a string that starts with the document end marker is double quoted in every position and
   reads back (C11-dots-root, C11-reader-dots) *)
Theorem C11_dots_quoted :
  ex_choose false false dots = Double /\ ex_choose true false dots = Double /\
  ex_choose true false [46; 46; 46; 97] = Double /\ ex_choose false false [46; 46; 46; 32; 120] = Double /\
  ex_read 0 true true val_suffix (ex_doc Double 2 dots val_suffix) = Some dots /\
  ex_read 0 false true key_suffix (ex_doc Double 2 [46; 46; 46; 97] key_suffix) = Some [46; 46; 46; 97].
Proof. repeat split; vm_compute; reflexivity. Qed.
Print Assumptions C11_dots_quoted.

(* the gap is inhabited: a witness for each of the two quoted classes (oracles as the
   implementation's libraries answer on them) *)
Theorem C11_style_choice_refuted_nbsp :
  ex_choose false false hash_nbsp = SingleGo /\
  style_gap ex_print false SingleGo hash_nbsp = true /\
  ex_doc SingleGo 2 hash_nbsp val_suffix = [39; 35; 92; 117; 48; 48; 97; 48; 39; 10] /\
  ex_read 0 false false val_suffix (ex_doc SingleGo 2 hash_nbsp val_suffix) = Some [35; 92; 117; 48; 48; 97; 48].
Proof. repeat split; vm_compute; reflexivity. Qed.
Print Assumptions C11_style_choice_refuted_nbsp.

Theorem C11_style_choice_refuted_cr :
  ex_choose false false qm_cr = SingleCue /\
  style_gap ex_print false SingleCue qm_cr = true /\
  ex_read 0 false false val_suffix (ex_doc SingleCue 2 qm_cr val_suffix) = None.
Proof. repeat split; vm_compute; reflexivity. Qed.
Print Assumptions C11_style_choice_refuted_cr.

(* JSON scalars: every JSON escape is a YAML escape with the same meaning; true/false/null resolve alike *)
Theorem C11_json_escapes_same : forall e v, json_simple_escape e = Some v -> simple_escape e = Some v.
Proof.
  intros e v H. unfold json_simple_escape in H.
  repeat match type of H with
         | (if ?b then _ else _) = _ =>
           let E := fresh "E" in destruct b eqn:E; [apply N.eqb_eq in E; subst e; exact H|]
         end.
  discriminate.
Qed.
Print Assumptions C11_json_escapes_same.

Theorem C11_json_literals_resolve : forall tok_number,
  resolve_plain tok_number [116; 114; 117; 101] = TBool /\
  resolve_plain tok_number [102; 97; 108; 115; 101] = TBool /\
  resolve_plain tok_number [110; 117; 108; 108] = TNull.
Proof. intro. repeat split; reflexivity. Qed.
Print Assumptions C11_json_literals_resolve.

(* every JSON number text (RFC 8259 grammar) is resolved as a number by the YAML decoder, never as a string *)
Theorem C11_json_number_not_string : forall tok_number s,
  json_number s = true -> is_tstr (resolve_plain tok_number s) = false.
Proof.
  intros tok_number s H. rewrite resolve_tstr, (json_number_is_number s H), orb_true_r. reflexivity.
Qed.
Print Assumptions C11_json_number_not_string.

Example C11_json_number_example :
  json_number [45; 49; 46; 53; 101; 43; 51] = true /\ json_number [48] = true /\ json_number [48; 49] = false.
Proof. repeat split; reflexivity. Qed.
Print Assumptions C11_json_number_example.

Example C11_literal_ok_example :
  literal_ok multi_ex = true /\ ex_choose false true multi_ex = Literal /\
  ex_read 2 false false val_suffix (ex_doc Literal 4 multi_ex val_suffix) = Some multi_ex.
Proof. exact literal_ok_example. Qed.
Print Assumptions C11_literal_ok_example.

Example C11_gap_false_example :
  style_gap ex_print true (ex_choose true false [97; 32; 98]) [97; 32; 98] = false /\
  style_gap ex_print false (ex_choose false false [105; 116; 39; 115]) [105; 116; 39; 115] = false.
Proof. exact gap_false_example. Qed.
Print Assumptions C11_gap_false_example.

Example C11_oracle_hypotheses_inhabited :
  (forall c, ex_print c = true -> is_break c = false) /\ (forall t, ex_no t = true -> ex_no t = true).
Proof.
  split; [|auto]. intros c H. unfold is_break.
  destruct (c =? c_nl) eqn:E1; [apply N.eqb_eq in E1; subst; discriminate|].
  destruct (c =? c_cr) eqn:E2; [apply N.eqb_eq in E2; subst; discriminate|]. reflexivity.
Qed.
Print Assumptions C11_oracle_hypotheses_inhabited.

From Verif Require Import Yaml.Doc Yaml.DocProofs.

(* block structure: for EVERY document (any nesting of sequences and mappings, empty
   collections anywhere, any scalars, any keys) the block parser inverts the token layout
   the encoder's printer produces ("- " entries in column c, nodes in column c + 2, compact
   "- - x" / "- k: v", [] and {} inline) *)
Theorem C11_doc_structure_roundtrip : forall d, parse_toks (emit_toks 0 d) = Some d.
Proof.
  intros d. unfold parse_toks.
  pose proof (parse_node_emit d (3 * List.length (emit_toks 0 d))%nat 0%nat 0%nat []
                (PeanoNat.Nat.lt_le_incl _ _ (need_lt_toks d 0%nat)) (le_n _) I) as H.
  rewrite app_nil_r in H. rewrite H. reflexivity.
Qed.
Print Assumptions C11_doc_structure_roundtrip.

(* compositionality: in any column, in front of any continuation of an enclosing block,
   the node reads back in place and the continuation is left untouched *)
Theorem C11_doc_structure_embedded : forall d c rest,
  rest_lt c rest -> parse_node (need d) 0 (emit_toks c d ++ rest) = Some (d, rest).
Proof. intros d c rest H. apply parse_node_emit; [apply le_n|apply PeanoNat.Nat.le_0_l|exact H]. Qed.
Print Assumptions C11_doc_structure_embedded.

(* an inline string value (after "key: " / "- ") in the style the encoder chooses reads back
   as that string, outside the classes of style_gap *)
Theorem C11_value_string_roundtrip_when :
  forall (is_print : N -> bool) (tok_number tok_isnumber tok_timestamp : str -> bool),
  (forall c, is_print c = true -> is_break c = false) ->
  (forall t, tok_number t = true -> tok_isnumber t = true) ->
  forall multi n s, Forall rune32 s ->
    choose_style tok_number tok_isnumber tok_timestamp false multi s <> Literal ->
    style_gap is_print false (choose_style tok_number tok_isnumber tok_timestamp false multi s) s = false ->
    read_value tok_number (emit is_print (choose_style tok_number tok_isnumber tok_timestamp false multi s) n s) = Some (DStr s).
Proof.
  intros is_print tok_number tok_isnumber tok_timestamp Hp Hn multi n s Hr Hl Hg. unfold read_value.
  pose proof (style_choice_safe_when is_print tok_number tok_isnumber tok_timestamp Hp Hn
                false multi false false 0%nat 1%nat s [c_nl] Hr (le_n _) (or_introl eq_refl) Hg) as R.
  unfold Style.emit_doc in R.
  destruct (choose_style tok_number tok_isnumber tok_timestamp false multi s) eqn:E; try congruence;
    unfold emit in *; rewrite R; reflexivity.
Qed.
Print Assumptions C11_value_string_roundtrip_when.

(* type preservation: whatever the string (also inside style_gap), its text never reads
   back as null / bool / number / bytes / a collection *)
Theorem C11_value_string_type_preserved :
  forall (is_print : N -> bool) (tok_number tok_isnumber tok_timestamp : str -> bool),
  (forall c, is_print c = true -> is_break c = false) ->
  (forall t, tok_number t = true -> tok_isnumber t = true) ->
  forall multi n s d, Forall rune32 s ->
    choose_style tok_number tok_isnumber tok_timestamp false multi s <> Literal ->
    read_value tok_number (emit is_print (choose_style tok_number tok_isnumber tok_timestamp false multi s) n s) = Some d ->
    exists s', d = DStr s'.
Proof.
  intros is_print tok_number tok_isnumber tok_timestamp Hp Hn multi n s d Hr Hl H.
  destruct (choose_style tok_number tok_isnumber tok_timestamp false multi s) eqn:E; try congruence.
  - (* plain: never in the gap *)
    pose proof (C11_value_string_roundtrip_when is_print tok_number tok_isnumber tok_timestamp Hp Hn multi n s Hr) as R.
    rewrite E in R. rewrite R in H by (congruence || reflexivity). inversion H. eauto.
  - exact (read_value_quoted tok_number c_sq _ d (or_intror eq_refl) H).
  - exact (read_value_quoted tok_number c_sq _ d (or_intror eq_refl) H).
  - exact (read_value_quoted tok_number c_dq _ d (or_introl eq_refl) H).
Qed.
Print Assumptions C11_value_string_type_preserved.

(* non-vacuity: a nested document with compact entries and empty collections *)
Example C11_doc_structure_example :
  emit_toks 0 (DMap [([97], DSeq [DSeq [DInt [49]]; DMap [([98], DSeq [])]]); ([99], DMap [])])
  = [TKey 0 [97]; TDash 2; TDash 4; TVal (DInt [49]); TDash 2; TKey 4 [98]; TVal (DSeq []); TKey 0 [99]; TVal (DMap [])].
Proof. exact doc_structure_example. Qed.
Print Assumptions C11_doc_structure_example.
