(* C12 - cue export / cue import are inverse across JSON, YAML, TOML and CUE.
   The statements of the property, each with Print Assumptions; the lemmas they are
   proved from are in Toml/Proofs.v, Toml/Emit.v and Toml/RoundTrip.v.

   The theorems are about the in-repo part of the TOML leg: the decoder state
   machine of encoding/toml/decode.go over the parser's events (Toml/Decode.v).
   The CLI loop (export / import through the cue binary) is explored directly on
   the implementation by the check; there is no theorem about the CLI. *)
From Verif Require Import Toml.Decode Toml.Proofs Toml.Emit Toml.RoundTrip.
From Coq Require Import List NArith Bool.
Import ListNotations.

(* a table header accepted once is rejected as a duplicate afterwards, in every state *)
Theorem C12_duplicate_table_rejected : forall s p s2,
  step s (ETable p) = Ok s2 -> step s2 (ETable p) = Err EDup.
Proof. intros s p s2 H. apply table_seen in H. cbn [step]. rewrite H. reflexivity. Qed.
Print Assumptions C12_duplicate_table_rejected.

Theorem C12_table_then_array_rejected : forall s p s2,
  step s (ETable p) = Ok s2 -> step s2 (EArrayTable p) = Err ERedeclAsArray.
Proof. intros s p s2 H. apply table_seen in H. cbn [step]. rewrite H. reflexivity. Qed.
Print Assumptions C12_table_then_array_rejected.

(* a key assigned once in a table cannot be assigned again, whatever the values are *)
Theorem C12_duplicate_key_rejected : forall s p v v2 s2,
  step s (EKeyValue p v) = Ok s2 -> step s2 (EKeyValue p v2) = Err EDup.
Proof.
  intros s p v v2 s2 H. cbn [step] in *.
  destruct (decode_field _ _ p v _) as [[seen2 f]|] eqn:E; [|discriminate].
  injection H as <-. cbn [st_key st_arrays st_seen].
  destruct (decode_field_seen _ _ _ _ _ _ _ E) as [Ha [Hm _]]. unfold decode_field. rewrite Ha, Hm. reflexivity.
Qed.
Print Assumptions C12_duplicate_key_rejected.

(* n+1 headers [[p]] give a list of n+1 tables under p; the current table is the last one *)
Theorem C12_array_table_append : forall p n, p <> [] ->
  run init (repeat (EArrayTable p) (S n)) = Ok (array_state p n).
Proof. exact array_table_append. Qed.
Print Assumptions C12_array_table_append.

(* ... and a key-value that follows lands in that last table *)
Theorem C12_array_table_current : forall p n k l, p <> [] ->
  step (array_state p n) (EKeyValue [k] (VLeaf l)) =
  Ok (mkState (append_field (lp p ++ [n]) (k, OLeaf l) (st_out (array_state p n)))
              [key_of p ++ [SIdx n; SName k]]
              (st_arrays (array_state p n)) (key_of p ++ [SIdx n]) (Some (lp p ++ [n]))).
Proof.
  intros p n k l Hp. unfold array_state. cbn [step st_key st_arrays st_seen st_tab st_out tab_ptr].
  unfold decode_field. cbn [find_array oa_key key_of map]. rewrite <- app_assoc.
  rewrite rkey_eqb_app_neq by discriminate. reflexivity.
Qed.
Print Assumptions C12_array_table_current.

(* a.b.c = v,  [a] b.c = v  and  a = { b.c = v }  decode to the same syntax tree (or the same error) *)
Theorem C12_decode_dotted_equiv : forall p q v, p <> [] -> q <> [] ->
  decode [ETable p; EKeyValue q v] = decode [EKeyValue (p ++ q) v] /\
  decode [EKeyValue p (VInline [(q, v)])] = decode [EKeyValue (p ++ q) v].
Proof. exact decode_dotted_equiv. Qed.
Print Assumptions C12_decode_dotted_equiv.

(* a flat document (root scalars, then [tables] of scalars) without repeated keys is read back as written;
   decode (emit d) = d for nested tables and arrays of tables is NOT proved (explored by the check) *)
Theorem C12_decode_emit_flat_partial : forall d, flat_safe d -> decode (emit_flat d) = Ok (tree_flat d).
Proof.
  intros [root tables] [Hnd Hall]. cbn [fd_root fd_tables] in *.
  rewrite decode_tree_of. unfold emit_flat, tree_flat. cbn [fd_root fd_tables]. rewrite run_app.
  rewrite (run_kvs root init); [| reflexivity | eapply NoDup_app_l; exact Hnd | intros; reflexivity].
  cbn [init st_out st_seen st_key st_tab tab_ptr]. rewrite fold_append_root. cbn [app].
  apply (run_tables tables (leaf_fields root) _ (map fst root)); [|exact Hnd|exact Hall].
  intros k Hin. rewrite app_nil_r in Hin. apply in_rev in Hin. apply in_map_iff in Hin.
  destruct Hin as [f [<- Hf]]. exists (fst f), []. split; [apply in_map; exact Hf|reflexivity].
Qed.
Print Assumptions C12_decode_emit_flat_partial.

Example C12_flat_safe_example :
  flat_safe (mkFlat [(ka, 1%N); (kb, 2%N)] [(kc, [(ka, 3%N)]); (kx, [])]) /\
  decode (emit_flat (mkFlat [(ka, 1%N); (kb, 2%N)] [(kc, [(ka, 3%N)]); (kx, [])])) =
  Ok (OStruct [(ka, OLeaf 1%N); (kb, OLeaf 2%N); (kc, OStruct [(ka, OLeaf 3%N)]); (kx, OStruct [])]).
Proof.
  split; [|vm_compute; reflexivity].
  split.
  - cbn. repeat constructor; cbn; intuition discriminate.
  - repeat constructor; cbn; intuition.
Qed.
Print Assumptions C12_flat_safe_example.

(* decodeExpr looks at the seen keys only below its own rooted key *)
Theorem C12_decode_expr_agree : forall arrays v rk s1 s2,
  agree rk s1 s2 ->
  same_outcome rk s1 s2 (decode_expr arrays rk v s1) (decode_expr arrays rk v s2).
Proof. exact decode_expr_agree. Qed.
Print Assumptions C12_decode_expr_agree.

(* findArrayPrefix hands out the array with the key itself or with a proper prefix of it, at the index
   reported: on an exact match decode.go looks the array up again after slices.DeleteFunc has
   moved the slice's elements (C12-toml-decoder-panic) *)
Theorem C12_find_array_prefix_sound : forall k arrays seen i a arrays2 seen2,
  find_array_prefix k arrays seen = (FSome i a, arrays2, seen2) ->
  nth_error arrays2 i = Some a /\
  (rkey_eqb (oa_key a) k = true \/ proper_prefix (oa_key a) k = true).
Proof.
  intros k arrays seen i a arrays2 seen2 H. unfold find_array_prefix in H.
  destruct (find_array_idx k arrays 0).
  - set (f := filter (fun b => negb (proper_prefix k (oa_key b))) arrays) in *.
    destruct (find_array_idx k f 0) as [j|] eqn:E; [|discriminate].
    destruct (nth_error f j) as [b|] eqn:En; [|discriminate].
    injection H as <- <- <- _.
    destruct (find_array_idx_spec _ _ _ _ E) as [j0 [c [-> [Hc Hk]]]]. cbn [Nat.add] in En.
    rewrite En in Hc. injection Hc as <-. auto.
  - destruct (longest_prefix k arrays 0 None) as [[j b]|] eqn:E; [|discriminate].
    injection H as <- <- <- _.
    destruct (longest_prefix_spec _ _ _ _ _ _ E) as [Hx|[j0 [-> [Hn Hp]]]]; [discriminate|]. auto.
Qed.
Print Assumptions C12_find_array_prefix_sound.

(* table arrays declared after one of their sub-arrays (C12-toml-decoder-panic): [[a.b]] [[a]] [[a]]
   appends to a (CUE then reports the table/list conflict), [[a.b]] [[a]] [[c]] [[a]] x = 1 puts x
   into the second element of a *)
Theorem C12_sub_array_first_appends :
  decode [EArrayTable [ka; kb]; EArrayTable [ka]; EArrayTable [ka]] =
  Ok (OStruct [(ka, OStruct [(kb, OList [OStruct []])]); (ka, OList [OStruct []; OStruct []])]) /\
  eval 8 (OStruct [(ka, OStruct [(kb, OList [OStruct []])]); (ka, OList [OStruct []; OStruct []])]) = None.
Proof. split; vm_compute; reflexivity. Qed.
Print Assumptions C12_sub_array_first_appends.

Theorem C12_sub_array_first_keeps_arrays_apart :
  decode [EArrayTable [ka; kb]; EArrayTable [ka]; EArrayTable [kc]; EArrayTable [ka];
          EKeyValue [kx] (VLeaf 1%N)] =
  Ok (OStruct [(ka, OStruct [(kb, OList [OStruct []])]);
               (ka, OList [OStruct []; OStruct [(kx, OLeaf 1%N)]]);
               (kc, OList [OStruct []])]).
Proof. vm_compute. reflexivity. Qed.
Print Assumptions C12_sub_array_first_keeps_arrays_apart.

(* decodeExpr reads the value of every toml-safe document (no table has a key twice, hereditarily:
   the boolean predicate wf) back as exactly its tree - arrays, inline tables, arrays of tables, to
   any depth (induction on the document tree) - under every rooted key below which nothing has been
   seen and no array of tables is open, and records only keys below that rooted key *)
Theorem C12_decode_expr_to_value : forall d arrays rk seen,
  wf d = true ->
  (forall s, In s seen -> ~ pp rk s) ->
  (forall a, In a arrays -> ~ pp rk (oa_key a)) ->
  exists seen2,
    decode_expr arrays rk (to_value d) seen = Ok (seen2, to_otree d) /\
    (forall s, In s seen2 -> In s seen \/ pp rk s).
Proof. exact decode_expr_to_value. Qed.
Print Assumptions C12_decode_expr_to_value.

(* root key-values are decoded exactly as one inline table: same tree or same error, all inputs *)
Theorem C12_root_kvs_as_inline : forall fs,
  decode (map (fun f => EKeyValue (fst f) (snd f)) fs) =
  match decode_expr [] [] (VInline fs) [] with
  | Ok (_, t) => Ok t
  | Err e => Err e
  end.
Proof. intro fs. rewrite decode_tree_of, decode_expr_inline. apply (run_root_kvs fs [] []). Qed.
Print Assumptions C12_root_kvs_as_inline.

(* decode (emit d) = Ok d, every toml-safe document, inline layout *)
Theorem C12_decode_emit_inline : forall fs,
  wf (DStruct fs) = true -> decode (emit_inline (DStruct fs)) = Ok (to_otree (DStruct fs)).
Proof.
  intros fs Hwf. cbn [emit_inline].
  replace (map (fun f => EKeyValue [fst f] (to_value (snd f))) fs)
    with (map (fun f : list str * value => EKeyValue (fst f) (snd f))
              (map (fun f => ([fst f], to_value (snd f))) fs))
    by (rewrite map_map; reflexivity).
  rewrite C12_root_kvs_as_inline.
  destruct (decode_expr_to_value (DStruct fs) [] [] [] Hwf) as [s2 [E _]].
  - intros s [].
  - intros a [].
  - cbn [to_value] in E. rewrite E. reflexivity.
Qed.
Print Assumptions C12_decode_emit_inline.

(* ... and CUE evaluates that tree to the document itself (for every fuel: nothing is unified) *)
Theorem C12_eval_to_otree : forall fuel d, wf d = true -> eval fuel (to_otree d) = Some d.
Proof.
  intros fuel d. induction d as [l|es IH|fs IH] using data_nested_ind; intro Hwf.
  - reflexivity.
  - cbn [to_otree]. rewrite eval_list, (eval_elems_to_otree fuel es IH Hwf). reflexivity.
  - cbn [to_otree wf] in *. apply andb_true_iff in Hwf. destruct Hwf as [Hnd Hwf].
    rewrite eval_struct, (eval_fields_to_otree fuel fs IH Hnd Hwf []) by (intros k _ []). reflexivity.
Qed.
Print Assumptions C12_eval_to_otree.

Example C12_decode_emit_inline_example :
  let d := [(ka, DLeaf 1%N); (kb, DList [DStruct [(ka, DLeaf 2%N); (kx, DList [])]; DStruct []]);
            (kc, DStruct [(ka, DStruct [(ka, DLeaf 3%N)])])] in
  wf (DStruct d) = true /\
  decode (emit_inline (DStruct d)) = Ok (to_otree (DStruct d)) /\
  eval 0 (to_otree (DStruct d)) = Some (DStruct d).
Proof. exact decode_emit_inline_example. Qed.
Print Assumptions C12_decode_emit_inline_example.

(* the side condition is needed and its failure is an error, not a merge *)
Example C12_decode_emit_inline_dup_rejected :
  wf (DStruct [(ka, DLeaf 1%N); (ka, DLeaf 1%N)]) = false /\
  decode (emit_inline (DStruct [(ka, DLeaf 1%N); (ka, DLeaf 1%N)])) = Err EDup.
Proof. exact decode_emit_inline_dup_rejected. Qed.
Print Assumptions C12_decode_emit_inline_dup_rejected.

(* wf is compositional (closed under adding a field with a fresh key / concatenating lists / projection) *)
Theorem C12_wf_struct_cons : forall k d fs,
  wf (DStruct ((k, d) :: fs)) = negb (existsb (str_eqb k) (map fst fs)) && wf d && wf (DStruct fs).
Proof.
  intros. cbn [wf map fst snd nodup_keys forallb].
  destruct (negb (existsb (str_eqb k) (map fst fs))), (nodup_keys (map fst fs)), (wf d); reflexivity.
Qed.
Print Assumptions C12_wf_struct_cons.

Theorem C12_wf_field : forall fs k d, wf (DStruct fs) = true -> In (k, d) fs -> wf d = true.
Proof.
  intros fs k d H Hin. cbn [wf] in H. apply andb_true_iff in H. destruct H as [_ H].
  rewrite forallb_forall in H. exact (H _ Hin).
Qed.
Print Assumptions C12_wf_field.

(* a seen key stays seen along every accepted run that has no header above it *)
Theorem C12_run_seen_persist : forall es s s2 k,
  run s es = Ok s2 -> forallb (fun e => negb (purges k e)) es = true ->
  mem_key k (st_seen s) = true -> mem_key k (st_seen s2) = true.
Proof.
  induction es as [|e es IH]; intros s s2 k H Hp Hm.
  - cbn in H. injection H as <-. exact Hm.
  - cbn [run] in H. cbn [forallb] in Hp. apply andb_true_iff in Hp. destruct Hp as [Hp1 Hp2].
    apply negb_true_iff in Hp1.
    destruct (step s e) as [s1|x] eqn:E; [|discriminate].
    eapply IH; [exact H|exact Hp2|]. eapply step_seen_persist; eauto.
Qed.
Print Assumptions C12_run_seen_persist.

(* [p] ... [p] (or [[p]]): whatever comes before, in between (no header properly above p) and after,
   the document is never accepted - a table redefinition is an error, never a silent merge *)
Theorem C12_table_twice_never_accepted : forall es1 p es2 es3 (closing : event),
  (closing = ETable p \/ closing = EArrayTable p) ->
  forallb (fun e => negb (purges (key_of p) e)) es2 = true ->
  forall t, decode (es1 ++ ETable p :: es2 ++ closing :: es3) <> Ok t.
Proof.
  intros es1 p es2 es3 closing Hc Hp t. unfold decode. rewrite run_app.
  destruct (run init es1) as [s0|x]; [|discriminate].
  cbn [run]. destruct (step s0 (ETable p)) as [s1|x] eqn:E1; [|discriminate].
  rewrite run_app. destruct (run s1 es2) as [s2|x] eqn:E2; [|discriminate].
  assert (Hm : mem_key (key_of p) (st_seen s2) = true).
  { eapply C12_run_seen_persist; [exact E2|exact Hp|]. eapply table_seen. exact E1. }
  cbn [run]. destruct Hc as [-> | ->]; cbn [step]; rewrite Hm; discriminate.
Qed.
Print Assumptions C12_table_twice_never_accepted.

Example C12_table_twice_in_two_elements_accepted :
  decode [EArrayTable [ka]; ETable [ka; kb]; EArrayTable [ka]; ETable [ka; kb]] =
  Ok (OStruct [(ka, OList [OStruct [(kb, OStruct [])]; OStruct [(kb, OStruct [])]])]).
Proof. exact table_twice_in_two_elements_accepted. Qed.
Print Assumptions C12_table_twice_in_two_elements_accepted.
