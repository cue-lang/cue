(* C13 - JSON Schema translation preserves which instances are valid.
   The statements of the property, each with its Print Assumptions; the longer
   proofs are in Schema/.

   [valid]  : Schema/Sem.v    - JSON Schema 2020-12 validity, from the specification.
   [encode] : Schema/Encode.v - what the CUE produced by encoding/jsonschema accepts
              (schemaState / finalize / constraint* as semantic combinators).
   [in_fragment re s] : the decoder raises none of the deviation classes (DEV constants) on s;
              it is computed by the model and printed for every case of the correspondence.
   The regexp engine [re] is universally quantified. *)
From Verif Require Import Schema.Json Schema.Sem Schema.Encode Schema.Proofs Schema.Steps2 Schema.Main Schema.Refute.
From Verif Require Import Schema.Refs Schema.RefsProofs Schema.RefsMain.
From Coq Require Import List NArith ZArith Bool.
Import ListNotations.

(* the compiler-correctness statement of the encoding strategy, unbounded nesting *)
Theorem C13_encode_correct : forall re s, in_fragment re s -> forall j, encode re s j = valid re s j.
Proof. exact encode_correct. Qed.
Print Assumptions C13_encode_correct.

(* the general form: schemaState(s, types) is exact on every instance whose kind is in `types`,
   its allowedTypes mask over-approximates the kinds of valid instances, stays inside `types`,
   and knownTypes covers what the generated expression accepts (mask threading is sound) *)
Theorem C13_schemaState_correct : forall re s M, r_dev (enc re s M) = [] -> Good re M s (enc re s M).
Proof. exact enc_good. Qed.
Print Assumptions C13_schemaState_correct.

Theorem C13_allowed_types_sound : forall re s, in_fragment re s -> forall j,
  valid re s j = true -> r_A (enc re s mall) (kind_of j) = true.
Proof. intros re s D j H. apply (g_snd _ _ _ _ (enc_good re s mall D) j eq_refl H). Qed.
Print Assumptions C13_allowed_types_sound.

(* "constraints are not possible to satisfy" is only reported for schemas without valid instances *)
Theorem C13_unsatisfiable_root_sound : forall re s, in_fragment re s ->
  mempty (r_A (enc re s mall)) = true -> forall j, valid re s j = false.
Proof.
  intros re s D E j. destruct (valid re s j) eqn:V; auto.
  pose proof (C13_allowed_types_sound re s D j V) as X. rewrite mempty_true in E. rewrite E in X. discriminate.
Qed.
Print Assumptions C13_unsatisfiable_root_sound.

Theorem C13_bool_schema_correct : forall re b j, encode re (SBool b) j = valid re (SBool b) j.
Proof. intros re [] j; reflexivity. Qed.
Print Assumptions C13_bool_schema_correct.

(* the risky interactions, as corollaries inside the fragment *)
Theorem C13_not_with_type_list : forall re tys s',
  in_fragment re (SObj (a_with_type tys) (p_not s')) ->
  forall j, encode re (SObj (a_with_type tys) (p_not s')) j = existsb (ty_matches j) tys && negb (valid re s' j).
Proof. exact not_with_type_list. Qed.
Print Assumptions C13_not_with_type_list.

(* exactly one member, whatever the overlap of the members *)
Theorem C13_oneOf_overlapping_members : forall re l,
  in_fragment re (SObj A0 (p_oneOf l)) ->
  forall j, encode re (SObj A0 (p_oneOf l)) j = Nat.eqb (count (fun s' => valid re s' j) l) 1.
Proof.
  intros re l F j. rewrite (encode_correct re _ F j), valid_applic_only. cbn. rewrite ?andb_true_r. reflexivity.
Qed.
Print Assumptions C13_oneOf_overlapping_members.

(* both branches present; a branch whose allowed types are empty (then:false) raises DEV_error_argument
   and is outside the fragment *)
Theorem C13_if_then_else_correct : forall re i t e,
  in_fragment re (SObj A0 (p_ite i (Some t) (Some e))) ->
  forall j, encode re (SObj A0 (p_ite i (Some t) (Some e))) j = if valid re i j then valid re t j else valid re e j.
Proof.
  intros re i t e F j. rewrite (encode_correct re _ F j), valid_applic_only. cbn. rewrite ?andb_true_r. reflexivity.
Qed.
Print Assumptions C13_if_then_else_correct.

Theorem C13_additional_vs_pattern_properties : forall re lp lpp s',
  in_fragment re (SObj A0 (p_obj (Some lp) (Some lpp) (Some s'))) ->
  forall m, encode re (SObj A0 (p_obj (Some lp) (Some lpp) (Some s'))) (JObj m) =
    forallb (fun kv => forallb (fun ks => negb (str_eqb (fst kv) (fst ks)) || valid re (snd ks) (snd kv)) lp) m &&
    forallb (fun kv => forallb (fun ps => negb (re (fst ps) (fst kv)) || valid re (snd ps) (snd kv)) lpp) m &&
    forallb (fun kv => negb (negb (has_key (fst kv) lp) && negb (existsb (fun ps => re (fst ps) (fst kv)) lpp))
                       || valid re s' (snd kv)) m.
Proof. exact additional_vs_pattern_properties. Qed.
Print Assumptions C13_additional_vs_pattern_properties.

(* all members, when no deviation class is hit (e.g. every member constrained, or at most one) *)
Theorem C13_allOf_correct_when : forall re l,
  in_fragment re (SObj A0 (p_allOf l)) ->
  forall j, encode re (SObj A0 (p_allOf l)) j = forallb (fun s' => valid re s' j) l.
Proof.
  intros re l F j. rewrite (encode_correct re _ F j), valid_applic_only. cbn. rewrite ?andb_true_r. reflexivity.
Qed.
Print Assumptions C13_allOf_correct_when.

(* outside the fragment the importer deviates: a witness for six of the classes, and three schemas near
   them on which it agrees *)
Theorem C13_encode_correct_needs_fragment : exists re s j, encode re s j <> valid re s j.
Proof. exists re_a, w_pnames, (JObj [(sb, JNum 2%Z)]). vm_compute. discriminate. Qed.
Print Assumptions C13_encode_correct_needs_fragment.

(* the schema of C13-F1: matchN counts the members that were kept, so it is inside the fragment *)
Theorem C13_allOf_unconstrained_member_correct :
  valid re_a w_allOf (JStr sab) = true /\ encode re_a w_allOf (JStr sab) = true /\
  r_dev (enc re_a w_allOf mall) = [].
Proof. vm_compute. auto. Qed.
Print Assumptions C13_allOf_unconstrained_member_correct.

Theorem C13_allOf_false_member_refuted :
  valid re_a w_allOf_false (JNum 2) = false /\ encode re_a w_allOf_false (JNum 2) = true /\
  r_dev (enc re_a w_allOf_false mall) = [DEV_allOf_false].
Proof. vm_compute. auto. Qed.
Print Assumptions C13_allOf_false_member_refuted.

Theorem C13_propertyNames_refuted :
  valid re_a w_pnames (JObj [(sb, JNum 2)]) = false /\ encode re_a w_pnames (JObj [(sb, JNum 2)]) = true /\
  r_dev (enc re_a w_pnames mall) = [DEV_propertyNames].
Proof. vm_compute. auto. Qed.
Print Assumptions C13_propertyNames_refuted.

Theorem C13_required_closed_refuted :
  valid re_a w_req (JObj [(sb, JNum 2)]) = false /\ encode re_a w_req (JObj [(sb, JNum 2)]) = true /\
  r_dev (enc re_a w_req mall) = [DEV_required_closed].
Proof. vm_compute. auto. Qed.
Print Assumptions C13_required_closed_refuted.

Theorem C13_prefixItems_refuted :
  valid re_a w_prefix (JArr []) = true /\ encode re_a w_prefix (JArr []) = false /\
  r_dev (enc re_a w_prefix mall) = [DEV_prefixItems].
Proof. vm_compute. auto. Qed.
Print Assumptions C13_prefixItems_refuted.

(* the schema of C13-F6 (empty property name and the exclusion regexp): inside the fragment *)
Theorem C13_empty_name_correct :
  valid re_a w_empty (JObj [([], JNum 2)]) = false /\ encode re_a w_empty (JObj [([], JNum 2)]) = false /\
  r_dev (enc re_a w_empty mall) = [].
Proof. vm_compute. auto. Qed.
Print Assumptions C13_empty_name_correct.

Theorem C13_error_argument_refuted :
  valid re_a w_ite (JObj [(sa, JNum 2)]) = true /\ encode re_a w_ite (JObj [(sa, JNum 2)]) = false /\
  r_dev (enc re_a w_ite mall) = [DEV_error_argument].
Proof. vm_compute. auto. Qed.
Print Assumptions C13_error_argument_refuted.

Theorem C13_oneOf_false_member_refuted :
  valid re_a w_oneOf (JNum 2) = false /\ encode re_a w_oneOf (JNum 2) = true /\
  r_dev (enc re_a w_oneOf mall) = [DEV_oneOf_false; DEV_error_member].
Proof. vm_compute. auto. Qed.
Print Assumptions C13_oneOf_false_member_refuted.

(* the schema of C13-F10 (type list with integer and number): inside the fragment *)
Theorem C13_integer_and_number_correct :
  valid re_a w_intnum (JNum 3) = true /\ encode re_a w_intnum (JNum 3) = true /\
  r_dev (enc re_a w_intnum mall) = [].
Proof. vm_compute. auto. Qed.
Print Assumptions C13_integer_and_number_correct.

(* non-vacuity *)
Example C13_fragment_examples :
  in_fragment re_a ex_not_type /\ in_fragment re_a ex_oneOf /\ in_fragment re_a ex_ite /\
  in_fragment re_a ex_obj /\ in_fragment re_a ex_allOf /\ in_fragment re_a ex_nested.
Proof. exact fragment_examples. Qed.
Print Assumptions C13_fragment_examples.

Example C13_verdict_examples :
  map (encode re_a ex_not_type) [JStr sa; JNum 2; JNum 3; JNull] = [false; true; true; false] /\
  map (encode re_a ex_oneOf) [JNum 2; JNum 6; JNum 5; JStr sa] = [true; false; true; true] /\
  map (encode re_a ex_ite) [JStr sa; JStr sab; JNum 2] = [false; true; false] /\
  map (encode re_a ex_obj) [JObj [(sa, JNum 2)]; JObj [(sa, JNum 8)]; JObj [(sab, JNum 8)]; JObj [(sb, JNum 8)]; JObj [(sb, JStr sa)]]
    = [false; true; true; false; true] /\
  map (encode re_a ex_nested) [JObj [(sa, JNum 2)]; JObj [(sa, JNum 6)]; JObj [(sb, JStr sab)]; JObj [(sab, JNull)]; JNull]
    = [true; false; true; false; true].
Proof. exact verdict_examples. Qed.
Print Assumptions C13_verdict_examples.

(* $ref / $defs (Schema/Refs.v): documents with named, acyclic references *)

(* following the references of a document (the specification's meaning of "$ref") gives the same verdict
   as validity of the inlined, reference-free schema - for every table of definitions and every fuel *)
Theorem C13_ref_semantics : forall re fuel defs s j,
  valid_r re fuel defs s j = valid re (resolve fuel defs s) j.
Proof. exact valid_r_resolve. Qed.
Print Assumptions C13_ref_semantics.

(* the fuel suffices: in a well-formed document (entry i of the table refers to later entries only, no
   dangling names) the inlined schema does not depend on the fuel once it is >= the number of definitions *)
Theorem C13_ref_fuel_suffices : forall defs s, doc_ok defs s = true ->
  forall f, length defs <= f -> resolve f defs s = resolve_doc defs s.
Proof. exact resolve_doc_stable. Qed.
Print Assumptions C13_ref_fuel_suffices.

Theorem C13_ref_fuel_independent : forall defs, ordered defs = true ->
  forall f f' k s, refs_in k (length defs) s = true ->
  length defs - k <= f -> length defs - k <= f' -> resolve f defs s = resolve f' defs s.
Proof. exact resolve_stable. Qed.
Print Assumptions C13_ref_fuel_independent.

Theorem C13_ref_valid_stable : forall re defs s, doc_ok defs s = true ->
  forall f j, length defs <= f -> valid_r re f defs s j = valid re (resolve_doc defs s) j.
Proof. exact valid_r_stable. Qed.
Print Assumptions C13_ref_valid_stable.

(* the main theorem for documents: the CUE produced for a well-formed document whose inlined form raises
   no deviation class accepts exactly the instances that are valid when references are followed *)
Theorem C13_encode_correct_doc : forall re defs s,
  doc_ok defs s = true -> in_fragment re (resolve_doc defs s) ->
  forall f j, length defs <= f -> encode re (resolve_doc defs s) j = valid_r re f defs s j.
Proof.
  intros re defs s D F f j L. rewrite (valid_r_stable re defs s D f j L). apply encode_correct; auto.
Qed.
Print Assumptions C13_encode_correct_doc.

(* non-vacuity: a document with a chain of three definitions inside the fragment, both verdicts *)
Example C13_ref_examples :
  doc_ok ex_defs ex_root = true /\ in_fragment re0 (resolve_doc ex_defs ex_root) /\
  valid_r re0 3 ex_defs ex_root (JStr [120%N]) = true /\
  valid_r re0 3 ex_defs ex_root (JNum 2) = false /\
  encode re0 (resolve_doc ex_defs ex_root) (JStr [120%N]) = true /\
  encode re0 (resolve_doc ex_defs ex_root) (JNum 2) = false.
Proof. exact (conj ex_doc_ok (conj ex_doc_in_fragment ex_doc_verdicts)). Qed.
Print Assumptions C13_ref_examples.

(* the bound is needed: one unit of fuel less cuts the chain and accepts an invalid instance *)
Example C13_ref_fuel_bound_needed :
  valid_r re0 2 ex_defs ex_root (JNum 2) = true /\ valid_r re0 3 ex_defs ex_root (JNum 2) = false.
Proof. exact ex_fuel_too_small. Qed.
Print Assumptions C13_ref_fuel_bound_needed.

(* cyclic tables, backward and dangling references are not well-formed documents *)
Example C13_ref_cyclic_not_wellformed :
  doc_ok [RObj no_assertions (Some 0) no_applic] (RBool true) = false /\
  doc_ok [RBool true; RObj no_assertions (Some 0) no_applic] (RBool true) = false /\
  doc_ok [] (RObj no_assertions (Some 0) no_applic) = false.
Proof. exact ex_cyclic_not_ok. Qed.
Print Assumptions C13_ref_cyclic_not_wellformed.
