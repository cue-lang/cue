(* C14 - Module version selection is minimal, sufficient, and order/schedule
   independent; version comparison is a total order agreeing with SemVer 2.0.
   The statements, each with Print Assumptions; each follows in a few lines from the
   theorems of Semver/ and MVS/. *)
From Verif Require Import Base.Order Semver.Model Semver.Spec Semver.Proofs Semver.Canonical MVS.Model MVS.Proofs MVS.Examples.
From Coq Require Import List NArith.
Import ListNotations.

(* semver.Compare on two valid strings is SemVer 2.0 precedence of what they denote *)
Theorem C14_compare_refines_semver : forall v w pv pw,
  parse v = Some pv -> parse w = Some pw -> compare v w = spec_cmp (abs pv) (abs pw).
Proof. exact compare_refines_spec. Qed.
Print Assumptions C14_compare_refines_semver.

Theorem C14_semver_precedence_total_order : total_cmp spec_cmp.
Proof. exact spec_cmp_total. Qed.
Print Assumptions C14_semver_precedence_total_order.

(* Compare is a total preorder on ALL strings (reflexive, antisymmetric up to Eq,
   transitive, Eq is a congruence) *)
Theorem C14_compare_total_preorder : total_pre compare.
Proof. exact compare_total_preorder. Qed.
Print Assumptions C14_compare_total_preorder.

Theorem C14_invalid_lowest : forall v w, is_valid v = false -> is_valid w = true -> compare v w = Lt.
Proof. exact invalid_lowest. Qed.
Print Assumptions C14_invalid_lowest.

Theorem C14_build_metadata_ignored : forall v w pv pw,
  parse v = Some pv -> parse w = Some pw ->
  p_major pv = p_major pw -> p_minor pv = p_minor pw -> p_patch pv = p_patch pw ->
  p_prerelease pv = p_prerelease pw -> compare v w = Eq.
Proof. exact build_ignored. Qed.
Print Assumptions C14_build_metadata_ignored.

Theorem C14_prerelease_below_release : forall v w pv pw,
  parse v = Some pv -> parse w = Some pw ->
  p_major pv = p_major pw -> p_minor pv = p_minor pw -> p_patch pv = p_patch pw ->
  p_prerelease pv <> [] -> p_prerelease pw = [] -> compare v w = Lt.
Proof. exact prerelease_below_release. Qed.
Print Assumptions C14_prerelease_below_release.

Section MVS.
  Variable P Ver : Type.
  Variable P_eq_dec : forall a b : P, {a = b} + {a <> b}.
  Variable Ver_eq_dec : forall a b : Ver, {a = b} + {a <> b}.
  Variable vcmp : Ver -> Ver -> comparison.
  Variable vnone : Ver.
  Variable reqs : node P Ver -> list (node P Ver).
  Variable targets : list (node P Ver).
  Hypothesis vcmp_total : total_cmp vcmp.
  Hypothesis vnone_bottom : forall v, vcmp vnone v <> Gt.

  Let run := run P Ver P_eq_dec Ver_eq_dec vcmp vnone reqs.
  Let init := init P Ver P_eq_dec Ver_eq_dec vcmp vnone targets.
  Let sel (s : state P Ver) := g_sel P Ver P_eq_dec vnone (st_g P Ver s).
  Let Reach := Reach P Ver Ver_eq_dec vnone reqs targets.
  Let vle := vle Ver vcmp.

  (* under every schedule of runners (any sequence of enabled critical sections)
     Graph.Require never hits either of its panics *)
  Theorem C14_no_panic_any_schedule : forall ls, run init ls <> Panic P Ver.
  Proof.
    intros ls R. pose proof (init_run_inv P Ver P_eq_dec Ver_eq_dec vcmp vnone reqs targets vcmp_total ls) as H.
    unfold run, init in R. rewrite R in H. exact H.
  Qed.

  (* sufficient, minimal, nothing unreachable: once the work set is drained, the
     selected version of a path is >= every reachable requirement on it and is the
     version of some reachable node (or "none") *)
  Theorem C14_selected_sufficient_and_minimal : forall ls s,
    run init ls = Ok P Ver s -> MVS.Proofs.complete P Ver s ->
    (forall n, Reach n -> vle (nver P Ver n) (sel s (npath P Ver n))) /\
    (forall p, sel s p = vnone \/ exists n, Reach n /\ npath P Ver n = p /\ nver P Ver n = sel s p).
  Proof. exact (selected_sufficient_and_minimal P Ver P_eq_dec Ver_eq_dec vcmp vnone reqs targets vcmp_total). Qed.

  (* exactly the maximum *)
  Theorem C14_selected_is_max : forall ls s,
    run init ls = Ok P Ver s -> MVS.Proofs.complete P Ver s ->
    forall p v, (forall n, Reach n -> npath P Ver n = p -> vle (nver P Ver n) v) ->
                (v = vnone \/ exists n, Reach n /\ npath P Ver n = p /\ nver P Ver n = v) ->
                sel s p = v.
  Proof. exact (selected_is_max P Ver P_eq_dec Ver_eq_dec vcmp vnone reqs targets vcmp_total vnone_bottom). Qed.

  (* the result does not depend on how the concurrent traversal is scheduled *)
  Theorem C14_schedule_independent : forall ls1 ls2 s1 s2,
    run init ls1 = Ok P Ver s1 -> MVS.Proofs.complete P Ver s1 ->
    run init ls2 = Ok P Ver s2 -> MVS.Proofs.complete P Ver s2 ->
    forall p, sel s1 p = sel s2 p.
  Proof. exact (schedule_independent P Ver P_eq_dec Ver_eq_dec vcmp vnone reqs targets vcmp_total vnone_bottom). Qed.

  (* ... and equals what the executable model (sequential scheduler) computes *)
  Theorem C14_any_schedule_equals_model : forall fuel sm ls s,
    run_seq P Ver P_eq_dec Ver_eq_dec vcmp vnone reqs fuel init = Some sm ->
    run init ls = Ok P Ver s -> MVS.Proofs.complete P Ver s ->
    forall p, sel s p = sel sm p.
  Proof.
    intros fuel sm ls s Hm R C.
    destruct (run_seq_is_schedule P Ver P_eq_dec Ver_eq_dec vcmp vnone reqs fuel _ _ Hm
                (fold_work_add_running P Ver P_eq_dec Ver_eq_dec _ _)) as (lsm & Rm & Cm).
    exact (C14_schedule_independent ls lsm s sm R C Rm Cm).
  Qed.
End MVS.
Print Assumptions C14_no_panic_any_schedule.
Print Assumptions C14_selected_sufficient_and_minimal.
Print Assumptions C14_selected_is_max.
Print Assumptions C14_schedule_independent.
Print Assumptions C14_any_schedule_equals_model.

Theorem C14_compare_eq_canonical : forall v w,
  is_canon v = true -> is_canon w = true -> compare v w = Eq -> v = w.
Proof. exact compare_eq_canonical. Qed.
Print Assumptions C14_compare_eq_canonical.

(* the comparison buildList derives from Versions.Max is a total order on the versions a
   requirement graph carries (canonical versions, "none" as bottom, "" as top) ... *)
Theorem C14_version_order_total : total_cmp ver_cmp.
Proof. exact ver_cmp_total. Qed.
Print Assumptions C14_version_order_total.

(* ... so the MVS theorems hold for the real version order: here schedule independence
   for graphs over module paths (strings) and such versions *)
Theorem C14_semver_schedule_independent : forall (reqs : node str ver -> list (node str ver)) targets ls1 ls2 s1 s2,
  run str ver (list_eq_dec N.eq_dec) ver_eq_dec ver_cmp ver_none reqs
      (init str ver (list_eq_dec N.eq_dec) ver_eq_dec ver_cmp ver_none targets) ls1 = Ok str ver s1 ->
  MVS.Proofs.complete str ver s1 ->
  run str ver (list_eq_dec N.eq_dec) ver_eq_dec ver_cmp ver_none reqs
      (init str ver (list_eq_dec N.eq_dec) ver_eq_dec ver_cmp ver_none targets) ls2 = Ok str ver s2 ->
  MVS.Proofs.complete str ver s2 ->
  forall p, g_sel str ver (list_eq_dec N.eq_dec) ver_none (st_g str ver s1) p =
            g_sel str ver (list_eq_dec N.eq_dec) ver_none (st_g str ver s2) p.
Proof.
  exact (fun reqs targets =>
           schedule_independent str ver (list_eq_dec N.eq_dec) ver_eq_dec ver_cmp ver_none reqs targets
                                ver_cmp_total ver_none_bottom).
Qed.
Print Assumptions C14_semver_schedule_independent.

(* non-vacuity: the hypotheses are met by concrete non-trivial instances *)
Example C14_example_semver_org_chain :
  map (fun p => compare (fst p) (snd p))
      [(v_alpha, v_alpha_1); (v_alpha_1, v_alpha_beta); (v_alpha_beta, v_beta); (v_beta, v_beta_2);
       (v_beta_2, v_beta_11); (v_beta_11, v_rc_1); (v_rc_1, v_100)]
  = [Lt; Lt; Lt; Lt; Lt; Lt; Lt]
  /\ compare v_100 v_100_build = Eq
  /\ is_valid v_alpha_beta = true /\ is_valid (s [118;48;49]%N) = false.
Proof. exact semver_org_chain. Qed.
Print Assumptions C14_example_semver_org_chain.

Example C14_example_interleaved_schedule :
  match ex_run with
  | Ok _ _ st => st_todo _ _ st = [] /\ st_running _ _ st = [] /\
                 map (g_sel nat nat PeanoNat.Nat.eq_dec 0%nat (st_g _ _ st)) [0;1;2;3;4]%nat = [9;1;1;3;0]%nat
  | _ => False
  end.
Proof. exact ex_interleaved_schedule_completes. Qed.
Print Assumptions C14_example_interleaved_schedule.
