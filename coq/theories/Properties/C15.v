(* C15 - Module archives round-trip and can never write outside their directory.
   is_letter / fold_min are the Unicode oracles (unicode.IsLetter, minimum of the
   unicode.SimpleFold orbit); every theorem holds for every instantiation. *)
From Coq Require Import Lia.
From Coq Require Import String.
From Coq Require Import List NArith ZArith Bool.
From Verif Require Import Zip.Bytes Zip.BytesProofs Zip.Model Zip.PathProofs Zip.ZipProofs Zip.FsProofs
  Zip.UnzipProofs Zip.CollisionProofs Zip.HostileProofs Zip.ElemProofs Zip.RoundtripProofs Zip.CreateProofs
  Zip.AgreeProofs Zip.Examples.
Import ListNotations.

(* module.CheckFilePath accepts only relative, clean paths whose elements are non-empty,
   not "." or "..", and free of '/', '\', ':' and NUL *)
Theorem C15_checked_path_safe : forall (is_letter : N -> bool) p,
  check_path is_letter p = true ->
  let es := split_slash p in
  p = join_slash es /\ es <> [] /\ Forall good_elem es /\
  is_abs p = false /\ clean p = p /\
  (forall b, In b p -> b <> c_backslash /\ b <> c_colon /\ b <> 0%N).
Proof. exact check_path_safe. Qed.
Print Assumptions C15_checked_path_safe.

(* filepath.Join(dir, name) of a checked name stays beneath dir *)
Theorem C15_join_checked_beneath : forall (is_letter : N -> bool) dir,
  clean_elems true [] dir = dir -> forall name, check_path is_letter name = true ->
  join_path dir name = dir ++ split_slash name /\ split_slash name <> [].
Proof. exact join_path_checked. Qed.
Print Assumptions C15_join_checked_beneath.

(* ... whereas an unchecked name escapes (non-vacuity of the check) *)
Example C15_ex_join_escapes_unchecked :
  join_path [lit "P"; lit "t"] (lit "../sentinel") = [lit "P"; lit "sentinel"].
Proof. exact ex_join_escapes. Qed.
Print Assumptions C15_ex_join_escapes_unchecked.

(* For EVERY archive, file system and clean absolute target: Unzip only adds fresh entries
   (exclusive creation, nothing existing is modified); each is a directory on the path to
   dir, or lies strictly beneath dir and is a directory or a regular file holding at most
   the declared number of bytes of some file entry. *)
Theorem C15_unzip_confined : forall is_letter fold_min dir,
  clean_elems true [] dir = dir ->
  forall fs zs es fs' r,
  Forall uint64_entry es ->
  unzip is_letter fold_min dir fs zs es = (fs', r) ->
  extends (unzip_effect dir es) fs fs'.
Proof. exact unzip_confined. Qed.
Print Assumptions C15_unzip_confined.

(* the copy loop of Unzip, for ANY reader behaviour: at most declared+1 bytes reach the file,
   and without an error at most declared *)
Theorem C15_limited_copy_bounded : forall d delivered rerr w err,
  limited_copy d delivered rerr = (w, err) ->
  (Z.of_nat (length w) <= Z.max 0 (d + 1))%Z /\
  (err = false -> w = delivered /\ rerr = false /\ (Z.of_nat (length w) <= d)%Z).
Proof. exact limited_copy_bounded. Qed.
Print Assumptions C15_limited_copy_bounded.

(* a successful Unzip wrote exactly the declared bytes of every file entry; total <= MaxZipFile *)
Theorem C15_unzip_bytes_bounded : forall is_letter fold_min dir,
  clean_elems true [] dir = dir ->
  forall fs zs es fs',
  Forall uint64_entry es ->
  unzip is_letter fold_min dir fs zs es = (fs', UOk) ->
  (forall e, In e es -> ends_with_slash (e_name e) = false ->
     fs_lookup fs' (dir ++ split_slash (e_name e)) = Some (NFile (e_data e)) /\
     N.of_nat (length (e_data e)) = e_declared e /\ e_crc_ok e = true /\ e_open_ok e = true) /\
  (0 <= declared_sum es <= MaxZipFile)%Z.
Proof. exact unzip_ok_exact. Qed.
Print Assumptions C15_unzip_bytes_bounded.

(* a rejected archive is never extracted *)
Theorem C15_unzip_rejected_untouched : forall is_letter fold_min dir fs zs es,
  checked_err (check_zip is_letter fold_min zs es) = true ->
  unzip is_letter fold_min dir fs zs es = (fs, UErr).
Proof.
  intros is_letter fold_min dir fs zs es H. unfold unzip. destruct (dir_nonempty fs dir); auto. rewrite H. reflexivity.
Qed.
Print Assumptions C15_unzip_rejected_untouched.

(* hostile entries: each of the following makes CheckZip (hence Unzip) reject the archive *)
Theorem C15_hostile_absolute_rejected : forall is_letter fold_min zs es e,
  In e es -> is_abs (e_name e) = true -> checked_err (check_zip is_letter fold_min zs es) = true.
Proof.
  intros is_letter fold_min zs es e I A. destruct (checked_err (check_zip is_letter fold_min zs es)) eqn:C; auto.
  pose proof (accepted_name_safe is_letter fold_min zs es e C I) as P.
  destruct (check_path_safe is_letter _ P) as [_ [_ [_ [NA _]]]].
  destruct (check_path_elems is_letter _ P) as [_ [_ [_ NE]]].
  destruct (e_name_shape e) as [E|E]; rewrite E in A; [congruence|].
  destruct (entry_name e) as [|b t]; [congruence|]. simpl in *. congruence.
Qed.
Print Assumptions C15_hostile_absolute_rejected.

Theorem C15_hostile_dot_element_rejected : forall is_letter fold_min zs es e x,
  In e es -> In x (split_slash (entry_name e)) -> x = s_dot \/ x = s_dotdot \/ x = [] ->
  checked_err (check_zip is_letter fold_min zs es) = true.
Proof.
  intros is_letter fold_min zs es e x I X B. destruct (checked_err (check_zip is_letter fold_min zs es)) eqn:C; auto.
  pose proof (accepted_name_safe is_letter fold_min zs es e C I) as P.
  destruct (check_path_safe is_letter _ P) as [_ [_ [G _]]].
  rewrite Forall_forall in G. destruct (G _ X) as [A1 [A2 [A3 _]]]. intuition congruence.
Qed.
Print Assumptions C15_hostile_dot_element_rejected.

Theorem C15_hostile_byte_rejected : forall is_letter fold_min zs es e b,
  In e es -> In b (e_name e) -> b = c_backslash \/ b = c_colon \/ b = 0%N ->
  checked_err (check_zip is_letter fold_min zs es) = true.
Proof.
  intros is_letter fold_min zs es e b I X B. destruct (checked_err (check_zip is_letter fold_min zs es)) eqn:C; auto.
  pose proof (accepted_name_safe is_letter fold_min zs es e C I) as P.
  destruct (check_path_safe is_letter _ P) as [_ [_ [_ [_ [_ S]]]]].
  (* the raw name is the checked one, plus at most a final slash *)
  assert (Y : In b (entry_name e)).
  { destruct (e_name_shape e) as [E|E]; rewrite E in X; auto.
    apply in_app_or in X. destruct X as [X|[X|[]]]; auto. subst b.
    destruct B as [B|[B|B]]; vm_compute in B; discriminate. }
  destruct (S _ Y) as [S1 [S2 S3]]. intuition congruence.
Qed.
Print Assumptions C15_hostile_byte_rejected.

Theorem C15_hostile_collision_rejected : forall is_letter fold_min zs l1 e1 l2 e2 l3,
  entry_is_dir e1 = false \/ entry_is_dir e2 = false ->
  str_to_fold fold_min (entry_name e1) = str_to_fold fold_min (entry_name e2) ->
  checked_err (check_zip is_letter fold_min zs (l1 ++ e1 :: l2 ++ e2 :: l3)) = true.
Proof.
  intros is_letter fold_min zs l1 e1 l2 e2 l3 D F.
  destruct (checked_err (check_zip is_letter fold_min zs (l1 ++ e1 :: l2 ++ e2 :: l3))) eqn:C; auto.
  destruct (accepted_no_collision is_letter fold_min zs l1 e1 l2 e2 l3
              (entry_name e1) (entry_is_dir e1) (entry_name e2) (entry_is_dir e2) C) as [_ [A B]];
    auto; try (left; reflexivity).
  destruct D; congruence.
Qed.
Print Assumptions C15_hostile_collision_rejected.

Theorem C15_accepted_no_collision : forall is_letter fold_min zs l1 e1 l2 e2 l3 q1 x1 q2 x2,
  checked_err (check_zip is_letter fold_min zs (l1 ++ e1 :: l2 ++ e2 :: l3)) = false ->
  In (q1, x1) (cc_targets (entry_name e1) (entry_is_dir e1)) ->
  In (q2, x2) (cc_targets (entry_name e2) (entry_is_dir e2)) ->
  str_to_fold fold_min q1 = str_to_fold fold_min q2 -> q1 = q2 /\ x1 = true /\ x2 = true.
Proof. exact accepted_no_collision. Qed.
Print Assumptions C15_accepted_no_collision.

Theorem C15_hostile_cue_mod_rejected : forall is_letter fold_min zs es e,
  In e es -> cz_cue_mod (entry_name e) = None -> checked_err (check_zip is_letter fold_min zs es) = true.
Proof.
  intros is_letter fold_min zs es e I X. destruct (checked_err (check_zip is_letter fold_min zs es)) eqn:C; auto.
  destruct (accepted_entry is_letter fold_min zs es e C I) as [s [v [s' OK]]].
  exfalso. apply (eo_cue_mod _ _ _ _ _ _ OK). exact X.
Qed.
Print Assumptions C15_hostile_cue_mod_rejected.

(* a cue.mod (in any case) below the root makes CheckZip reject the archive *)
Theorem C15_hostile_nested_cue_mod_rejected : forall is_letter fold_min zs es e pre x suf,
  In e es -> split_slash (entry_name e) = pre ++ x :: suf -> pre <> [] -> ascii_eqfold x s_cue_mod = true ->
  checked_err (check_zip is_letter fold_min zs es) = true.
Proof.
  intros is_letter fold_min zs es e pre x suf I SP NP EQ.
  destruct (checked_err (check_zip is_letter fold_min zs es)) eqn:C; auto.
  pose proof (accepted_name_safe is_letter fold_min zs es e C I) as P.
  rewrite <- C. eapply C15_hostile_cue_mod_rejected; eauto.
  eapply checked_nested_cue_mod; eauto.
Qed.
Print Assumptions C15_hostile_nested_cue_mod_rejected.

Theorem C15_hostile_local_module_rejected : forall is_letter fold_min zs es e,
  In e es -> entry_name e = s_local_module -> checked_err (check_zip is_letter fold_min zs es) = true.
Proof.
  intros is_letter fold_min zs es e I X. destruct (checked_err (check_zip is_letter fold_min zs es)) eqn:C; auto.
  destruct (accepted_entry is_letter fold_min zs es e C I) as [s [v [s' OK]]].
  exfalso. apply (eo_local _ _ _ _ _ _ OK). exact X.
Qed.
Print Assumptions C15_hostile_local_module_rejected.

Theorem C15_hostile_oversize_rejected : forall is_letter fold_min zs es e,
  In e es -> entry_is_dir e = false ->
  (entry_name e = s_cue_mod_module_cue /\ (MaxCUEMod < to_int64 (e_declared e))%Z) \/
  (entry_name e = s_license /\ (MaxLICENSE < to_int64 (e_declared e))%Z) ->
  checked_err (check_zip is_letter fold_min zs es) = true.
Proof.
  intros is_letter fold_min zs es e I D X. destruct (checked_err (check_zip is_letter fold_min zs es)) eqn:C; auto.
  destruct (accepted_entry is_letter fold_min zs es e C I) as [s [v [s' OK]]].
  destruct (eo_file _ _ _ _ _ _ OK D) as [_ [_ [A B]]]. tauto.
Qed.
Print Assumptions C15_hostile_oversize_rejected.

Theorem C15_hostile_total_size_rejected : forall is_letter fold_min zs es,
  (MaxZipFile < declared_sum es)%Z \/
  (exists e, In e es /\ entry_is_dir e = false /\ (to_int64 (e_declared e) < 0)%Z) ->
  checked_err (check_zip is_letter fold_min zs es) = true.
Proof.
  intros is_letter fold_min zs es X. destruct (checked_err (check_zip is_letter fold_min zs es)) eqn:C; auto.
  destruct (check_zip_total_size is_letter fold_min zs es C) as [A B].
  destruct X as [X|[e [I [D N]]]]; [lia|].
  rewrite Forall_forall in B. specialize (B _ I D). lia.
Qed.
Print Assumptions C15_hostile_total_size_rejected.

Theorem C15_hostile_zip_size_rejected : forall is_letter fold_min zs es,
  (MaxZipFile < zs)%Z -> checked_err (check_zip is_letter fold_min zs es) = true.
Proof.
  intros is_letter fold_min zs es X. destruct (checked_err (check_zip is_letter fold_min zs es)) eqn:C; auto.
  destruct (check_zip_ok is_letter fold_min zs es C) as [A _]. lia.
Qed.
Print Assumptions C15_hostile_zip_size_rejected.

Theorem C15_no_module_file_rejected : forall is_letter fold_min zs es,
  (forall e, In e es -> entry_name e <> s_cue_mod_module_cue) ->
  checked_err (check_zip is_letter fold_min zs es) = true.
Proof.
  intros is_letter fold_min zs es X. destruct (checked_err (check_zip is_letter fold_min zs es)) eqn:C; auto.
  destruct (check_zip_ok is_letter fold_min zs es C) as [_ [st' [CH [_ M]]]].
  pose proof (cz_chain_mod is_letter fold_min _ _ _ CH X M) as M0. discriminate.
Qed.
Print Assumptions C15_no_module_file_rejected.

(* symlink / directory / irregular mode bits of an entry are never consulted: Unzip behaves
   identically, i.e. whatever it creates is a regular file (node NFile) or a MkdirAll directory *)
Theorem C15_unzip_ignores_mode_bits : forall is_letter fold_min g dir fs zs es,
  unzip is_letter fold_min dir fs zs (map (rekind g) es) = unzip is_letter fold_min dir fs zs es.
Proof.
  intros. unfold unzip, check_zip, check_zip_verdicts.
  rewrite cz_loop_rekind, map_map.
  replace (map (fun x => e_name (rekind g x)) es) with (map e_name es) by (apply map_ext; reflexivity).
  destruct (dir_nonempty fs dir); auto.
  match goal with |- (if ?c then _ else _) = _ => destruct c end; auto.
  destruct (mkdir_all fs dir); auto. apply unzip_entries_rekind.
Qed.
Print Assumptions C15_unzip_ignores_mode_bits.

(* in an accepted archive no file entry's path is equal to, or a directory prefix of, another's *)
Theorem C15_accepted_no_clash : forall is_letter fold_min zs es,
  checked_err (check_zip is_letter fold_min zs es) = false -> no_clash es.
Proof. exact accepted_no_clash. Qed.
Print Assumptions C15_accepted_no_clash.

(* every accepted archive with honest headers extracts completely into an empty or missing
   directory; afterwards the regular files beneath it are exactly the file entries *)
Theorem C15_unzip_accepted_honest_ok : forall is_letter fold_min dir,
  clean_elems true [] dir = dir -> dir <> [] ->
  forall fs zs es,
  checked_err (check_zip is_letter fold_min zs es) = false -> Forall honest es ->
  dir_nonempty fs dir = false -> mkdir_all fs dir <> None ->
  exists fs', unzip is_letter fold_min dir fs zs es = (fs', UOk) /\ beneath_inv dir es fs'.
Proof. exact unzip_accepted_honest_ok. Qed.
Print Assumptions C15_unzip_accepted_honest_ok.

(* every archive Create emits passes CheckZip; it holds the valid files of the path-sorted list,
   in that order, with honest headers *)
Theorem C15_create_passes_check : forall is_letter fold_min files es zs,
  create is_letter fold_min files = Some es -> (zs <= MaxZipFile)%Z ->
  checked_err (check_zip is_letter fold_min zs es) = false /\
  es = map created_entry (valid_files is_letter fold_min (sort_files files)) /\
  Forall (fun e => is_file e /\ honest e) es.
Proof. exact create_passes_check. Qed.
Print Assumptions C15_create_passes_check.

(* Create then Unzip reproduces exactly the valid files with identical content *)
Theorem C15_create_unzip_roundtrip : forall is_letter fold_min dir,
  clean_elems true [] dir = dir -> dir <> [] ->
  forall files es fs zs,
  create is_letter fold_min files = Some es -> (zs <= MaxZipFile)%Z ->
  dir_nonempty fs dir = false -> mkdir_all fs dir <> None ->
  exists fs', unzip is_letter fold_min dir fs zs es = (fs', UOk) /\
    (forall f, In f (valid_files is_letter fold_min (sort_files files)) ->
       fs_lookup fs' (dir ++ split_slash (f_name f)) = Some (NFile (f_data f))) /\
    (forall q c, fs_lookup fs' q = Some (NFile c) -> strict_prefix dir q = true ->
       exists f, In f (valid_files is_letter fold_min (sort_files files)) /\
                 q = dir ++ split_slash (f_name f) /\ c = f_data f).
Proof. exact create_unzip_roundtrip. Qed.
Print Assumptions C15_create_unzip_roundtrip.

(* the file-list check and the zip check give every file the same verdict, under the exact
   side condition agree_cond (regular, expressible size, not a directory entry, not omitted by
   checkFiles, not the root file cue.mod, no wrongly-cased cue.mod/module.cue) *)
Theorem C15_checks_agree_when : forall is_letter fold_min files,
  Forall (agree_cond (have_cue_mod files)) files ->
  fst (check_files_verdicts is_letter fold_min files) =
  fst (check_zip_verdicts is_letter fold_min (map entry_of_file files)).
Proof.
  intros is_letter fold_min files AC. unfold check_files_verdicts, check_zip_verdicts.
  destruct (cf_loop is_letter fold_min (have_cue_mod files) cf_init files) as [vs st'] eqn:L1.
  destruct (cz_loop is_letter fold_min cz_init (map entry_of_file files)) as [vs' zst'] eqn:L2. cbn [fst].
  destruct (agree_loop is_letter fold_min (have_cue_mod files) files cf_init cz_init vs st' vs' zst') as [E _]; auto.
  - constructor; cbn [cf_init cz_init st_cc st_max st_size_err zs_cc zs_size zs_size_err]; auto; lia.
  - apply have_cue_mod_covers.
Qed.
Print Assumptions C15_checks_agree_when.

Theorem C15_checks_agree_valid_lists : forall is_letter fold_min files zs, (zs <= MaxZipFile)%Z ->
  Forall (agree_cond (have_cue_mod files)) files ->
  c_valid (check_files is_letter fold_min files) =
  c_valid (check_zip is_letter fold_min zs (map entry_of_file files)).
Proof.
  intros is_letter fold_min files zs ZS AC. pose proof (C15_checks_agree_when is_letter fold_min files AC) as E.
  unfold check_files, check_zip.
  destruct (MaxZipFile <? zs)%Z eqn:Z; [apply Z.ltb_lt in Z; lia|].
  destruct (check_files_verdicts is_letter fold_min files) as [vs st].
  destruct (check_zip_verdicts is_letter fold_min (map entry_of_file files)) as [vs' zst]. cbn [fst] in E. subst vs'.
  destruct (collect_errs [] (combine (map f_name files) vs)). cbn [c_valid].
  rewrite map_map. reflexivity.
Qed.
Print Assumptions C15_checks_agree_valid_lists.

(* ... and without it the property as worded fails on the faithful model (known finding F7) *)
Theorem C15_checks_agree_refuted_root_file :
  exists files, Forall (fun f => f_kind f = KRegular) files /\
    fst (check_files_verdicts (fun _ => false) (fun r => r) files) = [VValid] /\
    fst (check_zip_verdicts (fun _ => false) (fun r => r) (map entry_of_file files)) = [VInvalid].
Proof. exists [rf "cue.mod"]. split; [repeat constructor|]. split; vm_compute; reflexivity. Qed.
Print Assumptions C15_checks_agree_refuted_root_file.

Theorem C15_checks_agree_refuted_case_variant :
  exists files, Forall (fun f => f_kind f = KRegular) files /\
    fst (check_files_verdicts (fun _ => false) (fun r => r) files) = [VInvalid; VValid] /\
    fst (check_zip_verdicts (fun _ => false) (fun r => r) (map entry_of_file files)) = [VInvalid; VInvalid].
Proof. exists [rf "Cue.Mod/x"; rf "cue.mod/module.cue"]. split; [repeat constructor|]. split; vm_compute; reflexivity. Qed.
Print Assumptions C15_checks_agree_refuted_case_variant.

Example C15_ex_agree_cond_nonvacuous :
  let files := [rf "cue.mod/module.cue"; rf "x.cue"; rf "sub/y.cue"; rf "LICENSE"] in
  Forall (agree_cond (have_cue_mod files)) files /\
  fst (check_files_verdicts (fun _ => false) (fun r => r) files) = [VValid; VValid; VValid; VValid].
Proof. exact agree_cond_nonvacuous. Qed.
Print Assumptions C15_ex_agree_cond_nonvacuous.

(* non-vacuity: a concrete module is created, checked, extracted; hostile names are rejected *)
Example C15_ex_create : create no_letter id_fold ex_files = Some ex_archive.
Proof. exact ex_create. Qed.
Print Assumptions C15_ex_create.

Example C15_ex_hostile_rejected :
  forallb (fun n => checked_err (check_zip no_letter id_fold 100 (hostile n)))
    ["../sentinel"; "/etc/passwd"; "a\b"; "C:x"; "sub/../../x"; "CUE.MOD/module.cue"; "sub/cue.mod/module.cue";
     "cue.mod/local-module.cue"; "Cue.Mod/Module.cue"; "cue.mod/module.cue"; "nul.txt"; "a."; "a//b"; "./a"]%string = true.
Proof. exact ex_hostile_rejected. Qed.
Print Assumptions C15_ex_hostile_rejected.

(* Create writes the valid files in byte order of their paths (sort_files is a sorted permutation) *)
Theorem C15_create_order : forall l, Sorted.Sorted name_le (sort_files l).
Proof. induction l as [|f r IH]; simpl; [constructor|apply insert_sorted_sorted; auto]. Qed.
Print Assumptions C15_create_order.

Theorem C15_create_sort_permutes : forall x l, In x (sort_files l) <-> In x l.
Proof.
  induction l as [|f r IH]; simpl; [tauto|]. rewrite In_insert_sorted, IH. intuition.
Qed.
Print Assumptions C15_create_sort_permutes.
