(* C16 - The module cache never serves a partial download, whatever crashes or races.

   Model: Cache/Model.v (executable [step : cfg -> world -> label -> option world]).
   [reachable c w]: w is reached from the empty cache by ANY sequence of labels:
   [Spawn p k] (a goroutine of process p calls Fetch / FetchFromCache / ModFile - any
   number of processes and goroutines), [Eff i e] (thread i performs its next
   file-system effect or internal event, incl. registry faults - any interleaving),
   [Crash p] (process p is killed - at any point; its flock is released).
   [env_ok c]: the protocol as written (no variant flag) and no local I/O errors. *)
From Verif Require Import Cache.Model Cache.Inv Cache.Safety Cache.Recovery Cache.SingleFlight Cache.Variants Cache.Examples.
From Coq Require Import List.
Import ListNotations.

(* The invariant (store: zip/module file present => complete; directory unmarked =>
   complete; per-thread knowledge; flock discipline) holds initially and is preserved
   by every step: it is inductive, hence holds in every reachable world. *)
Theorem C16_inv_init : forall c, Inv c world0.
Proof. exact inv_init. Qed.
Print Assumptions C16_inv_init.

Theorem C16_inv_inductive : forall c w l w', env_ok c -> Inv c w -> step c w l = Some w' -> Inv c w'.
Proof. exact inv_step. Qed.
Print Assumptions C16_inv_inductive.

Theorem C16_inv_reachable : forall c w, env_ok c -> reachable c w -> Inv c w.
Proof. exact inv_reachable. Qed.
Print Assumptions C16_inv_reachable.

(* what it says of the Go code: at Cache.Safety.reachable_safe *)
Theorem C16_reachable_safe : forall c, env_ok c -> forall w i t,
  reachable c w -> nth_error (threads w) i = Some t -> tpc t = Done ROk -> tkind t <> KModFile ->
  complete c (st w).
Proof. exact reachable_safe. Qed.
Print Assumptions C16_reachable_safe.

(* The TOCTOU window of downloadDir for an arbitrary observer: stat(dir) succeeded in
   w1; after ANY further activity, stat(.partial) fails in w2; then dir is complete in w2. *)
Theorem C16_two_stat_safe : forall c, env_ok c -> forall w1 ls w2,
  reachable c w1 -> dir (st w1) <> None -> run c w1 ls = Some w2 -> marker (st w2) = false ->
  complete c (st w2).
Proof.
  intros c EV w1 ls w2 R D H M.
  pose proof (inv_store _ _ (inv_reachable _ _ EV R)) as S1.
  pose proof (inv_store _ _ (inv_reachable _ _ EV (run_reachable _ _ _ _ R H))) as S2.
  split; auto. apply (si_dir _ _ S2); auto. apply (run_stab c EV _ _ _ R H). apply (si_created _ _ S1); auto.
Qed.
Print Assumptions C16_two_stat_safe.

Theorem C16_available_complete : forall c, env_ok c -> forall w,
  reachable c w -> dir (st w) <> None -> marker (st w) = false -> complete c (st w).
Proof. intros c EV w R D M. apply (C16_two_stat_safe c EV w [] w R D eq_refl M). Qed.
Print Assumptions C16_available_complete.

Theorem C16_complete_stable : forall c, env_ok c -> forall w ls w',
  reachable c w -> complete c (st w) -> run c w ls = Some w' -> complete c (st w').
Proof. intros c EV w ls w' R C H. apply (run_stab c EV _ _ _ R H). exact C. Qed.
Print Assumptions C16_complete_stable.

Theorem C16_zip_absent_or_complete : forall c, env_ok c -> forall w,
  reachable c w -> zip (st w) = None \/ zip (st w) = Some (zsize c).
Proof.
  intros c EV w R. destruct (zip (st w)) eqn:Z; auto. right. f_equal.
  apply (si_zip _ _ (inv_store _ _ (inv_reachable _ _ EV R)) _ Z).
Qed.
Print Assumptions C16_zip_absent_or_complete.

Theorem C16_modfile_absent_or_complete : forall c, env_ok c -> forall w,
  reachable c w -> modf (st w) = None \/ modf (st w) = Some (msize c).
Proof.
  intros c EV w R. destruct (modf (st w)) eqn:Z; auto. right. f_equal.
  apply (si_mod _ _ (inv_store _ _ (inv_reachable _ _ EV R)) _ Z).
Qed.
Print Assumptions C16_modfile_absent_or_complete.

Theorem C16_modfile_safe : forall c, env_ok c -> forall w i t,
  reachable c w -> nth_error (threads w) i = Some t -> tpc t = Done ROk -> tkind t = KModFile ->
  modf (st w) = Some (msize c).
Proof.
  intros c EV w i t R N P K. destruct (inv_threads _ _ (inv_reachable _ _ EV R) i t N) as [_ [_ PI]].
  apply (pcinv_done_ok _ _ _ P) in PI. rewrite K in PI. exact PI.
Qed.
Print Assumptions C16_modfile_safe.

Theorem C16_lock_exclusive : forall c, env_ok c -> forall w i j ti tj, reachable c w ->
  nth_error (threads w) i = Some ti -> nth_error (threads w) j = Some tj ->
  locked_pc (tpc ti) = true -> locked_pc (tpc tj) = true -> i = j.
Proof.
  intros c EV w i j ti tj R Ni Nj Li Lj. pose proof (inv_reachable _ _ EV R) as I.
  destruct (inv_threads _ _ I i ti Ni) as [A _]. destruct (inv_threads _ _ I j tj Nj) as [B _].
  rewrite (A Li) in B. specialize (B Lj). congruence.
Qed.
Print Assumptions C16_lock_exclusive.

(* Unzip's error path (RemoveAll + remove marker) is dead code without local I/O errors *)
Theorem C16_unzip_error_path_unreachable : forall c, env_ok c -> forall w i t,
  reachable c w -> nth_error (threads w) i = Some t -> tpc t <> E0 /\ tpc t <> E1 /\ tpc t <> F9 RErr.
Proof.
  intros c EV w i t R N. destruct (inv_threads _ _ (inv_reachable _ _ EV R) i t N) as [_ [_ PI]].
  unfold pcinv in PI. repeat split; intros E; rewrite E in PI; auto.
Qed.
Print Assumptions C16_unzip_error_path_unreachable.

(* what it says of the Go code: at Cache.Recovery.recovery *)
Theorem C16_recovery : forall c w p, env_ok c -> reachable c w -> quiescent w ->
  mem_nat p (crashed w) = false -> sfz (ps w p) = SfIdle ->
  exists w0 w' t',
    step c w (Spawn p KFetch) = Some w0 /\
    run_clean c (clean_fuel c (st w0)) w0 (length (threads w)) = Some w' /\
    nth_error (threads w') (length (threads w)) = Some t' /\ tpc t' = Done ROk /\
    complete c (st w') /\ reachable c w'.
Proof. exact recovery. Qed.
Print Assumptions C16_recovery.

(* what it says of the Go code: at Cache.SingleFlight.single_flight *)
Theorem C16_single_flight : forall c w p, reachable c w -> gz (ps w p) <= 1.
Proof. exact single_flight. Qed.
Print Assumptions C16_single_flight.

(* Which orderings the proof relies on: each variant has a reachable state in which a
   call has returned success while the directory is not the complete content. *)
Theorem C16_ordering_necessary_marker_before_mkdir :
  exists ls w, run (base false true false false false) world0 ls = Some w /\ unsafe (base false true false false false) w.
Proof. apply (refuted_by _ h_marker_late). vm_compute. reflexivity. Qed.
Print Assumptions C16_ordering_necessary_marker_before_mkdir.

Theorem C16_ordering_necessary_marker_until_extracted :
  exists ls w, run (base false false true false false) world0 ls = Some w /\ unsafe (base false false true false false) w.
Proof. apply (refuted_by _ h_marker_early). vm_compute. reflexivity. Qed.
Print Assumptions C16_ordering_necessary_marker_until_extracted.

Theorem C16_ordering_necessary_recheck_under_lock :
  exists ls w, run (base false false false true false) world0 ls = Some w /\ unsafe (base false false false true false) w.
Proof. apply (refuted_by _ h_no_recheck). vm_compute. reflexivity. Qed.
Print Assumptions C16_ordering_necessary_recheck_under_lock.

Theorem C16_ordering_necessary_stat_dir_before_marker :
  exists ls w, run (base false false false false true) world0 ls = Some w /\ unsafe (base false false false false true) w.
Proof. apply (refuted_by _ h_stat_swapped). vm_compute. reflexivity. Qed.
Print Assumptions C16_ordering_necessary_stat_dir_before_marker.

(* Outside the property's fault model: with a local I/O error during extraction the
   protocol as written reaches an unsafe state (error path removes directory, then marker). *)
Theorem C16_io_error_path_toctou_refuted :
  exists ls w, run (base true false false false false) world0 ls = Some w /\ unsafe (base true false false false false) w.
Proof. apply (refuted_by _ h_io_error). vm_compute. reflexivity. Qed.
Print Assumptions C16_io_error_path_toctou_refuted.

(* the tie: every world the trace acceptor returns is reachable *)
Theorem C16_accept_sound : forall c ls ws, (forall w, In w ws -> reachable c w) ->
  forall w', In w' (accept c ws ls) -> reachable c w'.
Proof.
  induction ls; simpl; intros ws H w' I; auto.
  eapply IHls; [|exact I]. intros w Hw. apply in_flat_map in Hw. destruct Hw as [w0 [H0 H1]].
  eapply accept1_reach; eauto.
Qed.
Print Assumptions C16_accept_sound.

Example C16_served_reachable :
  exists w i t, reachable c_ok w /\ nth_error (threads w) i = Some t /\ tpc t = Done ROk /\ tkind t = KFromCache.
Proof. exact served_reachable. Qed.
Print Assumptions C16_served_reachable.

Example C16_crash_mid_state :
  dir (st w_crash_mid) = Some [(0, 0)] /\ marker (st w_crash_mid) = true /\ lock (st w_crash_mid) = None /\
  zip (st w_crash_mid) = Some 1 /\ quiescent w_crash_mid.
Proof. exact crash_mid_state. Qed.
Print Assumptions C16_crash_mid_state.

Example C16_two_stat_window :
  exists ls w2, dir (st w_crash_mid) <> None /\ run c_ok w_crash_mid ls = Some w2 /\ marker (st w2) = false.
Proof. exact two_stat_window. Qed.
Print Assumptions C16_two_stat_window.

Example C16_recovery_applicable :
  reachable c_ok w_crash_mid /\ quiescent w_crash_mid /\ mem_nat 1 (crashed w_crash_mid) = false /\ sfz (ps w_crash_mid 1) = SfIdle.
Proof. exact (conj w_crash_mid_reachable recovery_applicable). Qed.
Print Assumptions C16_recovery_applicable.
