(* C18 - Workflow tasks run once, after everything they depend on, under every
   schedule (tools/flow).

   [run w tr = Some s]: the label sequence tr (Dispatch t | Complete t ok | Cancel,
   completions and their outcomes chosen by the environment) is an execution of
   the controller model on workflow w, ending in state s.  All theorems quantify
   over ALL executions. *)
From Verif Require Import Flow.Model Flow.CycleProofs Flow.Spec Flow.Ops Flow.Invariant Flow.Proofs Flow.Examples Flow.Discover Flow.DiscoverProofs.
From Coq Require Import List Bool Arith Permutation Lia.
Import ListNotations.

(* A task starts only after every task it refers to (late references included) has
   completed successfully earlier in the execution, and those results are in the
   configuration the task sees: t.v is looked up in a c.inst that contains ALL
   results received so far. *)
Theorem C18_start_after_deps : forall w, wf_closed w ->
  forall tr1 t tr2 s, run w (tr1 ++ Dispatch t :: tr2) = Some s ->
  exists s1 s2, run w tr1 = Some s1 /\ step w s1 (Dispatch t) = Some s2 /\
    views s2 = (t, results s1) :: views s1 /\ view_of s2 t = results s1 /\
    forall d a, In (d, a) (deps w t) -> d <> t ->
      In (Complete d true) tr1 /\ In d (view_of s2 t).
Proof. exact start_after_deps. Qed.
Print Assumptions C18_start_after_deps.

(* Every task is dispatched at most once and completes at most once. *)
Theorem C18_at_most_once : forall w tr s, run w tr = Some s ->
  forall x, count (Dispatch x) tr <= 1 /\
            count (Complete x true) tr + count (Complete x false) tr <= 1.
Proof. exact at_most_once. Qed.
Print Assumptions C18_at_most_once.

Theorem C18_complete_after_dispatch : forall w tr1 x ok tr2 s,
  run w (tr1 ++ Complete x ok :: tr2) = Some s -> In (Dispatch x) tr1.
Proof. exact complete_after_dispatch. Qed.
Print Assumptions C18_complete_after_dispatch.

(* Liveness: in an acyclic workflow with no failure and no cancellation, under any
   completion order, no error is recorded, the measure
   2 * (tasks not started) + (tasks running) drops by one with every event, and a
   state is never stuck before every task has been dispatched exactly once and
   has completed: every maximal execution has exactly 2 * |w| events and runs all
   tasks. *)
Theorem C18_all_run_when_acyclic_ok : forall w, wf_known w -> wf_trig w -> acyclic w ->
  forall tr s, run w tr = Some s -> all_ok tr ->
  stop s = None /\
  length tr + measure w s = 2 * length w /\
  ((exists x, step w s (Dispatch x) <> None) \/
   (exists x, step w s (Complete x true) <> None) \/
   (length tr = 2 * length w /\
    forall x, x < length w ->
      In x (results s) /\ count (Dispatch x) tr = 1 /\ count (Complete x true) tr = 1)).
Proof. exact all_run_when_acyclic_ok. Qed.
Print Assumptions C18_all_run_when_acyclic_ok.

Theorem C18_measure_decreases : forall w s l s', Inv w s -> step w s l = Some s' ->
  is_fail_or_cancel l = false -> measure w s = S (measure w s').
Proof. exact measure_step. Qed.
Print Assumptions C18_measure_decreases.

(* A failure or a cancellation ends the execution: no event follows. *)
Theorem C18_nothing_after_failure : forall w tr1 l tr2 s,
  run w (tr1 ++ l :: tr2) = Some s -> is_fail_or_cancel l = true -> tr2 = [].
Proof.
  intros w tr1 l tr2 s H Hl.
  apply run_mid in H. destruct H as [s1 [s2 [H1 [E H2]]]].
  pose proof (proj2 (step_frame w s1 l s2 (run_inv w tr1 s1 H1) E)) as Hs.
  destruct tr2 as [|l2 r]; auto. simpl in H2.
  rewrite (step_stopped w s2 l2 (match l with Cancel => StopCancelled | _ => StopFailed end)) in H2.
  - discriminate.
  - rewrite Hs. destruct l as [| ? [|] |]; simpl in Hl; try discriminate; reflexivity.
Qed.
Print Assumptions C18_nothing_after_failure.

(* A task that transitively depends on a failed task is never started - neither
   before nor after the failure. *)
Theorem C18_failure_blocks_dependants : forall w, wf_closed w ->
  forall tr s d x, run w tr = Some s -> In (Complete d false) tr ->
  depends_on w x d -> ~ In (Dispatch x) tr.
Proof. exact failure_blocks_dependants. Qed.
Print Assumptions C18_failure_blocks_dependants.

(* No deadlock, for EVERY workflow (cyclic ones included): whenever nothing is
   Ready or Running and no error is recorded, nothing is Waiting; the "deadlock"
   branch of runLoop is unreachable. *)
Theorem C18_no_deadlock : forall w, wf_known w ->
  forall tr s, run w tr = Some s -> stop s = None ->
  any_ready s = false -> any_running s = false -> any_waiting s = false.
Proof. exact no_deadlock. Qed.
Print Assumptions C18_no_deadlock.

Theorem C18_never_deadlock_outcome : forall w, wf_known w ->
  forall tr s, run w tr = Some s -> outcome_of s <> OutDeadlock.
Proof.
  intros w K tr s H. unfold outcome_of.
  destruct (stop s) as [[| |]|] eqn:Hs; try discriminate.
  destruct (any_ready s) eqn:Hr; simpl; [discriminate|].
  destruct (any_running s) eqn:Hn; simpl; [discriminate|].
  rewrite (no_deadlock w K tr s H Hs Hr Hn). discriminate.
Qed.
Print Assumptions C18_never_deadlock_outcome.

(* no_deadlock_acyclic, as named in the plan: an acyclic workflow neither
   deadlocks nor reports an error *)
Theorem C18_no_deadlock_acyclic : forall w, wf_known w -> wf_trig w ->
  forall tr s, run w tr = Some s -> stop s = None ->
  (exists x, step w s (Dispatch x) <> None) \/
  (exists x, step w s (Complete x true) <> None) \/
  (measure w s = 0 /\
   forall x, x < length w ->
     In x (results s) /\ count (Dispatch x) tr = 1 /\ count (Complete x true) tr = 1).
Proof. exact progress. Qed.
Print Assumptions C18_no_deadlock_acyclic.

Theorem C18_acyclic_never_stops : forall w, wf_known w -> acyclic w ->
  forall tr s, run w tr = Some s -> all_ok tr -> stop s = None.
Proof. exact acyclic_never_stops. Qed.
Print Assumptions C18_acyclic_never_stops.

(* A cycle among the tasks that exist initially is reported and nothing runs. *)
Theorem C18_cycle_reported_initially : forall w, wf_known w ->
  has_cycle (Dp (init w)) (known (init w)) ->
  stop (init w) = Some StopCycle /\ forall tr s, run w tr = Some s -> tr = [].
Proof.
  intros w K Hc.
  assert (Hs : stop (init w) = Some StopCycle).
  { pose proof (i_acyc w (init w) (inv_init w) K) as A. rewrite init_stop in *.
    destruct (check_cycle _ _) as [[|]|]; auto. contradiction (A eq_refl). }
  split; auto. intros tr s H. destruct tr as [|l r]; auto.
  unfold run in H. simpl in H. rewrite (step_stopped w (init w) l StopCycle Hs) in H. discriminate.
Qed.
Print Assumptions C18_cycle_reported_initially.

(* cycle.go: checkCycle reports an error iff the dependency graph has a cycle;
   the checker needs no more fuel than there are tasks. *)
Theorem C18_check_cycle_correct : forall dp ts, closed dp ts ->
  (check_cycle dp ts = Some true /\ has_cycle dp ts) \/
  (check_cycle dp ts = Some false /\ ~ has_cycle dp ts).
Proof. exact check_cycle_correct. Qed.
Print Assumptions C18_check_cycle_correct.

Theorem C18_check_cycle_fuel_sufficient : forall dp ts f,
  closed dp ts -> length ts <= f -> check_cycle_from dp f ts <> None.
Proof. exact check_cycle_fuel_sufficient. Qed.
Print Assumptions C18_check_cycle_fuel_sufficient.

(* The results merged into the configuration are exactly the successful
   completions, each once; two executions with the same successful completions
   merge the same multiset, so any order-insensitive merge gives the same final
   configuration. *)
Theorem C18_final_config_order_free : forall w tr1 tr2 s1 s2,
  run w tr1 = Some s1 -> run w tr2 = Some s2 ->
  (forall x, In (Complete x true) tr1 <-> In (Complete x true) tr2) ->
  Permutation (results s1) (results s2) /\
  forall (C : Type) (merge : C -> nat -> C) (c0 : C),
    (forall c a b, merge (merge c a) b = merge (merge c b) a) ->
    fold_left merge (results s1) c0 = fold_left merge (results s2) c0.
Proof. exact final_config_order_free. Qed.
Print Assumptions C18_final_config_order_free.

(* complete failure-free executions of an acyclic workflow merge the results of
   all tasks, whatever the completion order *)
Theorem C18_final_config_complete_runs : forall w, wf_known w -> wf_trig w -> acyclic w ->
  forall tr1 tr2 s1 s2,
  run w tr1 = Some s1 -> run w tr2 = Some s2 -> all_ok tr1 -> all_ok tr2 ->
  outcome_of s1 = OutOk -> outcome_of s2 = OutOk ->
  Permutation (results s1) (all_tasks w) /\ Permutation (results s1) (results s2).
Proof.
  intros w K T A tr1 tr2 s1 s2 H1 H2 O1 O2 F1 F2.
  assert (G : forall tr s, run w tr = Some s -> all_ok tr -> outcome_of s = OutOk ->
              Permutation (results s) (all_tasks w)).
  { intros tr s H Hok F.
    pose proof (acyclic_never_stops w K A tr s H Hok) as Hs.
    unfold outcome_of in F. rewrite Hs in F.
    destruct (any_ready s) eqn:Hr; simpl in F; [discriminate|].
    destruct (any_running s) eqn:Hn; simpl in F; [discriminate|].
    destruct (all_done_when_idle w K T tr s H Hs Hr Hn) as [_ P].
    pose proof (run_inv w tr s H) as I.
    apply NoDup_Permutation.
    - apply (i_res_nodup w s I).
    - apply seq_NoDup.
    - intros x. split.
      + intros Hx. apply (i_res w s I) in Hx. apply (known_all_tasks w s x I). tauto.
      + intros Hx. apply in_seq in Hx. apply P. lia. }
  split.
  - apply (G tr1 s1 H1 O1 F1).
  - eapply Permutation_trans; [apply (G tr1 s1 H1 O1 F1)|]. apply Permutation_sym. apply (G tr2 s2 H2 O2 F2).
Qed.
Print Assumptions C18_final_config_complete_runs.

(* Task.Dependencies() of a task that has not started = the visible ground-truth references *)
Theorem C18_deps_are_ground_truth : forall w tr s, run w tr = Some s ->
  forall x, In x (known s) -> le_readyb (St s x) = true ->
  forall d, In d (Dp s x) <-> exists a, In (d, a) (deps w x) /\ d <> x /\ act (results s) a = true.
Proof.
  intros w tr s H x Hx Hle d. rewrite (i_fresh w s (run_inv w tr s H) x Hx Hle). apply kdeps_In.
Qed.
Print Assumptions C18_deps_are_ground_truth.

Theorem C18_invariant : forall w tr s, run w tr = Some s -> Inv w s.
Proof. exact run_inv. Qed.
Print Assumptions C18_invariant.

Example C18_ex_hypotheses_met : wf_known ex_w /\ wf_trig ex_w /\ wf_closed ex_w /\ acyclic ex_w.
Proof. exact ex_w_wf. Qed.
Print Assumptions C18_ex_hypotheses_met.

Example C18_ex_two_orders :
  summary ex_w ex_tr1 = Some (OutOk, [0; 1; 2; 4; 3]) /\
  summary ex_w ex_tr2 = Some (OutOk, [0; 2; 1; 4; 3]).
Proof. exact (conj ex_run1 ex_run2). Qed.
Print Assumptions C18_ex_two_orders.

Example C18_ex_cycle_reported :
  summary ex_cyc [] = Some (OutCycle, []) /\ summary ex_cyc [Dispatch 0] = None.
Proof. exact ex_cycle_reported. Qed.
Print Assumptions C18_ex_cycle_reported.

Example C18_ex_late_cycle_reported :
  summary ex_latecyc [Dispatch 0] = Some (OutUnfinished, []) /\
  summary ex_latecyc [Dispatch 0; Complete 0 true] = Some (OutCycle, [0]).
Proof. exact ex_late_cycle_reported. Qed.
Print Assumptions C18_ex_late_cycle_reported.

Example C18_start_after_deps_needs_closed :
  wf_known ex_selfgroup /\ wf_closed_b ex_selfgroup = false /\
  summary ex_selfgroup [Dispatch 0] = Some (OutUnfinished, []) /\
  In (1, Some 0) (deps ex_selfgroup 0).
Proof. exact start_after_deps_needs_closed. Qed.
Print Assumptions C18_start_after_deps_needs_closed.

(* Dependency DISCOVERY (tools/flow/tasks.go markTaskDependencies / findImpliedTask /
   getTask / tagChildren + dep.Visit/Recurse) for task-graph configurations
   (Flow/Discover.v): tasks as struct fields, references into tasks and their
   sub-fields, through non-task fields, to enclosing structs that contain tasks, into
   tasks that only appear after a Fill. *)

(* everything the discovery reports is justified by a chain of references that ends at or
   below an existing task (for every fuel, every configuration, every result set) *)
Theorem C18_discover_sound : forall fuel cfg res t d,
  In d (discover fuel cfg res t) -> Refers cfg res t d.
Proof. exact discover_sound. Qed.
Print Assumptions C18_discover_sound.

Theorem C18_discover_irrefl : forall fuel cfg res t, ~ In t (discover fuel cfg res t).
Proof. exact discover_irrefl. Qed.
Print Assumptions C18_discover_irrefl.

(* a task that does not exist (yet) has no dependencies *)
Theorem C18_discover_absent : forall fuel cfg res t,
  ~ In t (tasks_at cfg res) -> discover fuel cfg res t = [].
Proof.
  intros fuel cfg res t H. unfold discover.
  destruct (find _ cfg) as [e|] eqn:E; [|reflexivity].
  exfalso. apply H. apply find_some in E. destruct E as [Hin Hb].
  apply andb_true_iff in Hb. destruct Hb as [Ha Ht].
  unfold tasks_at. apply in_flat_map. exists e. split; [exact Hin|].
  rewrite Ha. unfold is_task_id in Ht. unfold task_id.
  destruct (e_item e); [|discriminate].
  apply Nat.eqb_eq in Ht. subst. now left.
Qed.
Print Assumptions C18_discover_absent.

(* the implementation never finds MORE than the Spec reading of the property asks for *)
Theorem C18_discover_incl_spec : forall fuel cfg res t d,
  In d (discover fuel cfg res t) -> In d (discover_spec fuel cfg res t).
Proof.
  intros fuel cfg res t d H. unfold discover, discover_spec in *.
  destruct (find _ cfg) as [e|]; [|contradiction].
  apply filter_In in H. destruct H as [H Hne].
  apply filter_In. split; [|exact Hne].
  apply in_flat_map in H. destruct H as [r [Hr Hd]].
  apply in_flat_map. exists r. split; [exact Hr|]. now apply reach_incl_spec.
Qed.
Print Assumptions C18_discover_incl_spec.

(* Along a run with completion order cs, the dependency sets of the controller model on
   the workflow [wf_of_run cfg cs] are exactly the discoveries accumulated (addDep) over
   the configurations the run went through; tasks exist from the first configuration
   that contains them.  Hence every C18 theorem above (they hold for ALL workflows)
   speaks about configurations with dynamically appearing tasks. *)
Theorem C18_kdeps_wf_of_run : forall cfg cs j t d,
  NoDup cs -> j <= length cs -> t < ntasks cfg ->
  (In d (kdeps (wf_of_run cfg cs) (firstn j cs) t) <->
   d <> t /\ d < ntasks cfg /\
   exists i, i <= j /\ In d (discover (dfuel cfg) cfg (firstn i cs) t)).
Proof. exact kdeps_wf_of_run. Qed.
Print Assumptions C18_kdeps_wf_of_run.

Theorem C18_trig_wf_of_run_active : forall cfg cs j t,
  NoDup cs -> j <= length cs -> t < ntasks cfg ->
  (In t cs -> exists i, i <= length cs /\ In t (tasks_at cfg (firstn i cs))) ->
  (act (firstn j cs) (trig (wf_of_run cfg cs) t) = true <->
   exists i, i <= j /\ In t (tasks_at cfg (firstn i cs))).
Proof. exact trig_wf_of_run_active. Qed.
Print Assumptions C18_trig_wf_of_run_active.

(* A task is started only after every task that the dependency discovery finds for it in
   ANY configuration of the run (before or after dynamic tasks appeared) has completed
   successfully - for every schedule; [cs] is the completion order of the run. *)
Theorem C18_cfg_start_after_discovered : forall cfg cs,
  wf_closed (wf_of_run cfg cs) ->
  forall tr1 t tr2 s, t < ntasks cfg ->
  run (wf_of_run cfg cs) (tr1 ++ Dispatch t :: tr2) = Some s ->
  forall d i, i <= length cs -> d < ntasks cfg ->
    In d (discover (dfuel cfg) cfg (firstn i cs) t) ->
    In (Complete d true) tr1.
Proof.
  intros cfg cs Hc tr1 t tr2 s Ht Hrun d i Hi Hd Hin.
  destruct (start_after_deps _ Hc tr1 t tr2 s Hrun) as [s1 [s2 [_ [_ [_ [_ Hall]]]]]].
  destruct (discovered_in_run_deps cfg cs t d i Hi Hd Hin) as [a Ha].
  apply (Hall d a).
  - rewrite deps_wf_of_run by exact Ht. exact Ha.
  - intros ->. now apply discover_irrefl in Hin.
Qed.
Print Assumptions C18_cfg_start_after_discovered.

(* Refuted Spec clause: a task that refers to a STRUCT CONTAINING another task does not
   wait for it (see design/C18.md, proposed finding F-C18-1): in [encl_cfg] task 2 only
   depends on what the BODY of task 1 refers to, and the controller lets task 2 run and
   complete while task 1 is running. *)
Theorem C18_enclosing_reference_refuted :
  In 1 (discover_spec (dfuel encl_cfg) encl_cfg [] 2) /\
  discover (dfuel encl_cfg) encl_cfg [] 2 = [0] /\
  option_map (fun s => (ti_state (info s 1), ti_state (info s 2)))
             (run (wf_of_run encl_cfg (completions encl_tr)) encl_tr)
  = Some (Running, Terminated true).
Proof.
  split; [vm_compute; auto|]. split; vm_compute; reflexivity.
Qed.
Print Assumptions C18_enclosing_reference_refuted.

Example C18_ex_discover_dynamic :
  discover (dfuel dyn_cfg) dyn_cfg [] 4 = [0; 0] /\
  discover (dfuel dyn_cfg) dyn_cfg [0] 4 = [1] /\
  tasks_at dyn_cfg [] = [0; 5; 3; 4; 6; 7] /\
  tasks_at dyn_cfg [0] = [0; 1; 2; 5; 3; 4; 6; 7] /\
  kdeps (wf_of_run dyn_cfg [5; 0]) [5; 0] 4 = [0; 1] /\
  kdeps (wf_of_run dyn_cfg [5; 0]) [5; 0] 7 = [0; 1; 2; 5] /\
  kdeps (wf_of_run dyn_cfg [5; 0]) [5; 0] 3 = [0; 5].
Proof. exact ex_discover_dynamic. Qed.
Print Assumptions C18_ex_discover_dynamic.
