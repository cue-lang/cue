(* C19 - Values are immutable: concurrent use gives sequential answers, no data races.
   PARTIAL: these are theorems about the LOGIC of the shared mutable state behind the
   facade - the global label index (internal/core/runtime/index.go getKey /
   IndexToString) and the single-flight cache (internal/par Cache.Do) - for every
   interleaving of their lock-protected sections and any number of threads.
   Absence of data races in the Go memory model is NOT a theorem here (no Gallina
   model exhibits it); it is explored with the race detector by checks/C19.py. *)
From Verif Require Import Conc.Index Conc.IndexProofs Conc.Once Conc.OnceProofs Conc.Examples.
From Coq Require Import List Arith Bool Lia.
Import ListNotations.

Section Conc.
  Variable K : Type.                                       (* strings / cache keys *)
  Variable K_eq_dec : forall a b : K, {a = b} + {a <> b}.

  (* In every reachable state of the index machine (with the re-check), from any
     well-formed initial table: no duplicates; labelMap is exactly the inverse of
     labels; every index handed to any thread reads back its string; same string
     <-> same index across all threads; the table only grew by appending. *)
  Theorem C19_index_bijective : forall b0 st, wf_tbl K K_eq_dec b0 -> Index.reachable K K_eq_dec true b0 st ->
    NoDup (labels K (tb K st)) /\
    (forall s p, assoc K K_eq_dec (lmap K (tb K st)) s = Some p <-> index_to_string K (tb K st) p = Some s) /\
    (forall t s p, In (s, p) (logs K st t) -> index_to_string K (tb K st) p = Some s) /\
    (forall t s p t' s' p', In (s, p) (logs K st t) -> In (s', p') (logs K st t') -> (s = s' <-> p = p')) /\
    (exists ext, labels K (tb K st) = labels K b0 ++ ext).
  Proof. exact (index_bijective K K_eq_dec). Qed.

  (* indices never change: along any continuation (either variant) an index keeps
     denoting the same string *)
  Theorem C19_index_stable : forall rc st ls st' p s,
    Index.run K K_eq_dec rc st ls = Some st' ->
    index_to_string K (tb K st) p = Some s -> index_to_string K (tb K st') p = Some s.
  Proof.
    intros rc st ls st' p s R H. destruct (run_grows K K_eq_dec _ _ _ _ R) as [[e E] _].
    unfold index_to_string in *. rewrite E. apply nth_error_app_mono; auto.
  Qed.

  (* a result returned once stays valid and unique under every continuation *)
  Theorem C19_index_results_stable : forall b0 ls1 ls2 st1 st2 t s p, wf_tbl K K_eq_dec b0 ->
    Index.run K K_eq_dec true (Index.init K b0) ls1 = Some st1 -> Index.run K K_eq_dec true st1 ls2 = Some st2 ->
    In (s, p) (logs K st1 t) ->
    In (s, p) (logs K st2 t) /\ index_to_string K (tb K st2) p = Some s /\
    (forall t' p', In (s, p') (logs K st2 t') -> p' = p).
  Proof.
    intros b0 ls1 ls2 st1 st2 t s p W R1 R2 I.
    assert (I2 : In (s, p) (logs K st2 t)).
    { destruct (proj2 (run_grows K K_eq_dec _ _ _ _ R2) t) as [e E]. rewrite E. apply in_or_app; auto. }
    assert (RR : Index.reachable K K_eq_dec true b0 st2).
    { exists (ls1 ++ ls2). rewrite (run_app K K_eq_dec), R1. auto. }
    destruct (C19_index_bijective b0 st2 W RR) as [_ [_ [L [B _]]]].
    split; auto. split; eauto.
    intros t' p' I'. symmetry. apply (proj1 (B _ _ _ _ _ _ I2 I')). reflexivity.
  Qed.

  (* the sequential function getKey: what one call does alone, and that the
     machine can do exactly that from any reachable state *)
  Theorem C19_get_key_sequential : forall b s b' p, wf_tbl K K_eq_dec b -> get_key K K_eq_dec b s = (b', p) ->
    wf_tbl K K_eq_dec b' /\ nth_error (labels K b') p = Some s /\
    (exists ext, labels K b' = labels K b ++ ext) /\ (In s (labels K b) -> b' = b).
  Proof. exact (get_key_spec K K_eq_dec). Qed.

  Theorem C19_index_call_alone : forall b0 st t s b' p, IndexProofs.Inv K K_eq_dec b0 st -> Index.pcs K st t = Index.Idle ->
    get_key K K_eq_dec (tb K st) s = (b', p) ->
    exists ls st', Index.run K K_eq_dec true st ls = Some st' /\ tb K st' = b' /\
      logs K st' t = logs K st t ++ [(s, p)] /\ Index.pcs K st' t = Index.Idle.
  Proof.
    intros b0 st t s b' p I P G. unfold get_key in G.
    destruct (assoc K K_eq_dec (lmap K (tb K st)) s) as [q|] eqn:A.
    - inversion G; subst. exists [CallA t s]. eexists. simpl. rewrite P, A. split; [reflexivity|].
      simpl. rewrite !upd_same. auto.
    - exists [CallA t s; SecB t]. eexists. simpl. rewrite P, A. simpl. rewrite upd_same, A.
      unfold append_key in *. inversion G; subst. split; [reflexivity|]. simpl.
      rewrite !upd_same. auto.
  Qed.

  (* tables built by sequential calls from the empty table (the package init) are well formed *)
  Theorem C19_seq_keys_wf : forall ss b' ps, seq_keys K K_eq_dec (empty_tbl K) ss = (b', ps) -> wf_tbl K K_eq_dec b'.
  Proof. exact (fun ss b' ps => seq_keys_wf K K_eq_dec ss (empty_tbl K) b' ps (wf_empty K K_eq_dec)). Qed.

  (* the executable history check used by the correspondence accepts every history
     of the machine, and acceptance implies the statement of index_bijective on
     the observed results *)
  Theorem C19_index_history_accepted : forall b0 st n, wf_tbl K K_eq_dec b0 -> Index.reachable K K_eq_dec true b0 st ->
    (forall t, n <= t -> logs K st t = []) ->
    check_history K K_eq_dec (labels K b0) (map (logs K st) (seq 0 n)) (labels K (tb K st)) (lmap K (tb K st)) = true.
  Proof.
    intros b0 st n W R Hn. pose proof (IndexProofs.inv_reachable K K_eq_dec b0 st W R) as [Wf [ext E] L A].
    unfold check_history. repeat (apply andb_true_iff; split).
    - apply nodupb_NoDup. apply Wf.
    - rewrite E. apply prefixb_app.
    - apply forallb_forall. intros Lg I. apply in_map_iff in I. destruct I as [t [<- _]].
      apply forallb_forall. intros [s p] I. apply entry_ok_true. eauto.
    - apply forallb_forall. intros p I. apply in_seq in I.
      destruct (A p) as [t T]; [lia|]. apply existsb_exists. exists (logs K st t). split; auto.
      apply in_map. apply in_seq. split; [lia|]. simpl.
      destruct (Nat.lt_ge_cases t n) as [LT|GE]; auto. rewrite (Hn t GE) in T. discriminate.
    - apply forallb_forall. intros [k p] I. apply entry_ok_true. destruct Wf as [_ [F _]]. auto.
    - apply forallb_forall. intros k I. apply In_nth_error in I. destruct I as [p P].
      destruct Wf as [_ [_ B]]. rewrite (B _ _ P). reflexivity.
  Qed.

  Theorem C19_check_history_sound : forall il ls final fm, check_history K K_eq_dec il ls final fm = true ->
    NoDup final /\ (exists e, final = il ++ e) /\
    (forall L s p, In L ls -> In (s, p) L -> nth_error final p = Some s) /\
    (forall L s p L' s' p', In L ls -> In (s, p) L -> In L' ls -> In (s', p') L' -> (s = s' <-> p = p')) /\
    (forall p, length il <= p < length final -> exists L, In L ls /\ appender_ok K p L = true).
  Proof.
    intros il ls final fm H. unfold check_history in H.
    repeat (apply andb_true_iff in H; destruct H as [H ?]).
    apply nodupb_NoDup in H. apply prefixb_true in H3.
    assert (EN : forall L s p, In L ls -> In (s, p) L -> nth_error final p = Some s).
    { intros L s p IL I. rewrite forallb_forall in H2. specialize (H2 _ IL).
      rewrite forallb_forall in H2. apply (entry_ok_true K K_eq_dec). auto. }
    split; auto. split; auto. split; auto. split.
    - intros L s p L' s' p' IL I IL' I'. eapply nth_error_NoDup_iff; eauto.
    - intros p P. rewrite forallb_forall in H1. specialize (H1 p).
      rewrite existsb_exists in H1. apply H1. apply in_seq. lia.
  Qed.

  (* the re-check in section B is necessary: without it a duplicate entry is
     reachable and two callers get different indices for one string *)
  Theorem C19_index_recheck_necessary : forall s : K,
    exists st, Index.reachable K K_eq_dec false (empty_tbl K) st /\
      ~ NoDup (labels K (tb K st)) /\
      In (s, 0) (logs K st 0) /\ In (s, 1) (logs K st 1) /\
      assoc K K_eq_dec (lmap K (tb K st)) s = Some 1.
  Proof. exact (index_recheck_necessary K K_eq_dec). Qed.

  (* for every interleaving of any number of callers of any keys: f runs at most
     once per key; whoever has returned got the result of the one run; all
     callers of a key get the same result *)
  Theorem C19_do_once : forall st, Once.reachable K K_eq_dec true st ->
    (forall k, length (E K K_eq_dec st k) <= 1) /\
    (forall t k r, In (t, k, r) (rets K st) -> exists tok, r = Some tok /\ E K K_eq_dec st k = [tok]) /\
    (forall t k r t' r', In (t, k, r) (rets K st) -> In (t', k, r') (rets K st) -> r = r').
  Proof. exact (do_once K K_eq_dec). Qed.

  (* no deadlock: while some caller is inside Do, some caller inside Do can move *)
  Theorem C19_do_progress : forall st t, Once.reachable K K_eq_dec true st -> Once.pcs K st t <> Once.Idle ->
    exists u st', Once.pcs K st u <> Once.Idle /\ Once.step K K_eq_dec true st (Step u) = Some st'.
  Proof. exact (do_progress K K_eq_dec). Qed.

  (* every caller returns: with finitely many active callers there is a
     continuation without new calls after which every caller has returned *)
  Theorem C19_do_all_return : forall n st, Once.reachable K K_eq_dec true st ->
    (forall t, n <= t -> Once.pcs K st t = Once.Idle) ->
    exists ls st', Once.run K K_eq_dec true st ls = Some st' /\ (forall t, Once.pcs K st' t = Once.Idle) /\
                   (forall l, In l ls -> exists u, l = Step u).
  Proof. exact (do_all_return K K_eq_dec). Qed.

  (* a call takes a bounded number of own steps and does not touch other threads' pcs *)
  Theorem C19_do_call_bounded : forall ul st t st', Once.step K K_eq_dec ul st (Step t) = Some st' ->
    rank K (Once.pcs K st' t) < rank K (Once.pcs K st t) /\ forall u, u <> t -> Once.pcs K st' u = Once.pcs K st u.
  Proof. exact (step_rank K K_eq_dec). Qed.

  (* callers of different keys do not interfere *)
  Theorem C19_do_keys_independent : forall ul st l st' k k', Once.step K K_eq_dec ul st l = Some st' ->
    label_key K st l = Some k -> k' <> k ->
    ents K st' k' = ents K st k' /\ E K K_eq_dec st' k' = E K K_eq_dec st k' /\
    (forall t r, In (t, k', r) (rets K st') <-> In (t, k', r) (rets K st)).
  Proof.
    intros ul st l st' k k' H LK NE.
    assert (UK : forall (A : Type) (f : K -> A) a, updk K K_eq_dec f k a k' = f k').
    { intros. unfold updk. destruct (K_eq_dec k' k); congruence. }
    destruct l as [t k0 | t]; simpl in H, LK.
    - inversion LK; subst. destruct (pcs K st t); try discriminate.
      destruct (ents K st k); inversion H; subst; simpl; repeat split; auto.
    - destruct (pcs K st t) eqn:P; try discriminate; simpl in LK; inversion LK; subst;
        repeat match type of H with
               | context [match ?x with _ => _ end] => destruct x
               | context [if ?x then _ else _] => destruct x
               end; try discriminate; inversion H; subst; clear H; simpl;
        rewrite ?UK; repeat split; auto; try tauto.
      + unfold E, Once.execs_of; simpl. unfold Once.keyb at 1. destruct (K_eq_dec k k'); congruence.
      + intros [X | X]; auto. inversion X; subst. congruence.
  Qed.

  Theorem C19_once_history_accepted : forall st, Once.reachable K K_eq_dec true st ->
    check_once K K_eq_dec (execs K st) (returns_of K st) = true.
  Proof.
    intros st R. pose proof (OnceProofs.inv_reachable K K_eq_dec st R) as I. unfold check_once.
    apply andb_true_iff; split; apply forallb_forall.
    - intros [k tok] H. simpl. pose proof (execs_of_in K K_eq_dec _ _ _ H) as IN.
      pose proof (E_le1 K K_eq_dec st k I) as LE. unfold E in LE.
      destruct (execs_of K K_eq_dec k (execs K st)) as [|a [|b r]]; simpl in *; auto; try contradiction; lia.
    - intros [k r] H. unfold returns_of in H. apply in_map_iff in H.
      destruct H as [[[t k'] r'] [EQ IN]]. simpl in EQ. inversion EQ; subst.
      destruct (ret_once K K_eq_dec _ _ _ _ I IN) as [tok [-> X]]. simpl. unfold E in X. rewrite X.
      apply Nat.eqb_refl.
  Qed.
End Conc.
Print Assumptions C19_index_bijective.
Print Assumptions C19_index_stable.
Print Assumptions C19_index_results_stable.
Print Assumptions C19_get_key_sequential.
Print Assumptions C19_index_call_alone.
Print Assumptions C19_seq_keys_wf.
Print Assumptions C19_index_history_accepted.
Print Assumptions C19_check_history_sound.
Print Assumptions C19_index_recheck_necessary.
Print Assumptions C19_do_once.
Print Assumptions C19_do_progress.
Print Assumptions C19_do_all_return.
Print Assumptions C19_do_call_bounded.
Print Assumptions C19_do_keys_independent.
Print Assumptions C19_once_history_accepted.

(* the per-entry mutex is necessary: without it two callers both run f and return different results *)
Theorem C19_once_lock_necessary :
  exists st, Once.reachable nat Nat.eq_dec false st /\
    length (E nat Nat.eq_dec st 7) = 2 /\
    In (0, 7, Some 0) (rets nat st) /\ In (1, 7, Some 1) (rets nat st).
Proof.
  eexists. split; [exists nolock_schedule; vm_compute; reflexivity|]. vm_compute. auto.
Qed.
Print Assumptions C19_once_lock_necessary.

Example C19_example_index_three_threads :
  exists st, Index.run nat Nat.eq_dec true (Index.init nat tbl_init) sched3 = Some st /\
    Index.reachable nat Nat.eq_dec true tbl_init st /\
    labels nat (tb nat st) = [0; 5; 6] /\
    logs nat st 0 = [(5, 1); (6, 2)] /\ logs nat st 1 = [(5, 1); (0, 0)] /\ logs nat st 2 = [(6, 2); (5, 1)] /\
    check_history nat Nat.eq_dec (labels nat tbl_init) (map (logs nat st) (seq 0 3))
                  (labels nat (tb nat st)) (lmap nat (tb nat st)) = true.
Proof. exact index_three_threads. Qed.
Print Assumptions C19_example_index_three_threads.

Example C19_example_init_table_wf :
  wf_tbl nat Nat.eq_dec tbl_init /\ labels nat tbl_init = [0] /\ lmap nat tbl_init = [(0, 0)].
Proof. exact tbl_init_wf. Qed.
Print Assumptions C19_example_init_table_wf.

Example C19_example_recheck_effective : forall s : nat,
  exists st, Index.run nat Nat.eq_dec true (Index.init nat (empty_tbl nat)) (dup_schedule nat s) = Some st /\
    labels nat (tb nat st) = [s] /\ logs nat st 0 = [(s, 0)] /\ logs nat st 1 = [(s, 0)].
Proof. exact (index_recheck_effective nat Nat.eq_dec). Qed.
Print Assumptions C19_example_recheck_effective.

Example C19_example_check_history_rejects :
  check_history nat Nat.eq_dec [0] [[(5, 1)]; [(5, 2)]] [0; 5; 5] [(5, 2); (0, 0)] = false /\
  check_history nat Nat.eq_dec [0] [[(5, 1)]; [(5, 2)]] [0; 5; 6] [(6, 2); (5, 1); (0, 0)] = false /\
  check_history nat Nat.eq_dec [0] [[(5, 1)]; [(6, 1)]] [0; 5] [(5, 1); (0, 0)] = false /\
  check_history nat Nat.eq_dec [0] [[(6, 2); (5, 1)]] [0; 5; 6] [(6, 2); (5, 1); (0, 0)] = false /\
  check_history nat Nat.eq_dec [0] [[(5, 1); (6, 2)]] [0; 5; 6] [(6, 2); (5, 1); (0, 0)] = true.
Proof. exact check_history_rejects. Qed.
Print Assumptions C19_example_check_history_rejects.

Example C19_example_check_once_rejects :
  check_once nat Nat.eq_dec [(7, 1); (7, 0)] [(7, Some 0)] = false /\
  check_once nat Nat.eq_dec [(7, 0)] [(7, Some 0); (7, Some 1)] = false /\
  check_once nat Nat.eq_dec [(7, 0)] [(7, None)] = false /\
  check_once nat Nat.eq_dec [] [(7, Some 0)] = false /\
  check_once nat Nat.eq_dec [(8, 3); (7, 0)] [(7, Some 0); (8, Some 3); (7, Some 0)] = true.
Proof. exact check_once_rejects. Qed.
Print Assumptions C19_example_check_once_rejects.

Example C19_example_once_lock_effective :
  Once.run nat Nat.eq_dec true (Once.init nat) nolock_schedule = None /\
  exists st, Once.run nat Nat.eq_dec true (Once.init nat)
      [Call 0 7; Call 1 7; Step 0; Step 1; Step 0; Step 1; Step 0; Step 0; Step 0; Step 0; Step 0; Step 0; Step 0;
       Step 1; Step 1; Step 1; Step 1] = Some st /\
    E nat Nat.eq_dec st 7 = [0] /\ returns_of nat st = [(7, Some 0); (7, Some 0)].
Proof. exact once_lock_effective. Qed.
Print Assumptions C19_example_once_lock_effective.
