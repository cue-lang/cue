(* C20 - cue trim removes only what is implied: the evaluated configuration is unchanged.

   A package is a list of declarations at paths; [final_value labs atoms fuel P] is the
   CoreCUE evaluation of the conjuncts the declarations give to the root, observed over
   the label universe [labs], the probe atoms [atoms] and depth [fuel] (data, kinds,
   errors, closedness - Core/Eval.v).  [removes P K]: K is obtained from P by removing
   declarations one after the other, each one implied ([implied1]) by what REMAINS.
   [absorbed d K] is the executable sufficient condition (scalar entailment, existing
   fields, existing structs; never patterns / references / close / embeddings);
   [accepts_mask] is what the check runs on the set trim.Files removed. *)
From Verif Require Import Core.Syntax Core.Eval Core.Laws Core.Disj Trim.Model Trim.Proofs Trim.Examples.
From Coq Require Import List Bool Permutation.
Import ListNotations.

(* unifying into a node an expression that the node's conjuncts absorb changes nothing,
   for every universe, probe set and depth *)
Theorem C20_absorb_sound : forall labs atoms fuel cs vs,
  (forall v, In v vs -> absorbs v cs = true) ->
  evalNode labs atoms fuel (mkConj false vs :: cs) = evalNode labs atoms fuel cs.
Proof. exact absorb_sound. Qed.
Print Assumptions C20_absorb_sound.

Theorem C20_absorbed_implied : forall d K, absorbed d K = true -> implied1 K d.
Proof. exact absorbed_implied. Qed.
Print Assumptions C20_absorbed_implied.

(* the property: sequentially implied removals preserve the configuration *)
Theorem C20_removes_preserves : forall P K,
  removes P K -> forall labs atoms fuel, final_value labs atoms fuel K = final_value labs atoms fuel P.
Proof. exact removes_preserves. Qed.
Print Assumptions C20_removes_preserves.

Theorem C20_remove_implied_preserves : forall P m,
  removes P (keepm m P) ->
  forall labs atoms fuel, final_value labs atoms fuel (keepm m P) = final_value labs atoms fuel P.
Proof. exact remove_implied_preserves. Qed.
Print Assumptions C20_remove_implied_preserves.

(* ... at every path: same data, same errors *)
Theorem C20_remove_implied_preserves_at : forall P m,
  removes P (keepm m P) ->
  forall labs atoms fuel path,
    final_value_at labs atoms fuel (keepm m P) path = final_value_at labs atoms fuel P path.
Proof.
  intros P m H labs atoms fuel path. unfold final_value_at. rewrite (removes_preserves _ _ H). reflexivity.
Qed.
Print Assumptions C20_remove_implied_preserves_at.

(* the acceptor run on trim.Files' removed set is sound *)
Theorem C20_accepts_sound : forall K R, accepts K R = true -> removes (K ++ R) K.
Proof. exact accepts_sound. Qed.
Print Assumptions C20_accepts_sound.

Theorem C20_accepts_mask_preserves : forall P m,
  accepts_mask m P = true ->
  forall labs atoms fuel, final_value labs atoms fuel (keepm m P) = final_value labs atoms fuel P.
Proof.
  intros P m H. apply removes_preserves.
  apply (removes_perm_l (keepm m P ++ takem m P)); [apply Permutation_sym, keep_take_perm|].
  apply accepts_sound. exact H.
Qed.
Print Assumptions C20_accepts_mask_preserves.

(* the reference trimmer only performs sequentially implied removals, preserves the value,
   is idempotent and leaves nothing that the rest absorbs *)
Theorem C20_trim_model_removes : forall P, removes P (trim_model P).
Proof. intros P. apply trim_iter_removes. Qed.
Print Assumptions C20_trim_model_removes.

Theorem C20_trim_model_sound : forall P labs atoms fuel,
  final_value labs atoms fuel (trim_model P) = final_value labs atoms fuel P.
Proof. intros P. apply removes_preserves, C20_trim_model_removes. Qed.
Print Assumptions C20_trim_model_sound.

Theorem C20_trim_model_idempotent : forall P, trim_model (trim_model P) = trim_model P.
Proof. exact trim_model_idempotent. Qed.
Print Assumptions C20_trim_model_idempotent.

Theorem C20_trim_model_complete : forall P Q1 d Q2,
  trim_model P = Q1 ++ d :: Q2 -> absorbed d (Q1 ++ Q2) = false.
Proof.
  intros P Q1 d Q2 E. pose proof (trim_model_stable P) as S. unfold stable in S. rewrite E in S.
  apply (stable_none (Q1 ++ d :: Q2) [] S Q1 d Q2 eq_refl).
Qed.
Print Assumptions C20_trim_model_complete.

(* scalar entailment is sound for satisfaction, kinds and pinned atoms *)
Theorem C20_sc_entails_sat : forall c' c a, sc_entails c' c = true -> ssat a c' = true -> ssat a c = true.
Proof. exact sc_entails_sat. Qed.
Print Assumptions C20_sc_entails_sat.

Theorem C20_mutual_redundancy_unsafe :
  exists d : decl,
    implied1 [d] d /\
    exists labs atoms fuel, final_value labs atoms fuel [] <> final_value labs atoms fuel [d; d].
Proof. exact mutual_redundancy_unsafe. Qed.
Print Assumptions C20_mutual_redundancy_unsafe.

(* [absorbs_loose] drops the check that the field already exists *)
Theorem C20_pattern_root_must_not_win :
  exists (K : pkg) (d : decl),
    absorbs_loose (d_expr d) (conjs K) = true /\
    exists labs atoms fuel, final_value labs atoms fuel (d :: K) <> final_value labs atoms fuel K.
Proof.
  exists [mkDecl 0 [] (EStruct [(HPattern [0%N], EScalar (SAtom (AInt 5)))])],
         (mkDecl 0 [(LReg 0, FRegular)] (EScalar (SKind KInt))).
  split; [reflexivity|].
  exists [LReg 0], [AInt 5], 3. vm_compute. discriminate.
Qed.
Print Assumptions C20_pattern_root_must_not_win.

(* a struct may only be demanded where the rest already has one: x: a: {} is not implied by x: a: _ *)
Theorem C20_struct_marker_not_implied_by_top :
  exists (K : pkg) (d : decl),
    absorbed d K = false /\
    exists labs atoms fuel, final_value labs atoms fuel (d :: K) <> final_value labs atoms fuel K.
Proof.
  exists [mkDecl 0 [(LReg 0, FRegular)] ETop], (mkDecl 0 [(LReg 0, FRegular)] (EStruct [])).
  split; [reflexivity|].
  exists [LReg 0], [AInt 5], 3. vm_compute. discriminate.
Qed.
Print Assumptions C20_struct_marker_not_implied_by_top.

(* with defaults (Core/Disj.v): "implied by a default" is not an implication - the mechanism of
   known finding F11 (x: b: 2, x: b: *1 | int, x: b: *2 | int) *)
Theorem C20_default_is_not_implication :
  exists labs atoms fuel (c : expr) (d1 d2 : disj),
    resolve (pair_of labs atoms fuel [c] [d2]) = resolve (pair_of labs atoms fuel [] [d2]) /\
    resolve (pair_of labs atoms fuel [c] [d1; d2]) <> resolve (pair_of labs atoms fuel [] [d1; d2]).
Proof. exact default_is_not_implication. Qed.
Print Assumptions C20_default_is_not_implication.

Example C20_ex_removes : removes P0 (keepm [false; false; true; true; true] P0).
Proof. exact ex_removes. Qed.
Print Assumptions C20_ex_removes.

Example C20_ex_trim_model : trim_model P0 = [mkDecl 0 [] defD; mkDecl 0 [reg la] int1].
Proof. exact ex_trim_model. Qed.
Print Assumptions C20_ex_trim_model.

Example C20_ex_rejects : accepts_mask [false; true; false; false; false] P0 = false.
Proof. exact ex_rejects. Qed.
Print Assumptions C20_ex_rejects.

Example C20_ex_rejected_changes :
  final_value [la; lb] [AInt 1; AInt 2] 5 (keepm [false; true; false; false; false] P0) <>
  final_value [la; lb] [AInt 1; AInt 2] 5 P0.
Proof. exact ex_rejected_changes. Qed.
Print Assumptions C20_ex_rejected_changes.

Example C20_ex_dup_both : accepts_mask [true; true] Pdup = false.
Proof. exact ex_dup_both. Qed.
Print Assumptions C20_ex_dup_both.
