(* Non-vacuity examples for SanitizeProofs.v / TopoProofs.v and the witnesses
   that refute order independence without the side conditions. *)
From Coq Require Import List NArith Bool Lia Sorting.Permutation Sorting.Sorted.
From Verif Require Import Base.Order Robust.Sanitize Robust.SanitizeProofs Robust.Topo Robust.TopoProofs.
Import ListNotations.
Local Open Scope N_scope.

Definition fa : str := [97; 46; 99; 117; 101].          (* "a.cue" *)
Definition fabs : str := [47; 122; 46; 99; 117; 101].   (* "/z.cue" *)
Definition m : str := [109].
Definition m2 : str := [110].

(* same file name and offset, different RelPos bits: Pos.Compare says 0, == says no *)
Definition p1 := Pos fa 3 65.
Definition p2 := Pos fa 3 66.

Example cmp_npf_coarser_than_eq : cmp_npf p1 p2 = Eq /\ pos_eqb p1 p2 = false.
Proof. split; reflexivity. Qed.

(* NoPos first for Sanitize, last for Pos.Compare; absolute names first *)
Example nopos_first : cmp_npf NoPos p1 = Lt /\ pos_compare NoPos p1 = Gt.
Proof. split; reflexivity. Qed.
Example abs_first : cmp_npf (Pos fabs 9 128) (Pos fa 0 64) = Lt /\ str_cmp fabs fa = Lt.
Proof. split; reflexivity. Qed.
Example rel_before_abs_by_name_only : cmp_npf (Pos [65] 0 64) (Pos [47] 0 64) = Gt /\ str_cmp [65] [47] = Gt.
Proof. split; reflexivity. Qed.

Definition A := Err p1 [] m 2.
Definition B := Err p2 [] m 4.
Definition C := Err p1 [] m 8.

(* Without position coherence Sanitize depends on the order of collection:
   the second occurrence of A survives when B separates the two (the list is
   record-coherent: it is the very same error value twice). *)
Example sanitize_perm_refuted_values :
  sanitize_list [A; B; A] = [A; B; A] /\ sanitize_list [A; A; B] = [A; B] /\
  sanitize_list [A; B; C] = [A; B; C] /\ sanitize_list [A; C; B] = [A; B].
Proof. repeat split; reflexivity. Qed.

(* With coherent positions but two different error values of the same key
   (here: different payload, e.g. input positions), the keys that are printed
   are order independent but the surviving VALUE is not
   (Properties/C02.v, C02_sanitize_payload_refuted). *)
Definition Epay3 := Err p1 [[102]] m 3.
Definition Epay9 := Err p1 [[102]] m 9.

Definition E1 := Err (Pos fa 7 64) [[98]] m 1.
Definition E2 := Err NoPos [] m2 2.
Definition E3 := Err (Pos fabs 1 128) [] m 3.
Definition E4 := Err (Pos fa 7 64) [[98]] m2 4.
Definition E5 := Err (Pos fa 7 64) [[97]] m2 5.

(* a coherent list on which Sanitize does something: sorts, groups, drops the
   repeated value, unwraps nothing *)
Example sanitize_coherent_example :
  coherent [E1; E2; E3; E4; E1; E5] /\
  sanitize_list [E1; E2; E3; E4; E1; E5] = [E2; E3; E5; E1; E4] /\
  sanitize_list [E5; E1; E4; E3; E2; E1] = [E2; E3; E5; E1; E4].
Proof.
  split; [split; [apply pos_coherentb_spec | apply rec_coherentb_spec]; reflexivity|].
  split; reflexivity.
Qed.

(* the hypotheses of sanitize_list_perm are satisfiable together with a non-trivial permutation *)
Example sanitize_perm_instance :
  sanitize_list [E1; E2; E3; E4; E1; E5] = sanitize_list (rev [E1; E2; E3; E4; E1; E5]).
Proof.
  apply sanitize_list_perm.
  - split; [apply pos_coherentb_spec | apply rec_coherentb_spec]; reflexivity.
  - apply Permutation_rev.
Qed.

(* Sanitize's unwrapping of a one-element result, nil, single errors *)
Example sanitize_shapes :
  sanitize CNil = CNil /\ sanitize (CSingle A) = CSingle A /\
  sanitize (CList []) = CList [] /\ sanitize (CList [A]) = CSingle A /\
  sanitize (CList [A; A]) = CSingle A /\ sanitize (CList [A; B]) = CList [A; B].
Proof. repeat split; reflexivity. Qed.

(* the insertion sort is stable: comparator-equal elements keep their order *)
Example isort_stable : isort err_lt [B; A; C] = [B; A; C] /\ isort err_lt [C; E2; B] = [E2; C; B].
Proof. split; reflexivity. Qed.

(* errors.Append never stores the same value twice *)
Example append_example : append_all [] [A; B; A; C; B] = [A; B; C].
Proof. reflexivity. Qed.

Definition la := LStr [97].
Definition lb := LStr [98].
Definition lc := LStr [99].
Definition ld := LStr [100].
Definition le := LStr [101].
Definition lf := LStr [102].
Definition lg := LStr [103].
Definition lh := LStr [104].

(* graph_test.go TestSort *)
Example merge_simple_two : merge_orders label_cmp [[lc; lb]; [ld; la]] = Some [lc; lb; ld; la].
Proof. reflexivity. Qed.
Example merge_linked_multiple :
  merge_orders label_cmp [[lb; lc; lf; ld; lg]; [lc; la; le; ld]] = Some [lb; lc; la; le; lf; ld; lg].
Proof. reflexivity. Qed.
Example merge_simple_cycle :
  merge_orders label_cmp [[lh; lb; la]; [la; lb]; [lh; lc; ld]; [ld; lc]] = Some [lh; la; lb; lc; ld].
Proof. reflexivity. Qed.
Example merge_nested_cycles :
  merge_orders label_cmp [[lg; lb; lc]; [le; lc; lb; ld]; [ld; lf; la; le]; [la; lh; lf]]
  = Some [lg; la; lb; lc; ld; le; lf; lh].
Proof. vm_compute. reflexivity. Qed.

(* integer labels sort before all others *)
Example int_labels_first :
  topo_sort label_cmp [LStr [48]; LInt 1; LInt 0] [] = Some [LInt 0; LInt 1; LStr [48]].
Proof. reflexivity. Qed.

(* enumeration order is immaterial, also on a cyclic graph *)
Example perm_invariant_cyclic :
  topo_sort label_cmp [la; lb; lc; ld] [(lc, la); (la, lc); (ld, lb); (ld, la)] = Some [ld; la; lc; lb] /\
  topo_sort label_cmp [ld; lc; lb; la] [(ld, la); (ld, lb); (la, lc); (lc, la); (ld, la)] = Some [ld; la; lc; lb].
Proof. split; reflexivity. Qed.

(* consistency is satisfiable, and gives the subsequence property *)
Example consistent_example : consistent [[lb; lc; lf; ld; lg]; [lc; la; le; ld]].
Proof.
  apply (consistent_iff_common_supersequence label_cmp label_cmp_total).
  exists [lb; lc; la; le; lf; ld; lg]. split.
  - repeat constructor; simpl; intuition discriminate.
  - intros o [<- | [<- | []]]; repeat (first [apply sub_nil | apply sub_take | apply sub_skip]).
Qed.

(* a cycle is not consistent; three orders can be pairwise free of opposite
   pairs and still jointly inconsistent *)
Example cycle_not_consistent : ~ consistent [[la; lb]; [lb; lc]; [lc; la]].
Proof.
  intros [rank H].
  assert (H1 := H la lb). assert (H2 := H lb lc). assert (H3 := H lc la).
  simpl in H1, H2, H3. specialize (H1 (or_introl eq_refl)).
  specialize (H2 (or_intror (or_introl eq_refl))).
  specialize (H3 (or_intror (or_intror (or_introl eq_refl)))). lia.
Qed.

(* without consistency an order need not be respected *)
Example inconsistent_not_respected :
  merge_orders label_cmp [[lb; la]; [la; lb]] = Some [la; lb] /\
  ~ subseq [lb; la] [la; lb].
Proof.
  split; [reflexivity|]. intros H.
  inversion H as [| o x l H1 | ]; subst.
  inversion H1 as [| o x l H2 | x o l H2]; subst.
  - inversion H2.
  - inversion H2.
Qed.
