(* Theorems about the model of errors.Sanitize (Sanitize.v).  The result of
   the grouping phase on a sorted list has a shape ([Canon]) that is a fixed
   point of both phases: this gives idempotence for all lists.  On
   position-coherent lists that shape makes the printed keys strictly sorted,
   and two strictly sorted lists with the same members are equal: this gives
   independence of the order of collection (of the keys; of the error values
   themselves on coherent lists) and of the algorithm of the outer sort.  The
   witnesses that refute the statements without the side conditions are in
   SanTopoExamples.v. *)
From Coq Require Import List NArith Bool Arith Lia Sorting.Sorted Sorting.Permutation Relations RelationClasses.
From Verif Require Import Base.Order Robust.Sanitize.
Import ListNotations.

Lemma perm_in_iff {A} (l l' : list A) : Permutation l l' -> forall x, In x l <-> In x l'.
Proof. intros H x. split; apply Permutation_in; [|symmetry]; exact H. Qed.

Lemma lt_of_true {A} (c : A -> A -> comparison) x y : lt_of c x y = true <-> c x y = Lt.
Proof. unfold lt_of. destruct (c x y); split; congruence. Qed.

Lemma lt_of_false {A} (c : A -> A -> comparison) x y : lt_of c x y = false <-> c x y <> Lt.
Proof. unfold lt_of. destruct (c x y); split; congruence. Qed.

(* "x is not after y": the relation an insertion sort establishes *)
Definition le_of {A} (c : A -> A -> comparison) (x y : A) : Prop := c y x <> Lt.

Lemma Sorted_app_inv {A} (R : A -> A -> Prop) l1 l2 : Sorted R (l1 ++ l2) -> Sorted R l1 /\ Sorted R l2.
Proof.
  induction l1 as [|a l1 IH]; intros H; [split; [constructor | exact H]|].
  simpl in H. inversion H as [|? ? Hs Hh]; subst. destruct (IH Hs) as [H1 H2].
  split; [constructor; [exact H1|] | exact H2].
  destruct l1; [constructor|]. simpl in Hh. inversion Hh; subst. constructor; assumption.
Qed.

Lemma StronglySorted_app {A} (R : A -> A -> Prop) l1 l2 :
  StronglySorted R (l1 ++ l2) <->
  StronglySorted R l1 /\ StronglySorted R l2 /\ forall x y, In x l1 -> In y l2 -> R x y.
Proof.
  induction l1 as [|a l1 IH]; simpl.
  - split; [intros H; repeat split; [constructor | exact H | intros x y []] | intros (_ & H & _); exact H].
  - split.
    + intros H. inversion H as [|? ? Hs Hf]; subst. apply IH in Hs. destruct Hs as (H1 & H2 & H12).
      rewrite Forall_app, !Forall_forall in Hf. destruct Hf as (Hf1 & Hf2).
      repeat split; [constructor; [exact H1 | apply Forall_forall; exact Hf1] | exact H2|].
      intros x y [<- | Hx] Hy; auto.
    + intros (H1 & H2 & H12). inversion H1 as [|? ? Hs Hf]; subst.
      constructor; [apply IH; repeat split; auto|].
      rewrite Forall_app. split; [exact Hf | apply Forall_forall; auto].
Qed.

Lemma StronglySorted_rev {A} (R : A -> A -> Prop) l :
  StronglySorted R l -> StronglySorted (fun a b => R b a) (rev l).
Proof.
  induction 1 as [|a l Hs IH Hf]; simpl; [constructor|].
  rewrite Forall_forall in Hf. apply StronglySorted_app.
  repeat split; [exact IH | repeat constructor|].
  intros x y Hx [<- | []]. apply Hf. apply in_rev. exact Hx.
Qed.

Section Pre.
  Context {A : Type} (c : A -> A -> comparison) (Hc : total_pre c).

  Lemma pre_gt_lt x y : c x y = Gt <-> c y x = Lt.
  Proof. rewrite (tp_opp c Hc x y). destruct (c y x); simpl; split; congruence. Qed.

  Lemma pre_eq_sym x y : c x y = Eq -> c y x = Eq.
  Proof. rewrite (tp_opp c Hc y x). intros ->. reflexivity. Qed.

  Lemma pre_eq_r x y z : c x y = Eq -> c z x = c z y.
  Proof.
    intros E. rewrite (tp_opp c Hc z x), (tp_opp c Hc z y). f_equal. apply (tp_eq_l c Hc). exact E.
  Qed.

  Lemma le_of_refl x : le_of c x x.
  Proof. unfold le_of. rewrite (tp_refl c Hc). discriminate. Qed.

  Lemma le_of_total x y : le_of c x y \/ le_of c y x.
  Proof.
    unfold le_of. destruct (c y x) eqn:E.
    - left; discriminate.
    - right. rewrite (tp_opp c Hc), E. discriminate.
    - left; discriminate.
  Qed.

  Lemma le_of_trans x y z : le_of c x y -> le_of c y z -> le_of c x z.
  Proof.
    unfold le_of. intros H1 H2 H3.
    (* c z x = Lt.  compare y with x and z *)
    destruct (c y x) eqn:Eyx; [| congruence |].
    - (* y ~ x *) apply H2. rewrite <- H3. symmetry. apply pre_eq_r. apply pre_eq_sym. exact Eyx.
    - (* x < y *) apply pre_gt_lt in Eyx.
      apply H2. exact (tp_trans c Hc _ _ _ H3 Eyx).
  Qed.

  Lemma lt_le_of x y : c x y = Lt -> le_of c x y.
  Proof. unfold le_of. intros E. rewrite (tp_opp c Hc), E. discriminate. Qed.

  Lemma le_of_gt x y : c x y <> Gt <-> le_of c x y.
  Proof. unfold le_of. rewrite pre_gt_lt. reflexivity. Qed.

  Lemma lt_asym x y : c x y = Lt -> c y x = Lt -> False.
  Proof. intros E. rewrite (tp_opp c Hc), E. discriminate. Qed.

  Lemma lt_irrefl x : c x x <> Lt.
  Proof. rewrite (tp_refl c Hc). discriminate. Qed.

  Let lt := lt_of c.

  Lemma ins_rev_perm x rp : Permutation (x :: rp) (ins_rev lt x rp).
  Proof.
    induction rp as [|y rp IH]; simpl; auto.
    destruct (lt x y); auto.
    eapply perm_trans; [apply perm_swap|]. apply perm_skip. exact IH.
  Qed.

  Lemma isort_from_perm l : forall rp, Permutation (rev rp ++ l) (isort_from lt rp l).
  Proof.
    induction l as [|x l IH]; intros rp; simpl.
    - rewrite app_nil_r. apply Permutation_refl.
    - eapply perm_trans; [| apply IH].
      apply Permutation_trans with ((x :: rev rp) ++ l).
      + simpl. symmetry. apply Permutation_middle.
      + apply Permutation_app_tail.
        apply Permutation_trans with (x :: rp); [apply perm_skip; symmetry; apply Permutation_rev|].
        apply Permutation_trans with (ins_rev lt x rp); [apply ins_rev_perm | apply Permutation_rev].
  Qed.

  Lemma isort_perm l : Permutation l (isort lt l).
  Proof. apply (isort_from_perm l []). Qed.

  Lemma isort_in l x : In x (isort lt l) <-> In x l.
  Proof.
    symmetry. apply perm_in_iff, isort_perm.
  Qed.

  Lemma isort_length l : length (isort lt l) = length l.
  Proof. symmetry. apply Permutation_length, isort_perm. Qed.

  (* the reversed prefix is descending: each element is not before its successor *)
  Definition rdesc (rp : list A) : Prop := StronglySorted (fun a b => le_of c b a) rp.

  Lemma ins_rev_rdesc x rp : rdesc rp -> rdesc (ins_rev lt x rp).
  Proof.
    unfold rdesc. induction rp as [|y rp IH]; intros H; simpl.
    - constructor; constructor.
    - inversion H as [|? ? Hs Hf]; subst.
      destruct (lt x y) eqn:E.
      + apply lt_of_true in E. constructor; [apply IH; exact Hs|].
        (* y is >= every element of ins_rev x rp *)
        rewrite Forall_forall. intros z Hz.
        apply (Permutation_in _ (Permutation_sym (ins_rev_perm x rp))) in Hz.
        destruct Hz as [<- | Hz].
        * apply lt_le_of. exact E.
        * rewrite Forall_forall in Hf. apply Hf. exact Hz.
      + apply lt_of_false in E. constructor; [exact H|].
        constructor; [exact E|].
        rewrite Forall_forall in *. intros z Hz.
        apply le_of_trans with y; [apply Hf; exact Hz | exact E].
  Qed.

  Lemma isort_from_sorted l : forall rp, rdesc rp -> StronglySorted (le_of c) (isort_from lt rp l).
  Proof.
    induction l as [|x l IH]; intros rp H; simpl.
    - apply StronglySorted_rev in H. exact H.
    - apply IH. apply ins_rev_rdesc. exact H.
  Qed.

  Lemma isort_sorted l : StronglySorted (le_of c) (isort lt l).
  Proof. apply isort_from_sorted. constructor. Qed.

  (* a locally sorted list is left untouched (the sort is stable and only
     ever compares an element with its left neighbour first) *)
  Lemma isort_from_fixed l : forall rp,
    Sorted (le_of c) (rev rp ++ l) -> isort_from lt rp l = rev rp ++ l.
  Proof.
    induction l as [|x l IH]; intros rp H; simpl.
    - rewrite app_nil_r. reflexivity.
    - assert (E : ins_rev lt x rp = x :: rp).
      { destruct rp as [|y rp]; simpl; [reflexivity|].
        replace (lt x y) with false; [reflexivity|].
        symmetry. apply lt_of_false.
        (* y is immediately followed by x in rev (y :: rp) ++ x :: l *)
        simpl in H. rewrite <- app_assoc in H.
        destruct (Sorted_app_inv _ _ _ H) as [_ H2]. inversion H2 as [|? ? _ Hh]. inversion Hh. assumption. }
      rewrite E. rewrite IH; simpl; rewrite <- app_assoc; [reflexivity | exact H].
  Qed.

  Lemma isort_fixed l : Sorted (le_of c) l -> isort lt l = l.
  Proof. intros H. apply (isort_from_fixed l []). exact H. Qed.
End Pre.

(* sorting w.r.t. an antisymmetric relation: the result depends on the multiset only *)
Lemma sorted_perm_unique {A} (R : A -> A -> Prop) :
  (forall x y, R x y -> R y x -> x = y) ->
  forall l1 l2, StronglySorted R l1 -> StronglySorted R l2 -> Permutation l1 l2 -> l1 = l2.
Proof.
  intros Hanti. induction l1 as [|a l1 IH]; intros l2 H1 H2 Hp.
  - apply Permutation_nil in Hp. auto.
  - destruct l2 as [|b l2]; [symmetry in Hp; apply Permutation_nil in Hp; discriminate|].
    inversion H1 as [|? ? Hs1 Hf1]; subst. inversion H2 as [|? ? Hs2 Hf2]; subst.
    rewrite Forall_forall in Hf1, Hf2.
    assert (a = b).
    { destruct (proj1 (perm_in_iff _ _ Hp a) (or_introl eq_refl)) as [E | Ha]; [congruence|].
      destruct (proj2 (perm_in_iff _ _ Hp b) (or_introl eq_refl)) as [E | Hb]; [congruence|].
      apply Hanti; [apply Hf1; exact Hb | apply Hf2; exact Ha]. }
    subst b. f_equal. apply IH; auto. eapply Permutation_cons_inv; exact Hp.
Qed.

Lemma strict_sorted_nodup {A} (R : A -> A -> Prop) l :
  (forall x, ~ R x x) -> StronglySorted R l -> NoDup l.
Proof.
  intros Hirr. induction 1 as [|a l Hs IH Hf]; constructor; auto.
  intros Hin. rewrite Forall_forall in Hf. apply (Hirr a). apply Hf. exact Hin.
Qed.

(* sorting w.r.t. a total order is a function of the multiset *)
Lemma isort_perm_eq {A} (c : A -> A -> comparison) : total_cmp c ->
  forall l l', Permutation l l' -> isort (lt_of c) l = isort (lt_of c) l'.
Proof.
  intros Hc l l' Hp. assert (Hpre : total_pre c) by exact (total_pre_of_map c (fun x => x) Hc).
  apply (sorted_perm_unique (le_of c)).
  - intros x y H1 H2. unfold le_of in *. destruct (c x y) eqn:E.
    + apply (tc_eq c Hc). exact E.
    + exfalso. apply H2. reflexivity.
    + exfalso. apply H1. apply (pre_gt_lt c Hpre). exact E.
  - apply (isort_sorted c Hpre).
  - apply (isort_sorted c Hpre).
  - eapply perm_trans; [symmetry; apply isort_perm|]. eapply perm_trans; [exact Hp | apply isort_perm].
Qed.

(* two strictly sorted lists with the same elements are equal *)
Lemma strict_sorted_unique {A} (R : A -> A -> Prop) :
  (forall x, ~ R x x) -> (forall x y, R x y -> R y x -> False) ->
  forall l1 l2, StronglySorted R l1 -> StronglySorted R l2 ->
  (forall x, In x l1 <-> In x l2) -> l1 = l2.
Proof.
  intros Hirr Hasym l1 l2 H1 H2 Hm. apply (sorted_perm_unique R); try assumption.
  - intros x y Hxy Hyx. destruct (Hasym x y Hxy Hyx).
  - apply NoDup_Permutation; eauto using strict_sorted_nodup.
Qed.

Lemma map_inj_on {A B} (f : A -> B) : forall l1 l2,
  map f l1 = map f l2 ->
  (forall x y, In x l1 -> In y l2 -> f x = f y -> x = y) -> l1 = l2.
Proof.
  induction l1 as [|a l1 IH]; intros [|b l2] E H; simpl in E; try discriminate; [reflexivity|].
  injection E as E1 E2. f_equal.
  - apply H; simpl; auto.
  - apply IH; [exact E2|]. intros; apply H; simpl; auto.
Qed.

Lemma Sorted_impl_in {A} (R S : A -> A -> Prop) l :
  (forall x y, In x l -> In y l -> R x y -> S x y) -> Sorted R l -> Sorted S l.
Proof.
  induction l as [|a l IH]; intros H Hs; [constructor|].
  inversion Hs as [|? ? Hs' Hh]; subst. constructor.
  - apply IH; [|exact Hs']. intros; apply H; simpl; auto.
  - destruct Hh; constructor. apply H; simpl; auto.
Qed.

Lemma Sorted_impl {A} (R S : A -> A -> Prop) l : (forall x y, R x y -> S x y) -> Sorted R l -> Sorted S l.
Proof. intros H. apply Sorted_impl_in. intros x y _ _. apply H. Qed.

Lemma Sorted_map {A B} (f : A -> B) (R : B -> B -> Prop) l :
  Sorted (fun x y => R (f x) (f y)) l -> Sorted R (map f l).
Proof.
  induction 1 as [|a l Hs IH Hh]; simpl; constructor; auto.
  destruct Hh; simpl; constructor; auto.
Qed.

(* gluing two locally sorted lists: only the junction matters *)
Fixpoint last_opt {A} (l : list A) : option A :=
  match l with [] => None | [x] => Some x | _ :: l' => last_opt l' end.

Lemma last_opt_in {A} (l : list A) x : last_opt l = Some x -> In x l.
Proof.
  induction l as [|a l IH]; simpl; [discriminate|].
  destruct l; [intros [= ->]; auto | intros H; right; apply IH; exact H].
Qed.

Lemma Sorted_app {A} (R : A -> A -> Prop) l1 l2 :
  Sorted R l1 -> Sorted R l2 ->
  (forall x y, last_opt l1 = Some x -> hd_error l2 = Some y -> R x y) ->
  Sorted R (l1 ++ l2).
Proof.
  induction l1 as [|a l1 IH]; intros H1 H2 Hj; [exact H2|].
  inversion H1 as [|? ? Hs Hh]; subst. simpl. constructor.
  - apply IH; [exact Hs | exact H2 |]. intros x y Hx Hy. apply Hj; [|exact Hy].
    simpl. destruct l1; [discriminate | exact Hx].
  - destruct l1 as [|b l1]; simpl.
    + destruct l2 as [|y l2]; constructor. apply Hj; reflexivity.
    + inversion Hh; subst. constructor. assumption.
Qed.

Lemma cmp_bool_total : total_cmp cmp_bool.
Proof.
  constructor.
  - intros [] []; simpl; split; congruence.
  - intros [] []; reflexivity.
  - intros [] [] []; simpl; congruence.
Qed.

Lemma str_cmp_total : total_cmp str_cmp.
Proof. apply list_cmp_total, N_compare_total. Qed.

Lemma path_cmp_total : total_cmp path_cmp.
Proof. apply list_cmp_total, str_cmp_total. Qed.

Lemma str_eqb_eq a b : str_eqb a b = true <-> a = b.
Proof.
  unfold str_eqb. rewrite <- (tc_eq str_cmp str_cmp_total). destruct (str_cmp a b); split; congruence.
Qed.

Lemma path_eqb_eq a b : path_eqb a b = true <-> a = b.
Proof.
  unfold path_eqb. rewrite <- (tc_eq path_cmp path_cmp_total). destruct (path_cmp a b); split; congruence.
Qed.

Lemma pos_eqb_eq p q : pos_eqb p q = true <-> p = q.
Proof.
  destruct p as [|f o b], q as [|f' o' b']; simpl; split; try congruence; auto.
  - rewrite !andb_true_iff, str_eqb_eq, !N.eqb_eq. intros [[-> ->] ->]. reflexivity.
  - intros [= -> -> ->]. rewrite !andb_true_iff, str_eqb_eq, !N.eqb_eq. auto.
Qed.

(* the part of a position that the order looks at: validity, relative-ness of
   the file name, file name, offset *)
Definition pk (p : pos) : bool * (bool * (str * N)) :=
  match p with
  | NoPos => (false, (false, ([], 0%N)))
  | Pos f o _ => (true, (negb (is_abs f), (f, o)))
  end.
Definition pk_cmp := lex cmp_bool (lex cmp_bool (lex str_cmp N.compare)).

Lemma pk_cmp_total : total_cmp pk_cmp.
Proof.
  repeat apply lex_total; auto using cmp_bool_total, str_cmp_total, N_compare_total.
Qed.

(* comparePosWithNoPosFirst is the order induced by pk: the == shortcut is
   consistent with it *)
Lemma cmp_npf_pk p q : cmp_npf p q = pk_cmp (pk p) (pk q).
Proof.
  unfold cmp_npf. destruct (pos_eqb p q) eqn:E.
  - apply pos_eqb_eq in E. subst q. symmetry. apply (tc_refl _ pk_cmp_total).
  - destruct p as [|f o b], q as [|f' o' b']; try reflexivity.
    + simpl in E. discriminate.
    + unfold pos_compare. rewrite E. unfold pk_cmp, lex; simpl.
      destruct (is_abs f), (is_abs f'); simpl; reflexivity.
Qed.

(* token.Pos.Compare is the same order except that NoPos comes last *)
Definition pk_last (p : pos) : bool * (bool * (str * N)) :=
  match p with
  | NoPos => (true, (false, ([], 0%N)))
  | Pos f o _ => (false, (negb (is_abs f), (f, o)))
  end.
Lemma pos_compare_pk p q : pos_compare p q = pk_cmp (pk_last p) (pk_last q).
Proof.
  unfold pos_compare. destruct (pos_eqb p q) eqn:E.
  - apply pos_eqb_eq in E. subst q. symmetry. apply (tc_refl _ pk_cmp_total).
  - destruct p as [|f o b], q as [|f' o' b']; try reflexivity.
    + simpl in E. discriminate.
    + unfold pk_cmp, lex; simpl. destruct (is_abs f), (is_abs f'); simpl; reflexivity.
Qed.

Lemma cmp_npf_pre : total_pre cmp_npf.
Proof.
  pose proof (total_pre_of_map pk_cmp pk pk_cmp_total) as H.
  destruct H as [h1 h2 h3 h4].
  constructor; intros; rewrite ?cmp_npf_pk in *; eauto.
Qed.

Lemma pos_compare_pre : total_pre pos_compare.
Proof.
  pose proof (total_pre_of_map pk_cmp pk_last pk_cmp_total) as H.
  destruct H as [h1 h2 h3 h4].
  constructor; intros; rewrite ?pos_compare_pk in *; eauto.
Qed.

(* what the sort order looks at in an error, and what the key order looks at in a key *)
Definition ek (e : err) := (pk (e_pos e), e_path e).
Definition ek_cmp := lex pk_cmp path_cmp.
Lemma err_cmp_ek x y : err_cmp x y = ek_cmp (ek x) (ek y).
Proof. unfold err_cmp, ek_cmp, lex, ek; simpl. rewrite cmp_npf_pk. reflexivity. Qed.

Lemma err_cmp_pre : total_pre err_cmp.
Proof.
  pose proof (total_pre_of_map ek_cmp ek (lex_total _ _ pk_cmp_total path_cmp_total)) as H.
  destruct H as [h1 h2 h3 h4].
  constructor; intros; rewrite ?err_cmp_ek in *; eauto.
Qed.

Lemma msg_cmp_pre : total_pre msg_cmp.
Proof. apply (total_pre_of_map str_cmp e_msg str_cmp_total). Qed.

Definition kk (k : pos * list str * str) := (pk (fst (fst k)), snd (fst k), snd k).
Definition kk_cmp := lex (lex pk_cmp path_cmp) str_cmp.
Lemma key_cmp_kk k1 k2 : key_cmp k1 k2 = kk_cmp (kk k1) (kk k2).
Proof.
  unfold key_cmp, kk_cmp, lex, kk; simpl. rewrite cmp_npf_pk.
  destruct (pk_cmp (pk (fst (fst k1))) (pk (fst (fst k2)))); reflexivity.
Qed.

Lemma key_cmp_pre : total_pre key_cmp.
Proof.
  pose proof (total_pre_of_map kk_cmp kk
    (lex_total _ _ (lex_total _ _ pk_cmp_total path_cmp_total) str_cmp_total)) as H.
  destruct H as [h1 h2 h3 h4].
  constructor; intros; rewrite ?key_cmp_kk in *; eauto.
Qed.

Lemma key_lt_trans : Transitive key_lt.
Proof. intros x y z. apply (tp_trans _ key_cmp_pre). Qed.
Lemma key_lt_irrefl k : ~ key_lt k k.
Proof. apply (lt_irrefl _ key_cmp_pre). Qed.
Lemma key_lt_asym k1 k2 : key_lt k1 k2 -> key_lt k2 k1 -> False.
Proof. apply (lt_asym _ key_cmp_pre). Qed.

(* the key order refines the sort order by the message *)
Lemma key_cmp_err x y :
  key_cmp (key x) (key y) = match err_cmp x y with Eq => msg_cmp x y | c => c end.
Proof.
  unfold key_cmp, err_cmp, key, msg_cmp; simpl.
  destruct (cmp_npf (e_pos x) (e_pos y)); reflexivity.
Qed.

(* same position (==) and path *)
Lemma same_pp_iff x y : same_pp x y = true <-> e_pos x = e_pos y /\ e_path x = e_path y.
Proof. unfold same_pp. rewrite andb_true_iff, pos_eqb_eq, path_eqb_eq. reflexivity. Qed.

Lemma same_pp_refl x : same_pp x x = true.
Proof. apply same_pp_iff; auto. Qed.
Lemma same_pp_sym x y : same_pp x y = true -> same_pp y x = true.
Proof. rewrite !same_pp_iff. intros [-> ->]; auto. Qed.
Lemma same_pp_trans x y z : same_pp x y = true -> same_pp y z = true -> same_pp x z = true.
Proof. rewrite !same_pp_iff. intros [-> ->] [-> ->]; auto. Qed.

Lemma same_pp_err_cmp x y : same_pp x y = true -> err_cmp x y = Eq.
Proof.
  rewrite same_pp_iff. intros [E1 E2]. unfold err_cmp. rewrite E1, E2.
  rewrite (tp_refl _ cmp_npf_pre). apply (tc_refl _ path_cmp_total).
Qed.

Lemma msg_eqb_iff x y : msg_eqb x y = true <-> e_msg x = e_msg y.
Proof. apply str_eqb_eq. Qed.

Lemma same_key x y : same_pp x y = true -> e_msg x = e_msg y -> key x = key y.
Proof. rewrite same_pp_iff. unfold key. intros [-> ->] ->. reflexivity. Qed.

Lemma compact_from_in prev l x : In x (compact_from prev l) -> In x l.
Proof.
  revert prev. induction l as [|y l IH]; intros prev; simpl; [auto|].
  destruct (msg_eqb y prev); simpl; intros H.
  - right. eapply IH. exact H.
  - destruct H as [H | H]; [auto | right; eapply IH; exact H].
Qed.

Lemma compact_in l x : In x (compact l) -> In x l.
Proof.
  destruct l as [|a l]; simpl; [auto|]. intros [H | H]; [auto | right; eapply compact_from_in; exact H].
Qed.

Lemma compact_from_repr prev l x :
  In x l -> (exists y, In y (compact_from prev l) /\ e_msg y = e_msg x) \/ e_msg x = e_msg prev.
Proof.
  revert prev. induction l as [|y l IH]; intros prev Hx; [destruct Hx|].
  simpl. destruct (msg_eqb y prev) eqn:E.
  - apply msg_eqb_iff in E. destruct Hx as [<- | Hx]; [right; exact E|].
    destruct (IH y Hx) as [H | H]; [left; exact H | right; congruence].
  - destruct Hx as [<- | Hx]; [left; exists y; simpl; auto|].
    destruct (IH y Hx) as [[z [Hz Ez]] | H].
    + left. exists z. simpl; auto.
    + left. exists y. simpl; auto.
Qed.

Lemma compact_repr l x : In x l -> exists y, In y (compact l) /\ e_msg y = e_msg x.
Proof.
  destruct l as [|a l]; [intros []|]. intros [<- | Hx]; [exists a; simpl; auto|].
  destruct (compact_from_repr a l x Hx) as [[z [Hz Ez]] | H].
  - exists z. simpl; auto.
  - exists a. simpl; auto.
Qed.

Lemma compact_from_length prev l : length (compact_from prev l) <= length l.
Proof.
  revert prev. induction l as [|y l IH]; intros prev; simpl; [lia|].
  destruct (msg_eqb y prev); simpl; specialize (IH y); lia.
Qed.

Lemma compact_length l : length (compact l) <= length l.
Proof. destruct l as [|a l]; simpl; [lia|]. pose proof (compact_from_length a l). lia. Qed.

(* strictly smaller message: what CompactFunc leaves between neighbours of a sorted group *)
Definition mlt (x y : err) : Prop := msg_cmp x y = Lt.

Lemma compact_from_fixed prev l : Sorted mlt (prev :: l) -> compact_from prev l = l.
Proof.
  revert prev. induction l as [|y l IH]; intros prev H; [reflexivity|].
  inversion H as [|? ? Hs Hh]; subst. inversion Hh as [|? ? Hlt]; subst.
  simpl. replace (msg_eqb y prev) with false; [f_equal; apply IH; exact Hs|].
  symmetry. apply not_true_iff_false. intros E. apply msg_eqb_iff in E.
  unfold mlt, msg_cmp in Hlt. rewrite E, (tc_refl _ str_cmp_total) in Hlt. discriminate.
Qed.

Lemma compact_fixed l : Sorted mlt l -> compact l = l.
Proof. destruct l as [|a l]; [reflexivity|]. intros H. simpl. f_equal. apply compact_from_fixed. exact H. Qed.

Lemma compact_from_sorted prev l :
  StronglySorted (le_of msg_cmp) (prev :: l) ->
  Sorted mlt (compact_from prev l) /\ HdRel mlt prev (compact_from prev l).
Proof.
  revert prev. induction l as [|y l IH]; intros prev H; simpl; [split; constructor|].
  inversion H as [|? ? Hs Hf]; subst. inversion Hf as [|? ? Hle Hf']; subst.
  destruct (IH y Hs) as [IH1 IH2].
  destruct (msg_eqb y prev) eqn:E.
  - split; [exact IH1|]. apply msg_eqb_iff in E.
    destruct (compact_from y l); constructor. inversion IH2; subst.
    unfold mlt, msg_cmp in *. rewrite <- E. assumption.
  - split; [constructor; assumption|]. constructor.
    unfold le_of in Hle. unfold mlt.
    destruct (msg_cmp y prev) eqn:C; [| congruence |].
    + exfalso. unfold msg_cmp in C. apply (tc_eq _ str_cmp_total) in C.
      apply msg_eqb_iff in C. congruence.
    + apply (pre_gt_lt _ msg_cmp_pre). exact C.
Qed.

Lemma compact_sorted l : StronglySorted (le_of msg_cmp) l -> Sorted mlt (compact l).
Proof.
  destruct l as [|a l]; intros H; simpl; [constructor|].
  destruct (compact_from_sorted a l H). constructor; assumption.
Qed.

(* [msg_lt] is [lt_of msg_cmp]: the group is sorted in the spelling of the sort lemmas *)
Lemma emit_eq g : emit g = compact (isort (lt_of msg_cmp) g).
Proof. destruct g as [|x [|y g]]; reflexivity. Qed.

Lemma emit_in g x : In x (emit g) -> In x g.
Proof. rewrite emit_eq. intros H. apply compact_in in H. exact (proj1 (isort_in msg_cmp g x) H). Qed.

Lemma emit_repr g x : In x g -> exists y, In y (emit g) /\ e_msg y = e_msg x.
Proof. rewrite emit_eq. intros H. apply compact_repr. exact (proj2 (isort_in msg_cmp g x) H). Qed.

Lemma emit_length g : length (emit g) <= length g.
Proof.
  rewrite emit_eq. pose proof (compact_length (isort (lt_of msg_cmp) g)) as H.
  rewrite (isort_length msg_cmp) in H. exact H.
Qed.

Lemma emit_sorted g : Sorted mlt (emit g).
Proof. rewrite emit_eq. apply compact_sorted. apply (isort_sorted _ msg_cmp_pre). Qed.

Lemma mlt_le x y : mlt x y -> le_of msg_cmp x y.
Proof. apply (lt_le_of _ msg_cmp_pre). Qed.

Lemma emit_fixed g : Sorted mlt g -> emit g = g.
Proof.
  intros H. rewrite emit_eq, (isort_fixed msg_cmp).
  - apply compact_fixed. exact H.
  - eapply Sorted_impl; [|exact H]. apply mlt_le.
Qed.

Lemma emit_nonempty a g : emit (a :: g) <> [].
Proof.
  intros E. destruct (emit_repr (a :: g) a (or_introl eq_refl)) as [y [Hy _]]. rewrite E in Hy. destruct Hy.
Qed.

(* take-while and drop-while *)
Fixpoint tw (p : err -> bool) (l : list err) : list err :=
  match l with [] => [] | b :: l' => if p b then b :: tw p l' else [] end.
Fixpoint dw (p : err -> bool) (l : list err) : list err :=
  match l with [] => [] | b :: l' => if p b then dw p l' else l end.

Lemma tw_dw p l : l = tw p l ++ dw p l.
Proof. induction l as [|b l IH]; simpl; [reflexivity|]. destruct (p b); simpl; congruence. Qed.

Lemma tw_all p l x : In x (tw p l) -> p x = true.
Proof.
  induction l as [|b l IH]; simpl; [intros []|]. destruct (p b) eqn:E; simpl; [|intros []].
  intros [<- | H]; auto.
Qed.

Lemma dw_head p l y : hd_error (dw p l) = Some y -> p y = false.
Proof.
  induction l as [|b l IH]; simpl; [discriminate|]. destruct (p b) eqn:E; simpl; [exact IH|].
  intros [= <-]. exact E.
Qed.

Lemma dw_length p l : length (dw p l) <= length l.
Proof. induction l as [|b l IH]; simpl; [lia|]. destruct (p b); simpl; lia. Qed.

(* the accumulator-free reading of the loop: a[i:j] is the longest run of
   elements equal (in position and path) to a[i] *)
Lemma grp_eq l : forall a acc,
  grp a acc l = emit (a :: rev acc ++ tw (same_pp a) l) ++ group_phase (dw (same_pp a) l).
Proof.
  induction l as [|b l IH]; intros a acc; simpl.
  - rewrite !app_nil_r. reflexivity.
  - destruct (same_pp a b).
    + rewrite IH. simpl. rewrite <- app_assoc. reflexivity.
    + rewrite app_nil_r. reflexivity.
Qed.

Lemma group_phase_eq a l :
  group_phase (a :: l) = emit (a :: tw (same_pp a) l) ++ group_phase (dw (same_pp a) l).
Proof. simpl. rewrite grp_eq. reflexivity. Qed.

(* induction over the groups: [a :: g] is a maximal run of errors with the
   position and path of [a], [d] is what follows it *)
Lemma gp_ind (P : list err -> list err -> Prop) :
  P [] [] ->
  (forall a g d,
     (forall z, In z (a :: g) -> same_pp a z = true) ->
     (forall b, hd_error d = Some b -> same_pp a b = false) ->
     P d (group_phase d) -> P (a :: g ++ d) (emit (a :: g) ++ group_phase d)) ->
  forall l, P l (group_phase l).
Proof.
  intros H0 Hstep.
  assert (G : forall n l, length l <= n -> P l (group_phase l)).
  { induction n as [|n IH]; intros l Hl.
    - destruct l; [exact H0 | simpl in Hl; lia].
    - destruct l as [|a l]; [exact H0|]. rewrite group_phase_eq.
      replace (a :: l) with (a :: tw (same_pp a) l ++ dw (same_pp a) l) by (f_equal; symmetry; apply tw_dw).
      apply Hstep.
      + intros z [<- | Hz]; [apply same_pp_refl | eapply tw_all; exact Hz].
      + intros b. apply dw_head.
      + apply IH. pose proof (dw_length (same_pp a) l). simpl in Hl. lia. }
  intros l. apply (G (length l)). lia.
Qed.

Lemma gp_subset : forall l x, In x (group_phase l) -> In x l.
Proof.
  apply (gp_ind (fun l o => forall x, In x o -> In x l)); [auto|].
  intros a g d _ _ IH x Hx. apply in_app_or in Hx. apply (in_or_app (a :: g) d).
  destruct Hx as [Hx | Hx]; [left; apply emit_in; exact Hx | right; apply IH; exact Hx].
Qed.

Lemma gp_complete : forall l x, In x l -> exists y, In y (group_phase l) /\ key y = key x.
Proof.
  apply (gp_ind (fun l o => forall x, In x l -> exists y, In y o /\ key y = key x)); [intros x []|].
  intros a g d Hall _ IH x Hx. apply (in_app_or (a :: g) d) in Hx. destruct Hx as [Hg | Hd].
  - destruct (emit_repr _ x Hg) as [y [Hy Ey]]. exists y. split; [apply in_or_app; left; exact Hy|].
    apply same_key; [|exact Ey].
    apply same_pp_trans with a; [apply same_pp_sym; apply Hall; apply emit_in; exact Hy | apply Hall; exact Hg].
  - destruct (IH x Hd) as [y [Hy Ey]]. exists y. split; [apply in_or_app; right; exact Hy | exact Ey].
Qed.

Lemma gp_length : forall l, length (group_phase l) <= length l.
Proof.
  apply (gp_ind (fun l o => length o <= length l)); [simpl; lia|].
  intros a g d _ _ IH. pose proof (emit_length (a :: g)). simpl in *. rewrite !app_length. lia.
Qed.

(* the first error reported has the position and path of the first error collected *)
Lemma gp_head : forall l b y, hd_error l = Some b -> hd_error (group_phase l) = Some y -> same_pp b y = true.
Proof.
  apply (gp_ind (fun l o => forall b y, hd_error l = Some b -> hd_error o = Some y -> same_pp b y = true));
    [discriminate|].
  intros a g d Hall _ _ b y [= <-] Hy. apply Hall. apply emit_in.
  destruct (emit (a :: g)) as [|z e] eqn:Ee; [destruct (emit_nonempty _ _ Ee)|].
  injection Hy as ->. left; reflexivity.
Qed.

(* neighbours are in sort order, and neighbours with the same position and
   path have strictly increasing messages *)
Definition canon_adj (x y : err) : Prop :=
  le_of err_cmp x y /\ (same_pp x y = true -> mlt x y).
Definition Canon (l : list err) : Prop := Sorted canon_adj l.

Lemma gp_canon : forall l, StronglySorted (le_of err_cmp) l -> Canon (group_phase l).
Proof.
  apply (gp_ind (fun l o => StronglySorted (le_of err_cmp) l -> Canon o)); [intros _; constructor|].
  intros a g d Hall Hd IH Hs.
  apply (StronglySorted_app _ (a :: g) d) in Hs. destruct Hs as (_ & Hsd & Hgd).
  apply Sorted_app.
  - (* inside one group *)
    eapply Sorted_impl_in; [|apply emit_sorted]. intros x y Hx Hy Hlt. split; [|auto].
    apply emit_in in Hx, Hy. unfold le_of.
    rewrite (same_pp_err_cmp y x); [discriminate|].
    apply same_pp_trans with a; [apply same_pp_sym|]; auto.
  - apply IH. exact Hsd.
  - (* the junction between two groups *)
    intros x y Hx Hy. apply last_opt_in in Hx. apply emit_in in Hx.
    destruct d as [|b d']; [discriminate|].
    pose proof (gp_head (b :: d') b y eq_refl Hy) as Hby.
    split.
    + apply Hgd; [exact Hx|]. apply gp_subset.
      destruct (group_phase (b :: d')); [discriminate|]. injection Hy as ->. left; reflexivity.
    + intros Hxy. specialize (Hd b eq_refl).
      rewrite (same_pp_trans a x b) in Hd; [discriminate | auto |].
      apply same_pp_trans with y; [exact Hxy | apply same_pp_sym; exact Hby].
Qed.

(* a list of that shape is a fixed point of both phases *)
Lemma canon_sorted l : Canon l -> Sorted (le_of err_cmp) l.
Proof. apply Sorted_impl. intros x y [H _]. exact H. Qed.

Lemma Sorted_chain_mlt a l :
  Canon (a :: l) -> (forall z, In z l -> same_pp a z = true) -> Sorted mlt (a :: l).
Proof.
  revert a. induction l as [|b l IH]; intros a H Hall; [constructor; constructor|].
  inversion H as [|? ? Hs Hh]; subst. inversion Hh as [|? ? [_ Hab]]; subst.
  constructor.
  - apply IH; [exact Hs|]. intros z Hz.
    apply same_pp_trans with a; [apply same_pp_sym; apply Hall; left; reflexivity | apply Hall; right; exact Hz].
  - constructor. apply Hab. apply Hall. left; reflexivity.
Qed.

Lemma gp_fixed : forall l, Canon l -> group_phase l = l.
Proof.
  apply (gp_ind (fun l o => Canon l -> o = l)); [reflexivity|].
  intros a g d Hall _ IH H. destruct (Sorted_app_inv _ (a :: g) d H) as [Hg Hd].
  rewrite (IH Hd), emit_fixed; [reflexivity|].
  apply Sorted_chain_mlt; [exact Hg|]. intros z Hz. apply Hall. right. exact Hz.
Qed.

(* the len <= 1 shortcut of removeMultiples is not observable *)
Lemma sanitize_list_gp es : sanitize_list es = group_phase (isort (lt_of err_cmp) es).
Proof. destruct es as [|x [|y es]]; reflexivity. Qed.

(* every reported error is one of the collected errors *)
Theorem sanitize_list_subset es x : In x (sanitize_list es) -> In x es.
Proof.
  rewrite sanitize_list_gp. intros H. apply gp_subset in H.
  exact (proj1 (isort_in err_cmp es x) H).
Qed.

(* no error is lost: every collected (position, path, message) is reported *)
Theorem sanitize_list_complete es x : In x es -> exists y, In y (sanitize_list es) /\ key y = key x.
Proof.
  rewrite sanitize_list_gp. intros H. apply gp_complete.
  exact (proj2 (isort_in err_cmp es x) H).
Qed.

Theorem sanitize_length_le es : length (sanitize_list es) <= length es.
Proof.
  rewrite sanitize_list_gp. pose proof (gp_length (isort (lt_of err_cmp) es)) as H.
  rewrite (isort_length err_cmp) in H. exact H.
Qed.

Theorem sanitize_list_canon es : Canon (sanitize_list es).
Proof. rewrite sanitize_list_gp. apply gp_canon. apply (isort_sorted _ err_cmp_pre). Qed.

Lemma canon_fixed l : Canon l -> sanitize_list l = l.
Proof.
  intros H. rewrite sanitize_list_gp, (isort_fixed err_cmp).
  - apply gp_fixed. exact H.
  - apply canon_sorted. exact H.
Qed.

(* sanitizing twice is sanitizing once -- for ALL lists, coherent or not *)
Theorem sanitize_list_idempotent es : sanitize_list (sanitize_list es) = sanitize_list es.
Proof. apply canon_fixed. apply sanitize_list_canon. Qed.

(* Print/Details sanitize what Sanitize returned once more: nothing changes *)
Theorem printed_sanitize e : printed (sanitize e) = printed e.
Proof.
  destruct e as [| x | l]; try reflexivity. unfold printed. cbn [sanitize errors_of].
  assert (F : sanitize_list (sanitize_list l) = sanitize_list l) by apply sanitize_list_idempotent.
  destruct (sanitize_list l) as [|x [|y r]]; cbn [errors_of]; exact F.
Qed.

Lemma pos_coherent_incl l l' : (forall x, In x l' -> In x l) -> pos_coherent l -> pos_coherent l'.
Proof. intros Hi H x y Hx Hy. apply H; auto. Qed.

Lemma canon_adj_key_lt x y :
  (cmp_npf (e_pos x) (e_pos y) = Eq -> e_pos x = e_pos y) ->
  canon_adj x y -> key_lt (key x) (key y).
Proof.
  intros Hcoh [Hle Hm]. unfold key_lt. rewrite key_cmp_err.
  destruct (err_cmp x y) eqn:E; [| reflexivity |].
  - apply Hm. apply same_pp_iff. unfold err_cmp in E.
    destruct (cmp_npf (e_pos x) (e_pos y)) eqn:Ep; try discriminate.
    split; [apply Hcoh; reflexivity | apply (tc_eq _ path_cmp_total); exact E].
  - exfalso. apply Hle. apply (pre_gt_lt _ err_cmp_pre). exact E.
Qed.

Lemma canon_keys_sorted l : Canon l -> pos_coherent l -> StronglySorted key_lt (map key l).
Proof.
  intros Hc Hp. apply Sorted_StronglySorted; [exact key_lt_trans|].
  apply Sorted_map. eapply Sorted_impl_in; [|exact Hc].
  intros x y Hx Hy. apply canon_adj_key_lt. apply Hp; assumption.
Qed.

Lemma gp_keys_sorted l :
  StronglySorted (le_of err_cmp) l -> pos_coherent l -> StronglySorted key_lt (map key (group_phase l)).
Proof.
  intros Hs Hp. apply canon_keys_sorted; [apply gp_canon; exact Hs|].
  eapply pos_coherent_incl; [|exact Hp]. apply gp_subset.
Qed.

(* the printed list is strictly increasing in (position, path, message):
   in particular no two reported errors look the same *)
Theorem sanitize_list_sorted_nodup es :
  pos_coherent es ->
  StronglySorted key_lt (map key (sanitize_list es)) /\ NoDup (map key (sanitize_list es)).
Proof.
  intros Hp.
  assert (H : StronglySorted key_lt (map key (sanitize_list es))).
  { rewrite sanitize_list_gp. apply gp_keys_sorted; [apply (isort_sorted _ err_cmp_pre)|].
    eapply pos_coherent_incl; [|exact Hp]. intros x. apply (isort_in err_cmp). }
  split; [exact H|]. eapply strict_sorted_nodup; [|exact H]. apply key_lt_irrefl.
Qed.

Lemma gp_key_set l k : In k (map key (group_phase l)) <-> In k (map key l).
Proof.
  rewrite !in_map_iff. split.
  - intros [x [E Hx]]. exists x. split; [exact E | apply gp_subset; exact Hx].
  - intros [x [E Hx]]. destruct (gp_complete l x Hx) as [y [Hy Ey]]. exists y. split; congruence.
Qed.

Lemma sanitize_list_key_set es k : In k (map key (sanitize_list es)) <-> In k (map key es).
Proof.
  rewrite sanitize_list_gp, gp_key_set, !in_map_iff.
  split; intros [x [E Hx]]; exists x; (split; [exact E | apply (isort_in err_cmp); exact Hx]).
Qed.

Lemma pos_coherent_keys es es' :
  (forall k, In k (map key es') -> In k (map key es)) -> pos_coherent es -> pos_coherent es'.
Proof.
  intros Hk Hp x y Hx Hy E.
  destruct (proj1 (in_map_iff key es (key x)) (Hk _ (in_map key _ _ Hx))) as [x' [Ex Hx']].
  destruct (proj1 (in_map_iff key es (key y)) (Hk _ (in_map key _ _ Hy))) as [y' [Ey Hy']].
  unfold key in Ex, Ey. injection Ex as Ex _ _. injection Ey as Ey _ _.
  rewrite <- Ex, <- Ey in *. apply Hp; assumption.
Qed.

(* The sequence of (position, path, message) that is printed is a function of
   the SET of collected keys: neither the order in which the errors were
   collected nor how often an error was collected matters. *)
Theorem sanitize_list_keys_set_invariant es es' :
  pos_coherent es ->
  (forall k, In k (map key es) <-> In k (map key es')) ->
  map key (sanitize_list es) = map key (sanitize_list es').
Proof.
  intros Hp Hk.
  assert (Hp' : pos_coherent es') by (eapply pos_coherent_keys; [|exact Hp]; intros k; apply Hk).
  apply (strict_sorted_unique key_lt key_lt_irrefl key_lt_asym).
  - apply sanitize_list_sorted_nodup; exact Hp.
  - apply sanitize_list_sorted_nodup; exact Hp'.
  - intros k. rewrite !sanitize_list_key_set. apply Hk.
Qed.

Theorem sanitize_list_set_invariant es es' :
  coherent es -> (forall x, In x es <-> In x es') -> sanitize_list es = sanitize_list es'.
Proof.
  intros [Hp Hr] Hs. apply (map_inj_on key).
  - apply sanitize_list_keys_set_invariant; [exact Hp|].
    intros k. rewrite !in_map_iff. split; intros [x [E Hx]]; exists x; (split; [exact E | apply Hs; exact Hx]).
  - intros x y Hx Hy. apply Hr; [apply sanitize_list_subset; exact Hx|].
    apply Hs. apply sanitize_list_subset. exact Hy.
Qed.

(* errors.Sanitize does not depend on the order in which the errors were collected *)
Theorem sanitize_list_perm es es' :
  coherent es -> Permutation es es' -> sanitize_list es = sanitize_list es'.
Proof.
  intros Hc Hperm. apply sanitize_list_set_invariant; [exact Hc|].
  apply perm_in_iff. exact Hperm.
Qed.

Theorem sanitize_perm es es' :
  coherent es -> Permutation es es' -> sanitize (CList es) = sanitize (CList es').
Proof. intros Hc Hp. simpl. rewrite (sanitize_list_perm es es' Hc Hp). reflexivity. Qed.

Theorem printed_perm es es' :
  coherent es -> Permutation es es' -> printed (CList es) = printed (CList es').
Proof. intros Hc Hp. apply sanitize_list_perm; assumption. Qed.

(* slices.SortFunc is an insertion sort only up to 12 elements; beyond that it
   is pdqsort, which is not stable.  Whatever sorted permutation the sort
   produces, the grouping phase yields the same keys (and on coherent lists
   the same errors) as the model with the insertion sort. *)
Theorem sanitize_list_any_sort_keys es s :
  pos_coherent es -> Permutation es s -> StronglySorted (le_of err_cmp) s ->
  map key (group_phase s) = map key (sanitize_list es).
Proof.
  intros Hp Hperm Hs.
  apply (strict_sorted_unique key_lt key_lt_irrefl key_lt_asym).
  - apply gp_keys_sorted; [exact Hs|].
    eapply pos_coherent_incl; [|exact Hp]. intros x. apply Permutation_in. symmetry. exact Hperm.
  - apply sanitize_list_sorted_nodup; exact Hp.
  - intros k. rewrite gp_key_set, sanitize_list_key_set.
    symmetry. apply perm_in_iff, Permutation_map. exact Hperm.
Qed.

Lemma pos_coherentb_spec es : pos_coherentb es = true <-> pos_coherent es.
Proof.
  unfold pos_coherentb, pos_coherent. rewrite forallb_forall. split.
  - intros H x y Hx Hy E. specialize (H x Hx). rewrite forallb_forall in H. specialize (H y Hy).
    rewrite E in H. apply pos_eqb_eq. exact H.
  - intros H x Hx. rewrite forallb_forall. intros y Hy.
    destruct (cmp_npf (e_pos x) (e_pos y)) eqn:E; auto. apply pos_eqb_eq. apply H; assumption.
Qed.

Lemma rec_coherentb_spec es : rec_coherentb es = true <-> rec_coherent es.
Proof.
  unfold rec_coherentb, rec_coherent. rewrite forallb_forall. split.
  - intros H x y Hx Hy E. specialize (H x Hx). rewrite forallb_forall in H. specialize (H y Hy).
    unfold key in E. injection E as E1 E2 E3.
    replace (same_pp x y && msg_eqb x y) with true in H.
    + apply N.eqb_eq in H. destruct x, y; simpl in *; congruence.
    + symmetry. apply andb_true_iff. split; [apply same_pp_iff; auto | apply msg_eqb_iff; exact E3].
  - intros H x Hx. rewrite forallb_forall. intros y Hy.
    destruct (same_pp x y && msg_eqb x y) eqn:E; auto.
    apply andb_true_iff in E. destruct E as [E1 E2]. apply msg_eqb_iff in E2.
    rewrite (H x y Hx Hy (same_key x y E1 E2)). apply N.eqb_refl.
Qed.

Lemma err_eqb_eq x y : err_eqb x y = true <-> x = y.
Proof.
  unfold err_eqb. rewrite !andb_true_iff, pos_eqb_eq, path_eqb_eq, str_eqb_eq, N.eqb_eq.
  destruct x, y; simpl. split; [intros [[[-> ->] ->] ->]; reflexivity | intros [= -> -> -> ->]; auto].
Qed.

(* errors.Append keeps a list free of repeated error values *)
Lemma append_to_list_nodup a e : NoDup a -> NoDup (append_to_list a e).
Proof.
  intros H. unfold append_to_list. destruct (existsb (err_eqb e) a) eqn:E; [exact H|].
  apply Permutation_NoDup with (e :: a); [apply Permutation_cons_append|].
  constructor; [|exact H]. intros Hin.
  assert (existsb (err_eqb e) a = true); [|congruence].
  apply existsb_exists. exists e. split; [exact Hin | apply err_eqb_eq; reflexivity].
Qed.

Lemma append_all_nodup es : forall a, NoDup a -> NoDup (append_all a es).
Proof.
  unfold append_all. induction es as [|e es IH]; intros a H; simpl; [exact H|].
  apply IH. apply append_to_list_nodup. exact H.
Qed.

(* errors.Append adds nothing but its arguments and drops none of them *)
Lemma append_all_in es : forall a x, In x (append_all a es) <-> In x a \/ In x es.
Proof.
  unfold append_all. induction es as [|e es IH]; intros a x; simpl; [tauto|].
  rewrite IH. unfold append_to_list. destruct (existsb (err_eqb e) a) eqn:E.
  - apply existsb_exists in E. destruct E as [y [Hy Ey]]. apply err_eqb_eq in Ey. subst y.
    split; [tauto|]. intros [H | [<- | H]]; auto.
  - rewrite in_app_iff. simpl. tauto.
Qed.
