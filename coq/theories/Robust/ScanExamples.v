(* Non-vacuity examples for the scanner theorems: concrete runs of the model
   (vm_compute), showing that the hypotheses of the theorems are met by
   non-trivial states and that the side conditions in the statements are needed. *)
From Verif Require Import Utf8.Model Robust.Scan Robust.ScanProofs.
From Coq Require Import ZArith List Bool.
Import ListNotations.
Local Open Scope Z_scope.

Definition no (c : Z) : bool := false.
Definition toks (src : list N) :=
  match tokenize src no no true false with
  | Ok l => Some (map (fun r => (r_tok r, r_start r, r_elided r)) l)
  | _ => None
  end.

(* `a: 1 // c` + newline : the comma is inserted before the comment, at the
   comment's own offset: starts are only weakly monotone around inserted commas *)
Example ex_comment_comma :
  toks [97; 58; 32; 49; 32; 47; 47; 32; 99; 10]%N
  = Some [(IDENT, 0, false); (COLON, 1, false); (INT, 3, false); (COMMA, 5, true);
          (COMMENT, 5, false); (EOF, 10, false)].
Proof. vm_compute. reflexivity. Qed.

(* the token count 2*len+2 is reached: "a" gives IDENT, inserted COMMA, EOF *)
Example ex_len_plus_two : toks [97]%N = Some [(IDENT, 0, false); (COMMA, 1, true); (EOF, 1, false)].
Proof. vm_compute. reflexivity. Qed.

(* `"\(x)"` scanned the way the parser does: INTERPOLATION ( x ) then
   ResumeInterpolation, then the inserted comma and EOF; the quote stack is
   pushed and popped *)
Example ex_interpolation :
  run [34; 92; 40; 120; 41; 34]%N no no true false [OScan; OScan; OScan; OScan; OResume; OScan; OScan]
  = RunOk [ObsTok (mkRes INTERPOLATION 0 false) 2 0 1; ObsTok (mkRes LPAREN 2 false) 3 0 1;
           ObsTok (mkRes IDENT 3 false) 4 0 1; ObsTok (mkRes RPAREN 4 false) 5 0 1;
           ObsResume 6 0 0; ObsTok (mkRes COMMA 6 true) 6 0 0; ObsTok (mkRes EOF 6 false) 6 0 0].
Proof. vm_compute. reflexivity. Qed.

(* resuming with no open interpolation is the one failure a script can have *)
Example ex_misuse : run [97]%N no no true false [OScan; OResume] = RunMisuse [ObsTok (mkRes IDENT 0 false) 1 0 0].
Proof. vm_compute. reflexivity. Qed.

(* ... and in Go it is an index-out-of-range panic: popInterpolation on the empty stack *)
Example ex_pop_empty_panics : pop_interp (mkSt 97 0 1 false [] 0) = Panic.
Proof. reflexivity. Qed.

(* the partial operations do fail outside their bounds: "cannot panic" is not an
   artefact of totalisation *)
Example ex_byte_at_panics : byte_at [97]%N 1 = Panic /\ byte_at [97]%N (-1) = Panic.
Proof. split; reflexivity. Qed.
Example ex_slice_panics : slice [97; 98]%N 2 1 = Panic /\ slice [97; 98]%N 0 3 = Panic /\ slice [97; 98]%N (-1) 1 = Panic.
Proof. repeat split; reflexivity. Qed.

(* without the invariant Scan can panic: a state claiming to be past a consumed
   '/' at offset 0 makes scanComment slice from -1 *)
Example ex_inv_needed : scan_comment [47; 47]%N (mkSt 47 0 1 false [] 0) = Panic.
Proof. vm_compute. reflexivity. Qed.

(* an unterminated raw multi-line string with interpolation, illegal bytes and a
   NUL: errors are counted, nothing panics *)
Example ex_errors :
  run [35; 34; 34; 34; 10; 32; 92; 35; 40; 0; 255]%N no no true false [OScan; OScan; OScan; OScan; OScan]
  = RunOk [ObsTok (mkRes INTERPOLATION 0 false) 8 0 1; ObsTok (mkRes LPAREN 8 false) 9 1 1;
           ObsTok (mkRes ILLEGAL 9 false) 10 3 1; ObsTok (mkRes ILLEGAL 10 false) 11 4 1;
           ObsTok (mkRes EOF 11 false) 11 4 1].
Proof. vm_compute. reflexivity. Qed.

(* the invariant holds initially for a concrete non-empty file (hypothesis of
   scan1_spec / scan_progress is satisfiable) *)
Example ex_init_inv : exists s, init [123; 125]%N = Ok s /\ Inv [123; 125]%N s.
Proof.
  pose proof (Inv_init [123; 125]%N) as W.
  destruct (init [123; 125]%N) as [s| |]; cbn [wp] in W; [| destruct W | destruct W].
  exists s. split; [reflexivity | exact W].
Qed.
