(* Proofs about the scanner model (Robust/Scan.v):
     - no Go partial operation of the scanner can fail (no [Panic]) from any
       state satisfying the scanner invariant [Inv], which Init establishes and
       every call preserves;
     - the fuel of the model's loops is never exhausted;
     - every Scan call makes progress in the measure 2*(len - offset) + insertEOL
       unless it returns EOF; token offsets are monotone and within [0,len]. *)
From Verif Require Import Utf8.Model Utf8.Proofs Robust.Scan.
From Coq Require Import ZArith List Bool Lia ZifyBool ZifyNat ZifyN.
Import ListNotations.
Local Open Scope Z_scope.

(* weakest-precondition style reading of an outcome: [Ok a] must satisfy [P],
   [Panic] is excluded, [Fuel] is only allowed when [F] (the fuel was short). *)
Definition wp {A} (F : Prop) (P : A -> Prop) (m : outcome A) : Prop :=
  match m with Ok a => P a | Panic => False | Fuel => F end.

Lemma wp_bind {A B} (F : Prop) (P : A -> Prop) (Q : B -> Prop) m (k : A -> outcome B) :
  wp F P m -> (forall a, P a -> wp F Q (k a)) -> wp F Q (bind m k).
Proof. destruct m; simpl; auto. Qed.

Lemma wp_weaken {A} (F F' : Prop) (P Q : A -> Prop) m :
  wp F P m -> (F -> F') -> (forall a, P a -> Q a) -> wp F' Q m.
Proof. destruct m; simpl; auto. Qed.

Lemma wp_mono {A} (F : Prop) (P Q : A -> Prop) m : wp F P m -> (forall a, P a -> Q a) -> wp F Q m.
Proof. intros H. apply (wp_weaken F F P Q m H). auto. Qed.

Lemma wp_fuel {A} (F F' : Prop) (P : A -> Prop) m : (F -> F') -> wp F P m -> wp F' P m.
Proof. intros HF H. apply (wp_weaken F F' P P m H HF). auto. Qed.

Lemma wp_False_ok {A} (P : A -> Prop) m : wp False P m -> exists a, m = Ok a /\ P a.
Proof. destruct m; simpl; [eauto | tauto | tauto]. Qed.

Lemma wp_ok {A} (F : Prop) (P : A -> Prop) a : P a -> wp F P (Ok a).
Proof. auto. Qed.

Section Proofs.
  Variable src : list N.
  Variables isLetterU isDigitU : Z -> bool.
  Variables scan_comments dont_insert : bool.

  (* lia specialises whatever fits in the context, the oracles and modes of the
     section included, and the lemma then depends on them: [clia] is lia without
     them in sight, wherever the goal does not mention them. *)
  Ltac clia := try clear isLetterU isDigitU; try clear scan_comments dont_insert; lia.

  (* splits a conjunction (or an [Inv] record) and closes the parts that are hypotheses *)
  Ltac ivs := repeat (first [assumption | split]).

  Notation len := (len src).
  Notation lf := (lf src).
  Notation byte_at := (byte_at src).
  Notation slice := (slice src).
  Notation next := (next src).

  Definition qwf (q : quote) : Prop := 0 <= q_char q /\ 0 <= q_numChar q /\ 0 <= q_numHash q.

  Record Inv (s : st) : Prop := mkInv {
    inv_ch : -1 <= ch s;
    inv_off : 0 <= off s;
    inv_off_rd : off s <= rd s;
    inv_rd : rd s <= len;
    inv_cur : 0 <= ch s -> off s < rd s;     (* the current rune occupies [offset, rdOffset) *)
    inv_eof : ch s < 0 -> off s = len;
    inv_qs : Forall qwf (qs s);
    inv_qs_off : qs s <> [] -> 1 <= off s }.

  (* s' is a later state of the same scan: invariant, offsets and error count
     only grow, insertEOL and the quote stack are untouched *)
  Definition adv (s s' : st) : Prop :=
    Inv s' /\ off s <= off s' /\ ins s' = ins s /\ qs s' = qs s /\ errs s <= errs s'.

  Lemma adv_refl {s} : Inv s -> adv s s.
  Proof. unfold adv; intuition clia. Qed.

  Lemma adv_trans {s1 s2 s3} : adv s1 s2 -> adv s2 s3 -> adv s1 s3.
  Proof.
    intros (_ & ? & N1 & Q1 & ?) (I & ? & N2 & Q2 & ?). unfold adv. rewrite N2, Q2.
    ivs; eapply Z.le_trans; eassumption.
  Qed.

  Lemma Inv_errf s : Inv s -> Inv (errf s).
  Proof. intros []; constructor; simpl; assumption. Qed.

  Lemma Inv_errf_if b s : Inv s -> Inv (errf_if b s).
  Proof. destruct b; simpl; auto using Inv_errf. Qed.

  Lemma adv_errf s s' : adv s s' -> adv s (errf s').
  Proof. intros (I & ? & ? & ? & ?). split; [exact (Inv_errf _ I) | simpl; ivs; clia]. Qed.

  Lemma adv_errf_if b s s' : adv s s' -> adv s (errf_if b s').
  Proof. destruct b; simpl; auto using adv_errf. Qed.

  Lemma adv_Inv {s s'} : adv s s' -> Inv s'.
  Proof. intros (I & _); exact I. Qed.

  Lemma adv_off {s s'} : adv s s' -> off s <= off s'.
  Proof. intros (_ & H & _); exact H. Qed.

  Lemma off_le_len {s s'} : adv s s' -> off s' <= len.
  Proof. intros ([] & _). clia. Qed.

  Lemma len_nonneg : 0 <= len.
  Proof. unfold Scan.len. clia. Qed.

  Lemma wp_byte_at {F} i : 0 <= i < len -> wp F (fun b => 0 <= b) (byte_at i).
  Proof.
    intros H. unfold Scan.byte_at. replace ((0 <=? i) && (i <? len)) with true by clia. simpl. clia.
  Qed.

  Lemma skipn_length_Z (n : Z) : 0 <= n <= len ->
    Z.of_nat (length (skipn (Z.to_nat n) src)) = len - n.
  Proof. intros. rewrite skipn_length. unfold Scan.len in *. lia. Qed.

  Lemma wp_slice {F} lo hi : 0 <= lo <= hi -> hi <= len ->
    wp F (fun l => Z.of_nat (length l) = hi - lo) (slice lo hi).
  Proof.
    intros. unfold Scan.slice. replace ((0 <=? lo) && (lo <=? hi) && (hi <=? len)) with true by clia.
    simpl. rewrite firstn_length, skipn_length. unfold Scan.len in *. clia.
  Qed.

  (* utf8.DecodeRune on a non-empty slice: width between 1 and the slice length, rune >= 0 *)
  Lemma decode_rune_bounds l r w : l <> [] -> decode_rune l = (r, w) ->
    0 <= r /\ 1 <= w <= Z.of_nat (length l).
  Proof.
    intros Hl. destruct l as [|b t]; [congruence|]. unfold decode_rune.
    pose proof (decode_width b t) as Hw. destruct (utf8_decode (b :: t)) as [r0 w0].
    intros [= <- <-]. clia.
  Qed.

  (* what next() needs of the state it is called in (weaker than Inv: Init calls
     it with ch = ' ' and both offsets 0) *)
  Definition pre_next (s : st) : Prop :=
    0 <= rd s <= len /\ Forall qwf (qs s) /\ (qs s <> [] -> 1 <= rd s).

  Definition next_frame (s s' : st) : Prop :=
    Inv s' /\ off s' = (if rd s <? len then rd s else len) /\ ins s' = ins s /\ qs s' = qs s /\
    errs s <= errs s'.

  Lemma next_frame_spec {F} s : pre_next s -> wp F (next_frame s) (next s).
  Proof.
    intros (Hrd0 & Hq & Hqo). unfold Scan.next, next_frame.
    destruct (rd s <? len) eqn:E.
    - eapply wp_bind; [apply (wp_byte_at (rd s)); clia|]. intros b Hb. cbv beta in Hb.
      destruct (b =? 0) eqn:E0.
      { simpl. repeat split; simpl; try clia; try assumption; intros; clia. }
      destruct (0x80 <=? b) eqn:E1.
      + eapply wp_bind; [apply (wp_slice (rd s) len); clia|]. intros tl Hlen. cbv beta in Hlen.
        destruct (decode_rune tl) as [r w] eqn:Ed.
        destruct (decode_rune_bounds tl r w) as (Hr & Hw1 & Hw2); [intros ->; simpl in Hlen; clia | exact Ed|].
        simpl. repeat split; simpl; try clia; try assumption; intros; try clia.
        destruct ((r =? 65533) && (w =? 1)); [clia|]. destruct ((r =? bom) && (0 <? rd s)); clia.
      + simpl. repeat split; simpl; try clia; try assumption; intros; clia.
    - simpl. pose proof len_nonneg.
      repeat split; simpl; try clia; try assumption; intros; try clia.
  Qed.

  (* The specs are stated relative to a base state [s0], usually the state in
     which the current token starts: from [adv s0 s] they conclude [adv s0 s'],
     so that offsets computed in [s0] stay usable without transitivity steps. *)
  Lemma next_spec {F} s0 s : adv s0 s ->
    wp F (fun s' => adv s0 s' /\ off s <= off s' /\ (0 <= ch s -> off s < off s')) (next s).
  Proof.
    intros A. destruct (adv_Inv A) as [_ ? ? ? ? _ Q QO].
    eapply wp_mono; [apply (next_frame_spec s)|].
    - unfold pre_next. ivs; [clia | intros Hq; pose proof (QO Hq); clia].
    - intros s' (I' & Ho & Hi & Hq & He).
      assert (O : off s <= off s' /\ (0 <= ch s -> off s < off s')) by (destruct (rd s <? len); clia).
      split; [|exact O]. apply (adv_trans A). unfold adv. ivs. apply O.
  Qed.

  Lemma next_adv {F} s0 s : adv s0 s -> wp F (adv s0) (next s).
  Proof. intros A. eapply wp_mono; [apply (next_spec s0 s A)|]. intros s' (A' & _). exact A'. Qed.

  Lemma wp_next {A} {F} (Q : A -> Prop) s0 s (k : st -> outcome A) :
    adv s0 s ->
    (forall s', adv s0 s' -> off s <= off s' -> (0 <= ch s -> off s < off s') -> wp F Q (k s')) ->
    wp F Q (bind (next s) k).
  Proof.
    intros A0 H. eapply wp_bind; [apply (next_spec s0 s A0)|]. intros s' (A1 & O & L). apply H; assumption.
  Qed.

  Lemma Inv_init : wp False Inv (init src).
  Proof.
    unfold init.
    eapply wp_bind; [apply next_frame_spec|].
    { pose proof len_nonneg. unfold pre_next; simpl. repeat split; try clia; [constructor | congruence]. }
    intros s (I & _).
    destruct (ch s =? bom); [|exact I].
    eapply wp_mono; [apply (next_adv s s (adv_refl I))|]. exact (@adv_Inv s).
  Qed.

  (* Each iteration of a loop consumes a byte, so fuel above the number of bytes
     left is enough; [lf] is above [len]. *)

  Lemma lf_enough {s s'} : adv s s' -> len - off s' < Z.of_nat lf.
  Proof. intros ([] & _). unfold Scan.lf, Scan.len. clia. Qed.

  Lemma no_fuel {s s'} : adv s s' -> len - off s' < Z.of_nat 0 -> False.
  Proof. intros ([] & _). clia. Qed.

  Lemma skip_ws_spec {F} f s0 s : adv s0 s -> len - off s < Z.of_nat f ->
    wp F (adv s0) (skip_ws src f s).
  Proof.
    revert s. induction f as [|f IH]; intros s A Hf.
    { destruct (no_fuel A Hf). }
    assert (K : 0 <= ch s -> wp F (adv s0) (s' <- next s ;; skip_ws src f s')).
    { intros Hc. eapply wp_next; [exact A|]. intros s' A' _ L. apply IH; [exact A' | clia]. }
    cbn [skip_ws].
    destruct ((ch s =? 32) || (ch s =? 9)) eqn:E1; [apply K; clia|].
    destruct (ch s =? 10) eqn:E2; [destruct (ins s); [exact A | apply K; clia]|].
    destruct (ch s =? 13) eqn:E3; [apply K; clia | exact A].
  Qed.

  Lemma comment_loop_spec {F} f s0 s : adv s0 s -> len - off s < Z.of_nat f ->
    wp F (adv s0) (comment_loop src f s).
  Proof.
    revert s. induction f as [|f IH]; intros s A Hf.
    { destruct (no_fuel A Hf). }
    cbn [comment_loop].
    destruct (negb (ch s =? 10) && (0 <=? ch s)) eqn:E1; [|exact A].
    eapply wp_next; [exact A|]. intros s' A' _ L. apply IH; [exact A' | clia].
  Qed.

  Lemma wp_slice_adv {A} {F} (Q : A -> Prop) s0 s offs (k : list N -> outcome A) :
    adv s0 s -> 0 <= offs <= off s0 -> (forall l, wp F Q (k l)) ->
    wp F Q (bind (slice offs (off s)) k).
  Proof.
    intros A1 H K. pose proof (adv_off A1). pose proof (off_le_len A1).
    eapply wp_bind; [apply (wp_slice); clia | intros; apply K].
  Qed.

  Lemma scan_comment_spec {F} s : Inv s -> 1 <= off s -> wp F (adv s) (scan_comment src s).
  Proof.
    intros I H1. pose proof (adv_refl I) as R. unfold scan_comment.
    eapply wp_bind with (P := adv s).
    - destruct (ch s =? 47); [|apply adv_errf; exact R].
      eapply wp_next; [exact R|]. intros s' A _ _.
      apply comment_loop_spec; [exact A | exact (lf_enough A)].
    - intros s2 A. eapply wp_slice_adv; [exact A | clia | intros; exact A].
  Qed.

  Lemma is_ident_part_nonneg c : is_ident_part isLetterU isDigitU c = true -> 0 <= c.
  Proof. unfold is_ident_part, is_letter, is_digit. clia. Qed.

  Lemma ident_loop_spec {F} f s0 s : adv s0 s -> len - off s < Z.of_nat f ->
    wp F (fun s' => adv s0 s' /\ off s <= off s' /\
                    (is_ident_part isLetterU isDigitU (ch s) = true -> off s < off s'))
       (ident_loop src isLetterU isDigitU f s).
  Proof.
    revert s. induction f as [|f IH]; intros s A Hf.
    { destruct (no_fuel A Hf). }
    cbn [ident_loop].
    destruct (is_ident_part isLetterU isDigitU (ch s)) eqn:E1.
    - pose proof (is_ident_part_nonneg _ E1).
      eapply wp_next; [exact A|]. intros s' A' _ L.
      eapply wp_mono; [apply IH; [exact A' | clia]|].
      intros s'' (A'' & O & _). split; [exact A'' | clia].
    - simpl. split; [exact A | split; [clia | discriminate]].
  Qed.

  Definition lit_post (s : st) (p : list N * st) : Prop := adv s (snd p).

  Lemma scan_identifier_spec {F} s : Inv s ->
    wp F (lit_post s) (scan_identifier src isLetterU isDigitU s).
  Proof.
    intros I. pose proof (adv_refl I) as R. pose proof (inv_off _ I). unfold scan_identifier.
    eapply wp_bind; [apply (ident_loop_spec lf s s R (lf_enough R))|].
    intros s1 (A & _). eapply wp_slice_adv; [exact A | clia | intros; exact A].
  Qed.

  Lemma scan_field_identifier_spec {F} s : Inv s ->
    wp F (fun p => adv s (snd p) /\
                   (ch s = 35 \/ is_ident_part isLetterU isDigitU (ch s) = true -> off s < off (snd p)))
       (scan_field_identifier src isLetterU isDigitU s).
  Proof.
    intros I. pose proof (adv_refl I) as R. pose proof (inv_off _ I). unfold scan_field_identifier.
    destruct (ch s =? 35) eqn:E.
    - eapply wp_next; [exact R|]. intros s1 A1 _ L1.
      destruct (is_digit isDigitU (ch s1)).
      + eapply wp_slice_adv; [exact A1 | clia|]. intros l. split; [exact A1 | simpl; clia].
      + eapply wp_bind; [apply (ident_loop_spec lf s s1 A1 (lf_enough A1))|].
        intros s2 (A2 & O2 & _).
        eapply wp_slice_adv; [exact A2 | clia|]. intros l. split; [exact A2 | simpl; clia].
    - eapply wp_bind; [apply (ident_loop_spec lf s s R (lf_enough R))|].
      intros s2 (A2 & _ & L2).
      eapply wp_slice_adv; [exact A2 | clia|]. intros l. split; [exact A2|].
      intros [H'|H']; [clia | exact (L2 H')].
  Qed.

  Lemma digit_val_nonneg c base : base <= 16 -> digit_val c < base -> 0 <= c.
  Proof.
    unfold digit_val.
    repeat match goal with |- context [if ?b then _ else _] => destruct b eqn:? end; clia.
  Qed.

  Lemma mantissa_loop_spec {F} f base last s0 s : adv s0 s -> base <= 16 ->
    len - off s < Z.of_nat f ->
    wp F (fun p => adv s0 (snd p) /\ off s <= off (snd p) /\
                   (digit_val (ch s) < base -> off s < off (snd p)))
       (mantissa_loop src f base last s).
  Proof.
    revert last s. induction f as [|f IH]; intros last s A Hb Hf.
    { destruct (no_fuel A Hf). }
    cbn [mantissa_loop].
    destruct (digit_val (ch s) <? base) eqn:E1.
    - assert (0 <= ch s) by (apply (digit_val_nonneg _ base); clia).
      set (b := (last =? 95) && (ch s =? 95)).
      assert (Hs : ch (errf_if b s) = ch s /\ off (errf_if b s) = off s) by (destruct b; split; reflexivity).
      destruct Hs as (Hc & Ho).
      apply (wp_next _ s0); [apply adv_errf_if; exact A|]. rewrite Hc, Ho. intros s' A' _ L.
      eapply wp_mono; [apply IH; [exact A' | exact Hb | clia]|].
      intros [l s''] (A'' & O & _). simpl in *. split; [exact A'' | clia].
    - simpl. split; [exact A | clia].
  Qed.

  Lemma scan_mantissa_spec {F} base s0 s : adv s0 s -> base <= 16 ->
    wp F (fun s' => adv s0 s' /\ (digit_val (ch s) < base -> off s < off s')) (scan_mantissa src base s).
  Proof.
    intros A Hb. unfold scan_mantissa.
    eapply wp_bind; [apply (mantissa_loop_spec lf base 0 s0 s A Hb (lf_enough A))|].
    intros [last s1] (A1 & _ & L). simpl in *. split; [apply adv_errf_if; exact A1|].
    destruct (last =? 95); exact L.
  Qed.

  (* what the scanners of numbers and operators return: a state reached from
     [s0], and a token kind that opens no interpolation *)
  Definition plain_post (s0 : st) (p : tok * st) : Prop := adv s0 (snd p) /\ fst p <> INTERPOLATION.

  Lemma num_exit_spec {F} t offs s0 s : adv s0 s -> 0 <= offs <= off s0 -> t <> INTERPOLATION ->
    wp F (plain_post s0) (num_exit src t offs s).
  Proof.
    intros A H Ht. unfold num_exit. eapply wp_slice_adv; [exact A | exact H|].
    intros l. split; assumption.
  Qed.

  Lemma num_exponent_spec {F} t offs s0 s : adv s0 s -> 0 <= offs <= off s0 -> t <> INTERPOLATION ->
    wp F (plain_post s0) (num_exponent src t offs s).
  Proof.
    intros A H Ht. unfold num_exponent.
    destruct ((ch s =? 75) || (ch s =? 77) || (ch s =? 71) || (ch s =? 84) || (ch s =? 80)).
    { eapply wp_next; [exact A|]. intros s1 A1 _ _.
      eapply wp_bind with (P := adv s0).
      - destruct (ch s1 =? 105); [apply next_adv|]; exact A1.
      - intros s2 A2. apply num_exit_spec; [exact A2 | exact H | discriminate]. }
    destruct ((ch s =? 101) || (ch s =? 69)); [|apply num_exit_spec; assumption].
    eapply wp_next; [exact A|]. intros s1 A1 _ _.
    eapply wp_bind with (P := adv s0).
    - destruct ((ch s1 =? 45) || (ch s1 =? 43)); [apply next_adv|]; exact A1.
    - intros s2 A2.
      eapply wp_bind; [apply (scan_mantissa_spec 10 s0); [apply adv_errf_if; exact A2 | clia]|].
      intros s4 (A4 & _). apply num_exit_spec; [exact A4 | exact H | discriminate].
  Qed.

  Lemma next_is_dot_spec {F} s : Inv s -> wp F (fun _ => True) (next_is_dot src s).
  Proof.
    intros I. unfold next_is_dot. destruct (off s + 1 <? len) eqn:E; [|exact Logic.I].
    eapply wp_bind; [apply (wp_byte_at) | intros; exact Logic.I]. destruct I. clia.
  Qed.

  Lemma num_fraction_spec {F} t offs s0 s : adv s0 s -> 0 <= offs <= off s0 -> t <> INTERPOLATION ->
    wp F (plain_post s0) (num_fraction src t offs s).
  Proof.
    intros A H Ht. unfold num_fraction.
    destruct (ch s =? 46); [|apply num_exponent_spec; assumption].
    eapply wp_bind; [apply (next_is_dot_spec s (adv_Inv A))|]. intros d _.
    destruct d; [apply num_exit_spec; assumption|].
    eapply wp_next; [exact A|]. intros s1 A1 _ _.
    eapply wp_bind; [apply (scan_mantissa_spec 10 s0 s1 A1); clia|].
    intros s2 (A2 & _). apply num_exponent_spec; [exact A2 | exact H | discriminate].
  Qed.

  (* a result specified from a strictly later state [s1] is strictly later *)
  Lemma wp_strict {F} s s1 (m : outcome (tok * st)) :
    adv s s1 -> off s < off s1 -> wp F (plain_post s1) m ->
    wp F (fun p => plain_post s p /\ off s < off (snd p)) m.
  Proof.
    intros A1 L H. eapply wp_mono; [exact H|]. intros p (Ap & Ht). pose proof (adv_off Ap).
    split; [split; [eapply adv_trans; eassumption | exact Ht] | clia].
  Qed.

  (* scanNumber(false) is entered on a decimal digit; scanNumber(true) after a consumed '.' *)
  Lemma scan_number_false_spec {F} s : Inv s -> 48 <= ch s <= 57 ->
    wp F (fun p => plain_post s p /\ off s < off (snd p)) (scan_number src false s).
  Proof.
    intros I H. pose proof (adv_refl I) as R. pose proof (inv_off _ I). unfold scan_number.
    destruct (ch s =? 48) eqn:E0.
    - (* everything after the leading 0 is specified from the state [s1] behind it *)
      eapply wp_next; [exact R|]. intros s1 A1 _ L1.
      apply (wp_strict s s1 _ A1); [clia|]. clear L1.
      pose proof (adv_Inv A1) as I1. pose proof (adv_refl I1) as R1. pose proof (adv_off A1).
      assert (Based : forall base, base <= 16 ->
        wp F (plain_post s1)
          (s2 <- next s1;; s3 <- scan_mantissa src base s2;;
           num_exit src INT (off s) (errf_if (off s3 - off s <=? 2) s3))).
      { intros base Hb. eapply wp_next; [exact R1|]. intros s2 A2 _ _.
        eapply wp_bind; [apply (scan_mantissa_spec base s1 s2 A2 Hb)|].
        intros s3 (A3 & _). apply num_exit_spec; [apply adv_errf_if; exact A3 | clia | discriminate]. }
      destruct ((ch s1 =? 120) || (ch s1 =? 88)); [apply Based; clia|].
      destruct (ch s1 =? 98); [apply Based; clia|].
      destruct (ch s1 =? 111); [apply Based; clia|]. clear Based.
      set (sd := (48 <=? ch s1) && (ch s1 <=? 57)).
      eapply wp_bind with (P := adv s1).
      { destruct sd; [|exact R1].
        eapply wp_mono; [apply (scan_mantissa_spec 10 s1 s1 R1); clia|]. intros s2 (A2 & _); exact A2. }
      intros s2 A2.
      eapply wp_bind with (P := fun _ => True).
      { destruct (ch s2 =? 46); [apply next_is_dot_spec; exact (adv_Inv A2) | exact Logic.I]. }
      intros d _.
      destruct d; [apply num_exit_spec; [apply adv_errf_if; exact A2 | clia | discriminate]|].
      destruct ((ch s2 =? 46) || (ch s2 =? 101) || (ch s2 =? 69)).
      + apply num_fraction_spec; [exact A2 | clia | discriminate].
      + apply num_exponent_spec; [apply adv_errf_if; exact A2 | clia | discriminate].
    - eapply wp_bind; [apply (scan_mantissa_spec 10 s s R); clia|].
      intros s1 (A1 & L1).
      apply (wp_strict s s1 _ A1).
      + apply L1. unfold digit_val. replace ((48 <=? ch s) && (ch s <=? 57)) with true by clia. clia.
      + pose proof (adv_off A1).
        apply num_fraction_spec; [apply adv_refl; exact (adv_Inv A1) | clia | discriminate].
  Qed.

  Lemma scan_number_true_spec {F} s : Inv s -> 1 <= off s ->
    wp F (plain_post s) (scan_number src true s).
  Proof.
    intros I H. pose proof (adv_refl I) as R. unfold scan_number.
    eapply wp_bind; [apply (scan_mantissa_spec 10 s s R); clia|].
    intros s1 (A1 & _). apply num_exponent_spec; [exact A1 | clia | discriminate].
  Qed.

  (* like adv, but an interpolation may have been pushed on the quote stack *)
  Definition advq (s s' : st) : Prop :=
    Inv s' /\ off s <= off s' /\ ins s' = ins s /\
    (qs s' = qs s \/ exists q, qs s' = q :: qs s) /\ errs s <= errs s'.

  Lemma adv_advq s s' : adv s s' -> advq s s'.
  Proof. unfold adv, advq. intuition. Qed.

  Lemma advq_Inv s s' : advq s s' -> Inv s'.
  Proof. intros (I & _); exact I. Qed.

  Lemma advq_off s s' : advq s s' -> off s <= off s'.
  Proof. intros (_ & H & _); exact H. Qed.

  Lemma esc_hashes_spec {F} n s0 s : adv s0 s ->
    wp F (fun p => adv s0 (snd p)) (esc_hashes src n s).
  Proof.
    revert s. induction n as [|n IH]; intros s A; cbn [esc_hashes]; [exact A|].
    destruct (ch s =? 35); [|exact A].
    eapply wp_next; [exact A|]. intros s1 A1 _ _. exact (IH s1 A1).
  Qed.

  Lemma esc_digits_spec {F} n base x s0 s : adv s0 s ->
    wp F (fun p => adv s0 (snd p)) (esc_digits src n base x s).
  Proof.
    revert x s. induction n as [|n IH]; intros x s A; cbn [esc_digits]; [exact A|].
    destruct ((ch s =? 95) || (base <=? digit_val (ch s))); [apply adv_errf; exact A|].
    eapply wp_next; [exact A|]. intros s1 A1 _ _. exact (IH _ s1 A1).
  Qed.

  (* scanEscape reports an interpolation only in front of its '(' *)
  Definition esc_post (s0 : st) (p : bool * bool * st) : Prop :=
    adv s0 (snd p) /\ (snd (fst p) = true -> ch (snd p) = 40).

  Lemma scan_escape_spec {F} q s0 s : adv s0 s -> wp F (esc_post s0) (scan_escape src q s).
  Proof.
    intros A. unfold scan_escape.
    eapply wp_bind; [apply (esc_hashes_spec _ s0 s A)|].
    intros [all sh] Ah. simpl in Ah.
    (* the outcomes without interpolation, in any state reached from [s0] *)
    assert (E : forall ok e s1, adv s0 s1 -> esc_post s0 (ok, false, errf_if e s1)).
    { intros ok e s1 A1. split; [apply adv_errf_if; exact A1 | discriminate]. }
    destruct all; cbn [negb]; [|exact (E true false sh Ah)].
    assert (D : forall n base mx s1, adv s0 s1 ->
      wp F (esc_post s0)
        ('(x, s2) <- esc_digits src n base 0 s1 ;;
         match x with
         | None => Ok (false, false, s2)
         | Some v => if mx <? v then Ok (false, false, errf s2) else Ok (true, false, s2)
         end)).
    { intros n base mx s1 A1.
      eapply wp_bind; [apply (esc_digits_spec n base 0 s0 s1 A1)|].
      intros [x s2] A2. simpl in A2.
      destruct x as [v|]; [destruct (mx <? v)|];
        [apply (E false true) | apply (E true false) | apply (E false false)]; exact A2. }
    assert (N : forall (k : st -> outcome (bool * bool * st)),
      (forall s1, adv s0 s1 -> wp F (esc_post s0) (k s1)) -> wp F (esc_post s0) (bind (next sh) k)).
    { intros k Hk. eapply wp_next; [exact Ah|]. intros s1 A1 _ _. apply Hk; assumption. }
    pose proof (E false true sh Ah) as ERR.
    destruct (ch sh =? 40) eqn:E40.
    { split; [exact Ah | intros _; exact (proj1 (Z.eqb_eq _ _) E40)]. }
    match goal with |- context [if ?b then _ else _] => destruct b end.
    { apply N. intros s1 A1. exact (E true false s1 A1). }
    destruct ((48 <=? ch sh) && (ch sh <=? 55)).
    { destruct (q_char q =? 34); [exact ERR | apply D; exact Ah]. }
    destruct (ch sh =? 120).
    { destruct (q_char q =? 34); [exact ERR | apply N; intros s1 A1; apply D; exact A1]. }
    destruct (ch sh =? 117); [apply N; intros s1 A1; apply D; exact A1|].
    destruct (ch sh =? 85); [apply N; intros s1 A1; apply D; exact A1 | exact ERR].
  Qed.

  Lemma close_loop_spec {F} k i q s0 s : adv s0 s -> qwf q ->
    wp F (fun p => adv s0 (snd p) /\ (fst p = true -> off s + Z.of_nat k <= off (snd p)))
       (close_loop src k i q s).
  Proof.
    revert i s. induction k as [|k IH]; intros i s A Q; cbn [close_loop].
    { simpl. split; [exact A | clia]. }
    set (want := if i <? q_numChar q then q_char q else 35).
    destruct (negb (want =? ch s)) eqn:E.
    { simpl. split; [exact A | discriminate]. }
    assert (0 <= ch s).
    { destruct Q as (Q1 & _). unfold want in E. destruct (i <? q_numChar q); clia. }
    eapply wp_next; [exact A|]. intros s1 A1 _ L1.
    eapply wp_mono; [apply (IH (i + 1) s1 A1 Q)|].
    intros [c s2] (A2 & C2). simpl in *. split; [exact A2 | clia].
  Qed.

  Lemma consume_string_close_spec {F} c q s0 s : adv s0 s -> qwf q ->
    wp F (fun p => adv s0 (snd p) /\
                   (fst p = true -> off s + (q_numChar q + q_numHash q - 1) <= off (snd p)))
       (consume_string_close src c q s).
  Proof.
    intros A Q. unfold consume_string_close.
    destruct (negb (q_char q =? c)).
    { simpl. split; [exact A | discriminate]. }
    eapply wp_mono; [apply (close_loop_spec _ 1 q s0 s A Q)|].
    intros [b s1] (A1 & C1). simpl in *. split; [exact A1 | clia].
  Qed.

  Lemma str_finish_spec {F} t extra offs q ls s : Inv s -> qwf q ->
    0 <= offs <= off s + extra -> off s + extra <= len ->
    (t = STRING -> q_ws q <> None -> 0 <= ls <= off s - q_numChar q - q_numHash q) ->
    wp F (fun p => adv s (snd p) /\ fst p = t) (str_finish src t extra offs q ls s).
  Proof.
    intros I Q H1 H2 Hws. unfold str_finish.
    eapply wp_bind; [apply (wp_slice); clia|]. intros _ _.
    assert (R : adv s s) by (apply adv_refl; assumption).
    destruct t; try (split; [exact R | reflexivity]).
    destruct (q_ws q) as [ws|] eqn:Ews; [|split; [exact R | reflexivity]].
    destruct Hws as (Hl0 & Hl1); [reflexivity | congruence |].
    destruct Q as (_ & Q2 & Q3). pose proof (off_le_len R).
    eapply wp_bind; [apply (wp_slice); clia|].
    intros cws _. split; [apply adv_errf_if; exact R | reflexivity].
  Qed.

  Definition str_post (s : st) (p : tok * st) : Prop :=
    advq s (snd p) /\ (fst p = INTERPOLATION -> qs (snd p) <> []).

  (* an interpolation starts: the quote is pushed in a state that stands on the '(' *)
  Lemma str_finish_interp {F} offs q ls s0 s : adv s0 s -> ch s = 40 -> 1 <= off s -> qwf q ->
    0 <= offs <= off s0 -> wp F (str_post s0) (str_finish src INTERPOLATION 1 offs q ls (set_qs s (q :: qs s))).
  Proof.
    intros A C H1 Q Ho. pose proof (adv_Inv A) as I. destruct A as (_ & O & N & Q0 & E).
    pose proof (inv_cur _ I). pose proof (inv_rd _ I).
    assert (I4 : Inv (set_qs s (q :: qs s))).
    { destruct I. constructor; simpl; try assumption; [constructor; assumption | intros _; clia]. }
    eapply wp_mono; [apply (str_finish_spec INTERPOLATION 1 offs q ls _ I4 Q); simpl; try clia; discriminate|].
    intros [t s5] ((I5 & O5 & N5 & Q5 & E5) & Ht). simpl in *.
    split; [|intros _; simpl; rewrite Q5; discriminate].
    unfold advq; simpl. rewrite N5, Q5, N, Q0.
    ivs; [exact (Z.le_trans _ _ _ O O5) | right; exists q; reflexivity | exact (Z.le_trans _ _ _ E E5)].
  Qed.

  Lemma str_loop_spec {F} f offs q ca ls s0 s :
    adv s0 s -> qwf q -> 0 <= offs <= off s0 -> 0 <= ls <= off s -> len - off s < Z.of_nat f ->
    wp F (str_post s0) (str_loop src f offs q ca ls s).
  Proof.
    revert q ca ls s. induction f as [|f IH]; intros q ca ls s A Q Ho Hl Hf.
    { destruct (no_fuel A Hf). }
    pose proof (adv_off A) as O. pose proof (off_le_len A).
    cbn [str_loop]. set (c := ch s).
    destruct ((negb (q_numChar q =? 3) && (c =? 10)) || (c <? 0)) eqn:Eterm.
    { (* string literal not terminated *)
      eapply wp_bind; [apply (wp_slice); simpl; clia|].
      intros _ _. split; [apply adv_advq, adv_errf; exact A | discriminate]. }
    eapply wp_next; [exact A|]. intros s1 A1 _ L1. specialize (L1 ltac:(clia)). clear Eterm.
    pose proof (adv_refl (adv_Inv A1)) as R1.
    eapply wp_bind.
    { destruct (negb (q_numChar q =? 3) || ca).
      - exact (consume_string_close_spec c q s1 s1 R1 Q).
      - simpl. split; [exact R1 | discriminate]. }
    intros [closed s2] (A12 & C2). simpl in A12, C2.
    pose proof (adv_trans A1 A12) as A2. pose proof (adv_off A12) as O2.
    pose proof (adv_Inv A2) as I2. pose proof (adv_off A2). pose proof (off_le_len A2).
    assert (Hl2 : 0 <= ls <= off s2) by clia.
    assert (Ho2 : 0 <= off s2 <= off s2) by clia.
    assert (H12 : 1 <= off s2) by clia.
    (* the recursive call, from any later state with any quote *)
    assert (REC : forall q' ca' ls' s3, adv s0 s3 -> off s2 <= off s3 -> qwf q' -> 0 <= ls' <= off s2 ->
              wp F (str_post s0) (str_loop src f offs q' ca' ls' s3)).
    { intros q' ca' ls' s3 A3 O3 Q' Hl'. apply IH; try assumption; clia. }
    clear IH.
    destruct closed; [|clear C2].
    { specialize (C2 eq_refl). clear REC.
      eapply wp_mono; [apply (str_finish_spec STRING 0 offs q ls s2 I2 Q); clia|].
      intros [t s3] (A3 & Ht). simpl in *. split; [|subst t; discriminate].
      apply adv_advq. eapply adv_trans; eassumption. }
    destruct ((c =? 13) && (q_numChar q =? 3)).
    { apply REC; [exact A2 | apply Z.le_refl | exact Q | exact Hl2]. }
    eapply wp_bind with (P := qwf).
    { destruct (ca && negb (c =? 32) && negb (c =? 9)); [|exact Q]. clear REC.
      eapply wp_bind; [apply (wp_slice); clia|].
      intros ws _. destruct (negb (c =? 10) || (0 <? Z.of_nat (length ws))); exact Q. }
    intros q' Q'.
    assert (NX : forall ca' ls', 0 <= ls' <= off s2 ->
      wp F (str_post s0)
        (if c =? 92
         then '(_, interp, s3) <- scan_escape src q' s2 ;;
              if interp then str_finish src INTERPOLATION 1 offs q' ls' (set_qs s3 (q' :: qs s3))
              else str_loop src f offs q' ca' ls' s3
         else str_loop src f offs q' ca' ls' s2)).
    { intros ca' ls' Hl'. destruct (c =? 92); [|apply REC; [exact A2 | apply Z.le_refl | exact Q' | exact Hl']].
      eapply wp_bind; [apply (scan_escape_spec q' s2 s2 (adv_refl I2))|].
      intros [[ok interp] s3] (A23 & C3). simpl in A23, C3.
      pose proof (adv_trans A2 A23) as A3. pose proof (adv_off A23) as O3.
      destruct interp; [|apply REC; assumption].
      apply str_finish_interp; auto. exact (Z.le_trans _ _ _ H12 O3). }
    destruct (c =? 10); [apply NX; exact Ho2|].
    destruct ((q_numChar q =? 3) && ca && ((c =? 32) || (c =? 9))); apply NX; exact Hl2.
  Qed.

  Lemma scan_string_spec {F} offs q cont s0 s : adv s0 s -> qwf q -> 0 <= offs <= off s0 ->
    wp F (str_post s0) (scan_string src offs q cont s).
  Proof.
    intros A Q Ho. pose proof (inv_off _ (adv_Inv A)). unfold scan_string.
    apply str_loop_spec; [exact A | destruct cont; exact Q | exact Ho | clia | exact (lf_enough A)].
  Qed.

  Lemma consume_quotes_spec {F} c s0 s : adv s0 s ->
    wp F (fun p => adv s0 (snd p)) (consume_quotes src c s).
  Proof.
    intros A. unfold consume_quotes.
    destruct (negb (ch s =? c)); [exact A|].
    eapply wp_next; [exact A|]. intros s1 A1 _ _.
    destruct (negb (ch s1 =? c)); [exact A1|].
    eapply wp_next; [exact A1|]. intros s2 A2 _ _. exact A2.
  Qed.

  Lemma scan_hashes_spec {F} k i s0 s : adv s0 s ->
    wp F (fun p => adv s0 (snd p)) (scan_hashes src k i s).
  Proof.
    revert i s. induction k as [|k IH]; intros i s A; cbn [scan_hashes]; [exact A|].
    destruct (negb (ch s =? 35)); [exact A|].
    eapply wp_next; [exact A|]. intros s1 A1 _ _. apply IH. exact A1.
  Qed.

  Lemma pop_interp_spec {F} s : Inv s -> qs s <> [] ->
    wp F (fun p => qwf (fst p) /\ Inv (snd p) /\ off (snd p) = off s /\ ins (snd p) = ins s /\
                   errs (snd p) = errs s /\ 1 <= off s) (pop_interp s).
  Proof.
    intros I Hq. unfold pop_interp. destruct (qs s) as [|q r] eqn:E; [congruence|].
    simpl. destruct I. rewrite E in *. inversion inv_qs0; subst.
    split; [assumption|]. split; [|auto].
    constructor; simpl; try assumption. intros _. apply inv_qs_off0. discriminate.
  Qed.

  Definition resume_post (s s' : st) : Prop :=
    Inv s' /\ off s <= off s' /\ ins s' = ins s /\ errs s <= errs s'.

  Lemma resume_spec {F} s : Inv s -> qs s <> [] -> wp F (resume_post s) (resume src s).
  Proof.
    intros I Hq. unfold resume.
    eapply wp_bind; [apply (pop_interp_spec s I Hq)|].
    intros [q s1] (Q & I1 & O1 & N1 & E1 & H1). simpl in *.
    eapply wp_bind; [apply (scan_string_spec (off s1 - 1) q true s1 s1 (adv_refl I1) Q); clia|].
    intros [t s2] ((I2 & O2 & N2 & _ & E2) & _). simpl in *.
    unfold resume_post. rewrite N2, N1. ivs; clia.
  Qed.

  Lemma recover_paren_spec {F} f open s0 s : adv s0 s -> len - off s < Z.of_nat f ->
    wp F (adv s0) (recover_paren src f open s).
  Proof.
    revert open s. induction f as [|f IH]; intros open s A Hf.
    { destruct (no_fuel A Hf). }
    cbn [recover_paren].
    assert (K : forall o, 0 <= ch s -> wp F (adv s0) (s' <- next s ;; recover_paren src f o s')).
    { intros o Hc. eapply wp_next; [exact A|]. intros s1 A1 _ L1. apply IH; [exact A1 | clia]. }
    pose proof (inv_ch _ (adv_Inv A)).
    destruct ((ch s =? 10) || (ch s =? -1)) eqn:E1; [exact A|].
    destruct (ch s =? 40); [apply K; clia|].
    destruct (ch s =? 41); [|apply K; clia].
    destruct (open - 1 =? 0); [exact A | apply K; clia].
  Qed.

  Lemma hash_loop_spec {F} f nh s0 s : adv s0 s -> len - off s < Z.of_nat f ->
    wp F (fun p => adv s0 (snd p) /\ nh <= fst p /\ fst p - nh <= off (snd p) - off s)
       (hash_loop src f nh s).
  Proof.
    revert nh s. induction f as [|f IH]; intros nh s A Hf.
    { destruct (no_fuel A Hf). }
    cbn [hash_loop]. destruct (ch s =? 35) eqn:E; [|simpl; split; [exact A | clia]].
    eapply wp_next; [exact A|]. intros s1 A1 _ L1.
    eapply wp_mono; [apply (IH (nh + 1) s1 A1); clia|].
    intros [n s2] (A2 & C2). simpl in *. split; [exact A2 | clia].
  Qed.

  (* the quoted-literal case of Scan: the opening quote (and nh hashes) are consumed *)
  Lemma scan_quoted_spec {F} c nh s : Inv s -> 0 <= c -> 0 <= nh -> nh + 1 <= off s ->
    wp F (str_post s) (scan_quoted src c nh s).
  Proof.
    intros I Hc Hn Ho. pose proof (adv_refl I) as R. unfold scan_quoted.
    set (offs := off s - 1 - nh).
    assert (Hoffs : 0 <= offs <= off s) by (unfold offs; clia).
    assert (Q1 : qwf (mkQ c 1 nh 0 None)) by (unfold qwf; simpl; clia).
    assert (Q3 : qwf (mkQ c 3 nh 0 None)) by (unfold qwf; simpl; clia).
    assert (STR : forall q s2, adv s s2 -> qwf q ->
              wp F (str_post s) (scan_string src offs q false s2)).
    { intros q s2 A2 Q. apply scan_string_spec; assumption. }
    assert (LIT : forall s2, adv s s2 ->
              wp F (str_post s) (_ <- slice offs (off s2) ;; Ok (STRING, s2))).
    { intros s2 A2. eapply wp_slice_adv; [exact A2 | exact Hoffs|].
      intros l. split; [apply adv_advq; exact A2 | discriminate]. }
    eapply wp_bind; [apply (consume_quotes_spec c s s R)|].
    intros [n s1] A1. simpl in A1.
    destruct (n =? 0); [apply STR; assumption|].
    destruct (n =? 1).
    { eapply wp_bind; [apply (scan_hashes_spec _ 0 s s1 A1)|].
      intros [h s2] A2. simpl in A2. destruct (h =? nh); [apply LIT | apply STR]; assumption. }
    eapply wp_bind with (P := fun p => adv s (snd p)).
    { destruct (0 <? nh); [|exact A1].
      eapply wp_bind; [apply (scan_hashes_spec _ 0 s s1 A1)|]. intros [h s2] A2. exact A2. }
    intros [done s2] A2. simpl in A2.
    destruct done; [apply LIT; assumption|].
    assert (BAD : forall s3, adv s s3 ->
      wp F (str_post s) (_ <- slice offs (off s3) ;; _ <- slice offs (off s3) ;; Ok (STRING, errf s3))).
    { intros s3 A3. eapply wp_slice_adv; [exact A3 | exact Hoffs|].
      intros _. eapply wp_slice_adv; [exact A3 | exact Hoffs|].
      intros _. split; [apply adv_advq, adv_errf; exact A3 | discriminate]. }
    destruct (ch s2 =? 10).
    { eapply wp_next; [exact A2|]. intros s3 A3 _ _. apply STR; assumption. }
    destruct (ch s2 =? 13); [|apply BAD; assumption].
    eapply wp_next; [exact A2|]. intros s3 A3 _ _.
    destruct (ch s3 =? 10); [|apply BAD; assumption].
    eapply wp_next; [exact A3|]. intros s4 A4 _ _. apply STR; assumption.
  Qed.

  Notation finish := (finish dont_insert).

  (* termination measure of the token loop: bytes left, and a pending comma insertion *)
  Definition mu (s : st) : Z := 2 * (len - off s) + (if ins s then 1 else 0).

  Definition scan_post (s : st) (p : res * st) : Prop :=
    Inv (snd p) /\ off s <= r_start (fst p) /\ r_start (fst p) <= off (snd p) /\
    errs s <= errs (snd p) /\ mu (snd p) <= mu s /\
    (r_tok (fst p) <> EOF -> mu (snd p) < mu s) /\
    (r_tok (fst p) <> EOF -> r_elided (fst p) = false -> r_start (fst p) < off (snd p)) /\
    (r_tok (fst p) = INTERPOLATION -> qs (snd p) <> []) /\
    (r_elided (fst p) = true -> r_tok (fst p) = COMMA).

  Definition attr_post (s s' : st) : Prop :=
    Inv s' /\ off s <= off s' /\ errs s <= errs s' /\ mu s' <= mu s.

  Lemma Inv_set_ins s b : Inv s -> Inv (set_ins s b).
  Proof. intros []; constructor; simpl; assumption. Qed.

  Ltac prj := cbn [wp bind fst snd r_tok r_start r_elided ins off errs qs ch rd set_ins set_qs errf] in *.

  (* what [adv], [advq], [scan_post] and [attr_post] have in common *)
  Definition later (s s' : st) : Prop := Inv s' /\ off s <= off s' /\ errs s <= errs s'.

  Lemma later_trans s1 s2 s3 : later s1 s2 -> later s2 s3 -> later s1 s3.
  Proof. intros (_ & ? & ?) (I & ? & ?). unfold later. ivs; clia. Qed.

  Lemma adv_later {s s'} : adv s s' -> later s s'.
  Proof. unfold adv, later. intuition. Qed.

  Lemma advq_later {s s'} : advq s s' -> later s s'.
  Proof. unfold advq, later. intuition. Qed.

  Lemma scan_post_later s p : scan_post s p -> later s (snd p).
  Proof. intros (I & ? & ? & ? & _). unfold later. ivs. clia. Qed.

  Lemma attr_post_later s s' : attr_post s s' -> later s s'.
  Proof. unfold attr_post, later. intuition. Qed.

  Lemma attr_post_of s s' : later s s' -> ins s' = ins s -> attr_post s s'.
  Proof. intros (I & ? & ?) N. unfold attr_post, mu. rewrite N. ivs; clia. Qed.

  (* [sx] is a state of the Scan call entered in [s] in which the token that
     starts at [start] has at least one byte.  Every token but EOF and the
     inserted commas is returned from such a state; the measure has then
     decreased whatever insertEOL is set to. *)
  Definition past (s : st) (start : Z) (sx : st) : Prop := later s sx /\ off s <= start < off sx.

  Lemma past_later {s start s1 sx} : past s start s1 -> later s1 sx -> past s start sx.
  Proof. unfold past, later. intuition clia. Qed.

  Lemma past_adv {s start s1 sx} : past s start s1 -> adv s1 sx -> past s start sx.
  Proof. intros P A. exact (past_later P (adv_later A)). Qed.

  Lemma past_mu {s start sx} : past s start sx -> mu sx < mu s.
  Proof. unfold past, later, mu. destruct (ins s), (ins sx); clia. Qed.

  Lemma past_scan_post s start sx t e :
    past s start sx -> (t = INTERPOLATION -> qs sx <> []) -> (e = true -> t = COMMA) ->
    scan_post s (mkRes t start e, sx).
  Proof.
    intros P Hq He. pose proof (past_mu P). destruct P as ((I & ? & ?) & ?).
    unfold scan_post; prj. ivs; try clia; auto.
  Qed.

  Lemma scan_post_past s start s2 p : past s start s2 -> scan_post s2 p -> scan_post s p.
  Proof.
    intros P (I3 & P1 & P2 & P3 & P4 & P5 & P6 & P7 & P8).
    pose proof (past_mu P). destruct P as ((_ & ? & ?) & ?).
    unfold scan_post. ivs; try clia; auto.
  Qed.

  Lemma wp_finish {F} s t start ie sx :
    past s start sx -> (t = INTERPOLATION -> qs sx <> []) -> wp F (scan_post s) (finish t start ie sx).
  Proof.
    intros P Hq. unfold Scan.finish.
    destruct dont_insert; apply past_scan_post; try assumption; try discriminate.
    destruct P as ((I & ?) & ?). split; [split; [apply Inv_set_ins; exact I | assumption] | assumption].
  Qed.

  (* the three tokens of width 0: EOF, and the comma inserted before EOF or a comment *)
  Lemma comma_scan_post s start sx :
    later s sx -> off s <= start <= off sx -> ins s = true -> ins sx = false ->
    scan_post s (mkRes COMMA start true, sx).
  Proof.
    intros (I & ? & ?) ? Hs Hx. unfold scan_post, mu; prj. rewrite Hs, Hx.
    split; [exact I|]. ivs; try clia; try discriminate; auto.
  Qed.

  Lemma eof_scan_post s start sx :
    later s sx -> off s <= start <= off sx -> ins sx = false -> scan_post s (mkRes EOF start false, sx).
  Proof.
    intros (I & ? & ?) ? Hx. unfold scan_post, mu; prj. rewrite Hx.
    split; [exact I|]. ivs; try clia; try discriminate; try contradiction. destruct (ins s); clia.
  Qed.

  Lemma eof_case {F} s s1 start :
    adv s s1 -> off s <= start <= off s1 ->
    wp F (scan_post s)
       (if ins s1 then Ok (mkRes COMMA start true, set_ins s1 false) else finish EOF start false s1).
  Proof.
    intros A Hs. pose proof (adv_later A) as (I & L). destruct A as (_ & _ & N & _).
    assert (Lx : forall b, later s (set_ins s1 b)) by (split; [apply Inv_set_ins; exact I | exact L]).
    destruct (ins s1) eqn:Ei.
    - apply comma_scan_post; [apply Lx | exact Hs | congruence | reflexivity].
    - unfold Scan.finish. destruct dont_insert; apply eof_scan_post; try assumption.
      + split; assumption.
      + apply Lx.
      + reflexivity.
  Qed.

  (* Scan on "//" with a comma pending: the comma is returned and the scanner is
     reset to the first '/' of the comment *)
  Lemma comma_before_comment s sd s1 : adv s sd -> adv s s1 -> 0 <= ch sd -> ins s1 = true ->
    scan_post s (mkRes COMMA (off sd) true, mkSt 47 (off sd) (off sd + 1) false (qs s1) (errs s1)).
  Proof.
    intros (Id & ? & _ & Qd & _) (I1 & _ & N1 & Q1 & ?) Hc Hi.
    pose proof (inv_cur _ Id Hc). pose proof (inv_rd _ Id). pose proof (inv_off _ Id).
    apply comma_scan_post; prj; [|clia | congruence | reflexivity].
    split; [|prj; clia].
    constructor; prj; [clia.. | exact (inv_qs _ I1) | rewrite Q1, <- Qd; exact (inv_qs_off _ Id)].
  Qed.

  (* the leaves of Scan's switch: the token starts at [start], [s1] is past it *)
  Lemma fin {F s start s1 t ie sx} :
    past s start s1 -> adv s1 sx -> t <> INTERPOLATION -> wp F (scan_post s) (finish t start ie sx).
  Proof. intros P A Ht. apply wp_finish; [exact (past_adv P A) | intros; contradiction]. Qed.

  Lemma next_fin {F s start s1 t ie} :
    past s start s1 -> t <> INTERPOLATION -> wp F (scan_post s) (s2 <- next s1 ;; finish t start ie s2).
  Proof.
    intros P Ht. eapply wp_next; [exact (adv_refl (proj1 (proj1 P)))|]. intros s2 A2 _ _.
    apply (fin P); assumption.
  Qed.

  Lemma op2_fin {F s start s1 t0 t1} :
    past s start s1 -> t0 <> INTERPOLATION -> t1 <> INTERPOLATION ->
    wp F (scan_post s) ('(t, s2) <- op2 src t0 t1 s1 ;; finish t start false s2).
  Proof.
    intros P H0 H1. pose proof (adv_refl (proj1 (proj1 P))) as R1.
    eapply wp_bind with (P := plain_post s1).
    - unfold op2. destruct (ch s1 =? 61).
      + eapply wp_next; [exact R1|]. intros s2 A2 _ _. split; assumption.
      + split; assumption.
    - intros [t s2] (A2 & Ht). apply (fin P); assumption.
  Qed.

  Lemma quoted_fin {F} s start s1 cq nq :
    past s start s1 -> 0 <= cq -> 0 <= nq -> nq + 1 <= off s1 ->
    wp F (scan_post s) ('(t, s3) <- scan_quoted src cq nq s1 ;; finish t start true s3).
  Proof.
    intros P Hc Hn Ho.
    eapply wp_bind; [apply (scan_quoted_spec cq nq s1 (proj1 (proj1 P)) Hc Hn Ho)|].
    intros [t s3] (A3 & Hq). prj.
    apply wp_finish; [exact (past_later P (advq_later A3)) | exact Hq].
  Qed.

  Section Body.
    Variable scan_rec : st -> outcome (res * st).
    Variable attr_rec : tok -> st -> outcome st.
    (* [G] is the fuel the recursive calls get.  A Scan or scanAttributeTokens
       call spends one unit of fuel per level of recursion, and it recurses only
       after a token other than EOF, which lowers [mu] by at least 1.  So fuel
       above 2*mu is enough; Scan is allowed to run out below 2*mu+2 and
       scanAttributeTokens, which calls Scan first, below 2*mu+3.  The bodies are
       proved for G+1 from these hypotheses about G. *)
    Variable G : Z.
    Hypothesis scan_rec_spec : forall s, Inv s -> wp (G < 2 * mu s + 2) (scan_post s) (scan_rec s).
    Hypothesis attr_rec_spec : forall c s, Inv s -> wp (G < 2 * mu s + 3) (attr_post s) (attr_rec c s).

    Notation default_case := (default_case src isLetterU isDigitU scan_comments dont_insert scan_rec attr_rec).
    Notation FS s := (G + 1 < 2 * mu s + 2).

    Lemma scan_rec_later s start s2 : past s start s2 -> wp (FS s) (scan_post s) (scan_rec s2).
    Proof.
      intros P. pose proof (past_mu P).
      eapply wp_weaken; [apply (scan_rec_spec s2 (proj1 (proj1 P))) | clia |].
      intros p. apply scan_post_past with (1 := P).
    Qed.

    (* the cases of the switch that return a one-character token: [H] closes them *)
    Ltac simple_toks H :=
      repeat match goal with
             | |- wp _ _ (if ?c =? ?k then Scan.finish _ _ _ _ _ else _) =>
               destruct (c =? k); [apply H; discriminate|]
             end.

    (* [sd] may be past [offset] only when entered by fallthrough, on a quote or '#';
       the "//" case rewinds the scanner to [offset], which must then be [off sd] *)
    Lemma default_case_spec s sd offset nh c :
      Inv s -> adv s sd -> off s <= offset -> offset + nh <= off sd -> 0 <= nh -> c = ch sd ->
      (c = 47 -> offset = off sd) ->
      wp (FS s) (scan_post s) (default_case offset nh c sd).
    Proof.
      intros Is Ad Ho Hn Hn0 Hc Hsl.
      pose proof (adv_Inv Ad) as Id. pose proof (inv_off _ Is) as Hs0.
      unfold Scan.default_case.
      eapply wp_next; [exact Ad|]. intros s1 A O1 L1. cbv zeta.
      destruct (c =? -1) eqn:Em1.
      { apply eof_case; [exact A | clia]. }
      pose proof (inv_ch _ Id) as Hm.
      assert (Hc0 : 0 <= c) by clia.
      assert (Lh : offset + nh < off s1) by clia.
      clear L1 Em1 Hm.
      assert (P1 : past s offset s1) by (split; [exact (adv_later A) | clia]).
      (* from here on everything is specified from [s1] *)
      pose proof (adv_Inv A) as I1. pose proof (adv_refl I1) as R1.
      destruct (c =? 95).
      { (* '_' *)
        eapply wp_bind with (P := fun _ => True).
        { destruct (ch s1 =? 124); [|exact Logic.I].
          destruct (rd s1 <? len) eqn:Er; [|exact Logic.I].
          eapply wp_bind; [apply (wp_byte_at (rd s1)) | intros; exact Logic.I].
          pose proof (inv_off_rd _ I1). pose proof (inv_off _ I1). clia. }
        intros b _. destruct b.
        { eapply wp_next; [exact R1|]. intros s2 A2 _ _.
          eapply wp_next; [exact A2|]. intros s3 A3 _ _.
          apply (fin P1); [assumption | discriminate]. }
        eapply wp_bind; [apply (scan_field_identifier_spec s1 I1)|].
        intros [lit s2] (A2 & _). prj.
        destruct (bytes_eqb lit [95%N] && (ch s2 =? 35)); [|apply (fin P1); [assumption | discriminate]].
        eapply wp_next; [exact A2|]. intros s3 A3 _ _.
        eapply wp_bind; [apply (scan_identifier_spec s3 (adv_Inv A3))|].
        intros [l4 s4] A4. prj.
        apply (fin P1); [|discriminate].
        apply adv_errf. eapply adv_trans; eassumption. }
      destruct (c =? 10).
      { (* newline: a comma is inserted, unless the next line starts with ',' or ':' *)
        pose proof (adv_refl (Inv_set_ins _ false I1)) as Ri.
        eapply wp_bind; [apply (skip_ws_spec lf _ _ Ri (lf_enough Ri))|].
        intros s2 A2.
        assert (P2 : past s offset s2) by exact (past_later P1 (adv_later A2)).
        destruct ((ch s2 =? 44) || (ch s2 =? 58)).
        - exact (scan_rec_later s offset s2 P2).
        - apply past_scan_post; [exact P2 | discriminate | reflexivity]. }
      destruct (c =? 35) eqn:E35.
      { (* '#': raw string or illegal *)
        eapply wp_bind; [apply (hash_loop_spec lf (nh + 1) s1 s1 R1 (lf_enough R1))|].
        intros [nh' s2] (A2 & Hh1 & Hh2). prj.
        destruct (negb (ch s2 =? 39) && negb (ch s2 =? 34)) eqn:Eq.
        { apply (fin P1); [assumption | discriminate]. }
        eapply wp_next; [exact A2|]. intros s3 A3 _ L3.
        apply quoted_fin; [exact (past_adv P1 A3) | clia..]. }
      destruct ((c =? 34) || (c =? 39)) eqn:Eq.
      { apply quoted_fin; [exact P1 | clia..]. }
      destruct (c =? 64).
      { (* '@': scanAttribute *)
        eapply wp_bind; [apply (scan_identifier_spec s1 I1)|].
        intros [l2 s2] A2. prj.
        assert (P2 : past s offset s2) by exact (past_adv P1 A2).
        pose proof (past_mu P2).
        eapply wp_bind; [eapply wp_fuel; [|apply (scan_rec_spec s2 (adv_Inv A2))]; clia|].
        intros [r s3] S3. pose proof (scan_post_later _ _ S3) as L3. prj.
        eapply wp_bind with (P := later s3).
        { destruct (tok_beq (r_tok r) LPAREN).
          - pose proof (past_mu (past_later P2 L3)).
            eapply wp_weaken; [apply (attr_rec_spec RPAREN s3 (proj1 L3)) | clia | apply attr_post_later].
          - exact (adv_later (adv_errf _ _ (adv_refl (proj1 L3)))). }
        intros s4 L4.
        assert (L14 : later s1 s4).
        { eapply later_trans; [exact (adv_later A2)|]. eapply later_trans; eassumption. }
        pose proof L14 as (I4 & ? & _). pose proof (inv_off_rd _ I4). pose proof (inv_rd _ I4).
        eapply wp_bind; [apply (wp_slice); clia|].
        intros _ _. apply wp_finish; [exact (past_later P1 L14) | discriminate]. }
      pose proof (fun t ie => @fin (FS s) _ _ _ t ie _ P1 R1) as SIMPLE.
      simple_toks SIMPLE.
      destruct (c =? 46).
      { destruct ((48 <=? ch s1) && (ch s1 <=? 57)).
        - eapply wp_bind; [apply (scan_number_true_spec s1 I1); clia|].
          intros [t s2] (A2 & Ht). apply (fin P1); assumption.
        - destruct (ch s1 =? 46); [|apply SIMPLE; discriminate].
          eapply wp_next; [exact R1|]. intros s2 A2 _ _.
          destruct (ch s2 =? 46); [|apply (fin P1); [apply adv_errf; assumption | discriminate]].
          eapply wp_next; [exact A2|]. intros s3 A3 _ _.
          apply (fin P1); [assumption | discriminate]. }
      simple_toks SIMPLE.
      destruct (c =? 47) eqn:E47.
      { (* '/' *)
        destruct (ch s1 =? 47); [|apply SIMPLE; discriminate].
        destruct (ins s1) eqn:Ei.
        - assert (offset = off sd) by clia. subst offset.
          apply comma_before_comment; try assumption; clia.
        - eapply wp_bind; [apply (scan_comment_spec s1 I1); clia|].
          intros s2 A2. destruct (negb scan_comments); [|apply (fin P1); [assumption | discriminate]].
          apply (scan_rec_later s offset).
          apply (past_later (past_adv P1 A2)).
          split; [apply Inv_set_ins; exact (adv_Inv A2) | prj; clia]. }
      destruct (c =? 60).
      { destruct (ch s1 =? 45); [apply (next_fin P1); discriminate | apply (op2_fin P1); discriminate]. }
      destruct (c =? 62); [apply (op2_fin P1); discriminate|].
      destruct (c =? 61).
      { destruct (ch s1 =? 126); [apply (next_fin P1); discriminate | apply (op2_fin P1); discriminate]. }
      destruct (c =? 33).
      { destruct (ch s1 =? 126); [apply (next_fin P1); discriminate | apply (op2_fin P1); discriminate]. }
      destruct (c =? 38).
      { destruct (ch s1 =? 38); [apply (next_fin P1); discriminate | apply SIMPLE; discriminate]. }
      destruct (c =? 124).
      { destruct (ch s1 =? 124); [apply (next_fin P1); discriminate | apply SIMPLE; discriminate]. }
      apply (fin P1); [apply adv_errf_if; exact R1 | discriminate].
    Qed.

    Notation scan_body := (scan_body src isLetterU isDigitU scan_comments dont_insert scan_rec attr_rec).
    Notation attr_body := (attr_body src scan_rec attr_rec).

    Lemma scan_body_spec s : Inv s -> wp (FS s) (scan_post s) (scan_body s).
    Proof.
      intros Is. unfold Scan.scan_body.
      pose proof (adv_refl Is) as R.
      eapply wp_bind; [apply (skip_ws_spec lf s s R (lf_enough R))|].
      intros s0 A0. cbv zeta. pose proof (adv_Inv A0) as I0. pose proof (adv_off A0) as O0.
      assert (P : forall s1, adv s0 s1 -> off s0 < off s1 -> past s (off s0) s1).
      { intros s1 A1 L. split; [exact (adv_later (adv_trans A0 A1)) | clia]. }
      destruct ((48 <=? ch s0) && (ch s0 <=? 57)) eqn:Ed.
      { eapply wp_bind; [apply (scan_number_false_spec s0 I0); clia|].
        intros [t s1] ((A1 & Ht) & L1). apply wp_finish; [exact (P s1 A1 L1) | intros; contradiction]. }
      destruct (is_letter isLetterU (ch s0) || (ch s0 =? 36) || (ch s0 =? 35)) eqn:El.
      { eapply wp_bind; [apply (scan_field_identifier_spec s0 I0)|].
        intros [lit s1] (A1 & L1). prj.
        assert (L : off s0 < off s1) by (apply L1; unfold is_ident_part; lia).
        pose proof (P s1 A1 L) as P1. clear P L1. pose proof (adv_refl (adv_Inv A1)) as R1.
        destruct (1 <? Z.of_nat (length lit)).
        { apply (fin P1 R1). unfold lookup.
          repeat match goal with |- context [if ?b then _ else _] => destruct b end; discriminate. }
        match goal with |- context [if ?b then _ else _] => destruct b eqn:Eb end.
        { apply (fin P1 R1). discriminate. }
        apply default_case_spec; try assumption; try reflexivity; try clia.
        eapply adv_trans; eassumption. }
      clear P. apply default_case_spec; try assumption; try reflexivity; try clia.
    Qed.

    Notation FA s := (G + 1 < 2 * mu s + 3).

    Lemma attr_post_trans s s1 s2 : attr_post s s1 -> attr_post s1 s2 -> attr_post s s2.
    Proof. unfold attr_post. intros (I1 & ? & ? & ?) (I2 & ? & ? & ?). ivs; clia. Qed.

    Lemma attr_body_spec close s : Inv s -> wp (FA s) (attr_post s) (attr_body close s).
    Proof.
      intros Is. unfold Scan.attr_body.
      eapply wp_bind; [eapply wp_fuel; [|apply (scan_rec_spec s Is)]; clia|].
      intros [r s1] (I1 & P1 & P2 & P3 & P4 & P5 & _ & P7 & _). prj.
      assert (A1 : attr_post s s1) by (unfold attr_post; ivs; clia).
      destruct (tok_beq (r_tok r) close); [exact A1|].
      (* continue the loop from a state reached after a non-EOF token *)
      assert (CONT : forall s2, r_tok r <> EOF -> attr_post s1 s2 ->
                wp (FA s) (attr_post s) (attr_rec close s2)).
      { intros s2 Hne (I2 & O2 & E2 & M2). specialize (P5 Hne).
        eapply wp_weaken; [apply (attr_rec_spec close s2 I2) | clia |].
        intros s3 A3. eapply attr_post_trans; [|exact A3]. unfold attr_post; ivs; clia. }
      pose proof (attr_post_of _ _ (adv_later (adv_refl I1)) eq_refl) as REFL.
      pose proof (attr_post_of _ _ (adv_later (adv_errf _ _ (adv_refl I1))) eq_refl) as ERR.
      assert (NEST : forall cl, r_tok r <> EOF ->
                wp (FA s) (attr_post s) (s2 <- attr_rec cl s1 ;; attr_rec close s2)).
      { intros cl Hne. pose proof (P5 Hne).
        eapply wp_bind; [eapply wp_fuel; [|apply (attr_rec_spec cl s1 I1)]; clia|].
        intros s2 A2. apply CONT; assumption. }
      destruct (r_tok r) eqn:Et;
        try (apply CONT; [discriminate | exact REFL]);
        try (apply CONT; [discriminate | exact ERR]);
        try (apply NEST; discriminate).
      - (* EOF *) prj. eapply attr_post_trans; [exact A1 | exact ERR].
      - (* INTERPOLATION *)
        assert (Ie : Inv (errf s1)) by (apply Inv_errf; exact I1).
        eapply wp_bind; [apply (pop_interp_spec (errf s1) Ie)|].
        { prj. apply P7. reflexivity. }
        intros [q s2] (_ & I2 & O2 & N2 & E2 & _). prj.
        pose proof (adv_refl I2) as R2.
        eapply wp_bind; [apply (recover_paren_spec lf 1 s2 s2 R2 (lf_enough R2))|].
        intros s3 (I3 & O3 & N3 & _ & E3). apply CONT; [discriminate|].
        apply attr_post_of; [split; [exact I3 | clear - O2 O3 E2 E3; lia] | exact (eq_trans N3 N2)].
    Qed.
  End Body.

  Notation scan := (scan src isLetterU isDigitU scan_comments dont_insert).
  Notation attr_tokens := (attr_tokens src isLetterU isDigitU scan_comments dont_insert).
  Notation scan1 := (scan1 src isLetterU isDigitU scan_comments dont_insert).
  Notation resume := (resume src).

  Lemma mu_bounds s : Inv s -> 0 <= mu s <= 2 * len + 1.
  Proof. intros []. unfold mu. destruct (ins s); clia. Qed.

  Lemma scan_attr_spec f :
    (forall s, Inv s -> wp (Z.of_nat f < 2 * mu s + 2) (scan_post s) (scan f s)) /\
    (forall c s, Inv s -> wp (Z.of_nat f < 2 * mu s + 3) (attr_post s) (attr_tokens f c s)).
  Proof.
    induction f as [|f [IS IA]].
    - split; intros; cbn [Scan.scan Scan.attr_tokens wp]; pose proof (mu_bounds s H); clia.
    - split; intros.
      + cbn [Scan.scan]. eapply wp_weaken;
          [apply (scan_body_spec (scan f) (attr_tokens f) (Z.of_nat f) IS IA s H) | clia | auto].
      + cbn [Scan.attr_tokens]. eapply wp_weaken;
          [apply (attr_body_spec (scan f) (attr_tokens f) (Z.of_nat f) IS IA c s H) | clia | auto].
  Qed.

  (* One Scan call from any state satisfying the invariant: no panic, the fuel
     [scan_fuel] is enough, and the postcondition holds.  Scan needs 2*mu+2,
     and mu <= 2*len+1, hence 4*len+4; [scan_fuel] = 4*len+8 leaves a margin. *)
  Theorem scan1_spec s : Inv s -> wp False (scan_post s) (scan1 s).
  Proof.
    intros I. unfold Scan.scan1.
    eapply wp_weaken; [apply (proj1 (scan_attr_spec _) s I) | | auto].
    pose proof (mu_bounds s I). unfold scan_fuel, Scan.len in *. clia.
  Qed.

  Theorem scan_fuel_enough f s : Inv s -> (2 * mu s + 2 <= Z.of_nat f) -> scan f s <> Fuel.
  Proof.
    intros I Hf H. pose proof (proj1 (scan_attr_spec f) s I) as W. rewrite H in W. cbn [wp] in W. clia.
  Qed.

  (* A Scan call that does not return EOF strictly decreases
     2*(len - offset) + insertEOL: it consumes at least one byte, or it emits the
     pending inserted comma; a token that is not an inserted comma is not empty. *)
  Theorem scan_progress s r s' : Inv s -> scan1 s = Ok (r, s') -> r_tok r <> EOF ->
    mu s' < mu s /\ (r_elided r = false -> r_start r < off s').
  Proof.
    intros I H Hne. pose proof (scan1_spec s I) as W. rewrite H in W.
    destruct W as (_ & _ & _ & _ & _ & P5 & P6 & _). prj. auto.
  Qed.

  Notation tokens_from := (tokens_from src isLetterU isDigitU scan_comments dont_insert).
  Notation tokenize := (tokenize src isLetterU isDigitU scan_comments dont_insert).

  (* token starts are non-decreasing and lie in [lo, len] *)
  Fixpoint starts_from (lo : Z) (l : list res) : Prop :=
    match l with
    | [] => True
    | r :: l' => lo <= r_start r <= len /\ starts_from (r_start r) l'
    end.

  (* every token that is not an inserted comma starts strictly before its successor *)
  Fixpoint strict_starts (l : list res) : Prop :=
    match l with
    | r :: ((r2 :: _) as l') => (r_elided r = false -> r_start r < r_start r2) /\ strict_starts l'
    | _ => True
    end.

  (* the sequence ends with its only EOF *)
  Fixpoint eof_last (l : list res) : Prop :=
    match l with
    | [] => False
    | [r] => r_tok r = EOF
    | r :: l' => r_tok r <> EOF /\ eof_last l'
    end.

  Lemma starts_from_weaken lo lo' l : lo' <= lo -> starts_from lo l -> starts_from lo' l.
  Proof. destruct l as [|r l]; simpl; [trivial|]. intros H [[? ?] Hs]. split; [clia | exact Hs]. Qed.

  Definition toks_post (s : st) (l : list res) : Prop :=
    starts_from (off s) l /\ strict_starts l /\ eof_last l /\
    Z.of_nat (length l) <= mu s + 1 /\
    (forall r, In r l -> r_elided r = true -> r_tok r = COMMA).

  Lemma tok_beq_EOF t : reflect (t = EOF) (tok_beq t EOF).
  Proof. destruct t; constructor; (reflexivity || discriminate). Qed.

  Lemma tokens_from_spec n s : Inv s ->
    wp (Z.of_nat n <= mu s) (toks_post s) (tokens_from n s).
  Proof.
    revert s. induction n as [|n IH]; intros s I.
    { simpl. pose proof (mu_bounds s I). clia. }
    cbn [Scan.tokens_from].
    eapply wp_bind; [eapply wp_fuel; [|apply (scan1_spec s I)]; intros []|].
    intros [r s1] (I1 & P1 & P2 & _ & P4 & P5 & P6 & _ & P8). prj.
    pose proof (inv_rd _ I1). pose proof (inv_off_rd _ I1). pose proof (mu_bounds s1 I1).
    destruct (tok_beq_EOF (r_tok r)) as [Et|Hne].
    { unfold toks_post. simpl.
      repeat split; try clia; try assumption. intros r0 [<-|[]]. exact P8. }
    specialize (P5 Hne). specialize (P6 Hne).
    eapply wp_bind; [eapply wp_fuel; [|apply (IH s1 I1)]; clia|]. clear IH.
    intros rest (R1 & R2 & R3 & R4 & R5). unfold toks_post. cbn [wp].
    split; [|split; [|split; [|split]]].
    - simpl. split; [clia|]. eapply starts_from_weaken; [|exact R1]. clia.
    - destruct rest as [|r2 rest']; [exact Logic.I|]. split; [|exact R2].
      intros He. specialize (P6 He). simpl in R1. clia.
    - destruct rest as [|r2 rest']; [destruct R3|]. split; [exact Hne | exact R3].
    - simpl length. clia.
    - intros r0 [<-|Hin]; [exact P8 | apply R5; exact Hin].
  Qed.

  Notation run_ops := (run_ops src isLetterU isDigitU scan_comments dont_insert).
  Notation run := (run src isLetterU isDigitU scan_comments dont_insert).

  Definition run_fine (r : run_result) : Prop :=
    match r with RunOk _ | RunMisuse _ => True | RunPanic _ | RunFuel _ => False end.

  Lemma run_ops_total ops : forall s acc, Inv s -> run_fine (run_ops ops s acc).
  Proof.
    induction ops as [|o ops IH]; intros s acc I; cbn [Scan.run_ops]; [exact Logic.I|].
    destruct o.
    - destruct (wp_False_ok _ _ (scan1_spec s I)) as ([t s1] & -> & I1 & _). apply IH. exact I1.
    - destruct (qs s) as [|q r] eqn:Eq; [exact Logic.I|].
      assert (Hq : qs s <> []) by congruence.
      destruct (wp_False_ok _ _ (resume_spec s I Hq)) as (s1 & -> & I1 & _). apply IH. exact I1.
  Qed.
End Proofs.
