(* Theorems about the model of toposort (Topo.v).  For all graphs, cyclic ones
   included, the result depends on the SET of nodes and the SET of edges only:
   every step of the algorithm (reachability, components, the ready set, the
   minimum) is shown to be the same for enumerations with the same members.
   For acyclic graphs, given by a ranking of the nodes, every component is a
   single node and Kahn's loop is followed step by step: it is never stuck
   and emits the lexicographically least topological order. *)
From Coq Require Import List NArith Bool Arith Lia Sorting.Sorted Sorting.Permutation RelationClasses.
From Verif Require Import Base.Order Robust.Sanitize Robust.SanitizeProofs Robust.Topo.
Import ListNotations.

Lemma filter_Permutation {A} (p : A -> bool) l l' :
  Permutation l l' -> Permutation (filter p l) (filter p l').
Proof.
  induction 1 as [| x l l' Hp IH | x y l | l l' l'' H1 IH1 H2 IH2]; simpl.
  - constructor.
  - destruct (p x); auto.
  - destruct (p x), (p y); auto. apply perm_swap.
  - eapply perm_trans; eauto.
Qed.

Lemma existsb_same_members {A} (f : A -> bool) l l' :
  (forall x, In x l <-> In x l') -> existsb f l = existsb f l'.
Proof.
  intros H. apply eq_true_iff_eq. rewrite !existsb_exists.
  split; intros [x [Hx Fx]]; exists x; (split; [apply H; exact Hx | exact Fx]).
Qed.

Section TopoProofs.
  Context {L : Type} (cmp : L -> L -> comparison) (Hc : total_cmp cmp).

  Notation leqb := (leqb cmp).
  Notation mem := (mem cmp).

  Lemma leqb_eq a b : leqb a b = true <-> a = b.
  Proof.
    unfold Topo.leqb. rewrite <- (tc_eq cmp Hc). destruct (cmp a b); split; congruence.
  Qed.

  Lemma leqb_refl a : leqb a a = true.
  Proof. apply leqb_eq. reflexivity. Qed.

  Lemma mem_in a l : mem a l = true <-> In a l.
  Proof.
    unfold Topo.mem. rewrite existsb_exists. split.
    - intros [x [Hx E]]. apply leqb_eq in E. subst. exact Hx.
    - intros H. exists a. split; [exact H | apply leqb_refl].
  Qed.

  Lemma mem_same a l l' : (forall x, In x l <-> In x l') -> mem a l = mem a l'.
  Proof. apply existsb_same_members. Qed.

  Lemma mem_false a l : mem a l = false <-> ~ In a l.
  Proof. rewrite <- mem_in. destruct (mem a l); split; congruence. Qed.

  Lemma get_map (f : L -> list L) l a :
    get cmp (map (fun a => (a, f a)) l) a = if mem a l then f a else [].
  Proof.
    induction l as [|k l IH]; simpl; [reflexivity|].
    destruct (leqb a k) eqn:E; simpl.
    - apply leqb_eq in E. subst. reflexivity.
    - exact IH.
  Qed.

  Lemma succs_in edges r y :
    In y (succs cmp edges r) <-> exists x, In x r /\ In (x, y) edges.
  Proof.
    unfold succs. rewrite in_map_iff. split.
    - intros [[x y'] [E H]]. simpl in E. subst y'. apply filter_In in H. destruct H as [H1 H2].
      simpl in H2. apply mem_in in H2. exists x. auto.
    - intros [x [H1 H2]]. exists (x, y). split; [reflexivity|]. apply filter_In. split; [exact H2|].
      simpl. apply mem_in. exact H1.
  Qed.

  Lemma add_new_in ys r x : In x (add_new cmp ys r) <-> In x ys \/ In x r.
  Proof.
    unfold add_new. induction ys as [|y ys IH]; simpl; [tauto|].
    destruct (mem y _) eqn:E.
    - rewrite IH. split; [tauto|]. intros [[<- | H] | H]; auto. apply IH. apply mem_in. exact E.
    - simpl. rewrite IH. tauto.
  Qed.

  Lemma expand_in edges r x :
    In x (expand cmp edges r) <-> In x r \/ exists z, In z r /\ In (z, x) edges.
  Proof. unfold expand. rewrite add_new_in, succs_in. tauto. Qed.

  Lemma reach_set_same edges edges' k : forall r r',
    (forall e, In e edges <-> In e edges') -> (forall x, In x r <-> In x r') ->
    forall x, In x (reach_set cmp edges k r) <-> In x (reach_set cmp edges' k r').
  Proof.
    induction k as [|k IH]; intros r r' He Hr x; simpl; [apply Hr|].
    apply IH; [exact He|]. intros y. rewrite !expand_in.
    split; (intros [H | [z [H1 H2]]]; [left; apply Hr; exact H | right; exists z; split; [apply Hr | apply He]; assumption]).
  Qed.

  Lemma reach_set_mono edges k : forall r x, In x r -> In x (reach_set cmp edges k r).
  Proof.
    induction k as [|k IH]; intros r x H; simpl; [exact H|]. apply IH. apply expand_in. auto.
  Qed.

  Definition scc_of nodes edges : L -> list L := get cmp (scc_tab cmp nodes edges).

  Lemma scc_of_eq nodes edges a :
    scc_of nodes edges a =
    if mem a nodes then scc_with cmp nodes (reach_tab cmp nodes edges) a else [].
  Proof. unfold scc_of, scc_tab. apply get_map. Qed.

  Lemma reach_tab_get nodes edges a :
    get cmp (reach_tab cmp nodes edges) a =
    if mem a nodes then reach_set cmp edges (length nodes) [a] else [].
  Proof. unfold reach_tab. apply get_map. Qed.

  Lemma scc_of_perm nodes nodes' edges edges' :
    Permutation nodes nodes' -> (forall e, In e edges <-> In e edges') ->
    forall a, scc_of nodes edges a = scc_of nodes' edges' a.
  Proof.
    intros Hp He a. rewrite !scc_of_eq.
    assert (Hn : forall x, In x nodes <-> In x nodes').
    { apply perm_in_iff. exact Hp. }
    rewrite (mem_same a nodes nodes' Hn). destruct (mem a nodes'); [|reflexivity].
    unfold scc_with.
    assert (Hrt : forall b x, In x (get cmp (reach_tab cmp nodes edges) b) <->
                              In x (get cmp (reach_tab cmp nodes' edges') b)).
    { intros b x. rewrite !reach_tab_get. rewrite (mem_same b nodes nodes' Hn).
      destruct (mem b nodes'); [|tauto]. rewrite (Permutation_length Hp).
      apply reach_set_same; [exact He | tauto]. }
    rewrite (filter_ext _ (fun b => mem b (get cmp (reach_tab cmp nodes' edges') a)
                                    && mem a (get cmp (reach_tab cmp nodes' edges') b))).
    - apply isort_perm_eq; [exact Hc|]. apply filter_Permutation. exact Hp.
    - intros b. f_equal; apply mem_same; intros x; apply Hrt.
  Qed.

  Lemma comp_cmp_total : total_cmp (comp_cmp cmp).
  Proof. apply list_cmp_total. exact Hc. Qed.

  Lemma comp_cmp_pre : total_pre (comp_cmp cmp).
  Proof. exact (total_pre_of_map _ (fun x => x) comp_cmp_total). Qed.

  Lemma pick_min_none cs : pick_min cmp cs = None <-> cs = [].
  Proof.
    destruct cs as [|c cs]; simpl; [tauto|]. split; [|discriminate].
    destruct (pick_min cmp cs); [destruct (comp_cmp cmp c l)|]; discriminate.
  Qed.

  Lemma pick_min_spec cs m :
    pick_min cmp cs = Some m -> In m cs /\ forall c, In c cs -> comp_cmp cmp m c <> Gt.
  Proof.
    pose proof comp_cmp_pre as Hpre.
    assert (R : forall x, comp_cmp cmp x x <> Gt) by (intros x; rewrite (tp_refl _ Hpre); discriminate).
    revert m. induction cs as [|c cs IH]; intros m; simpl; [discriminate|].
    destruct (pick_min cmp cs) as [m'|] eqn:E.
    - destruct (IH m' eq_refl) as [Hin Hmin].
      destruct (comp_cmp cmp c m') eqn:Ec; intros [= <-]; (split; [auto|]); intros x [<- | Hx];
        try apply R; try (apply Hmin; exact Hx).
      + apply (tc_eq _ comp_cmp_total) in Ec. subst m'. apply Hmin. exact Hx.
      + (* c < m' and m' is least in cs *)
        apply (le_of_gt _ Hpre). apply (le_of_trans _ Hpre) with m'; [apply (lt_le_of _ Hpre); exact Ec|].
        apply (le_of_gt _ Hpre), Hmin. exact Hx.
      + apply (pre_gt_lt _ Hpre) in Ec. rewrite Ec. discriminate.
    - apply pick_min_none in E. subst cs. intros [= <-]. split; [auto|]. intros x [<- | []]. apply R.
  Qed.

  Lemma pick_min_same cs cs' :
    (forall c, In c cs <-> In c cs') -> pick_min cmp cs = pick_min cmp cs'.
  Proof.
    pose proof comp_cmp_pre as Hpre.
    intros H. destruct (pick_min cmp cs) as [m|] eqn:E, (pick_min cmp cs') as [m'|] eqn:E'.
    - apply pick_min_spec in E, E'. destruct E as [Hi Hm], E' as [Hi' Hm'].
      f_equal. specialize (Hm m' (proj2 (H _) Hi')). specialize (Hm' m (proj1 (H _) Hi)).
      destruct (comp_cmp cmp m m') eqn:G; [apply (tc_eq _ comp_cmp_total); exact G | | congruence].
      exfalso. apply Hm'. apply (pre_gt_lt _ Hpre). exact G.
    - apply pick_min_none in E'. subst cs'. apply pick_min_spec in E. exfalso. apply (H m), E.
    - apply pick_min_none in E. subst cs. apply pick_min_spec in E'. exfalso. apply (H m'), E'.
    - reflexivity.
  Qed.

  Lemma has_ext_pred_same edges edges' rem rem' c :
    (forall e, In e edges <-> In e edges') -> (forall x, In x rem <-> In x rem') ->
    has_ext_pred cmp edges rem c = has_ext_pred cmp edges' rem' c.
  Proof.
    intros He Hr. unfold has_ext_pred.
    rewrite (existsb_same_members _ edges edges' He).
    clear He. induction edges' as [|e es IH]; simpl; [reflexivity|].
    rewrite IH. rewrite (mem_same (fst e) rem rem' Hr). reflexivity.
  Qed.

  Lemma kahn_perm edges edges' (f f' : L -> list L) :
    (forall e, In e edges <-> In e edges') -> (forall a, f a = f' a) ->
    forall fuel rem rem' acc, Permutation rem rem' ->
      kahn cmp edges f fuel rem acc = kahn cmp edges' f' fuel rem' acc.
  Proof.
    intros He Hf. induction fuel as [|fuel IH]; intros rem rem' acc Hp;
      (destruct rem as [|a rem], rem' as [|a' rem'];
       [reflexivity | destruct (Permutation_nil_cons Hp)
        | destruct (Permutation_nil_cons (Permutation_sym Hp)) |]); [reflexivity|].
    assert (Hr : forall x, In x (a :: rem) <-> In x (a' :: rem')) by (apply perm_in_iff; exact Hp).
    assert (Hready : forall c, In c (ready cmp edges f (a :: rem)) <-> In c (ready cmp edges' f' (a' :: rem'))).
    { intros c. unfold ready. rewrite !filter_In, !in_map_iff.
      rewrite (has_ext_pred_same edges edges' _ _ c He Hr).
      split; intros [[x [E Hx]] Hb]; (split; [exists x; split; [rewrite <- E; auto | apply Hr; exact Hx] | exact Hb]). }
    cbn [kahn]. rewrite (pick_min_same _ _ Hready).
    destruct (pick_min cmp (ready cmp edges' f' (a' :: rem'))) as [c|]; [|reflexivity].
    apply IH. apply filter_Permutation. exact Hp.
  Qed.

  (* Graph.Sort does not depend on the order in which the Go map hands out the
     nodes, nor on the order (or repetition) of the AddEdge calls. *)
  Theorem topo_sort_perm_invariant nodes nodes' edges edges' :
    Permutation nodes nodes' -> (forall e, In e edges <-> In e edges') ->
    topo_sort cmp nodes edges = topo_sort cmp nodes' edges'.
  Proof.
    intros Hp He. unfold topo_sort. cbv zeta. rewrite (Permutation_length Hp).
    apply kahn_perm; [exact He | | exact Hp].
    intros a. apply (scc_of_perm nodes nodes' edges edges' Hp He a).
  Qed.

  (* acyclic: the nodes can be ranked so that every edge goes upwards *)
  Definition ranked (edges : list (L * L)) : Prop :=
    exists rank : L -> nat, forall a b, In (a, b) edges -> rank a < rank b.
  Definition closed (nodes : list L) (edges : list (L * L)) : Prop :=
    forall a b, In (a, b) edges -> In a nodes /\ In b nodes.

  (* t is a topological order: no edge leads from a later to an earlier element *)
  Fixpoint topo_ok (edges : list (L * L)) (t : list L) : Prop :=
    match t with
    | [] => True
    | m :: t' => (forall a, In a t' -> ~ In (a, m) edges) /\ topo_ok edges t'
    end.

  (* position of the first occurrence *)
  Fixpoint idx (t : list L) (x : L) : nat :=
    match t with
    | [] => 0
    | y :: t' => if leqb x y then 0 else S (idx t' x)
    end.

  Lemma idx_head x t : idx (x :: t) x = 0.
  Proof. simpl. rewrite leqb_refl. reflexivity. Qed.

  Lemma idx_tail x t a : ~ In x t -> In a t -> idx (x :: t) a = S (idx t a).
  Proof.
    intros Hx Ha. simpl. destruct (leqb a x) eqn:E; [|reflexivity].
    apply leqb_eq in E. subst. contradiction.
  Qed.

  Lemma filter_single (p : L -> bool) l a :
    NoDup l -> In a l -> (forall b, In b l -> (p b = true <-> b = a)) -> filter p l = [a].
  Proof.
    intros Hnd Hin Hp. apply Permutation_length_1_inv.
    apply NoDup_Permutation; [repeat constructor; intros [] | apply NoDup_filter; exact Hnd|].
    intros x. rewrite filter_In. simpl. split.
    - intros [<- | []]. split; [exact Hin | apply Hp; [exact Hin | reflexivity]].
    - intros [Hx Px]. left. symmetry. apply (Hp x Hx). exact Px.
  Qed.

  Lemma remove_in (m : L) R x : In x (filter (fun x => negb (mem x [m])) R) <-> In x R /\ x <> m.
  Proof. rewrite filter_In, negb_true_iff, mem_false. simpl. intuition congruence. Qed.

  Lemma remove_perm (m : L) R :
    NoDup R -> In m R -> Permutation R (m :: filter (fun x => negb (mem x [m])) R).
  Proof.
    intros Hnd Hin.
    apply NoDup_Permutation; [exact Hnd | constructor; [|apply NoDup_filter; exact Hnd]|].
    - rewrite remove_in. intros [_ H]. exact (H eq_refl).
    - intros x. cbn [In]. rewrite remove_in. destruct (leqb x m) eqn:E.
      + apply leqb_eq in E. subst x. split; auto.
      + assert (x <> m) by (intros ->; rewrite leqb_refl in E; discriminate).
        split; [auto | intros [<- | [Hx _]]; [contradiction|exact Hx]].
  Qed.

  Lemma idx_lt_split t a b :
    idx t a < idx t b -> In b t -> exists l1 l2, t = l1 ++ a :: l2 /\ In b l2.
  Proof.
    induction t as [|y t IH]; simpl; [lia|].
    destruct (leqb a y) eqn:Ea.
    - apply leqb_eq in Ea. subst y. destruct (leqb b a) eqn:Eb; [lia|].
      intros _ [E | Hb]; [subst; rewrite leqb_refl in Eb; discriminate|].
      exists [], t. auto.
    - destruct (leqb b y) eqn:Eb; [lia|]. intros Hlt [E | Hb]; [subst; rewrite leqb_refl in Eb; discriminate|].
      destruct (IH (proj2 (Nat.succ_lt_mono _ _) Hlt) Hb) as [l1 [l2 [-> H2]]].
      exists (y :: l1), l2. auto.
  Qed.

  Lemma topo_ok_idx edges t a b :
    NoDup t -> topo_ok edges t -> In (a, b) edges -> In a t -> In b t -> a <> b -> idx t a < idx t b.
  Proof.
    induction t as [|m t IH]; intros Hnd Hok He Ha Hb Hab; [destruct Ha|].
    inversion Hnd as [|? ? Hm Hnd']; subst. destruct Hok as [Hpred Hok].
    destruct Ha as [<- | Ha], Hb as [<- | Hb].
    - contradiction.
    - rewrite idx_head, idx_tail by assumption. lia.
    - destruct (Hpred a Ha He).
    - rewrite !idx_tail by assumption. apply -> Nat.succ_lt_mono. apply IH; assumption.
  Qed.

  Lemma idx_topo_ok edges t :
    NoDup t -> (forall a b, In (a, b) edges -> In a t -> In b t -> idx t a < idx t b) -> topo_ok edges t.
  Proof.
    induction t as [|m t IH]; intros Hnd H; simpl; [exact I|].
    inversion Hnd as [|? ? Hm Hnd']; subst. split.
    - intros a Ha He. specialize (H a m He (or_intror Ha) (or_introl eq_refl)).
      rewrite idx_head in H. lia.
    - apply IH; [exact Hnd'|]. intros a b He Ha Hb.
      specialize (H a b He (or_intror Ha) (or_intror Hb)). rewrite !idx_tail in H by assumption. lia.
  Qed.

  Section Dag.
    Variables (nodes : list L) (edges : list (L * L)) (rank : L -> nat).
    Hypothesis Hrank : forall a b, In (a, b) edges -> rank a < rank b.
    Hypothesis Hnd : NoDup nodes.

    Lemma reach_set_rank k : forall r x,
      In x (reach_set cmp edges k r) -> exists z, In z r /\ (x = z \/ rank z < rank x).
    Proof.
      induction k as [|k IH]; intros r x H; simpl in H; [exists x; auto|].
      apply IH in H. destruct H as [z [Hz Hx]]. apply expand_in in Hz.
      destruct Hz as [Hz | [w [Hw Hwz]]]; [exists z; auto|].
      exists w. split; [exact Hw|]. right. apply Hrank in Hwz. destruct Hx; subst; lia.
    Qed.

    (* in an acyclic graph every component is a single node *)
    Lemma scc_of_dag a : In a nodes -> scc_of nodes edges a = [a].
    Proof.
      intros Ha. rewrite scc_of_eq. rewrite (proj2 (mem_in a nodes) Ha). unfold scc_with.
      rewrite (filter_single _ nodes a Hnd Ha); [reflexivity|].
      intros b Hb. rewrite !reach_tab_get, (proj2 (mem_in a nodes) Ha), (proj2 (mem_in b nodes) Hb).
      rewrite andb_true_iff, !mem_in. split.
      - intros [H1 H2]. apply reach_set_rank in H1, H2.
        destruct H1 as [z [[<- | []] H1]], H2 as [z [[<- | []] H2]].
        destruct H1 as [-> | H1]; [reflexivity|]. destruct H2 as [-> | H2]; [reflexivity | lia].
      - intros ->. split; apply reach_set_mono; left; reflexivity.
    Qed.

    Lemma min_rank (R : list L) : R <> [] -> exists m, In m R /\ forall x, In x R -> rank m <= rank x.
    Proof.
      induction R as [|a R IH]; [congruence|]. intros _. destruct R as [|b R].
      - exists a. split; [left; reflexivity|]. intros x [<- | []]. lia.
      - destruct IH as [m [Hm Hmin]]; [discriminate|].
        destruct (le_lt_dec (rank a) (rank m)).
        + exists a. split; [left; reflexivity|]. intros x [<- | Hx]; [lia|]. specialize (Hmin x Hx). lia.
        + exists m. split; [right; exact Hm|]. intros x [<- | Hx]; [lia | apply Hmin; exact Hx].
    Qed.

    Lemma has_ext_pred_false R m :
      has_ext_pred cmp edges R [m] = false <-> forall a, In a R -> a <> m -> ~ In (a, m) edges.
    Proof.
      unfold has_ext_pred. rewrite <- not_true_iff_false, existsb_exists. split.
      - intros H a Ha Hne He. apply H. exists (a, m). split; [exact He|]. simpl.
        rewrite leqb_refl, (proj2 (mem_in a R) Ha). simpl.
        destruct (leqb a m) eqn:E; [apply leqb_eq in E; contradiction | reflexivity].
      - intros H [[a b] [He E]]. cbn [fst snd] in E.
        rewrite !andb_true_iff, negb_true_iff, mem_false, !mem_in in E.
        destruct E as [[[<- | []] E2] E3].
        apply (H a E3); [intros ->; apply E2; left; reflexivity | exact He].
    Qed.

    (* a remaining node that no other remaining node has an edge to is a ready component *)
    Lemma ready_single R h : (forall a, In a R -> In a nodes) -> In h R ->
      (forall a, In a R -> a <> h -> ~ In (a, h) edges) ->
      In [h] (ready cmp edges (scc_of nodes edges) R).
    Proof.
      intros Hsub Hh Hno. unfold ready. apply filter_In. split.
      - apply in_map_iff. exists h. split; [apply scc_of_dag; apply Hsub; exact Hh | exact Hh].
      - apply negb_true_iff. apply has_ext_pred_false. exact Hno.
    Qed.

    (* what Kahn's loop returns from the remaining nodes [R]: all of them, in
       the lexicographically least topological order *)
    Definition kahn_ok (R t : list L) : Prop :=
      Permutation R t /\ topo_ok edges t
      /\ (forall t', Permutation R t' -> topo_ok edges t' -> list_cmp cmp t t' <> Gt).

    Lemma kahn_nil fuel acc :
      exists t, kahn cmp edges (scc_of nodes edges) fuel [] acc = Some (acc ++ t) /\ kahn_ok [] t.
    Proof.
      exists []. rewrite app_nil_r. destruct fuel; (split; [reflexivity|]); repeat split; auto;
        intros t' Hp _; apply Permutation_nil in Hp; subst; discriminate.
    Qed.

    (* Kahn's loop on an acyclic graph is never stuck *)
    Lemma kahn_dag : forall fuel R acc,
      NoDup R -> (forall a, In a R -> In a nodes) -> length R <= fuel ->
      exists t, kahn cmp edges (scc_of nodes edges) fuel R acc = Some (acc ++ t) /\ kahn_ok R t.
    Proof.
      induction fuel as [|fuel IH]; intros R acc HndR Hsub Hlen.
      { destruct R; [apply kahn_nil | simpl in Hlen; lia]. }
      destruct R as [|a0 R0] eqn:ER; [apply kahn_nil|].
      rewrite <- ER in *. assert (Hne : R <> []) by (rewrite ER; discriminate).
      (* a node of least rank is ready *)
      destruct (min_rank R Hne) as [m0 [Hm0 Hmin0]].
      assert (Hready0 : In [m0] (ready cmp edges (scc_of nodes edges) R)).
      { apply ready_single; [exact Hsub | exact Hm0|]. intros a Ha _ He.
        apply Hrank in He. specialize (Hmin0 a Ha). lia. }
      destruct (pick_min cmp (ready cmp edges (scc_of nodes edges) R)) as [c|] eqn:Epick;
        [|apply pick_min_none in Epick; rewrite Epick in Hready0; destruct Hready0].
      destruct (pick_min_spec _ _ Epick) as [Hc_in Hc_min].
      unfold ready in Hc_in. apply filter_In in Hc_in. destruct Hc_in as [Hc_map Hc_ready].
      apply in_map_iff in Hc_map. destruct Hc_map as [m [Em Hm]].
      rewrite (scc_of_dag m (Hsub m Hm)) in Em. subst c.
      apply negb_true_iff in Hc_ready.
      pose proof (proj1 (has_ext_pred_false R m) Hc_ready) as Hnopred.
      set (R' := filter (fun x => negb (mem x [m])) R).
      assert (HpR : Permutation R (m :: R')) by (apply remove_perm; assumption).
      assert (HndR' : NoDup R') by (apply NoDup_filter; exact HndR).
      assert (HsubR' : forall a, In a R' -> In a nodes).
      { intros a Ha. apply Hsub. apply remove_in in Ha. tauto. }
      assert (HlenR' : length R' <= fuel).
      { apply Permutation_length in HpR. simpl in HpR. lia. }
      destruct (IH R' (acc ++ [m]) HndR' HsubR' HlenR') as [t1 [Hk [Hp1 [Hok1 Hmin1]]]].
      exists (m :: t1).
      split; [| split; [| split]].
      + rewrite ER. cbn [kahn]. rewrite <- ER. rewrite Epick. fold R'. rewrite Hk.
        rewrite <- app_assoc. reflexivity.
      + eapply perm_trans; [exact HpR | apply perm_skip; exact Hp1].
      + simpl. split; [|exact Hok1]. intros a Ha.
        apply (Permutation_in _ (Permutation_sym Hp1)), remove_in in Ha. destruct Ha.
        apply Hnopred; assumption.
      + (* the head of any other topological order is ready too, hence not below [m] *)
        intros t' Hp' Hok'.
        destruct t' as [|h t1']; [exfalso; apply Hne; apply Permutation_nil; symmetry; exact Hp'|].
        destruct Hok' as [Hokh Hok'].
        assert (Hh : In h R) by (eapply Permutation_in; [symmetry; exact Hp' | left; reflexivity]).
        assert (Hreadyh : In [h] (ready cmp edges (scc_of nodes edges) R)).
        { apply ready_single; [exact Hsub | exact Hh|]. intros a Ha Hah. apply Hokh.
          apply (Permutation_in _ Hp') in Ha. destruct Ha as [E | Ha]; [congruence | exact Ha]. }
        specialize (Hc_min [h] Hreadyh). unfold comp_cmp in Hc_min. simpl in Hc_min. simpl.
        destruct (cmp m h) eqn:Emh; [| discriminate | exact Hc_min].
        apply (tc_eq cmp Hc) in Emh. subst h. apply Hmin1; [|exact Hok'].
        apply Permutation_cons_inv with m. eapply perm_trans; [symmetry; exact HpR | exact Hp'].
    Qed.
  End Dag.

  Lemma topo_sort_dag nodes edges :
    ranked edges -> NoDup nodes ->
    exists t, topo_sort cmp nodes edges = Some t /\ Permutation nodes t /\ topo_ok edges t
              /\ (forall t', Permutation nodes t' -> topo_ok edges t' -> list_cmp cmp t t' <> Gt).
  Proof.
    intros [rank Hrank] Hnd.
    destruct (kahn_dag nodes edges rank Hrank Hnd (length nodes) nodes [] Hnd (fun a H => H) (le_n _))
      as [t [Hk H]].
    exists t. split; [exact Hk | exact H].
  Qed.

  (* on an acyclic graph the loop never runs out of fuel or ready components *)
  Theorem topo_sort_no_fuel_exhaustion nodes edges :
    ranked edges -> NoDup nodes -> topo_sort cmp nodes edges <> None.
  Proof. intros Hr Hnd. destruct (topo_sort_dag nodes edges Hr Hnd) as [t [E _]]. congruence. Qed.

  (* every label exactly once *)
  Theorem topo_sort_complete nodes edges t :
    ranked edges -> NoDup nodes -> topo_sort cmp nodes edges = Some t ->
    Permutation nodes t /\ NoDup t.
  Proof.
    intros Hr Hnd E. destruct (topo_sort_dag nodes edges Hr Hnd) as [t0 [E0 [Hp _]]].
    assert (t0 = t) by congruence. subst. split; [exact Hp | eapply Permutation_NoDup; eauto].
  Qed.

  (* for every edge (a, b), a is printed before b *)
  Theorem topo_sort_respects_edges nodes edges t :
    ranked edges -> NoDup nodes -> closed nodes edges -> topo_sort cmp nodes edges = Some t ->
    forall a b, In (a, b) edges ->
      idx t a < idx t b /\ exists l1 l2, t = l1 ++ a :: l2 /\ In b l2.
  Proof.
    intros Hr Hnd Hcl E a b He. destruct (topo_sort_dag nodes edges Hr Hnd) as [t0 [E0 [Hp [Hok _]]]].
    assert (t0 = t) by congruence. subst t0.
    destruct (Hcl a b He) as [Ha Hb].
    assert (Hab : a <> b). { destruct Hr as [rank Hrank]. intros ->. apply Hrank in He. lia. }
    assert (Hlt : idx t a < idx t b).
    { apply (topo_ok_idx edges); auto; [eapply Permutation_NoDup; eauto | eapply Permutation_in; eauto..]. }
    split; [exact Hlt|]. apply idx_lt_split; [exact Hlt | eapply Permutation_in; eauto].
  Qed.

  (* among all topological orders of the graph the result is the
     lexicographically least one (by label name) *)
  Theorem topo_sort_lex_min nodes edges t :
    ranked edges -> NoDup nodes -> topo_sort cmp nodes edges = Some t ->
    forall t', Permutation nodes t' -> topo_ok edges t' -> list_cmp cmp t t' <> Gt.
  Proof.
    intros Hr Hnd E. destruct (topo_sort_dag nodes edges Hr Hnd) as [t0 [E0 [_ [_ Hmin]]]].
    assert (t0 = t) by congruence. subst. exact Hmin.
  Qed.

  Inductive subseq : list L -> list L -> Prop :=
  | sub_nil l : subseq [] l
  | sub_skip o x l : subseq o l -> subseq o (x :: l)
  | sub_take x o l : subseq o l -> subseq (x :: o) (x :: l).

  Lemma subseq_in o l : subseq o l -> forall a, In a o -> In a l.
  Proof.
    induction 1 as [l | o x l H IH | x o l H IH]; intros a Ha; [destruct Ha | right; auto |].
    destruct Ha as [<- | Ha]; [left; reflexivity | right; auto].
  Qed.

  (* the declaration orders are jointly consistent: their chains form an
     acyclic graph *)
  Definition consistent (os : list (list L)) : Prop := ranked (edges_of_orders os).

  Lemma dedup_in l x : In x (dedup cmp l) <-> In x l.
  Proof.
    induction l as [|a l IH]; simpl; [tauto|].
    destruct (mem a l) eqn:E.
    - rewrite IH. split; [auto|]. intros [<- | H]; [apply mem_in; exact E | exact H].
    - simpl. rewrite IH. tauto.
  Qed.

  Lemma dedup_nodup l : NoDup (dedup cmp l).
  Proof.
    induction l as [|a l IH]; simpl; [constructor|].
    destruct (mem a l) eqn:E; [exact IH|]. constructor; [|exact IH].
    rewrite dedup_in. apply mem_false. exact E.
  Qed.

  Lemma chain_edges_in (o : list L) : forall a b, In (a, b) (chain_edges o) -> In a o /\ In b o.
  Proof.
    induction o as [|x o IH]; intros a b H; [destruct H|].
    destruct o as [|y o]; [destruct H|]. destruct H as [[= <- <-] | H]; [simpl; auto|].
    destruct (IH a b H). split; right; assumption.
  Qed.

  Lemma edges_of_orders_in (os : list (list L)) e :
    In e (edges_of_orders os) <-> exists o, In o os /\ In e (chain_edges o).
  Proof. unfold edges_of_orders. apply in_flat_map. Qed.

  Lemma nodes_of_orders_in os x :
    In x (nodes_of_orders cmp os) <-> exists o, In o os /\ In x o.
  Proof.
    unfold nodes_of_orders. rewrite dedup_in, in_concat. split; intros [o H]; exists o; tauto.
  Qed.

  Lemma edges_of_orders_closed os : closed (nodes_of_orders cmp os) (edges_of_orders os).
  Proof.
    intros a b H. apply edges_of_orders_in in H. destruct H as [o [Ho H]].
    apply chain_edges_in in H. rewrite !nodes_of_orders_in. split; exists o; tauto.
  Qed.

  (* the merged order is a function of the SET of declaration orders: the order
     in which the struct literals are met (and repetitions of one) is immaterial *)
  Theorem merge_orders_function_of_orders os os' :
    (forall o, In o os <-> In o os') -> merge_orders cmp os = merge_orders cmp os'.
  Proof.
    intros H. unfold merge_orders. apply topo_sort_perm_invariant.
    - apply NoDup_Permutation; try apply dedup_nodup.
      intros x. rewrite !nodes_of_orders_in. split; intros [o [Ho Hx]]; exists o; (split; [apply H|]; assumption).
    - intros e. rewrite !edges_of_orders_in. split; intros [o [Ho Hx]]; exists o; (split; [apply H|]; assumption).
  Qed.

  Lemma chain_sorted (R : L -> L -> Prop) o :
    (forall a b, In (a, b) (chain_edges o) -> R a b) -> Sorted R o.
  Proof.
    induction o as [|x o IH]; intros H; [constructor|].
    destruct o as [|y o]; [constructor; constructor|].
    constructor.
    - apply IH. intros a b Hab. apply H. right. exact Hab.
    - constructor. apply H. left. reflexivity.
  Qed.

  Lemma StronglySorted_impl_in (R S : L -> L -> Prop) l :
    (forall x y, In x l -> In y l -> R x y -> S x y) -> StronglySorted R l -> StronglySorted S l.
  Proof.
    intros H Hs. induction Hs as [|a l Hs IH Hf]; constructor.
    - apply IH. intros x y Hx Hy. apply H; right; assumption.
    - rewrite Forall_forall in *. intros x Hx. apply H; [left; reflexivity | right; exact Hx | apply Hf; exact Hx].
  Qed.

  Lemma idx_sorted_subseq : forall t o, NoDup t ->
    (forall x, In x o -> In x t) ->
    StronglySorted (fun a b => idx t a < idx t b) o -> subseq o t.
  Proof.
    induction t as [|y t IH]; intros o Hnd Hin Hs.
    { destruct o as [|a o]; [constructor | destruct (Hin a (or_introl eq_refl))]. }
    inversion Hnd as [|? ? Hy Hnd']; subst.
    (* in [t] every position is one less than in [y :: t] *)
    assert (Shift : forall o', (forall x, In x o' -> In x t) ->
              StronglySorted (fun a b => idx (y :: t) a < idx (y :: t) b) o' ->
              StronglySorted (fun a b => idx t a < idx t b) o').
    { intros o' Hin'. apply StronglySorted_impl_in. intros a b Ha Hb. rewrite !idx_tail by auto. lia. }
    destruct o as [|a o]; [constructor|].
    inversion Hs as [|? ? Hs' Hf]; subst. rewrite Forall_forall in Hf.
    (* what follows [a] stands behind it, so it is not [y] *)
    assert (Hin' : forall x, In x o -> In x t).
    { intros x Hx. destruct (Hin x (or_intror Hx)) as [<- | H]; [|exact H].
      specialize (Hf y Hx). rewrite idx_head in Hf. lia. }
    destruct (Hin a (or_introl eq_refl)) as [<- | Ha].
    - apply sub_take. apply IH; [exact Hnd' | exact Hin' | apply Shift; assumption].
    - apply sub_skip. apply IH; [exact Hnd' | | apply Shift; [|exact Hs]];
        intros x [<- | Hx]; auto.
  Qed.

  (* If the declaration orders are jointly consistent, the merged order exists,
     lists exactly the declared labels, each once, and every declaration order
     is a subsequence of it. *)
  Theorem merge_orders_respects_each_order os :
    consistent os ->
    exists t, merge_orders cmp os = Some t /\ NoDup t
              /\ (forall x, In x t <-> exists o, In o os /\ In x o)
              /\ forall o, In o os -> subseq o t.
  Proof.
    intros Hcons. unfold merge_orders.
    pose proof (dedup_nodup (concat os)) as Hnd. fold (nodes_of_orders cmp os) in Hnd.
    destruct (topo_sort_dag _ _ Hcons Hnd) as [t [E [Hp [Hok _]]]].
    pose proof (Permutation_NoDup Hp Hnd) as Hndt.
    exists t. split; [exact E|]. split; [exact Hndt|]. split.
    - intros x. rewrite <- nodes_of_orders_in. symmetry. apply perm_in_iff. exact Hp.
    - intros o Ho. apply (idx_sorted_subseq t o Hndt).
      + intros x Hx. apply (Permutation_in _ Hp). apply nodes_of_orders_in. exists o. auto.
      + apply Sorted_StronglySorted; [intros x y z; apply Nat.lt_trans|].
        apply chain_sorted. intros a b Hab.
        apply (topo_sort_respects_edges _ _ t Hcons Hnd (edges_of_orders_closed os) E).
        apply edges_of_orders_in. exists o. auto.
  Qed.

  Lemma subseq_idx o t : subseq o t -> NoDup t ->
    forall a b, In (a, b) (chain_edges o) -> idx t a < idx t b.
  Proof.
    induction 1 as [l | o x l H IH | x o l H IH]; intros Hnd a b Hab; [destruct Hab | |];
      inversion Hnd as [|? ? Hx Hnd']; subst.
    - destruct (chain_edges_in o a b Hab) as [Ha Hb]. apply (subseq_in _ _ H) in Ha, Hb.
      rewrite !idx_tail by assumption. apply -> Nat.succ_lt_mono. apply IH; assumption.
    - destruct o as [|y o]; [destruct Hab|].
      destruct Hab as [[= <- <-] | Hab].
      + rewrite idx_head, idx_tail; [lia | exact Hx | apply (subseq_in _ _ H); left; reflexivity].
      + destruct (chain_edges_in _ a b Hab) as [Ha Hb]. apply (subseq_in _ _ H) in Ha, Hb.
        rewrite !idx_tail by assumption. apply -> Nat.succ_lt_mono. apply IH; assumption.
  Qed.

  (* consistency, spelled out: the orders have a common duplicate-free
     supersequence (and then the merged order is one) *)
  Theorem consistent_iff_common_supersequence os :
    consistent os <-> exists t, NoDup t /\ forall o, In o os -> subseq o t.
  Proof.
    split.
    - intros H. destruct (merge_orders_respects_each_order os H) as [t [_ [Hnd [_ Hs]]]]. exists t. auto.
    - intros [t [Hnd Hs]]. exists (idx t). intros a b Hab.
      apply edges_of_orders_in in Hab. destruct Hab as [o [Ho Hab]].
      apply (subseq_idx o t (Hs o Ho) Hnd). exact Hab.
  Qed.

  Lemma subseq_length o t : subseq o t -> length o <= length t.
  Proof. induction 1; simpl; lia. Qed.

  Lemma subseq_full o t : subseq o t -> length t <= length o -> o = t.
  Proof.
    induction 1 as [l | o x l H IH | x o l H IH]; simpl; intros Hl.
    - destruct l; [reflexivity | simpl in Hl; lia].
    - apply subseq_length in H. lia.
    - f_equal. apply IH. lia.
  Qed.

  Lemma subseq_refl (o : list L) : subseq o o.
  Proof. induction o; constructor; assumption. Qed.

  (* a single duplicate-free declaration order is reproduced as is *)
  Theorem merge_single_chain o : NoDup o -> merge_orders cmp [o] = Some o.
  Proof.
    intros Hnd.
    assert (Hcons : consistent [o]).
    { apply consistent_iff_common_supersequence. exists o. split; [exact Hnd|].
      intros o' [<- | []]. apply subseq_refl. }
    destruct (merge_orders_respects_each_order [o] Hcons) as [t [E [Hndt [Hin Hsub]]]].
    rewrite E. f_equal. symmetry. apply subseq_full; [apply Hsub; left; reflexivity|].
    apply NoDup_incl_length; [exact Hndt|]. intros x Hx. apply Hin in Hx.
    destruct Hx as [o' [[<- | []] Hx]]. exact Hx.
  Qed.

  Lemma first_occ_nodup l : NoDup (first_occ cmp l).
  Proof.
    unfold first_occ. apply (Permutation_NoDup (Permutation_rev _)). apply dedup_nodup.
  Qed.

  Lemma first_occ_in l x : In x (first_occ cmp l) <-> In x l.
  Proof. unfold first_occ. rewrite <- in_rev, dedup_in, <- in_rev. reflexivity. Qed.

  (* implicit unification lists the labels in order of first occurrence *)
  Theorem implicit_orders_spec os : implicit_orders cmp os = Some (first_occ cmp (concat os)).
  Proof. unfold implicit_orders. apply merge_single_chain. apply first_occ_nodup. Qed.
End TopoProofs.

(* the concrete label order of compareNodeByName is a total order *)
Lemma label_cmp_total : total_cmp label_cmp.
Proof.
  constructor.
  - intros [i|s] [j|t]; simpl; split; try congruence.
    + intros H. apply N.compare_eq_iff in H. congruence.
    + intros [= ->]. apply N.compare_refl.
    + intros H. apply (tc_eq _ str_cmp_total) in H. congruence.
    + intros [= ->]. apply (tc_refl _ str_cmp_total).
  - intros [i|s] [j|t]; simpl; try reflexivity.
    + apply N.compare_antisym.
    + apply (tc_opp _ str_cmp_total).
  - intros [i|s] [j|t] [k|u]; simpl; try congruence.
    + apply (tc_trans _ N_compare_total).
    + apply (tc_trans _ str_cmp_total).
Qed.
