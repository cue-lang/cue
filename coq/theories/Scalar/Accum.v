(* C03 - the accumulator: what a node's state (kind, scalar, lowerBound,
   upperBound, checks, errors) denotes, and that insertValueConjunct narrows
   it by exactly the inserted conjunct. *)
From Coq Require Import List ZArith NArith Bool Lia QArith.
From Verif Require Import Base.Order Scalar.Spec Scalar.Model Scalar.DecProofs Scalar.Proofs.
Import ListNotations.
Open Scope Z_scope.

Lemma dcmp_eq_l : forall x y z, dcmp x y = Eq -> dcmp x z = dcmp y z.
Proof. exact (tp_eq_l _ dcmp_total_pre). Qed.

Lemma dcmp_eq_r : forall x y z, dcmp x y = Eq -> dcmp z x = dcmp z y.
Proof. exact (cmp_eq_r _ _ dcmp_total_pre). Qed.

Lemma dcmp_eq_sym : forall x y, dcmp x y = Eq -> dcmp y x = Eq.
Proof. intros x y E. rewrite (tp_opp _ dcmp_total_pre), E. reflexivity. Qed.

(* [atom_eqb] is equality, except that two floats need only have the same value
   (1.0 and 1.00).  Whatever is proved about atoms up to [atom_eqb] below has
   this one non-trivial case. *)
Lemma atom_eqb_cases : forall a b, atom_eqb a b = true ->
  a = b \/ exists x y, a = AFloat x /\ b = AFloat y /\ dcmp x y = Eq.
Proof.
  intros a b; destruct a, b; cbn; try discriminate; intros H.
  - left. reflexivity.
  - left. f_equal. apply eqb_prop. assumption.
  - left. f_equal. apply Z.eqb_eq. assumption.
  - right. exists d, d0. destruct (dcmp d d0); try discriminate H. auto.
  - left. f_equal. apply str_cmp_eq. destruct (str_cmp s s0); try discriminate H. reflexivity.
  - left. f_equal. apply str_cmp_eq. destruct (str_cmp s s0); try discriminate H. reflexivity.
Qed.

Lemma atom_eqb_refl : forall a, atom_eqb a a = true.
Proof.
  destruct a; cbn; auto using Bool.eqb_reflx, Z.eqb_refl.
  - rewrite (tp_refl _ dcmp_total_pre). reflexivity.
  - rewrite (tp_refl _ str_cmp_pre). reflexivity.
  - rewrite (tp_refl _ str_cmp_pre). reflexivity.
Qed.

Lemma atom_eqb_kbit : forall a b, atom_eqb a b = true -> kbit a = kbit b.
Proof. intros a b H. destruct (atom_eqb_cases a b H) as [->|(x & y & -> & -> & _)]; reflexivity. Qed.

Lemma atom_eqb_sym : forall a b, atom_eqb a b = true -> atom_eqb b a = true.
Proof.
  intros a b H. destruct (atom_eqb_cases a b H) as [->|(x & y & -> & -> & E)]; [apply atom_eqb_refl|].
  cbn. rewrite (dcmp_eq_sym x y E). reflexivity.
Qed.

Lemma atom_eqb_trans : forall a b c, atom_eqb a b = true -> atom_eqb b c = true -> atom_eqb a c = true.
Proof.
  intros a b c H. destruct (atom_eqb_cases a b H) as [->|(x & y & -> & -> & E)]; [auto|].
  destruct c; cbn; auto. rewrite (dcmp_eq_l x y d E). auto.
Qed.

Lemma acmp_eqb_l : forall a a' v, atom_eqb a a' = true -> acmp a v = acmp a' v.
Proof.
  intros a a' v H. destruct (atom_eqb_cases a a' H) as [->|(x & y & -> & -> & E)]; [reflexivity|].
  destruct v; cbn; rewrite ?(dcmp_eq_l x y _ E); reflexivity.
Qed.

(* BinOpBool's EqualOp compares numbers by value, so it identifies 1 and 1.0;
   on operands of one kind it is [atom_eqb] *)
Lemma equal_bool_eqb : forall a b, kbit a = kbit b -> equal_bool a b = atom_eqb a b.
Proof.
  intros x y; destruct x as [|x|z|x|x|x], y as [|y|z0|y|y|y]; cbn; intros K; try discriminate K; try reflexivity.
  destruct (Z.eqb_spec z z0).
  - subst. rewrite (tp_refl _ dcmp_total_pre). reflexivity.
  - destruct (dcmp_spec (dec_of_Z z) (dec_of_Z z0)) as [E|E|E]; try reflexivity.
    rewrite !dval_of_Z in E. exfalso. apply n.
    unfold Qeq in E. cbn [Qnum Qden inject_Z] in E. lia.
Qed.

Section WithRegexp.
  Variable re : str -> str -> bool.
  Notation satb := (satb re).

  Lemma sat_bound_eqb_l : forall a a' o v, atom_eqb a a' = true -> sat_bound re a o v = sat_bound re a' o v.
  Proof.
    intros a a' o v H. unfold sat_bound. rewrite (acmp_eqb_l a a' v H).
    destruct (atom_eqb_cases a a' H) as [->|(x & y & -> & -> & _)]; [reflexivity|].
    destruct o, v; reflexivity.
  Qed.

  Lemma sat_has_kind : forall a x, satb a x = true -> has (bound_kind x) a = true.
  Proof.
    intros a [o v]. unfold Proofs.satb, bound_kind; cbn [b_op b_val]. destruct (is_rel_op o) eqn:R.
    - (* an ordering holds only between an atom and an operand of one family *)
      rewrite (sat_rel re a o v R). destruct (rel_not_ne o R) as [-> _].
      destruct a, v; (reflexivity || (intros H; discriminate H)).
    - destruct o; try discriminate R; destruct v, a; (reflexivity || (intros H; discriminate H)).
  Qed.

  Lemma validate_sat : forall x a, has (bound_kind x) a = true -> validate re x a = satb a x.
  Proof. intros [o v] a. apply binop_sat. Qed.

  Definition satv (a : atom) (v : vconj) : bool :=
    match v with
    | VAtom b => atom_eqb a b
    | VType k => has k a
    | VBound b => satb a b
    | VBottom => false
    end.

  Definition vsafe (v : vconj) : bool := match v with VBound b => bsafe b | _ => true end.
  Definition vwf (v : vconj) : bool := match v with VType k => negb (k =? 0)%N | _ => true end.

  Definition stored (s : state) (b : bound) : Prop :=
    s_lower s = Some b \/ s_upper s = Some b \/ In b (s_checks s).

  (* the set of atoms a state admits *)
  Definition Sat (s : state) (a : atom) : Prop :=
    s_err s = false /\ has (s_kind s) a = true /\
    (forall v, s_scalar s = Some v -> atom_eqb a v = true) /\
    (forall b, stored s b -> satb a b = true).

  Record Inv (safe : bool) (s : state) : Prop := {
    inv_kind0 : s_kind s = 0%N -> s_err s = true;
    inv_bkind : forall b a, stored s b -> has (s_kind s) a = true -> has (bound_kind b) a = true;
    inv_scalar : forall v a, s_scalar s = Some v -> has (s_kind s) a = true -> kbit a = kbit v;
    inv_lower : forall b, s_lower s = Some b -> is_lower_op (b_op b) = true;
    inv_upper : forall b, s_upper s = Some b -> is_upper_op (b_op b) = true;
    inv_safe : safe = true -> forall b, stored s b -> bsafe b = true }.

  Lemma Sat_err : forall s a, Sat s a -> s_err s = false.
  Proof. intros s a X. apply X. Qed.

  Lemma Sat_kind : forall s a, Sat s a -> has (s_kind s) a = true.
  Proof. intros s a X. apply X. Qed.

  Lemma Sat_scalar : forall s a v, Sat s a -> s_scalar s = Some v -> atom_eqb a v = true.
  Proof. intros s a v X. apply X. Qed.

  Lemma Sat_stored : forall s a b, Sat s a -> stored s b -> satb a b = true.
  Proof. intros s a b X. apply X. Qed.

  Lemma Sat_intro : forall s a,
    s_err s = false -> has (s_kind s) a = true ->
    (forall v, s_scalar s = Some v -> atom_eqb a v = true) ->
    (forall b, stored s b -> satb a b = true) -> Sat s a.
  Proof. intros s a E K Sc St. repeat split; assumption. Qed.

  Lemma inv_init : forall safe, Inv safe init.
  Proof.
    intros. constructor; cbn; try discriminate.
    - intros b a [H|[H|H]]; try discriminate; contradiction.
    - intros _ b [H|[H|H]]; try discriminate; contradiction.
  Qed.

  Definition get_slot (s : state) (lower : bool) : option bound := if lower then s_lower s else s_upper s.

  Definition dir_ok (lower : bool) (o : bop) : bool := if lower then is_lower_op o else is_upper_op o.

  (* what [Inv] asks of each bound kept in a node of kind k *)
  Definition bound_ok (safe : bool) (k : N) (b : bound) : Prop :=
    (forall a, has k a = true -> has (bound_kind b) a = true) /\ (safe = true -> bsafe b = true).

  Lemma stored_lower : forall s b, s_lower s = Some b -> stored s b.
  Proof. intros s b H. left. exact H. Qed.

  Lemma stored_upper : forall s b, s_upper s = Some b -> stored s b.
  Proof. intros s b H. right; left. exact H. Qed.

  Lemma stored_check : forall s b, In b (s_checks s) -> stored s b.
  Proof. intros s b H. right; right. exact H. Qed.

  Lemma stored_slot : forall s lower b, get_slot s lower = Some b -> stored s b.
  Proof. intros s [|] b; [apply stored_lower|apply stored_upper]. Qed.

  Lemma inv_bound_ok : forall safe s b, Inv safe s -> stored s b -> bound_ok safe (s_kind s) b.
  Proof.
    intros safe s b I H. split; [intros a; apply (inv_bkind _ _ I b a H)|intros h; apply (inv_safe _ _ I h b H)].
  Qed.

  Lemma inv_dir : forall safe s lower b, Inv safe s -> get_slot s lower = Some b -> dir_ok lower (b_op b) = true.
  Proof. intros safe s [|] b I; [apply (inv_lower _ _ I)|apply (inv_upper _ _ I)]. Qed.

  (* [Inv] of [s'] from [Inv] of [s], field by field.  The hypotheses are shaped
     so that [cbn; auto] closes those about fields [s'] shares with [s]; hence
     the form of the first. *)
  Lemma Inv_transfer : forall safe s s',
    Inv safe s ->
    (s_kind s' = 0%N -> (s_kind s = 0%N -> s_err s = true) -> s_err s' = true) ->
    (forall a, has (s_kind s') a = true -> has (s_kind s) a = true) ->
    (forall v, s_scalar s' = Some v ->
       s_scalar s = Some v \/ forall a, has (s_kind s') a = true -> kbit a = kbit v) ->
    (forall lower b, get_slot s' lower = Some b ->
       get_slot s lower = Some b \/ dir_ok lower (b_op b) = true) ->
    (forall b, stored s' b -> stored s b \/ bound_ok safe (s_kind s) b) ->
    Inv safe s'.
  Proof.
    intros safe s s' I K0 Kd Sc Dir St.
    assert (Ok : forall b, stored s' b -> bound_ok safe (s_kind s) b).
    { intros b H. destruct (St b H) as [G|G]; [apply (inv_bound_ok safe s b I G)|exact G]. }
    assert (D : forall lower b, get_slot s' lower = Some b -> dir_ok lower (b_op b) = true).
    { intros lower b H. destruct (Dir lower b H) as [G|G]; [apply (inv_dir safe s lower b I G)|exact G]. }
    constructor.
    - intros H. apply (K0 H), (inv_kind0 _ _ I).
    - intros b a H Ha. apply (Ok b H), Kd, Ha.
    - intros v a H Ha. destruct (Sc v H) as [G|G]; [apply (inv_scalar _ _ I v a G), Kd, Ha|apply G, Ha].
    - apply (D true).
    - apply (D false).
    - intros h b H. apply (Ok b H), h.
  Qed.

  (* From a state [s] satisfying the invariant, [s'] is reached by imposing
     [P]: no atom is gained and every atom kept satisfies [P]; with
     [safe = true], where [Inv] says that every stored bound operand is
     rounding-safe, also every atom of [s] satisfying [P] is kept.  One
     statement for both: [safe = false] gives the unconditional theorems,
     [safe = true] the exact ones. *)
  Definition step (safe : bool) (s s' : state) (P : atom -> Prop) : Prop :=
    Inv safe s ->
    Inv safe s' /\
    (forall a, Sat s' a -> Sat s a /\ P a) /\
    (safe = true -> forall a, Sat s a -> P a -> Sat s' a).

  Lemma step_refl : forall safe s, step safe s s (fun _ => True).
  Proof. intros safe s I. split; [exact I|]. split; auto. Qed.

  Lemma step_trans : forall safe s1 s2 s3 (P Q : atom -> Prop),
    step safe s1 s2 P -> step safe s2 s3 Q -> step safe s1 s3 (fun a => P a /\ Q a).
  Proof.
    intros safe s1 s2 s3 P Q H1 H2 I1.
    destruct (H1 I1) as (I2 & A1 & B1). destruct (H2 I2) as (I3 & A2 & B2).
    split; [exact I3|]. split.
    - intros a H. destruct (A2 a H) as [H' HQ]. destruct (A1 a H') as [H'' HP]. auto.
    - intros h a H [HP HQ]. auto.
  Qed.

  Lemma step_iff : forall safe s s' (P Q : atom -> Prop),
    step safe s s' P -> (forall a, Q a <-> P a) -> step safe s s' Q.
  Proof.
    intros safe s s' P Q H E I. destruct (H I) as (I' & A & B).
    split; [exact I'|]. split.
    - intros a Ha. destruct (A a Ha) as [X Y]. split; [exact X|apply E, Y].
    - intros h a X Y. apply (B h a X), E, Y.
  Qed.

  Lemma step_err : forall safe s s' (P : atom -> Prop),
    (Inv safe s -> Inv safe s' /\ s_err s' = true) ->
    (safe = true -> forall a, Sat s a -> ~ P a) -> step safe s s' P.
  Proof.
    intros safe s s' P H N I. destruct (H I) as [I' E]. split; [exact I'|]. split.
    - intros a X. apply Sat_err in X. rewrite E in X. discriminate X.
    - intros h a X Y. destruct (N h a X Y).
  Qed.

  (* n.addBottom / reportConflict *)
  Lemma set_err_spec : forall safe s (P : atom -> Prop),
    (forall a, Sat s a -> ~ P a) -> step safe s (set_err s) P.
  Proof.
    intros safe s P N. apply step_err; [|intros _; exact N].
    intros I. split; [|reflexivity]. apply (Inv_transfer safe s _ I); cbn; auto.
  Qed.

  Lemma update_node_type_spec : forall safe s k, k <> 0%N ->
    let '(s1, ok) := update_node_type s k in
    if ok then step safe s s1 (fun a => has k a = true) /\ s_kind s1 = N.land (s_kind s) k
    else (Inv safe s -> Inv safe s1 /\ s_err s1 = true) /\ forall a, Sat s a -> has k a <> true.
  Proof.
    intros safe s k Hk. unfold update_node_type.
    assert (HL : forall a, has (N.land (s_kind s) k) a = true <-> has (s_kind s) a = true /\ has k a = true).
    { intros a. rewrite has_land. apply andb_true_iff. }
    (* the kinds are disjoint: nothing the node admits has kind k *)
    assert (D : N.land (s_kind s) k = 0%N -> forall a, Sat s a -> has k a <> true).
    { intros L a X H'. pose proof (proj2 (HL a) (Logic.conj (Sat_kind s a X) H')) as Y.
      rewrite L, has_zero in Y. discriminate Y. }
    destruct (N.eqb_spec (s_kind s) BottomKind) as [K0|K0]; cbn [orb].
    { rewrite K0 in D. split; [|exact (D eq_refl)]. intros I. split; [exact I|apply (inv_kind0 _ _ I K0)]. }
    destruct (N.eqb_spec k BottomKind) as [K1|_]; [contradiction|]. cbn [orb].
    destruct (N.eqb_spec (N.land (s_kind s) k) BottomKind) as [L|L]; cbn [negb].
    - (* "mismatched types" *)
      split; [|exact (D L)]. intros I. split; [|reflexivity].
      apply (Inv_transfer safe s _ I); cbn; auto. intros a. rewrite L, has_zero. discriminate.
    - split; [|reflexivity]. intros I. split; [|split].
      + apply (Inv_transfer safe s _ I); cbn; auto. intros a H. apply HL, H.
      + intros a (X1 & X2 & X3 & X4). apply HL in X2. destruct X2 as [X2 Y]. repeat split; assumption.
      + intros _ a (X1 & X2 & X3 & X4) Y. repeat split; try assumption. apply HL. auto.
  Qed.

  (* the shape of insertValueConjunct: updateNodeType, and unless it fails, the rest *)
  Lemma kind_step_then : forall safe s k (f : state -> state) (P Q : atom -> Prop),
    k <> 0%N ->
    (forall s1, (forall a, has (s_kind s1) a = true -> has k a = true) -> step safe s1 (f s1) Q) ->
    (forall a, P a <-> has k a = true /\ Q a) ->
    step safe s (let '(s1, ok) := update_node_type s k in if negb ok then s1 else f s1) P.
  Proof.
    intros safe s k f P Q Hk Hf E. pose proof (update_node_type_spec safe s k Hk) as U.
    destruct (update_node_type s k) as [s1 [|]]; destruct U as [U K]; cbn [negb].
    - apply step_iff with (fun a => has k a = true /\ Q a); [|exact E].
      apply step_trans with s1; [exact U|]. apply Hf. intros a. rewrite K, has_land, andb_true_iff. tauto.
    - (* s1 is an error state, and nothing the node admitted has kind k *)
      apply step_err; [exact U|]. intros _ a X Y. apply (K a X), E, Y.
  Qed.

  Lemma simplify_opp_cases : forall k l u,
    is_lower_op (b_op l) = true -> is_upper_op (b_op u) = true ->
    simplify re k l u = SNone \/ simplify re k l u = SBottom.
  Proof. intros k l u Hl Hu. rewrite (simplify_opp re k l u Hl Hu). apply opp_cases. Qed.

  Lemma simplify_same_cases : forall k lower x y,
    dir_ok lower (b_op x) = true -> dir_ok lower (b_op y) = true ->
    simplify re k x y = SKeepX \/ simplify re k x y = SKeepY.
  Proof.
    intros k lower [ox xv] [oy yv]; cbn [b_op]. destruct lower; cbn [dir_ok]; intros Hx Hy;
      destruct ox; try discriminate Hx; destruct oy; try discriminate Hy;
        unfold simplify; cbn [b_op b_val op_info Z.eqb Z.opp Pos.eqb andb];
        match goal with |- context [if ?c then SKeepX else SKeepY] => destruct c end; auto.
  Qed.

  (* the tail of insertValueConjunct *)
  Lemma resimplify_spec : forall safe s, step safe s (resimplify re s) (fun _ => True).
  Proof.
    intros safe s. unfold resimplify.
    destruct (s_lower s) as [l|] eqn:EL; [|apply step_refl].
    destruct (s_upper s) as [u|] eqn:EU; [|apply step_refl].
    intros I. generalize I.
    destruct (simplify_opp_cases (s_kind s) l u (inv_lower _ _ I l EL) (inv_upper _ _ I u EU)) as [E|E];
      rewrite E; [apply step_refl|].
    apply step_err.
    - intros _. split; [|reflexivity]. apply (Inv_transfer safe s _ I); cbn; auto.
      + intros [|] b; discriminate.
      + intros b [H|[H|H]]; try discriminate H. left. exact (stored_check s b H).
    - (* errIncompatibleBounds is right when both operands are rounding-safe *)
      intros h a X _. pose proof (Sat_kind s a X) as K.
      pose proof (stored_lower s l EL) as Sl. pose proof (stored_upper s u EU) as Su.
      destruct (inv_bound_ok safe s l I Sl) as [Kl Bl]. destruct (inv_bound_ok safe s u I Su) as [Ku Bu].
      pose proof (simplify_sound re (s_kind s) l u a K (Kl a K) (Ku a K) (Bl h) (Bu h)) as S.
      rewrite E, (Sat_stored s a l X Sl), (Sat_stored s a u X Su) in S. discriminate S.
  Qed.

  Lemma step_resimplify : forall safe s s' (P : atom -> Prop),
    step safe s s' P -> step safe s (resimplify re s') P.
  Proof.
    intros safe s s' P H. apply step_iff with (fun a => P a /\ True); [|tauto].
    apply step_trans with s'; [exact H|apply resimplify_spec].
  Qed.

  (* case Value of insertValueConjunct *)
  Lemma scalar_spec : forall safe s b,
    (forall a, has (s_kind s) a = true -> kbit a = kbit b) ->
    step safe s
      match s_scalar s with
      | Some y => if equal_bool b y then resimplify re s else resimplify re (set_err s)
      | None => resimplify re (mkstate (s_kind s) (Some b) (s_lower s) (s_upper s) (s_checks s) (s_err s))
      end (fun a => atom_eqb a b = true).
  Proof.
    intros safe s b K. destruct (s_scalar s) as [y|] eqn:ES.
    - (* on the atoms the state admits, b and the scalar y have one kind *)
      assert (Eq : forall a, Sat s a -> atom_eqb a y = true /\ equal_bool b y = atom_eqb b y).
      { intros a X. pose proof (Sat_scalar s a y X ES) as Hy. split; [exact Hy|].
        apply equal_bool_eqb. rewrite <- (K a (Sat_kind s a X)). apply atom_eqb_kbit, Hy. }
      destruct (equal_bool b y) eqn:EB; apply step_resimplify.
      + intros I. split; [exact I|]. split; [|auto].
        intros a X. split; [exact X|]. destruct (Eq a X) as [Hy E].
        apply atom_eqb_trans with y; [exact Hy|]. apply atom_eqb_sym. rewrite <- E. reflexivity.
      + apply set_err_spec. intros a X Hb. destruct (Eq a X) as [Hy E].
        rewrite (atom_eqb_trans b a y (atom_eqb_sym a b Hb) Hy) in E. discriminate E.
    - apply step_resimplify. intros I. split; [|split].
      + apply (Inv_transfer safe s _ I); cbn; auto. intros v [= <-]. right. exact K.
      + intros a (X1 & X2 & X3 & X4). split; [|apply X3; reflexivity].
        repeat split; try assumption. rewrite ES. discriminate.
      + intros _ a (X1 & X2 & X3 & X4) Hb. repeat split; try assumption. intros v [= <-]. exact Hb.
  Qed.

  Lemma get_set_slot : forall s lower l o,
    get_slot (set_slot s lower o) l = if Bool.eqb lower l then o else get_slot s l.
  Proof. intros s [|] [|] o; reflexivity. Qed.

  Lemma stored_set_slot : forall s lower o b,
    stored (set_slot s lower o) b -> o = Some b \/ stored s b.
  Proof. intros s [|] o b [H|[H|H]]; cbn in H; unfold stored; auto. Qed.

  Lemma stored_unset_slot : forall s lower o b,
    stored s b -> get_slot s lower = Some b \/ stored (set_slot s lower o) b.
  Proof. intros s [|] o b [H|[H|H]]; unfold stored; cbn; auto. Qed.

  (* the bounds and checks are replaced by ones among the present ones and [x]
     that, on the atoms of the node's kind, imply all of these *)
  Lemma bounds_spec : forall safe s s' x,
    s_kind s' = s_kind s -> s_scalar s' = s_scalar s -> s_err s' = s_err s ->
    bound_ok safe (s_kind s) x ->
    (forall lower b, get_slot s' lower = Some b ->
       get_slot s lower = Some b \/ dir_ok lower (b_op b) = true) ->
    (forall b, stored s' b -> stored s b \/ b = x) ->
    (forall a, has (s_kind s) a = true -> (forall b, stored s' b -> satb a b = true) ->
       satb a x = true /\ forall b, stored s b -> satb a b = true) ->
    step safe s s' (fun a => satb a x = true).
  Proof.
    intros safe s s' x Ek Es Ee Ok Dir Sub Imp I. unfold Sat. rewrite Ek, Es, Ee. split; [|split].
    - apply (Inv_transfer safe s _ I); rewrite ?Ek, ?Es, ?Ee; auto.
      intros b H. destruct (Sub b H) as [G| ->]; auto.
    - intros a (X1 & X2 & X3 & X4). destruct (Imp a X2 X4) as [Hx Y]. auto.
    - intros _ a (X1 & X2 & X3 & X4) Hx. repeat split; auto.
      intros b H. destruct (Sub b H) as [G| ->]; auto.
  Qed.

  (* [z], which is [x] or the bound in the slot, takes the place of both *)
  Lemma set_slot_spec : forall safe s lower x z,
    z = x \/ get_slot s lower = Some z ->
    dir_ok lower (b_op z) = true -> bound_ok safe (s_kind s) x ->
    (forall a, has (s_kind s) a = true -> satb a z = true ->
       satb a x = true /\ forall y, get_slot s lower = Some y -> satb a y = true) ->
    step safe s (set_slot s lower (Some z)) (fun a => satb a x = true).
  Proof.
    intros safe s lower x z Z D Ok E. apply bounds_spec; try (destruct lower; reflexivity); [exact Ok|..].
    - intros l b. rewrite get_set_slot. destruct (Bool.eqb_spec lower l) as [<-|]; [|auto].
      intros [= <-]. auto.
    - intros b H. destruct (stored_set_slot s lower (Some z) b H) as [[= <-]|]; [|auto].
      destruct Z as [->|G]; [auto|left; exact (stored_slot s lower z G)].
    - intros a K H. destruct (E a K) as [Hx Hy].
      { apply H, (stored_slot _ lower). rewrite get_set_slot, eqb_reflx. reflexivity. }
      split; [exact Hx|]. intros b Hb. destruct (stored_unset_slot s lower (Some z) b Hb); auto.
  Qed.

  Lemma rel_dir : forall o, is_rel_op o = true -> dir_ok (is_lower_op o) o = true.
  Proof. destruct o; cbn; intros H; try discriminate H; reflexivity. Qed.

  (* case BoundValue of insertValueConjunct for <, <=, >, >=: of two bounds of
     one direction SimplifyBounds keeps the stronger *)
  Lemma slot_spec : forall safe s x lower,
    dir_ok lower (b_op x) = true -> bound_ok safe (s_kind s) x ->
    step safe s
      match get_slot s lower with
      | Some y =>
        match simplify re (s_kind s) x y with
        | SKeepX => resimplify re (set_slot s lower (Some x))
        | SKeepY => resimplify re (set_slot s lower (Some y))
        | SBottom => set_err (set_slot s lower None)
        | SNone => resimplify re (set_slot s lower (Some x))
        end
      | None => resimplify re (set_slot s lower (Some x))
      end (fun a => satb a x = true).
  Proof.
    intros safe s x lower D Ok. destruct (get_slot s lower) as [y|] eqn:G.
    - intros I. generalize I.
      pose proof (inv_dir safe s lower y I G) as Dy.
      pose proof (inv_bound_ok safe s y I (stored_slot s lower y G)) as Oy.
      pose proof (fun a K => simplify_keep_sound re (s_kind s) x y a K (proj1 Ok a K) (proj1 Oy a K)) as KS.
      (* the one that is kept implies the other *)
      destruct (simplify_same_cases (s_kind s) lower x y D Dy) as [E|E]; rewrite E in KS |- *;
        apply step_resimplify, set_slot_spec; auto; intros a K H; specialize (KS a K); rewrite G;
        (split; [|intros y' [= <-]]); auto.
    - apply step_resimplify, set_slot_spec; auto.
      intros a _ H. rewrite G. split; [exact H|discriminate].
  Qed.

  (* slices.DeleteFunc deletes what x implies; match is set if something implies x *)
  Lemma dedup_checks_eq : forall k x cs,
    dedup_checks re k x cs =
    (filter (fun y => match simplify re k x y with SKeepX => false | _ => true end) cs,
     existsb (fun y => match simplify re k x y with SKeepY => true | _ => false end) cs).
  Proof.
    intros k x cs. induction cs as [|y r IH]; cbn [dedup_checks filter existsb]; [reflexivity|].
    rewrite IH. destruct (simplify re k x y); reflexivity.
  Qed.

  (* case BoundValue of insertValueConjunct for !=, =~ and !~ *)
  Lemma checks_spec : forall safe s x,
    bound_ok safe (s_kind s) x ->
    step safe s
      (let '(cs, m) := dedup_checks re (s_kind s) x (s_checks s) in
       mkstate (s_kind s) (s_scalar s) (s_lower s) (s_upper s) (if m then cs else cs ++ [x]) (s_err s))
      (fun a => satb a x = true).
  Proof.
    intros safe s x Ok I. generalize I. rewrite dedup_checks_eq.
    set (cs := filter _ (s_checks s)). set (m := existsb _ (s_checks s)).
    pose proof (fun a y K Hy => simplify_keep_sound re (s_kind s) x y a K (proj1 Ok a K)
                  (inv_bkind _ _ I y a (stored_check s y Hy) K)) as KS.
    cbv beta iota. set (s2 := mkstate _ _ _ _ _ _).
    apply bounds_spec; try reflexivity; [exact Ok|auto|..].
    - intros b [H|[H|H]]; [left; exact (stored_lower s b H)|left; exact (stored_upper s b H)|].
      cbn in H. destruct m; [|apply in_app_or in H; destruct H as [H|[H|[]]]; [|auto]];
        left; apply stored_check; apply filter_In in H; apply H.
    - intros a K St.
      assert (Hcs : forall b, In b cs -> satb a b = true).
      { intros b H. apply St, stored_check. cbn. destruct m; [exact H|apply in_or_app; left; exact H]. }
      assert (Hx : satb a x = true).
      { destruct m eqn:Em.
        - apply existsb_exists in Em. destruct Em as (y & Hy & Ey). specialize (KS a y K Hy).
          destruct (simplify re (s_kind s) x y) eqn:ES; try discriminate Ey.
          apply KS, Hcs, filter_In. rewrite ES. auto.
        - apply St, stored_check, in_or_app. right; left; reflexivity. }
      split; [exact Hx|]. intros b H. specialize (KS a b K).
      destruct H as [H|[H|H]]; [apply St, (stored_lower s2), H|apply St, (stored_upper s2), H|].
      destruct (simplify re (s_kind s) x b) eqn:ES; [auto|..]; apply Hcs, filter_In; rewrite ES; auto.
  Qed.

  Lemma bound_kind_nonzero : forall x, bound_kind x <> 0%N.
  Proof. intros [o v]. unfold bound_kind; cbn [b_op b_val]. destruct v; try discriminate. destruct (bop_eqb o ONe); discriminate. Qed.

  Lemma atom_kind_nonzero : forall a, atom_kind a <> 0%N.
  Proof. destruct a; discriminate. Qed.

  (* insertValueConjunct: the admitted set shrinks by exactly the inserted
     conjunct ("->" always, "<-" when the bound operands are rounding-safe) *)
  Theorem insert_spec : forall safe s v,
    Inv safe s -> vwf v = true -> (safe = true -> vsafe v = true) ->
    Inv safe (insert re s v) /\
    (forall a, Sat (insert re s v) a -> Sat s a /\ satv a v = true) /\
    (safe = true -> forall a, Sat s a -> satv a v = true -> Sat (insert re s v) a).
  Proof.
    intros safe s v I W Sv. revert I. change (step safe s (insert re s v) (fun a => satv a v = true)).
    destruct v as [b|k|x|]; cbn [insert vkind satv].
    - apply kind_step_then with (Q := fun a => atom_eqb a b = true).
      + apply atom_kind_nonzero.
      + intros s1 K. apply scalar_spec. intros a H. symmetry. apply has_atom_kind, K, H.
      + intros a. split; [|tauto]. intros H. split; [|exact H].
        apply has_atom_kind. symmetry. apply atom_eqb_kbit, H.
    - apply kind_step_then with (Q := fun _ => True).
      + apply N.eqb_neq, negb_true_iff, W.
      + intros s1 _. apply resimplify_spec.
      + tauto.
    - apply kind_step_then with (Q := fun a => satb a x = true).
      + apply bound_kind_nonzero.
      + intros s1 K. assert (Ok : bound_ok safe (s_kind s1) x) by (split; [exact K|exact Sv]).
        destruct (is_rel_op (b_op x)) eqn:ER.
        * apply (slot_spec safe s1 x (is_lower_op (b_op x)) (rel_dir _ ER) Ok).
        * apply (checks_spec safe s1 x Ok).
      + intros a. split; [|tauto]. intros H. split; [apply sat_has_kind, H|exact H].
    - apply set_err_spec. intros a _ H. discriminate H.
  Qed.

  Lemma fold_spec : forall safe vs s,
    forallb vwf vs = true -> (safe = true -> forallb vsafe vs = true) ->
    step safe s (fold_left (insert re) vs s) (fun a => forallb (satv a) vs = true).
  Proof.
    intros safe vs. induction vs as [|v r IH]; intros s W Sf; cbn [fold_left forallb] in *.
    - apply step_iff with (fun _ => True); [apply step_refl|tauto].
    - apply andb_true_iff in W. destruct W as [W1 W2].
      assert (Sf' : safe = true -> vsafe v = true /\ forallb vsafe r = true).
      { intros h. apply andb_true_iff, Sf, h. }
      apply step_iff with (fun a => satv a v = true /\ forallb (satv a) r = true);
        [|intros a; apply andb_true_iff].
      apply step_trans with (insert re s v).
      + intros I. apply insert_spec; [exact I|exact W1|apply Sf'].
      + apply IH; [exact W2|apply Sf'].
  Qed.

  Lemma has_top : forall a, has TopKind a = true.
  Proof. destruct a; reflexivity. Qed.

  Lemma Sat_init : forall a, Sat init a.
  Proof.
    intros a. unfold Sat, stored; cbn. repeat split; try discriminate; auto using has_top.
    intros b [H|[H|[]]]; discriminate.
  Qed.

  (* kinds as sets: k within k' *)
  Definition ksub (k k' : N) : Prop := N.land k k' = k.

  Lemma ksub_trans : forall a b c, ksub a b -> ksub b c -> ksub a c.
  Proof. unfold ksub. intros a b c H1 H2. rewrite <- H1, <- N.land_assoc, H2. reflexivity. Qed.

  Lemma ksub_land : forall a b, ksub (N.land a b) a /\ ksub (N.land a b) b.
  Proof.
    unfold ksub. intros a b. split.
    - rewrite (N.land_comm a b), <- N.land_assoc, N.land_diag. reflexivity.
    - rewrite <- N.land_assoc, N.land_diag. reflexivity.
  Qed.

  (* What insertions do to kind, scalar and error, whatever the bounds are: from
     [s] to [t] an error stays, the kind shrinks, a scalar stays, and a scalar
     that [s] does not have is an atom of [A] whose kind contains that of [t]. *)
  Record grows (A : atom -> Prop) (s t : state) : Prop := {
    grows_err : s_err s = true -> s_err t = true;
    grows_kind : ksub (s_kind t) (s_kind s);
    grows_scalar : forall w, s_scalar s = Some w -> s_scalar t = Some w;
    grows_new : forall w, s_scalar t = Some w ->
                  s_scalar s = Some w \/ A w /\ ksub (s_kind t) (atom_kind w) }.

  Lemma grows_refl : forall A s, grows A s s.
  Proof. intros A s. constructor; auto. apply N.land_diag. Qed.

  Lemma grows_head : forall A s t u,
    grows A s t -> ksub (s_kind u) (s_kind t) -> s_scalar u = s_scalar t ->
    (s_err t = true -> s_err u = true) -> grows A s u.
  Proof.
    intros A s t u [E K S1 S2] Ku Su Eu. constructor; rewrite ?Su.
    - auto.
    - exact (ksub_trans _ _ _ Ku K).
    - exact S1.
    - intros w H. destruct (S2 w H) as [G|[G1 G2]]; [left; exact G|].
      right. split; [exact G1|exact (ksub_trans _ _ _ Ku G2)].
  Qed.

  Lemma resimplify_grows : forall A s t, grows A s t -> grows A s (resimplify re t).
  Proof.
    intros A s t G. unfold resimplify. destruct (s_lower t) as [l|], (s_upper t) as [u|]; try exact G.
    destruct (simplify re (s_kind t) l u); try exact G;
      apply (grows_head A s t _ G); cbn; auto; apply N.land_diag.
  Qed.

  Lemma set_slot_grows : forall A s t lower o, grows A s t -> grows A s (set_slot t lower o).
  Proof. intros A s t lower o G. apply (grows_head A s t _ G); destruct lower; cbn; auto; apply N.land_diag. Qed.

  Lemma set_err_grows : forall A s t, grows A s t -> grows A s (set_err t).
  Proof. intros A s t G. apply (grows_head A s t _ G); cbn; auto. apply N.land_diag. Qed.

  (* a state that cannot finish as incomplete *)
  Definition decided (s : state) : Prop := s_err s = true \/ s_kind s = 0%N \/ s_scalar s <> None.

  Lemma update_node_type_grows : forall A s t k, grows A s t ->
    let '(t1, ok) := update_node_type t k in
    grows A s t1 /\ if ok then ksub (s_kind t1) k else decided t1 \/ k = 0%N.
  Proof.
    intros A s t k G. unfold update_node_type, decided.
    destruct (N.eqb_spec (s_kind t) BottomKind); cbn [orb]; [auto|].
    destruct (N.eqb_spec k BottomKind); cbn [orb]; [auto|].
    destruct (N.land (s_kind t) k =? BottomKind)%N; cbn [negb];
      (split; [apply (grows_head A s t _ G); cbn; auto; apply ksub_land|]); cbn; [auto|apply ksub_land].
  Qed.

  Lemma insert_grows : forall (A : atom -> Prop) s t v,
    (forall w, v = VAtom w -> A w) -> grows A s t -> grows A s (insert re t v).
  Proof.
    intros A s t v HA G. pose proof (update_node_type_grows A s t (vkind v) G) as U.
    destruct v as [b|k|x|]; cbn [insert vkind] in *; [| | |apply set_err_grows, G].
    all: destruct (update_node_type t _) as [t1 [|]]; destruct U as [G1 K]; cbn [negb]; try exact G1.
    - destruct (s_scalar t1) as [y|] eqn:ES; [destruct (equal_bool b y)|]; apply resimplify_grows;
        [exact G1|apply set_err_grows, G1|].
      destruct G1 as [E K1 S1 S2]. constructor; [exact E|exact K1| |].
      + intros w H. specialize (S1 w H). rewrite ES in S1. discriminate S1.
      + intros w [= <-]. right. split; [apply HA; reflexivity|exact K].
    - apply resimplify_grows, G1.
    - destruct (is_rel_op (b_op x)).
      + destruct (if is_lower_op (b_op x) then s_lower t1 else s_upper t1) as [y|];
          [destruct (simplify re (s_kind t1) x y)|]; try apply resimplify_grows; try apply set_err_grows;
          apply set_slot_grows, G1.
      + destruct (dedup_checks re (s_kind t1) x (s_checks t1)).
        apply (grows_head A s t1 _ G1); cbn; auto. apply N.land_diag.
  Qed.

  Lemma grows_decided : forall A s t, grows A s t -> decided s -> decided t.
  Proof.
    intros A s t [E K S1 _] [D|[D|D]].
    - left. apply E, D.
    - right; left. unfold ksub in K. rewrite D, N.land_0_r in K. symmetry. exact K.
    - right; right. destruct (s_scalar s) as [w|]; [|destruct (D eq_refl)].
      rewrite (S1 w eq_refl). discriminate.
  Qed.

  Lemma insert_atom_decided : forall s b, decided (insert re s (VAtom b)).
  Proof.
    intros s b. cbn [insert vkind].
    pose proof (update_node_type_grows (fun _ => True) s s (atom_kind b) (grows_refl _ s)) as U.
    destruct (update_node_type s (atom_kind b)) as [s1 [|]]; destruct U as [_ U]; cbn [negb].
    - assert (R : forall t, decided t -> decided (resimplify re t)).
      { intros t. apply (grows_decided (fun _ => True)), resimplify_grows, grows_refl. }
      destruct (s_scalar s1) as [y|] eqn:ES; [destruct (equal_bool b y)|]; apply R.
      + right; right. rewrite ES. discriminate.
      + left. reflexivity.
      + right; right. discriminate.
    - destruct U as [U|U]; [exact U|destruct (atom_kind_nonzero b U)].
  Qed.

  (* the kind of a node with a scalar lies within the kind of that scalar *)
  Definition ScalarKind (s : state) : Prop :=
    forall v, s_scalar s = Some v -> ksub (s_kind s) (atom_kind v).

  Lemma grows_scalar_kind : forall A s t, grows A s t -> ScalarKind s -> ScalarKind t.
  Proof.
    intros A s t [_ K _ S2] SK w H. destruct (S2 w H) as [G|[_ G]]; [|exact G].
    exact (ksub_trans _ _ _ K (SK w G)).
  Qed.

  Lemma fold_invariant : forall (P : state -> Prop) vs,
    (forall s v, In v vs -> P s -> P (insert re s v)) ->
    forall s, P s -> P (fold_left (insert re) vs s).
  Proof.
    intros P vs. induction vs as [|v r IH]; intros H s Hs; cbn [fold_left]; [exact Hs|].
    apply IH; [intros s' v' Hv; apply H; right; exact Hv|]. apply H; [left; reflexivity|exact Hs].
  Qed.

  Lemma fold_grows : forall vs s, grows (fun w => In (VAtom w) vs) s (fold_left (insert re) vs s).
  Proof.
    intros vs s. apply (fold_invariant (grows _ s)); [|apply grows_refl].
    intros t v Hv. apply insert_grows. intros w ->. exact Hv.
  Qed.

  Lemma err_sticky_fold : forall vs s, forallb vwf vs = true -> s_err s = true -> s_err (fold_left (insert re) vs s) = true.
  Proof. intros vs s _. apply (grows_err _ _ _ (fold_grows vs s)). Qed.

  Lemma scalar_kind_fold : forall vs s, ScalarKind s -> ScalarKind (fold_left (insert re) vs s).
  Proof. intros vs s. apply (grows_scalar_kind _ _ _ (fold_grows vs s)). Qed.

  Lemma scalar_origin : forall vs s w,
    s_scalar (fold_left (insert re) vs s) = Some w -> s_scalar s = Some w \/ In (VAtom w) vs.
  Proof.
    intros vs s w H. destruct (grows_new _ _ _ (fold_grows vs s) w H) as [G|[G _]]; auto.
  Qed.

  Lemma decided_fold : forall vs s b, In (VAtom b) vs -> decided (fold_left (insert re) vs s).
  Proof.
    intros vs s b H. apply in_split in H. destruct H as (l1 & l2 & ->).
    rewrite fold_left_app. cbn [fold_left].
    apply (grows_decided _ _ _ (fold_grows l2 _)), insert_atom_decided.
  Qed.

End WithRegexp.
