(* C03 - the decimal layer: the value of a (sign, coefficient, exponent) decimal
   as a rational, and what the modelled apd operations compute in terms of it. *)
From Coq Require Import List ZArith NArith Bool Lia QArith Qpower Lqa.
From Verif Require Import Base.Order Scalar.Spec Scalar.Model.
Import ListNotations.
Open Scope Z_scope.

Definition p10 (e : Z) : Q := Qpower (inject_Z 10) e.

Lemma ten_neq0 : ~ (inject_Z 10 == 0)%Q.
Proof. intro H. discriminate H. Qed.

Lemma p10_pos : forall e, (0 < p10 e)%Q.
Proof. intros; apply Qpower_0_lt. reflexivity. Qed.

Lemma p10_add : forall a b, (p10 (a + b) == p10 a * p10 b)%Q.
Proof. intros; apply Qpower_plus. exact ten_neq0. Qed.

Lemma p10_Z : forall n, 0 <= n -> (p10 n == inject_Z (10 ^ n))%Q.
Proof. intros. unfold p10. symmetry. apply Zpower_Qpower. assumption. Qed.

Lemma p10_0 : (p10 0 == 1)%Q.
Proof. reflexivity. Qed.

Lemma pow10_pos : forall n, 0 <= n -> 0 < 10 ^ n.
Proof. intros; apply Z.pow_pos_nonneg; lia. Qed.

Lemma pow10N_Z : forall e, 0 <= e -> Z.of_N (pow10N e) = 10 ^ e.
Proof.
  intros e H. unfold pow10N. rewrite N2Z.inj_pow. rewrite Z2N.id by assumption. reflexivity.
Qed.

Lemma pow10N_pos : forall e, (0 < pow10N e)%N.
Proof.
  intros. unfold pow10N. apply N.neq_0_lt_0. apply N.pow_nonzero. discriminate.
Qed.

Definition dval (d : dec) : Q := (inject_Z (dsigned d) * p10 (dexp d))%Q.

Lemma dscale_val : forall d e, e <= dexp d -> (inject_Z (dscale d e) * p10 e == dval d)%Q.
Proof.
  intros d e H. unfold dscale, dval.
  rewrite inject_Z_mult. rewrite <- p10_Z by lia.
  rewrite <- Qmult_assoc. rewrite <- p10_add.
  replace (dexp d - e + e) with (dexp d) by lia. reflexivity.
Qed.

Lemma dval_of_Z : forall z, (dval (dec_of_Z z) == inject_Z z)%Q.
Proof.
  intros z. unfold dval, dec_of_Z, dsigned; cbn [dneg dcoef dexp].
  rewrite p10_0, Qmult_1_r.
  destruct (z <? 0) eqn:E.
  - apply Z.ltb_lt in E. rewrite N2Z.inj_abs_N. replace (- Z.abs z) with z by lia. reflexivity.
  - apply Z.ltb_ge in E. rewrite N2Z.inj_abs_N. replace (Z.abs z) with z by lia. reflexivity.
Qed.

Lemma dval_nonneg_exp_int : forall d, 0 <= dexp d -> (dval d == inject_Z (dsigned d * 10 ^ dexp d))%Q.
Proof. intros d H. unfold dval. rewrite p10_Z by assumption. rewrite inject_Z_mult. reflexivity. Qed.

(* comparison is by value *)
Lemma dcmp_spec : forall x y,
  CompareSpec (dval x == dval y)%Q (dval x < dval y)%Q (dval y < dval x)%Q (dcmp x y).
Proof.
  intros x y. unfold dcmp.
  set (e := Z.min (dexp x) (dexp y)).
  assert (Hx : e <= dexp x) by (unfold e; lia).
  assert (Hy : e <= dexp y) by (unfold e; lia).
  pose proof (dscale_val x e Hx) as Vx. pose proof (dscale_val y e Hy) as Vy.
  pose proof (p10_pos e) as P.
  destruct (Z.compare_spec (dscale x e) (dscale y e)) as [E|E|E]; constructor.
  - rewrite <- Vx, <- Vy, E. reflexivity.
  - rewrite <- Vx, <- Vy. apply Qmult_lt_compat_r; [assumption|]. rewrite <- Zlt_Qlt. assumption.
  - rewrite <- Vx, <- Vy. apply Qmult_lt_compat_r; [assumption|]. rewrite <- Zlt_Qlt. assumption.
Qed.

Lemma dcmp_Qcompare : forall x y, dcmp x y = (dval x ?= dval y)%Q.
Proof.
  intros x y. destruct (dcmp_spec x y) as [E|E|E]; symmetry.
  - apply Qeq_alt. assumption.
  - apply Qlt_alt. assumption.
  - apply Qgt_alt. assumption.
Qed.

Lemma dcmp_eq : forall x y, dcmp x y = Eq <-> (dval x == dval y)%Q.
Proof. intros. rewrite dcmp_Qcompare. symmetry. apply Qeq_alt. Qed.
Lemma dcmp_lt : forall x y, dcmp x y = Lt <-> (dval x < dval y)%Q.
Proof. intros. rewrite dcmp_Qcompare. symmetry. apply Qlt_alt. Qed.
Lemma dcmp_gt : forall x y, dcmp x y = Gt <-> (dval y < dval x)%Q.
Proof. intros. rewrite dcmp_Qcompare. symmetry. apply Qgt_alt. Qed.

Lemma dcmp_total_pre : total_pre dcmp.
Proof.
  constructor.
  - intros x. apply dcmp_eq. reflexivity.
  - intros x y. destruct (dcmp_spec x y) as [E|E|E]; destruct (dcmp_spec y x) as [F|F|F]; simpl; try reflexivity; exfalso; lra.
  - intros x y z. rewrite !dcmp_lt. lra.
  - intros x y z E. apply dcmp_eq in E.
    destruct (dcmp_spec x z) as [F|F|F]; destruct (dcmp_spec y z) as [G|G|G]; try reflexivity; exfalso; lra.
Qed.

(* for a negative exponent, P = 10^-exp: value * P = signed coefficient *)
Lemma dval_mul_pow10 : forall d, dexp d < 0 ->
  (dval d * inject_Z (10 ^ (- dexp d)) == inject_Z (dsigned d))%Q.
Proof.
  intros d H. unfold dval. rewrite <- p10_Z by lia.
  rewrite <- Qmult_assoc, <- p10_add.
  replace (dexp d + - dexp d) with 0 by lia. rewrite p10_0. ring.
Qed.

Lemma inject_pow10_pos : forall n, 0 <= n -> (0 < inject_Z (10 ^ n))%Q.
Proof. intros. replace 0%Q with (inject_Z 0) by reflexivity. rewrite <- Zlt_Qlt. apply pow10_pos; assumption. Qed.

(* ... so comparing the value with an integer m is comparing the signed coefficient with m P *)
Lemma dval_int : forall d m, dexp d < 0 ->
  let s := dsigned d in let mp := m * 10 ^ (- dexp d) in
  ((inject_Z m <= dval d)%Q <-> mp <= s) /\ ((inject_Z m < dval d)%Q <-> mp < s) /\
  ((dval d <= inject_Z m)%Q <-> s <= mp) /\ ((dval d < inject_Z m)%Q <-> s < mp).
Proof.
  intros d m H s mp. assert (PP : (0 < inject_Z (10 ^ (- dexp d)))%Q) by (apply inject_pow10_pos; lia).
  rewrite <- (Qmult_le_r (inject_Z m) (dval d) _ PP), <- (Qmult_lt_r (inject_Z m) (dval d) _ PP),
          <- (Qmult_le_r (dval d) (inject_Z m) _ PP), <- (Qmult_lt_r (dval d) (inject_Z m) _ PP).
  rewrite (dval_mul_pow10 d H), <- inject_Z_mult, <- !Zle_Qle, <- !Zlt_Qlt. tauto.
Qed.

Lemma dval_exp0 : forall d, dexp d = 0 -> (dval d == inject_Z (dsigned d))%Q.
Proof. intros d E. unfold dval. rewrite E, p10_0. ring. Qed.

(* an exact rounding does not change the value *)
Lemma round34_exact : forall c c' sh, round34 c = (c', sh, false) ->
  0 <= sh /\ Z.of_N c = Z.of_N c' * 10 ^ sh.
Proof.
  intros c c' sh. unfold round34.
  destruct (ndigits c <=? PREC) eqn:E.
  - intros [= <- <-]. split; [lia|]. rewrite Z.pow_0_r. lia.
  - apply Z.leb_gt in E.
    set (diff := ndigits c - PREC) in *.
    destruct ((c mod pow10N diff =? 0)%N) eqn:M.
    + intros [= <- <-]. split; [lia|].
      apply N.eqb_eq in M.
      pose proof (N.div_mod c (pow10N diff)) as D.
      assert (pow10N diff <> 0%N) by (pose proof (pow10N_pos diff); lia).
      specialize (D H). rewrite M in D.
      rewrite <- pow10N_Z by lia. rewrite <- N2Z.inj_mul. f_equal. lia.
    + destruct (ndigits (c / pow10N diff) <?
                ndigits (if (pow10N diff <=? 2 * (c mod pow10N diff))%N then (c / pow10N diff + 1)%N else (c / pow10N diff)%N));
        intros [= ]; discriminate.
Qed.

Lemma round34_small : forall c, ndigits c <=? PREC = true -> round34 c = (c, 0, false).
Proof. intros c H. unfold round34. rewrite H. reflexivity. Qed.

Definition signed_of (neg : bool) (c : N) : Z := if neg then - Z.of_N c else Z.of_N c.

Lemma dsigned_mk : forall n c e, dsigned (mkdec n c e) = signed_of n c.
Proof. reflexivity. Qed.

(* the unrounded sign and coefficient computed by Context.add *)
Lemma add_core : forall (xn yn : bool) (a b : N),
  let '(neg, c) :=
      if Bool.eqb xn yn then (xn, (a + b)%N)
      else match N.compare a b with
           | Gt => (xn, (a - b)%N)
           | Lt => (negb xn, (b - a)%N)
           | Eq => (false, 0%N)
           end in
  signed_of neg c = signed_of xn a + signed_of yn b /\
  (neg = true -> c = 0%N -> xn = true /\ yn = true /\ a = 0%N /\ b = 0%N).
Proof.
  intros xn yn a b.
  destruct xn, yn; cbn [Bool.eqb negb]; unfold signed_of.
  - split; [lia|]. intros _ H. repeat split; lia.
  - destruct (N.compare_spec a b); split; try lia; intros; try discriminate; lia.
  - destruct (N.compare_spec a b); split; try lia; intros; try discriminate; lia.
  - split; [lia|]. intros; discriminate.
Qed.

Lemma ctx_add_exact : forall x y sub d,
  ctx_add x y sub = Some (d, false) ->
  (dval d == dval x + (if sub then - dval y else dval y))%Q /\
  (dneg d = true -> dcoef d = 0%N -> dneg x = true /\ dcoef x = 0%N /\ dcoef y = 0%N /\ xorb (dneg y) sub = true).
Proof.
  intros x y sub d. unfold ctx_add.
  destruct (MAXEXP <? Z.abs (dexp x - dexp y)); [discriminate|].
  set (s := Z.min (dexp x) (dexp y)).
  set (a := (dcoef x * pow10N (dexp x - s))%N).
  set (b := (dcoef y * pow10N (dexp y - s))%N).
  pose proof (add_core (dneg x) (xorb (dneg y) sub) a b) as C.
  destruct (if Bool.eqb (dneg x) (xorb (dneg y) sub) then (dneg x, (a + b)%N)
            else match (a ?= b)%N with
                 | Eq => (false, 0%N) | Lt => (negb (dneg x), (b - a)%N) | Gt => (dneg x, (a - b)%N) end)
    as [neg c] eqn:EC.
  destruct C as [C1 C2].
  destruct (round34 c) as [[c' sh] inx] eqn:R.
  intros E0; injection E0 as E1 E2; subst d inx.
  apply round34_exact in R. destruct R as [Hsh Hc].
  assert (Hx : s <= dexp x) by (unfold s; lia).
  assert (Hy : s <= dexp y) by (unfold s; lia).
  assert (Sa : signed_of (dneg x) a = dscale x s).
  { unfold signed_of, dscale, dsigned, a. rewrite N2Z.inj_mul, pow10N_Z by lia. destruct (dneg x); lia. }
  assert (Sb : signed_of (xorb (dneg y) sub) b = if sub then - dscale y s else dscale y s).
  { unfold signed_of, dscale, dsigned, b. rewrite N2Z.inj_mul, pow10N_Z by lia.
    destruct (dneg y), sub; cbn [xorb]; lia. }
  split.
  - assert (V : (dval (mkdec neg c' (s + sh)) == inject_Z (signed_of neg c) * p10 s)%Q).
    { unfold dval; cbn [dneg dcoef dexp]. rewrite dsigned_mk.
      assert (E : signed_of neg c = signed_of neg c' * 10 ^ sh).
      { unfold signed_of. destruct neg; lia. }
      rewrite p10_add, (p10_Z sh) by assumption. rewrite E, inject_Z_mult. ring. }
    rewrite V, C1, Sa, Sb, inject_Z_plus. rewrite <- (dscale_val x s Hx).
    destruct sub.
    + rewrite <- (dscale_val y s Hy), inject_Z_opp. ring.
    + rewrite <- (dscale_val y s Hy). ring.
  - cbn [dneg dcoef]. intros Hn Hz. subst c'.
    assert (c = 0%N) by lia. subst c.
    destruct (C2 Hn eq_refl) as (A1 & A2 & A3 & A4).
    repeat split; try assumption.
    + unfold a in A3. pose proof (pow10N_pos (dexp x - s)). destruct (dcoef x); [reflexivity|]. exfalso. lia.
    + unfold b in A4. pose proof (pow10N_pos (dexp y - s)). destruct (dcoef y); [reflexivity|]. exfalso. lia.
Qed.

Lemma dneg_nonpos : forall d, dneg d = true -> (dval d <= 0)%Q.
Proof.
  intros d H. unfold dval, dsigned. rewrite H.
  pose proof (p10_pos (dexp d)) as P.
  assert (inject_Z (- Z.of_N (dcoef d)) <= 0)%Q.
  { replace 0%Q with (inject_Z 0) by reflexivity. rewrite <- Zle_Qle. lia. }
  nra.
Qed.

Lemma dval_zero_coef : forall d, (dval d == 0)%Q -> dcoef d = 0%N.
Proof.
  intros d H. unfold dval in H. pose proof (p10_pos (dexp d)) as P.
  assert (E : (inject_Z (dsigned d) == 0)%Q) by nra.
  unfold Qeq in E. cbn [Qnum Qden inject_Z] in E. unfold dsigned in E. destruct (dneg d); lia.
Qed.

(* rounding-safe operand: not a negative zero, and the increment that Ceil /
   Floor may perform on its integral part stays within 34 digits *)
Definition dsafe (d : dec) : bool :=
  negb (dneg d && (dcoef d =? 0)%N) &&
  ((0 <=? dexp d) || (ndigits (dcoef d / pow10N (- dexp d) + 1) <=? PREC)).

Lemma modf_parts : forall d, dexp d < 0 ->
  let P := 10 ^ (- dexp d) in
  let t := Z.of_N (dcoef d / pow10N (- dexp d)) in
  let r := Z.of_N (dcoef d mod pow10N (- dexp d)) in
  0 < P /\ Z.of_N (dcoef d) = t * P + r /\ 0 <= r < P /\ 0 <= t.
Proof.
  intros d H P t r.
  assert (HP : Z.of_N (pow10N (- dexp d)) = P) by (apply pow10N_Z; lia).
  pose proof (pow10N_pos (- dexp d)) as Hpos.
  assert (Hnz : pow10N (- dexp d) <> 0%N) by lia.
  pose proof (N.div_mod (dcoef d) _ Hnz) as D.
  pose proof (N.mod_lt (dcoef d) _ Hnz) as M.
  split; [unfold P; apply pow10_pos; lia|].
  split.
  - unfold t, r. rewrite <- HP, <- N2Z.inj_mul, <- N2Z.inj_add. f_equal. lia.
  - split; [|unfold t; apply N2Z.is_nonneg]. unfold r. rewrite <- HP.
    split; [apply N2Z.is_nonneg|]. apply N2Z.inj_lt. exact M.
Qed.

Lemma ctx_add_one_small : forall n t sub, ndigits (t + 1) <=? PREC = true ->
  Bool.eqb n (xorb false sub) = true ->
  ctx_add (mkdec n t 0) dec_one sub = Some (mkdec n (t + 1)%N 0, false).
Proof.
  intros n t sub Hs Hn. unfold ctx_add, dec_one; cbn [dneg dcoef dexp].
  replace (MAXEXP <? Z.abs (0 - 0)) with false by reflexivity.
  rewrite Hn. cbn [Z.min Z.sub Z.compare].
  change (pow10N (0 - 0)) with 1%N. rewrite !N.mul_1_r.
  rewrite round34_small by assumption. reflexivity.
Qed.

(* Ceil and Floor of a fractional decimal, in integer arithmetic on the signed
   coefficient s and P = 10^-exp: the result c (exponent 0) is the integer with
   (c-1) P < s <= c P, resp. c P <= s < (c+1) P.  A negative zero comes out of Ceil
   only (of an operand in (-1, 0)), never out of Floor.
   Modf splits |s| = t P + r with 0 <= r < P; the result is t or t + 1 with the sign of
   the operand, and the + 1 is the exact sum because [dsafe] keeps t + 1 within 34
   digits (ctx_add_one_small).  The eight cases are up/down, sign, r = 0 or not. *)
Lemma ceil_floor_spec : forall (up : bool) d, dsafe d = true -> dexp d < 0 ->
  let res := if up then ctx_ceil d else ctx_floor d in
  let P := 10 ^ (- dexp d) in
  dexp res = 0 /\
  (if up then (dsigned res - 1) * P < dsigned d <= dsigned res * P
   else dsigned res * P <= dsigned d < (dsigned res + 1) * P) /\
  (dneg res = true -> dcoef res = 0%N -> up = true).
Proof.
  intros up d S H res P. unfold dsafe in S. apply andb_true_iff in S. destruct S as [W S].
  apply orb_true_iff in S. destruct S as [S|S]; [apply Z.leb_le in S; lia|].
  destruct (modf_parts d H) as (HP & Hc & Hr & Ht). fold P in HP, Hc, Hr.
  set (t := Z.of_N (dcoef d / pow10N (- dexp d))) in *.
  set (r := Z.of_N (dcoef d mod pow10N (- dexp d))) in *.
  assert (F : if negb (dcoef d mod pow10N (- dexp d) =? 0)%N then 0 < r else r = 0).
  { destruct (N.eqb_spec (dcoef d mod pow10N (- dexp d)) 0) as [E|E]; cbn [negb]; unfold r; lia. }
  assert (Z0 : dneg d = true -> 0 < t * P + r).
  { intros N. rewrite N in W. cbn [andb] in W. apply negb_true_iff, N.eqb_neq in W. lia. }
  unfold res, ctx_ceil, ctx_floor, dec_modf, dsigned.
  destruct up, (dneg d) eqn:Nd, (negb (dcoef d mod pow10N (- dexp d) =? 0)%N); cbn [andb negb];
    rewrite ?ctx_add_one_small by (assumption || reflexivity); cbn [dexp dneg dcoef];
    rewrite ?N2Z.inj_add; fold t; (split; [reflexivity|]); (split; [nia|]).
  (* the negative-zero clause: a non-negative result has no sign; a negative one with
     coefficient 0 contradicts [Z0] unless it is Ceil's *)
  all: try discriminate.
  all: intros _ T0; try reflexivity; specialize (Z0 eq_refl); nia.
Qed.

Lemma ceil_spec : forall d, dsafe d = true -> dexp d < 0 ->
  exists c, (dval (ctx_ceil d) == inject_Z c)%Q /\ (inject_Z (c - 1) < dval d)%Q /\ (dval d <= inject_Z c)%Q.
Proof.
  intros d S H. destruct (ceil_floor_spec true d S H) as (E & [C1 C2] & _).
  exists (dsigned (ctx_ceil d)). split; [apply dval_exp0, E|].
  split; apply dval_int; assumption.
Qed.

Lemma floor_spec : forall d, dsafe d = true -> dexp d < 0 ->
  exists c, (dval (ctx_floor d) == inject_Z c)%Q /\ (inject_Z c <= dval d)%Q /\ (dval d < inject_Z (c + 1))%Q /\
            ~ (dneg (ctx_floor d) = true /\ dcoef (ctx_floor d) = 0%N).
Proof.
  intros d S H. destruct (ceil_floor_spec false d S H) as (E & [C1 C2] & NZ).
  exists (dsigned (ctx_floor d)). split; [apply dval_exp0, E|].
  split; [apply dval_int; assumption|]. split; [apply dval_int; assumption|].
  intros [N C]. discriminate (NZ N C).
Qed.

Lemma dec_int64_val : forall d n, dec_int64 d = Some n -> (dval d == inject_Z n)%Q.
Proof.
  intros d n. unfold dec_int64.
  destruct (0 <=? dexp d) eqn:E.
  - apply Z.leb_le in E.
    destruct (MAXINT64 <? Z.of_N (dcoef d) * 10 ^ dexp d); [discriminate|].
    intros [= <-]. unfold dval. rewrite p10_Z by assumption. rewrite <- inject_Z_mult.
    apply inject_Z_injective. unfold dsigned. destruct (dneg d); ring.
  - apply Z.leb_gt in E.
    destruct ((dcoef d mod pow10N (- dexp d) =? 0)%N) eqn:M; [|discriminate].
    destruct (MAXINT64 <? Z.of_N (dcoef d / pow10N (- dexp d))); [discriminate|].
    intros [= <-].
    destruct (modf_parts d E) as (HP & Hc & Hr & Ht).
    apply N.eqb_eq in M. rewrite M in Hc. cbn in Hc.
    apply (Qmult_inj_r _ _ (inject_Z (10 ^ (- dexp d)))).
    { intro Z0. assert (0 < inject_Z (10 ^ (- dexp d)))%Q by (apply inject_pow10_pos; lia). lra. }
    rewrite dval_mul_pow10 by assumption. rewrite <- inject_Z_mult.
    apply inject_Z_injective. unfold dsigned. rewrite Hc. destruct (dneg d); ring.
Qed.
