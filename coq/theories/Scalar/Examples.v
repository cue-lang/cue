(* C03 - closed test vectors, evaluated in the model: the witness that the
   side condition of the exactness theorems cannot be dropped, and inputs on
   which the evaluator gives each of its three verdicts. *)
From Coq Require Import List ZArith NArith Bool.
From Verif Require Import Base.Order Scalar.Spec Scalar.Model Scalar.DecProofs Scalar.Proofs Scalar.Accum Scalar.Theorems.
Import ListNotations.
Open Scope Z_scope.

Definition no_re : str -> str -> bool := fun _ _ => false.

Definition B (o : bop) (v : atom) : constr := CElem (KBound o v).
Definition A (a : atom) : constr := CElem (KAtom a).
Definition T (t : btype) : constr := CElem (KType t).
Definition fl (neg : bool) (c : N) (e : Z) : atom := AFloat (mkdec neg c e).

(* C03-F1.  int & >=12345678901234567890123456789012345.5 & <=12345678901234567890123456789012348
   is satisfied by 12345678901234567890123456789012346, but Ceil of the lower
   bound is computed at precision 34 (...350) and the bounds are reported as
   incompatible. *)
Definition f1_cs : list constr :=
  [T TInt; B OGe (fl false 123456789012345678901234567890123455 (-1)); B OLe (AInt 12345678901234567890123456789012348)].
Definition f1_atom : atom := AInt 12345678901234567890123456789012346.

Lemma impl_refuted : forall re,
  sat_all re f1_atom f1_cs = true /\
  run re f1_cs = RBottom /\
  run_with re f1_cs f1_atom = RBottom /\
  all_safe f1_cs = false.
Proof. intros re. repeat split; vm_compute; reflexivity. Qed.

(* the bottom verdict of an atom-free, unsatisfiable conjunction depends on the
   order: the subtraction 0 - 1.000...1 (44 digits) is Inexact at precision 34,
   so no simplification happens unless >1 met <0 first.  Both orders are allowed
   by C03 (bottom only if unsatisfiable; both are unsatisfiable). *)
Definition od_big : atom := fl false 10000000000000000000000000000000000000000001 (-43).
Definition od_cs1 : list constr := [B OGt (AInt 1); B OLt (AInt 0); B OGt od_big].
Definition od_cs2 : list constr := [B OGt od_big; B OLt (AInt 0); B OGt (AInt 1)].

(* >=1 & <=1 : not bottom, not collapsed; with the atom 1 it is 1 *)
Example ex_ge1_le1 : forall re,
  run re [B OGe (AInt 1); B OLe (AInt 1)] = RIncomplete /\
  run_with re [B OGe (AInt 1); B OLe (AInt 1)] (AInt 1) = RAtom (AInt 1) /\
  run_with re [B OGe (AInt 1); B OLe (AInt 1)] (fl false 10 (-1)) = RAtom (fl false 10 (-1)) /\
  run_with re [B OGe (AInt 1); B OLe (AInt 1)] (AInt 2) = RBottom.
Proof. intros; repeat split; vm_compute; reflexivity. Qed.

(* int & >1.5 & <2.5 : the readjusted bounds are >1 and <3, diff = 2, kept *)
Example ex_int_frac : forall re,
  let cs := [T TInt; B OGt (fl false 15 (-1)); B OLt (fl false 25 (-1))] in
  run re cs = RIncomplete /\ run_with re cs (AInt 2) = RAtom (AInt 2) /\
  run_with re cs (fl false 20 (-1)) = RBottom /\ run_with re cs (AInt 3) = RBottom /\
  all_safe cs = true.
Proof. intros; repeat split; vm_compute; reflexivity. Qed.

(* >1 & <2 & int is bottom in every order (re-simplification after every insertion) *)
Example ex_gt1_lt2_int_all_orders : forall re,
  let a := B OGt (AInt 1) in let b := B OLt (AInt 2) in let c := T TInt in
  forallb (fun cs => match run re cs with RBottom => true | _ => false end)
          [[a; b; c]; [a; c; b]; [b; a; c]; [b; c; a]; [c; a; b]; [c; b; a]] = true /\
  run re [a; b] = RIncomplete.
Proof. intros; split; vm_compute; reflexivity. Qed.

(* >1 & <3 & int admits exactly 2 *)
Example ex_gt1_lt3_int : forall re,
  let cs := [B OGt (AInt 1); B OLt (AInt 3); T TInt] in
  run re cs = RIncomplete /\ run_with re cs (AInt 2) = RAtom (AInt 2) /\
  run_with re cs (AInt 1) = RBottom /\ run_with re cs (AInt 3) = RBottom /\
  run_with re cs (fl false 20 (-1)) = RBottom.
Proof. intros; repeat split; vm_compute; reflexivity. Qed.

(* !=null admits every non-null atom; int and float stay distinct *)
Example ex_ne_null_and_kinds : forall re,
  run_with re [B ONe ANull] (AInt 1) = RAtom (AInt 1) /\
  run_with re [B ONe ANull] ANull = RBottom /\
  run_with re [A (AInt 1)] (fl false 10 (-1)) = RBottom /\
  run_with re [B OLe (fl false 10 (-1))] (AInt 1) = RAtom (AInt 1) /\
  run_with re [CRange RFloat32] (AInt 1) = RAtom (AInt 1) /\
  run_with re [CRange RUint8] (AInt 256) = RBottom /\
  run_with re [CRange RUint8] (fl false 10 (-1)) = RBottom.
Proof. intros; repeat split; vm_compute; reflexivity. Qed.

(* the hypotheses of the conditional theorems are met by non-trivial inputs *)
Example ex_exact_hyps :
  let cs := [T TInt; B OGt (fl false 15 (-1)); B OLt (fl false 25 (-1)); A (AInt 2)] in
  all_safe cs = true /\ In (A (AInt 2)) cs /\ sat_all no_re (AInt 2) cs = true /\
  run no_re cs = RAtom (AInt 2).
Proof. repeat split; try (vm_compute; reflexivity). right; right; right; left; reflexivity. Qed.

(* regular expressions go through the oracle *)
Example ex_regexp :
  let re := fun p s => match p, s with [94%N; 97%N], (97%N :: _) => true | _, _ => false end in
  run_with re [B OMatch (AStr [94%N; 97%N])] (AStr [97%N; 98%N]) = RAtom (AStr [97%N; 98%N]) /\
  run_with re [B OMatch (AStr [94%N; 97%N])] (AStr [98%N]) = RBottom /\
  run_with re [B ONMatch (AStr [94%N; 97%N])] (AStr [98%N]) = RAtom (AStr [98%N]) /\
  run_with re [B OMatch (AStr [94%N; 97%N])] (AInt 1) = RBottom.
Proof. repeat split; vm_compute; reflexivity. Qed.
