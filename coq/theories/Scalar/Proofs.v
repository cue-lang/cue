(* C03 - soundness of SimplifyBounds (see design/C03.md): kinds as bit masks,
   the three ordered families of atoms, and one lemma per arm of [simplify]. *)
From Coq Require Import List ZArith NArith Bool Lia QArith Lqa.
From Verif Require Import Base.Order Scalar.Spec Scalar.Model Scalar.DecProofs.
Import ListNotations.
Open Scope Z_scope.

Definition has (k : N) (a : atom) : bool := negb (N.land k (atom_kind a) =? 0)%N.

Definition kbit (a : atom) : N :=
  match a with
  | ANull => 0 | ABool _ => 1 | AInt _ => 2 | AFloat _ => 3 | AStr _ => 4 | ABytes _ => 5
  end%N.

Lemma atom_kind_pow2 : forall a, atom_kind a = (2 ^ kbit a)%N.
Proof. destruct a; reflexivity. Qed.

Lemma land_pow2_testbit : forall k i, (N.land k (2 ^ i) =? 0)%N = negb (N.testbit k i).
Proof.
  intros k i. destruct (N.testbit k i) eqn:T; cbn [negb].
  - apply N.eqb_neq. intro E.
    assert (H : N.testbit (N.land k (2 ^ i)) i = true).
    { rewrite N.land_spec, T, N.pow2_bits_true. reflexivity. }
    rewrite E, N.bits_0 in H. discriminate.
  - apply N.eqb_eq. apply N.bits_inj. intro j.
    rewrite N.land_spec, N.bits_0, N.pow2_bits_eqb.
    destruct (N.eqb_spec i j) as [->|]; [rewrite T|]; auto using andb_false_r.
Qed.

Lemma has_testbit : forall k a, has k a = N.testbit k (kbit a).
Proof. intros. unfold has. rewrite atom_kind_pow2, land_pow2_testbit, negb_involutive. reflexivity. Qed.

Lemma has_land : forall k1 k2 a, has (N.land k1 k2) a = has k1 a && has k2 a.
Proof. intros. rewrite !has_testbit. apply N.land_spec. Qed.

Lemma has_zero : forall a, has 0 a = false.
Proof. intros. rewrite has_testbit. apply N.bits_0. Qed.

Lemma has_nonzero : forall k a, has k a = true -> k <> 0%N.
Proof. intros k a H ->. rewrite has_zero in H. discriminate. Qed.

Lemma has_atom_kind : forall a b, has (atom_kind a) b = true <-> kbit a = kbit b.
Proof.
  intros a b. rewrite has_testbit, atom_kind_pow2, N.pow2_bits_eqb. rewrite N.eqb_eq. reflexivity.
Qed.

Lemma str_cmp_total : total_cmp str_cmp.
Proof. apply list_cmp_total. apply N_compare_total. Qed.

Lemma str_cmp_pre : total_pre str_cmp.
Proof. exact (total_pre_of_map str_cmp (fun s => s) str_cmp_total). Qed.

Lemma str_cmp_eq : forall s t, str_cmp s t = Eq -> s = t.
Proof. intros s t. apply (tc_eq _ str_cmp_total). Qed.

Definition nomatch (o : bop) : bool := match o with OMatch | ONMatch => false | _ => true end.

Lemma cmp_to_bool_test_rel : forall o c, nomatch o = true -> cmp_to_bool o c = test_rel o c.
Proof. intros o c H. destruct o; try discriminate H; destruct c; reflexivity. Qed.

Definition is_upper_op (o : bop) : bool := bop_eqb o OLt || bop_eqb o OLe.

Section Order.
  Variable T : Type.
  Variable c : T -> T -> comparison.
  Hypothesis Hc : total_pre c.

  Lemma cmp_eq_r : forall x y z, c x y = Eq -> c z x = c z y.
  Proof.
    intros x y z E. rewrite (tp_opp c Hc z x), (tp_opp c Hc z y), (tp_eq_l c Hc x y z E). reflexivity.
  Qed.

  (* the composition table of a total preorder: [c a y] from [c a x] and [c x y],
     wherever the two determine it *)
  Lemma cmp_compose : forall a x y,
    match c a x, c x y with
    | Eq, r => c a y = r
    | r, Eq => c a y = r
    | Lt, Lt => c a y = Lt
    | Gt, Gt => c a y = Gt
    | _, _ => True
    end.
  Proof.
    intros a x y.
    destruct (c a x) eqn:E1; destruct (c x y) eqn:E2; try exact I.
    - rewrite (tp_eq_l c Hc _ _ _ E1). assumption.
    - rewrite (tp_eq_l c Hc _ _ _ E1). assumption.
    - rewrite (tp_eq_l c Hc _ _ _ E1). assumption.
    - rewrite <- (cmp_eq_r _ _ a E2). assumption.
    - apply (tp_trans c Hc _ _ _ E1 E2).
    - rewrite <- (cmp_eq_r _ _ a E2). assumption.
    - assert (F1 : c x a = Lt) by (rewrite (tp_opp c Hc), E1; reflexivity).
      assert (F2 : c y x = Lt) by (rewrite (tp_opp c Hc), E2; reflexivity).
      rewrite (tp_opp c Hc), (tp_trans c Hc _ _ _ F2 F1). reflexivity.
  Qed.

  (* two bounds of one direction: the tighter implies the looser; [fst (op_info ox)]
     is ox with the strictness SimplifyBounds compares the operands with *)
  Lemma same_dir_sound : forall ox oy a x y,
    is_lower_op ox && is_lower_op oy || is_upper_op ox && is_upper_op oy = true ->
    if cmp_to_bool (fst (op_info ox)) (c x y)
    then test_rel ox (c a x) = true -> test_rel oy (c a y) = true
    else test_rel oy (c a y) = true -> test_rel ox (c a x) = true.
  Proof.
    intros ox oy a x y D. pose proof (cmp_compose a x y) as C.
    destruct ox; try discriminate D; destruct oy; try discriminate D; clear D; cbn;
      destruct (c a x), (c x y), (c a y); cbn in *; congruence.
  Qed.

  Lemma ordered_sound : forall ox oy xv yv a x y,
    is_lower_op ox = true -> is_upper_op oy = true ->
    simplify_ordered (c x y) (mkbound ox xv) (mkbound oy yv) = SBottom ->
    test_rel ox (c a x) && test_rel oy (c a y) = false.
  Proof.
    intros ox oy xv yv a x y Hx Hy.
    pose proof (cmp_compose a x y) as C.
    unfold simplify_ordered; cbn [b_op].
    destruct ox; try discriminate Hx; destruct oy; try discriminate Hy; cbn;
      destruct (c a x), (c x y), (c a y); cbn in *; congruence.
  Qed.
End Order.

(* [acmp] compares inside one of three families - numbers (int and float
   together, by value), strings, bytes - each a total preorder *)
Lemma acmp_family : forall a x y ca cy, acmp a x = Some ca -> acmp a y = Some cy ->
  exists (T : Type) (c : T -> T -> comparison) ta tx ty,
    total_pre c /\ ca = c ta tx /\ cy = c ta ty /\ acmp x y = Some (c tx ty).
Proof.
  destruct a, x; try discriminate; destruct y; try discriminate; intros ca cy [= <-] [= <-].
  1-8: exists dec, dcmp; do 3 eexists; repeat split; apply dcmp_total_pre.
  all: exists str, str_cmp; do 3 eexists; repeat split; apply str_cmp_pre.
Qed.

Lemma rel_not_ne : forall o, is_rel_op o = true -> bop_eqb o ONe = false /\ nomatch o = true.
Proof. destruct o; try discriminate; split; reflexivity. Qed.

(* an atom of the kind of a bound (other than != null) that is not comparable with
   the operand is comparable with nothing: it is null or a boolean *)
Lemma kind_incomparable : forall o v a w, bop_eqb o ONe = false ->
  has (bound_kind (mkbound o v)) a = true -> acmp a v = None -> acmp a w = None.
Proof.
  intros o v a w Ho. unfold bound_kind; cbn [b_op b_val]. rewrite Ho.
  destruct v, a; try discriminate; reflexivity.
Qed.

Definition bsafe (x : bound) : bool := match b_val x with AFloat d => dsafe d | _ => true end.

Lemma dsafe_of_Z : forall z, dsafe (dec_of_Z z) = true.
Proof.
  intros z. unfold dsafe, dec_of_Z; cbn [dneg dcoef dexp].
  replace (0 <=? 0) with true by reflexivity. rewrite orb_true_l, andb_true_r.
  destruct (z <? 0) eqn:E; [|reflexivity]. apply Z.ltb_lt in E. cbn [andb].
  apply negb_true_iff, N.eqb_neq. lia.
Qed.

Lemma num_of_safe : forall x d, bsafe x = true -> num_of (b_val x) = Some d -> dsafe d = true.
Proof.
  intros [o v] d; unfold bsafe; cbn [b_val]. destruct v; cbn [num_of]; intros S [= <-]; auto using dsafe_of_Z.
Qed.

Definition le_lt (nonstrict : bool) (x y : Q) : Prop := if nonstrict then (x <= y)%Q else (x < y)%Q.

Lemma le_lt_le : forall ns x y, le_lt ns x y -> (x <= y)%Q.
Proof. intros [|] x y H; [exact H|apply Qlt_le_weak, H]. Qed.

Lemma lower_spec : forall o x v, is_lower_op o = true -> test_rel o (dcmp v x) = true ->
  le_lt (bop_eqb o OGe) (dval x) (dval v).
Proof.
  intros o x v L. destruct o; try discriminate L; destruct (dcmp_spec v x); cbn; intros; try discriminate; lra.
Qed.

Lemma upper_spec : forall o x v, is_upper_op o = true -> test_rel o (dcmp v x) = true ->
  le_lt (bop_eqb o OLe) (dval v) (dval x).
Proof.
  intros o x v L. destruct o; try discriminate L; destruct (dcmp_spec v x); cbn; intros; try discriminate; lra.
Qed.

(* the integers are discrete: a strict inequality in Q between integers gives
   whatever non-strict one it gives in Z *)
Lemma Qlt_int_le : forall a b c d, (inject_Z a < inject_Z b)%Q -> (a < b -> c <= d)%Z ->
  (inject_Z c <= inject_Z d)%Q.
Proof. intros a b c d H I. rewrite <- Zlt_Qlt in H. rewrite <- Zle_Qle. auto. Qed.

(* a node whose kind excludes float holds an integer *)
Lemma nofloat_value : forall k a da, (N.land k FloatKind =? 0)%N = true -> has k a = true ->
  num_of a = Some da -> exists z, (dval da == inject_Z z)%Q.
Proof.
  intros k a da NF Hk Ha. destruct a; try discriminate Ha; injection Ha as <-.
  - exists z. apply dval_of_Z.
  - unfold has in Hk. cbn [atom_kind] in Hk. rewrite NF in Hk. discriminate.
Qed.

(* Under a kind without float SimplifyBounds rounds a fractional bound to the next
   integer inside (>=, <=) or outside (>, <) the range; the atom, an integer, still obeys it *)
Lemma lo_adjust : forall (nofloat nonstrict : bool) a0 v, dsafe a0 = true ->
  (nofloat = true -> exists z, (v == inject_Z z)%Q) -> le_lt nonstrict (dval a0) v ->
  let lo := if nofloat && (dexp a0 <? 0) then if nonstrict then ctx_ceil a0 else ctx_floor a0 else a0 in
  le_lt nonstrict (dval lo) v /\ (nofloat = true -> exists l, (dval lo == inject_Z l)%Q).
Proof.
  intros nofloat nonstrict a0 v S Vz L. destruct nofloat; cbn [andb]; [|split; [exact L|discriminate]].
  destruct (Vz eq_refl) as [z Ez]. destruct (dexp a0 <? 0) eqn:EN.
  - apply Z.ltb_lt in EN. destruct nonstrict; unfold le_lt in *.
    + destruct (ceil_spec a0 S EN) as (c & C1 & C2 & _). split; [|exists c; exact C1].
      rewrite C1, Ez in *. apply (Qlt_int_le (c - 1) z); [lra|lia].
    + destruct (floor_spec a0 S EN) as (f & C1 & C2 & _). split; [rewrite C1; lra|exists f; exact C1].
  - apply Z.ltb_ge in EN. split; [exact L|]. intros _. exists (dsigned a0 * 10 ^ dexp a0).
    apply dval_nonneg_exp_int, EN.
Qed.

Lemma dsafe_not_negzero : forall d, dsafe d = true -> dneg d = true -> dcoef d = 0%N -> False.
Proof. unfold dsafe. intros d S N C. rewrite N, C in S. discriminate. Qed.

(* ... and only Ceil of an upper bound in (-1, 0) gives a negative zero *)
Lemma hi_adjust : forall (nofloat nonstrict : bool) b0 v, dsafe b0 = true ->
  (nofloat = true -> exists z, (v == inject_Z z)%Q) -> le_lt nonstrict v (dval b0) ->
  let hi := if nofloat && (dexp b0 <? 0) then if nonstrict then ctx_floor b0 else ctx_ceil b0 else b0 in
  le_lt nonstrict v (dval hi) /\ (nofloat = true -> exists h, (dval hi == inject_Z h)%Q) /\
  (dneg hi = true -> dcoef hi = 0%N -> nonstrict = false).
Proof.
  intros nofloat nonstrict b0 v S Vz L.
  assert (NZ : dneg b0 = true -> dcoef b0 = 0%N -> nonstrict = false).
  { intros N C. destruct (dsafe_not_negzero b0 S N C). }
  destruct nofloat; cbn [andb]; [|split; [exact L|split; [discriminate|exact NZ]]].
  destruct (Vz eq_refl) as [z Ez]. destruct (dexp b0 <? 0) eqn:EN.
  - apply Z.ltb_lt in EN. destruct nonstrict; unfold le_lt in *.
    + destruct (floor_spec b0 S EN) as (f & C1 & _ & C3 & C4). split; [|split; [exists f; exact C1|]].
      * rewrite C1, Ez in *. apply (Qlt_int_le z (f + 1)); [lra|lia].
      * intros N C. destruct C4. split; assumption.
    + destruct (ceil_spec b0 S EN) as (c & C1 & _ & C3). split; [rewrite C1; lra|]. split; [exists c; exact C1|reflexivity].
  - apply Z.ltb_ge in EN. split; [exact L|]. split; [|exact NZ]. intros _. exists (dsigned b0 * 10 ^ dexp b0).
    apply dval_nonneg_exp_int, EN.
Qed.

(* x the lower, y the upper bound *)
Lemma simplify_num_sound : forall k ox oy xv yv a0 b0 a da,
  is_lower_op ox = true -> is_upper_op oy = true ->
  num_of a = Some da -> has k a = true ->
  dsafe a0 = true -> dsafe b0 = true ->
  simplify_num k (mkbound ox xv) (mkbound oy yv) a0 b0 = SBottom ->
  test_rel ox (dcmp da a0) && test_rel oy (dcmp da b0) = false.
Proof.
  intros k ox oy xv yv a0 b0 a da Hox Hoy Ha Hk Sa Sb HB.
  destruct (test_rel ox (dcmp da a0)) eqn:T1; [|reflexivity].
  destruct (test_rel oy (dcmp da b0)) eqn:T2; [|reflexivity]. exfalso.
  apply (lower_spec _ _ _ Hox) in T1. apply (upper_spec _ _ _ Hoy) in T2.
  unfold simplify_num in HB. cbn [b_op] in HB.
  set (noFloat := (N.land k FloatKind =? 0)%N) in *.
  assert (Vz : noFloat = true -> exists z, (dval da == inject_Z z)%Q).
  { intros NF. exact (nofloat_value k a da NF Hk Ha). }
  destruct (lo_adjust noFloat _ a0 _ Sa Vz T1) as [L IL].
  destruct (hi_adjust noFloat _ b0 _ Sb Vz T2) as (U & IH & NZH).
  set (lo := if noFloat && (dexp a0 <? 0) then _ else a0) in *.
  set (hi := if noFloat && (dexp b0 <? 0) then _ else b0) in *.
  destruct ((0 <? dec_sign hi) && (dec_sign lo <=? 0) && (0 <=? dexp hi) && (10 <=? dcoef hi)%N); [discriminate|].
  destruct (ctx_add hi lo true) as [[d inx]|] eqn:EA; [|discriminate].
  destruct inx; [discriminate|].
  destruct (ctx_add_exact _ _ _ _ EA) as [Vd NZ].
  destruct (dneg d) eqn:ND.
  - (* hi - lo is negative, or a negative zero *)
    pose proof (dneg_nonpos d ND) as NP.
    destruct (Qlt_le_dec (dval d) 0) as [Hlt|Hge].
    + apply le_lt_le in L, U. lra.
    + assert (D0 : (dval d == 0)%Q) by lra.
      destruct (NZ eq_refl (dval_zero_coef d D0)) as (N1 & N2 & _ & _).
      rewrite (NZH N1 N2) in U. destruct (bop_eqb ox OGe); cbn in L, U; lra.
  - destruct (dec_int64 d) as [n|] eqn:EI; [|discriminate].
    pose proof (dec_int64_val d n EI) as Vn. rewrite Vd in Vn.
    destruct n as [|[[]|[]|]|]; try discriminate.
    + (* hi - lo = 0 *)
      change (inject_Z 0) with 0%Q in Vn.
      destruct (bop_eqb ox OGe), (bop_eqb oy OLe); try discriminate HB; cbn in L, U; lra.
    + (* hi - lo = 1, between integers *)
      destruct noFloat; [|discriminate].
      destruct (IL eq_refl) as [l El], (IH eq_refl) as [h Eh], (Vz eq_refl) as [z Ez].
      destruct ox; try discriminate Hox; destruct oy; try discriminate Hoy; try discriminate HB.
      cbn in L, U. rewrite El, Ez in L. rewrite Eh, Ez in U. rewrite El, Eh in Vn.
      rewrite <- Zlt_Qlt in L, U. rewrite <- inject_Z_opp, <- inject_Z_plus in Vn.
      unfold Qeq in Vn. cbn [Qnum Qden inject_Z] in Vn. lia.
Qed.

Lemma acmp_num_r : forall a v dv, num_of v = Some dv ->
  acmp a v = match num_of a with Some da => Some (dcmp da dv) | None => None end.
Proof. destruct v; try discriminate; intros dv [= <-]; destruct a; reflexivity. Qed.

Section WithRegexp.
  Variable re : str -> str -> bool.

  Definition satb (a : atom) (x : bound) : bool := sat_bound re a (b_op x) (b_val x).

  Lemma sat_rel : forall a o v, is_rel_op o = true ->
    sat_bound re a o v = match acmp a v with Some c => test_rel o c | None => false end.
  Proof. destruct o; try discriminate; reflexivity. Qed.

  Lemma binop_rel : forall o l r, is_rel_op o = true ->
    binop_bool re o l r = match acmp l r with Some c => cmp_to_bool o c | None => false end.
  Proof. destruct o; try discriminate; destruct l, r; reflexivity. Qed.

  (* BinOp agrees with the set semantics on atoms of the bound's kind *)
  Lemma binop_sat : forall o v a, has (bound_kind (mkbound o v)) a = true ->
    binop_bool re o a v = sat_bound re a o v.
  Proof.
    intros o v a H. destruct (is_rel_op o) eqn:R.
    - rewrite binop_rel, sat_rel by assumption.
      destruct (acmp a v); [apply cmp_to_bool_test_rel, rel_not_ne, R|reflexivity].
    - destruct o; try discriminate R; try reflexivity.
      destruct v, a; try discriminate H; try reflexivity; cbn;
        (destruct (dcmp _ _) || destruct (str_cmp _ _)); reflexivity.
  Qed.

  (* atoms that BinOp's == identifies (1 and 1.0 are) are interchangeable as the
     operand of a bound and as the left operand of BinOp *)
  Lemma equal_bool_sat : forall v w, equal_bool v w = true ->
    forall a o, sat_bound re a o v = sat_bound re a o w.
  Proof.
    destruct v, w; try discriminate; cbn; intros E a o.
    1: reflexivity.
    1: apply eqb_prop in E; subst; reflexivity.
    5-6: destruct (str_cmp _ _) eqn:D; try discriminate E; apply str_cmp_eq in D; subst; reflexivity.
    all: destruct (dcmp _ _) eqn:D; try discriminate E.
    all: destruct o, a; cbn; rewrite ?(cmp_eq_r _ _ dcmp_total_pre _ _ _ D); reflexivity.
  Qed.

  Lemma equal_bool_binop : forall l r, equal_bool l r = true ->
    forall o v, binop_bool re o l v = binop_bool re o r v.
  Proof.
    destruct l, r; try discriminate; cbn; intros E o v.
    1: reflexivity.
    1: apply eqb_prop in E; subst; reflexivity.
    5-6: destruct (str_cmp _ _) eqn:D; try discriminate E; apply str_cmp_eq in D; subst; reflexivity.
    all: destruct (dcmp _ _) eqn:D; try discriminate E.
    all: destruct o, v; cbn; rewrite ?(tp_eq_l _ dcmp_total_pre _ _ _ D); reflexivity.
  Qed.

  Lemma sat_ne_false : forall v a, has (bound_kind (mkbound ONe v)) a = true ->
    sat_bound re a ONe v = false -> equal_bool a v = true.
  Proof.
    destruct v, a; try discriminate; cbn; intros _ E.
    1: apply negb_false_iff, E.
    5-6: destruct (str_cmp _ _); try discriminate E; reflexivity.
    all: destruct (dcmp _ _); try discriminate E; reflexivity.
  Qed.

  (* What a result r of SimplifyBounds on x, y must mean for an atom a.  The meaning of
     bottom is a parameter: the lemmas below are proved once, with a flag [safe]; with
     safe = true the operands are assumed rounding-safe ([bsafe]) and bottom means that a
     satisfies not both (simplify_sound); with safe = false nothing is assumed and nothing is
     claimed about bottom (simplify_keep_sound). *)
  Definition keep_ok (r : sres) (a : atom) (x y : bound) (bot : Prop) : Prop :=
    match r with
    | SKeepX => satb a x = true -> satb a y = true
    | SKeepY => satb a y = true -> satb a x = true
    | SBottom => bot
    | SNone => True
    end.

  (* x and y carry the same operator !=, =~ or !~ *)
  Lemma keep_same_op : forall o xv yv a P,
    keep_ok (if equal_bool xv yv then SKeepX else SNone) a (mkbound o xv) (mkbound o yv) P.
  Proof.
    intros. destruct (equal_bool xv yv) eqn:E; [|exact I].
    unfold keep_ok, satb; cbn [b_op b_val]. rewrite (equal_bool_sat _ _ E). auto.
  Qed.

  (* [!= v] is implied by every bound that v itself violates *)
  Lemma keep_ne : forall o v w a,
    has (bound_kind (mkbound ONe v)) a = true -> has (bound_kind (mkbound o w)) a = true ->
    binop_bool re o v w = false -> sat_bound re a o w = true -> sat_bound re a ONe v = true.
  Proof.
    intros o v w a Hv Hw B S. destruct (sat_bound re a ONe v) eqn:E; [reflexivity|].
    rewrite <- (binop_sat _ _ _ Hw), (equal_bool_binop _ _ (sat_ne_false _ _ Hv E)) in S. congruence.
  Qed.

  Lemma keep_ne_l : forall oy xv yv a P,
    has (bound_kind (mkbound ONe xv)) a = true -> has (bound_kind (mkbound oy yv)) a = true ->
    keep_ok (if negb (binop_bool re oy xv yv) then SKeepY else SNone) a (mkbound ONe xv) (mkbound oy yv) P.
  Proof.
    intros oy xv yv a P Hx Hy. destruct (binop_bool re oy xv yv) eqn:B; [exact I|].
    exact (keep_ne oy xv yv a Hx Hy B).
  Qed.

  Lemma keep_ne_r : forall ox xv yv a P,
    has (bound_kind (mkbound ox xv)) a = true -> has (bound_kind (mkbound ONe yv)) a = true ->
    keep_ok (if negb (binop_bool re ox yv xv) then SKeepX else SNone) a (mkbound ox xv) (mkbound ONe yv) P.
  Proof.
    intros ox xv yv a P Hx Hy. destruct (binop_bool re ox yv xv) eqn:B; [exact I|].
    exact (keep_ne ox yv xv a Hy Hx B).
  Qed.

  (* two lower or two upper bounds: SimplifyBounds keeps the tighter one *)
  Lemma keep_same_dir : forall ox oy xv yv a P,
    has (bound_kind (mkbound ox xv)) a = true -> has (bound_kind (mkbound oy yv)) a = true ->
    is_lower_op ox && is_lower_op oy || is_upper_op ox && is_upper_op oy = true ->
    keep_ok (if binop_bool re (fst (op_info ox)) xv yv then SKeepX else SKeepY) a (mkbound ox xv) (mkbound oy yv) P.
  Proof.
    intros ox oy xv yv a P Hx Hy D.
    assert (R : is_rel_op ox = true /\ is_rel_op oy = true /\ is_rel_op (fst (op_info ox)) = true).
    { destruct ox; try discriminate D; destruct oy; try discriminate D; repeat split. }
    destruct R as (Rx & Ry & Rc).
    unfold keep_ok, satb; cbn [b_op b_val]. rewrite binop_rel, !sat_rel by assumption.
    destruct (acmp a xv) as [cx|] eqn:Ax, (acmp a yv) as [cy|] eqn:Ay.
    - destruct (acmp_family _ _ _ _ _ Ax Ay) as (T & c & ta & tx & ty & Hc & -> & -> & ->).
      pose proof (same_dir_sound T c Hc ox oy ta tx ty D) as S.
      destruct (cmp_to_bool _ _); exact S.
    - rewrite (kind_incomparable _ _ _ xv (proj1 (rel_not_ne _ Ry)) Hy Ay) in Ax. discriminate.
    - rewrite (kind_incomparable _ _ _ yv (proj1 (rel_not_ne _ Rx)) Hx Ax) in Ay. discriminate.
    - destruct (match acmp xv yv with Some c => _ | None => _ end); discriminate.
  Qed.

  (* what SimplifyBounds computes for a lower bound x and an upper bound y *)
  Definition opp_arm (k : N) (x y : bound) : sres :=
    if (k =? StringKind)%N then
      match b_val x, b_val y with AStr s, AStr t => simplify_ordered (str_cmp s t) x y | _, _ => SNone end
    else if (k =? BytesKind)%N then
      match b_val x, b_val y with ABytes s, ABytes t => simplify_ordered (str_cmp s t) x y | _, _ => SNone end
    else match num_of (b_val x), num_of (b_val y) with
         | Some a0, Some b0 => simplify_num k x y a0 b0
         | _, _ => SNone
         end.

  Lemma simplify_opp : forall k x y, is_lower_op (b_op x) = true -> is_upper_op (b_op y) = true ->
    simplify re k x y = opp_arm k x y.
  Proof. intros k [[] xv] [[] yv] Lx Uy; try discriminate Lx; try discriminate Uy; reflexivity. Qed.

  Lemma simplify_opp_swap : forall k x y, is_upper_op (b_op x) = true -> is_lower_op (b_op y) = true ->
    simplify re k x y = opp_arm k y x.
  Proof. intros k [[] xv] [[] yv] Ux Ly; try discriminate Ux; try discriminate Ly; reflexivity. Qed.

  Lemma simplify_ordered_cases : forall c x y, simplify_ordered c x y = SNone \/ simplify_ordered c x y = SBottom.
  Proof. intros. unfold simplify_ordered. destruct c; auto. destruct (_ && _); auto. Qed.

  Lemma simplify_num_cases : forall k x y a b, simplify_num k x y a b = SNone \/ simplify_num k x y a b = SBottom.
  Proof.
    intros. unfold simplify_num.
    destruct (_ && _); auto.
    destruct (ctx_add _ _ _) as [[d []]|]; auto.
    destruct (dneg d); auto.
    destruct (dec_int64 d) as [[|[[]|[]|]|]|]; auto;
      repeat match goal with |- context [if ?c then _ else _] => destruct c end; auto.
  Qed.

  Lemma opp_cases : forall k x y, opp_arm k x y = SNone \/ opp_arm k x y = SBottom.
  Proof.
    intros. unfold opp_arm.
    destruct (k =? StringKind)%N; [destruct (b_val x), (b_val y); auto using simplify_ordered_cases|].
    destruct (k =? BytesKind)%N; [destruct (b_val x), (b_val y); auto using simplify_ordered_cases|].
    destruct (num_of (b_val x)), (num_of (b_val y)); auto using simplify_num_cases.
  Qed.

  Lemma opp_sound : forall k x y a,
    is_lower_op (b_op x) = true -> is_upper_op (b_op y) = true -> has k a = true ->
    bsafe x = true -> bsafe y = true ->
    opp_arm k x y = SBottom -> satb a x && satb a y = false.
  Proof.
    intros k [ox xv] [oy yv] a; cbn [b_op]; intros Lx Uy Hk Sx Sy.
    assert (Rx : is_rel_op ox = true) by (destruct ox; try discriminate Lx; reflexivity).
    assert (Ry : is_rel_op oy = true) by (destruct oy; try discriminate Uy; reflexivity).
    unfold opp_arm, satb; cbn [b_op b_val]. rewrite !sat_rel by assumption.
    destruct (k =? StringKind)%N; [|destruct (k =? BytesKind)%N].
    1-2: destruct xv; try discriminate; destruct yv; try discriminate; intros E;
         destruct a; try reflexivity; exact (ordered_sound str str_cmp str_cmp_pre ox oy _ _ _ _ _ Lx Uy E).
    destruct (num_of xv) as [a0|] eqn:Ex; [|discriminate].
    destruct (num_of yv) as [b0|] eqn:Ey; [|discriminate]. intros E.
    rewrite (acmp_num_r a _ _ Ex), (acmp_num_r a _ _ Ey).
    destruct (num_of a) as [da|] eqn:Na; [|reflexivity].
    apply (simplify_num_sound k ox oy xv yv a0 b0 a da); try assumption.
    - eapply num_of_safe; [exact Sx|exact Ex].
    - eapply num_of_safe; [exact Sy|exact Ey].
  Qed.

  (* [opp_arm] never returns an operand, so the x, y of [keep_ok] are arbitrary: the table
     instantiates them with (l, u) and, after the swap, with (u, l) *)
  Lemma keep_opp : forall (safe : bool) k l u a x y,
    is_lower_op (b_op l) = true -> is_upper_op (b_op u) = true ->
    has k a = true -> (safe = true -> bsafe l = true) -> (safe = true -> bsafe u = true) ->
    keep_ok (opp_arm k l u) a x y (safe = true -> satb a l && satb a u = false).
  Proof.
    intros safe k l u a x y Ll Uu Hk Sl Su.
    destruct (opp_cases k l u) as [E|E]; rewrite E; [exact I|].
    intros S. apply (opp_sound k l u a); auto.
  Qed.

  (* The 7 x 7 table of SimplifyBounds, each cell closed by the lemma of its arm. *)
  Lemma simplify_sound_gen : forall (safe : bool) k x y a,
    has k a = true -> has (bound_kind x) a = true -> has (bound_kind y) a = true ->
    (safe = true -> bsafe x = true) -> (safe = true -> bsafe y = true) ->
    keep_ok (simplify re k x y) a x y (safe = true -> satb a x && satb a y = false).
  Proof.
    intros safe k [ox xv] [oy yv] a Hk Hx Hy Sx Sy.
    (* Each lemma fits the cells of its own arm only (the others fail by conversion or on
       their side condition), so the order of the lines does not matter; a cell left over
       shows its two operators in the goal. *)
    destruct ox, oy.
    (* a relation against =~ or !~, and =~ against !~: nil *)
    all: try exact I.
    (* != with !=, =~ with =~, !~ with !~ *)
    all: try exact (keep_same_op _ xv yv a _).
    (* > or >= with > or >=; < or <= with < or <= *)
    all: try exact (keep_same_dir _ _ xv yv a _ Hx Hy eq_refl).
    (* != with anything else, on the left and on the right *)
    all: try exact (keep_ne_l _ xv yv a _ Hx Hy).
    all: try exact (keep_ne_r _ xv yv a _ Hx Hy).
    (* a lower with an upper bound; an upper with a lower bound, which SimplifyBounds swaps *)
    all: try (rewrite simplify_opp by reflexivity; apply keep_opp; auto).
    all: rewrite simplify_opp_swap, (andb_comm (satb a _)) by reflexivity; apply keep_opp; auto.
  Qed.

  (* SimplifyBounds is sound for every decimal, string and byte operand:
     an operand is returned only if it implies the other one; bottom only if no
     atom of the node's kind satisfies both (for rounding-safe operands) *)
  Theorem simplify_sound : forall k x y a,
    has k a = true -> has (bound_kind x) a = true -> has (bound_kind y) a = true ->
    bsafe x = true -> bsafe y = true ->
    match simplify re k x y with
    | SKeepX => satb a x = satb a x && satb a y
    | SKeepY => satb a y = satb a x && satb a y
    | SBottom => satb a x && satb a y = false
    | SNone => True
    end.
  Proof.
    intros k x y a Hk Hx Hy Sx Sy.
    pose proof (simplify_sound_gen true k x y a Hk Hx Hy (fun _ => Sx) (fun _ => Sy)) as H.
    unfold keep_ok in H. destruct (simplify re k x y); auto.
    - destruct (satb a x); [rewrite H by reflexivity|]; reflexivity.
    - destruct (satb a y); [rewrite H by reflexivity; reflexivity|]. symmetry; apply andb_false_r.
  Qed.

  (* without any side condition an operand is dropped only when it is implied *)
  Theorem simplify_keep_sound : forall k x y a,
    has k a = true -> has (bound_kind x) a = true -> has (bound_kind y) a = true ->
    match simplify re k x y with
    | SKeepX => satb a x = true -> satb a y = true
    | SKeepY => satb a y = true -> satb a x = true
    | _ => True
    end.
  Proof.
    intros k x y a Hk Hx Hy.
    assert (F : forall b, false = true -> b = true) by discriminate.
    pose proof (simplify_sound_gen false k x y a Hk Hx Hy (F _) (F _)) as H.
    unfold keep_ok in H. destruct (simplify re k x y); auto.
  Qed.
End WithRegexp.
