(* C03 - end-to-end theorems about [run] (scheduleConjunct + insertValueConjunct
   + validateValue) against the set semantics [sat_all] of Scalar/Spec.v. *)
From Coq Require Import List ZArith NArith Bool Permutation.
From Verif Require Import Base.Order Scalar.Spec Scalar.Model Scalar.DecProofs Scalar.Proofs Scalar.Accum.
Import ListNotations.
Open Scope Z_scope.

(* the side condition under which SimplifyBounds' integer readjustment is exact:
   no fractional bound operand has an integral part that Ceil/Floor would round
   at precision 34 (and no operand is a negative zero) *)
Definition csafe1 (c : conj) : bool :=
  match c with
  | KBound _ (AFloat d) => dsafe d
  | _ => true
  end.
Definition csafe (c : constr) : bool := match c with CElem e => csafe1 e | CRange _ => true end.
Definition all_safe (cs : list constr) : bool := forallb csafe cs.

Definition verdict_equiv (x y : verdict) : Prop :=
  match x, y with
  | RBottom, RBottom => True
  | RIncomplete, RIncomplete => True
  | RAtom a, RAtom b => atom_eqb a b = true
  | _, _ => False
  end.

Lemma forallb_map : forall {A B} (f : B -> bool) (g : A -> B) l,
  forallb f (map g l) = forallb (fun x => f (g x)) l.
Proof. intros A B f g l. induction l; cbn; [reflexivity|]. rewrite IHl. reflexivity. Qed.

Lemma forallb_ext : forall {A} (f g : A -> bool) l, (forall x, f x = g x) -> forallb f l = forallb g l.
Proof. intros A f g l H. induction l; cbn; [reflexivity|]. rewrite H, IHl. reflexivity. Qed.

Lemma forallb_perm : forall {A} (f : A -> bool) l l', Permutation l l' -> forallb f l = forallb f l'.
Proof.
  intros A f l l' P. induction P; cbn; auto.
  - rewrite IHP. reflexivity.
  - destruct (f x), (f y); reflexivity.
  - congruence.
Qed.

Section WithRegexp.
  Variable re : str -> str -> bool.
  Notation satb := (satb re).
  Notation satv := (satv re).
  Notation Sat := (Sat re).

  Lemma satv_vconj_of : forall a c, satv a (vconj_of c) = sat1 re a c.
  Proof.
    intros a [b|t|o v]; cbn [vconj_of sat1].
    - reflexivity.
    - destruct t, a; reflexivity.
    - unfold eval_bound. destruct v; try reflexivity; destruct o; cbn; try reflexivity; destruct a; reflexivity.
  Qed.

  Lemma vwf_vconj_of : forall c, vwf (vconj_of c) = true.
  Proof. intros [b|t|o v]; cbn; try reflexivity; [destruct t; reflexivity|]. unfold eval_bound. destruct v, o; reflexivity. Qed.

  Lemma vsafe_vconj_of : forall c, csafe1 c = true -> vsafe (vconj_of c) = true.
  Proof.
    intros [b|t|o v]; cbn; try reflexivity; [destruct t; reflexivity|].
    unfold eval_bound. destruct v; cbn; try reflexivity; destruct o; cbn; auto.
  Qed.

  Lemma range_safe : forall r, forallb csafe1 (range_def r) = true.
  Proof. destruct r; vm_compute; reflexivity. Qed.

  Lemma range_no_atom : forall r,
    forallb (fun e => match vconj_of e with VAtom _ => false | _ => true end) (range_def r) = true.
  Proof. destruct r; reflexivity. Qed.

  Lemma values_forallb : forall f c,
    forallb f (values_of c) =
    match c with CElem e => f (vconj_of e) | CRange r => forallb (fun e => f (vconj_of e)) (range_def r) end.
  Proof. intros f [e|r]; cbn [values_of forallb]; [apply andb_true_r|apply forallb_map]. Qed.

  Lemma values_sat : forall a c, forallb (satv a) (values_of c) = sat re a c.
  Proof.
    intros a c. rewrite values_forallb. destruct c; cbn [sat]; [apply satv_vconj_of|].
    apply forallb_ext. intros e. apply satv_vconj_of.
  Qed.

  Lemma values_wf : forall c, forallb vwf (values_of c) = true.
  Proof.
    intros c. rewrite values_forallb. destruct c; [apply vwf_vconj_of|].
    apply forallb_forall. intros e _. apply vwf_vconj_of.
  Qed.

  Lemma values_safe : forall c, csafe c = true -> forallb vsafe (values_of c) = true.
  Proof.
    intros c H. rewrite values_forallb. destruct c as [e|r]; [apply vsafe_vconj_of, H|].
    apply forallb_forall. intros e He. apply vsafe_vconj_of.
    pose proof (range_safe r) as R. rewrite forallb_forall in R. apply R, He.
  Qed.

  (* scheduleConjunct reorders the conjuncts, no more *)
  Lemma in_schedule : forall v cs, In v (schedule cs) <-> exists c, In c cs /\ In v (values_of c).
  Proof.
    intros v cs. unfold schedule. split.
    - intros H. apply in_app_or in H.
      destruct H as [H|H]; apply in_flat_map in H; destruct H as (c & Hc & Hv);
        apply filter_In in Hc; exists c; tauto.
    - intros (c & Hc & Hv). apply in_or_app.
      destruct (deferred c) eqn:D; [right|left]; apply in_flat_map; exists c; split; auto;
        apply filter_In; split; auto. rewrite D. reflexivity.
  Qed.

  Lemma schedule_forallb : forall f cs,
    forallb f (schedule cs) = true <-> forall c, In c cs -> forallb f (values_of c) = true.
  Proof.
    intros f cs. rewrite forallb_forall. split.
    - intros H c Hc. apply forallb_forall. intros v Hv. apply H, in_schedule. exists c. auto.
    - intros H v Hv. apply in_schedule in Hv. destruct Hv as (c & Hc & Hv).
      specialize (H c Hc). rewrite forallb_forall in H. apply H, Hv.
  Qed.

  Lemma schedule_sat : forall a cs, forallb (satv a) (schedule cs) = true <-> sat_all re a cs = true.
  Proof.
    intros a cs. unfold sat_all. rewrite schedule_forallb, forallb_forall.
    split; intros H c Hc; [rewrite <- values_sat|rewrite values_sat]; apply H, Hc.
  Qed.

  Lemma schedule_wf : forall cs, forallb vwf (schedule cs) = true.
  Proof. intros cs. apply schedule_forallb. intros c _. apply values_wf. Qed.

  Lemma schedule_safe : forall cs, all_safe cs = true -> forallb vsafe (schedule cs) = true.
  Proof.
    intros cs H. apply schedule_forallb. intros c Hc. apply values_safe.
    unfold all_safe in H. rewrite forallb_forall in H. apply H, Hc.
  Qed.

  Lemma schedule_atoms : forall cs w, In (VAtom w) (schedule cs) ->
    exists c, In c cs /\ forall a, sat re a c = true -> atom_eqb a w = true.
  Proof.
    intros cs w H. apply in_schedule in H. destruct H as (c & Hc & Hv).
    exists c. split; [assumption|]. intros a Hs.
    destruct c as [e|r]; cbn [values_of] in Hv.
    - destruct Hv as [Hv|[]]. destruct e as [b|t|o v]; cbn [vconj_of] in Hv.
      + injection Hv as <-. exact Hs.
      + destruct t; try discriminate Hv. injection Hv as <-. cbn in Hs. destruct a; try discriminate Hs; reflexivity.
      + unfold eval_bound in Hv. destruct v; try discriminate Hv; destruct (bop_eqb o ONe); discriminate Hv.
    - exfalso. apply in_map_iff in Hv. destruct Hv as (e & He & Hin).
      pose proof (range_no_atom r) as R. rewrite forallb_forall in R.
      specialize (R e Hin). rewrite He in R. discriminate R.
  Qed.

  Lemma has_same_kbit : forall k a b, kbit a = kbit b -> has k a = has k b.
  Proof. intros k a b H. rewrite !has_testbit, H. reflexivity. Qed.

  (* validateValue and the checks of unify.go go through everything the node holds *)
  Lemma validate_stored : forall s v,
    opt_validate re (s_lower s) v && opt_validate re (s_upper s) v
      && forallb (fun c => validate re c v) (s_checks s) = true <->
    forall b, stored s b -> validate re b v = true.
  Proof.
    intros s v. rewrite !andb_true_iff, forallb_forall. unfold stored. split.
    - intros [[E1 E2] E3] b [H|[H|H]]; [rewrite H in E1; exact E1|rewrite H in E2; exact E2|auto].
    - intros H. repeat split; [destruct (s_lower s)|destruct (s_upper s)|]; cbn; auto.
  Qed.

  Lemma finish_spec : forall safe s, Inv safe s -> ScalarKind s ->
    match finish re s with
    | RAtom v => s_scalar s = Some v /\ Sat s v
    | RBottom => forall a, ~ Sat s a
    | RIncomplete => s_scalar s = None /\ s_err s = false
    end.
  Proof.
    intros safe s I SK. unfold finish.
    destruct (s_scalar s) as [v|] eqn:ES.
    - destruct (s_err s) eqn:EE.
      { intros a X. apply Sat_err in X. congruence. }
      assert (Hv : has (s_kind s) v = true).
      { unfold has. rewrite (SK v ES). apply negb_true_iff, N.eqb_neq. intros K.
        rewrite (inv_kind0 _ _ I K) in EE. discriminate EE. }
      assert (V : forall b, stored s b -> validate re b v = satb v b).
      { intros b Hb. apply validate_sat. apply (inv_bkind _ _ I b v Hb Hv). }
      match goal with |- context [if ?c then _ else _] => destruct c eqn:EV end.
      + split; [reflexivity|]. apply Sat_intro; auto.
        * intros w Hw. rewrite ES in Hw. injection Hw as <-. apply atom_eqb_refl.
        * intros b Hb. rewrite <- (V b Hb). apply (proj1 (validate_stored s v) EV b Hb).
      + intros a X. rewrite (proj2 (validate_stored s v)) in EV; [discriminate EV|].
        intros b Hb. rewrite (V b Hb). unfold Proofs.satb.
        rewrite <- (sat_bound_eqb_l re a v _ _ (Sat_scalar re s a v X ES)). apply (Sat_stored re s a b X Hb).
    - destruct (s_err s) eqn:EE.
      + intros a X. apply Sat_err in X. congruence.
      + split; reflexivity.
  Qed.

  Lemma run_step : forall safe cs, (safe = true -> all_safe cs = true) ->
    step re safe init (accumulate re (schedule cs)) (fun a => sat_all re a cs = true).
  Proof.
    intros safe cs Hs. apply step_iff with (fun a => forallb (satv a) (schedule cs) = true).
    - apply fold_spec; [apply schedule_wf|]. intros h. apply schedule_safe, Hs, h.
    - intros a. symmetry. apply schedule_sat.
  Qed.

  (* the set semantics does not tell spellings of one decimal apart *)
  Lemma sat1_eqb_l : forall a a' c, atom_eqb a a' = true -> sat1 re a c = sat1 re a' c.
  Proof.
    intros a a' [b|t|o v] H; cbn [sat1]; [| |apply sat_bound_eqb_l, H];
      destruct (atom_eqb_cases a a' H) as [->|(x & y & -> & -> & E)]; try reflexivity.
    destruct b; cbn; try reflexivity. rewrite (dcmp_eq_l x y d E). reflexivity.
  Qed.

  Lemma sat_eqb_l : forall a a' c, atom_eqb a a' = true -> sat re a c = sat re a' c.
  Proof.
    intros a a' [e|r] H; cbn [sat]; [apply sat1_eqb_l; assumption|].
    apply forallb_ext. intros x. apply sat1_eqb_l. assumption.
  Qed.

  Lemma sat_all_eqb_l : forall a a' cs, atom_eqb a a' = true -> sat_all re a cs = sat_all re a' cs.
  Proof. intros a a' cs H. apply forallb_ext. intros c. apply sat_eqb_l. assumption. Qed.

  (* What [run] returns, for every conjunction and every operand:
     - an atom only if it satisfies every conjunct (no false accept), and then
       it is the only candidate up to spelling;
     - bottom only if nothing satisfies the conjunction, provided the operands
       are rounding-safe;
     - incomplete only if no conjunct is an atom. *)
  Theorem run_spec : forall cs,
    match run re cs with
    | RAtom w => sat_all re w cs = true /\ forall a, sat_all re a cs = true -> atom_eqb a w = true
    | RBottom => all_safe cs = true -> forall a, sat_all re a cs = false
    | RIncomplete => forall a, ~ In (CElem (KAtom a)) cs
    end.
  Proof.
    intros cs. unfold run.
    destruct (run_step false cs ltac:(discriminate) (inv_init false)) as (I & A & _).
    pose proof (finish_spec false _ I (scalar_kind_fold re _ init ltac:(discriminate))) as F.
    fold (accumulate re (schedule cs)) in F.
    destruct (finish re (accumulate re (schedule cs))) as [| |w].
    - intros Hs a. destruct (sat_all re a cs) eqn:E; [|reflexivity].
      destruct (run_step true cs (fun _ => Hs) (inv_init true)) as (_ & _ & B).
      destruct (F a). apply (B eq_refl a (Sat_init re a) E).
    - intros a Ha. destruct F as [F1 F2].
      assert (In (VAtom a) (schedule cs)) as D.
      { apply in_schedule. exists (CElem (KAtom a)). split; [exact Ha|left; reflexivity]. }
      apply (decided_fold re _ init) in D. fold (accumulate re (schedule cs)) in D.
      destruct D as [D|[D|D]]; [congruence|rewrite (inv_kind0 _ _ I D) in F2; discriminate F2|auto].
    - destruct F as [F1 F2]. split; [apply A, F2|]. intros a Ha.
      apply scalar_origin in F1. destruct F1 as [F1|F1]; [discriminate F1|].
      apply schedule_atoms in F1. destruct F1 as (c & Hc & Hw). apply Hw.
      unfold sat_all in Ha. rewrite forallb_forall in Ha. apply Ha, Hc.
  Qed.

  Theorem pinned_atom_correct : forall cs w, run re cs = RAtom w ->
    forall a, sat_all re a cs = true -> atom_eqb a w = true.
  Proof. intros cs w H. pose proof (run_spec cs) as R. rewrite H in R. apply R. Qed.

  (* exactness, under the side condition [all_safe]: a conjunction that contains
     an atom evaluates to (a spelling of) that atom iff the atom satisfies every
     conjunct, and to bottom otherwise *)
  Theorem accumulate_exact_anywhere_when : forall cs a, all_safe cs = true -> In (CElem (KAtom a)) cs ->
    if sat_all re a cs then exists w, run re cs = RAtom w /\ atom_eqb a w = true
    else run re cs = RBottom.
  Proof.
    intros cs a Hs Ha. pose proof (run_spec cs) as R. destruct (run re cs) as [| |w].
    - rewrite (R Hs a). reflexivity.
    - destruct (R a Ha).
    - destruct R as [R _].
      assert (E : atom_eqb w a = true).
      { unfold sat_all in R. rewrite forallb_forall in R. apply (R _ Ha). }
      rewrite <- (sat_all_eqb_l w a cs E), R. exists w. split; [reflexivity|apply atom_eqb_sym, E].
  Qed.

  Lemma sat_all_app : forall a cs cs', sat_all re a (cs ++ cs') = sat_all re a cs && sat_all re a cs'.
  Proof. intros. apply forallb_app. Qed.

  (* an atom that violates a conjunct is rejected, for every conjunction and operand *)
  Theorem reject_complete : forall cs a, sat_all re a cs = false -> run_with re cs a = RBottom.
  Proof.
    intros cs a H. unfold run_with. pose proof (run_spec (cs ++ [CElem (KAtom a)])) as R.
    destruct (run re (cs ++ [CElem (KAtom a)])) as [| |w]; [reflexivity|..].
    - destruct (R a). apply in_or_app. right; left; reflexivity.
    - destruct R as [R _]. rewrite sat_all_app in R. apply andb_true_iff in R. destruct R as [R1 R2].
      cbn in R2. rewrite andb_true_r in R2. rewrite (sat_all_eqb_l w a cs R2) in R1. congruence.
  Qed.

  (* int and float literals are distinct kinds, both are numbers *)
  Lemma int_float_distinct : forall z d,
    sat re (AInt z) (CElem (KAtom (AFloat d))) = false /\
    sat re (AFloat d) (CElem (KAtom (AInt z))) = false /\
    sat re (AInt z) (CElem (KType TFloat)) = false /\
    sat re (AFloat d) (CElem (KType TInt)) = false /\
    sat re (AInt z) (CElem (KType TNumber)) = true /\
    sat re (AFloat d) (CElem (KType TNumber)) = true /\
    (forall cs, run_with re (CElem (KAtom (AFloat d)) :: cs) (AInt z) = RBottom) /\
    (forall cs, run_with re (CElem (KType TFloat) :: cs) (AInt z) = RBottom) /\
    (forall cs, run_with re (CElem (KAtom (AInt z)) :: cs) (AFloat d) = RBottom) /\
    (forall cs, run_with re (CElem (KType TInt) :: cs) (AFloat d) = RBottom).
  Proof.
    intros z d. repeat split; intros cs; apply reject_complete; reflexivity.
  Qed.
End WithRegexp.
