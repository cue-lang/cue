(* The invariant of the decoder state and the two generic preservation lemmas
   (a constraint added to one core type; a constraint added to s.all together
   with an update of allowedTypes / knownTypes, and its two special cases: the
   masks stay, or allowedTypes is narrowed and nothing is added). *)
From Verif Require Import Schema.Json Schema.Sem Schema.Encode Schema.Proofs.
From Coq Require Import List NArith ZArith Bool Lia.
Import ListNotations.

(* states up to the error / deviation flags *)
Definition sem_eq (s s' : state) : Prop :=
  st_A s = st_A s' /\ st_K s = st_K s' /\ st_all s = st_all s' /\ st_C s = st_C s' /\
  st_obj s = st_obj s' /\ st_prefix s = st_prefix s' /\ st_rest s = st_rest s'.

Lemma sem_eq_refl : forall s, sem_eq s s.
Proof. intros s; repeat split. Qed.

Lemma sem_eq_trans : forall a b c, sem_eq a b -> sem_eq b c -> sem_eq a c.
Proof. unfold sem_eq. intros a b c H1 H2. intuition congruence. Qed.

Lemma sem_eq_set_bad : forall s, sem_eq s (set_bad s).
Proof. intros s; repeat split. Qed.
Lemma sem_eq_set_poison : forall s, sem_eq s (set_poison s).
Proof. intros s; repeat split. Qed.
Lemma sem_eq_add_dev : forall c s, sem_eq s (add_dev c s).
Proof. intros c s; repeat split. Qed.
Lemma sem_eq_dev_if : forall b c s, sem_eq s (dev_if b c s).
Proof. intros [] c s; unfold dev_if; [apply sem_eq_add_dev | apply sem_eq_refl]. Qed.
Lemma sem_eq_absorb : forall r s, sem_eq s (absorb r s).
Proof.
  intros r s. unfold absorb.
  eapply sem_eq_trans; [|apply sem_eq_add_dev].
  destruct (r_poison r); [eapply sem_eq_trans; [|apply sem_eq_set_poison]|];
    (destruct (r_bad r); [apply sem_eq_set_bad | apply sem_eq_refl]).
Qed.
Lemma sem_eq_absorb_all : forall rs s, sem_eq s (absorb_all rs s).
Proof.
  induction rs as [|r rs IH]; intros s; simpl; [apply sem_eq_refl|].
  unfold absorb_all in *. simpl. eapply sem_eq_trans; [apply (sem_eq_absorb r)| apply IH].
Qed.
Lemma sem_eq_if : forall (b : bool) s s', sem_eq s s' -> sem_eq s (if b then s' else s).
Proof. intros [] s s' H; [exact H | apply sem_eq_refl]. Qed.

Lemma sem_eq_sym : forall a b, sem_eq a b -> sem_eq b a.
Proof. unfold sem_eq. intros a b H. intuition congruence. Qed.

(* the state-building functions respect sem_eq *)
Lemma sem_eq_add_all : forall s s' e, sem_eq s s' -> sem_eq (add_all s e) (add_all s' e).
Proof.
  intros s s' e (a & b & c & d & f & g & h). unfold add_all. destruct (is_top e); repeat split; simpl; congruence.
Qed.
Lemma sem_eq_set_A : forall s s' m, sem_eq s s' -> sem_eq (set_A s m) (set_A s' m).
Proof. intros s s' m (a & b & c & d & f & g & h). repeat split; simpl; congruence. Qed.
Lemma sem_eq_set_K : forall s s' m, sem_eq s s' -> sem_eq (set_K s m) (set_K s' m).
Proof. intros s s' m (a & b & c & d & f & g & h). repeat split; simpl; congruence. Qed.
Lemma sem_eq_add_C : forall s s' t p, sem_eq s s' -> sem_eq (add_C s t p) (add_C s' t p).
Proof.
  intros s s' t p H. destruct s, s'. destruct H as (a & b & c & d & f & g & h); simpl in *; subst. repeat split.
Qed.
Lemma sem_eq_set_obj : forall s s' o, sem_eq s s' -> sem_eq (set_obj s o) (set_obj s' o).
Proof. intros s s' o (a & b & c & d & f & g & h). repeat split; simpl; congruence. Qed.
Lemma sem_eq_set_list : forall s s' p r, sem_eq s s' -> sem_eq (set_list s p r) (set_list s' p r).
Proof. intros s s' p r (a & b & c & d & f & g & h). repeat split; simpl; congruence. Qed.
Lemma sem_eq_setAK_id : forall s, sem_eq (set_K (set_A s (st_A s)) (st_K s)) s.
Proof. intros s. repeat split. Qed.

(* the deviation list only grows *)
Lemma dev_absorb : forall r s, st_dev (absorb r s) = st_dev s ++ r_dev r.
Proof. intros r s. unfold absorb. simpl. destruct (r_poison r), (r_bad r); reflexivity. Qed.
Lemma dev_dev_if : forall b c s, st_dev (dev_if b c s) = st_dev s ++ (if b then [c] else []).
Proof. intros [] c s; simpl; auto using app_nil_r. Qed.
Lemma dev_absorb_all : forall rs s, st_dev (absorb_all rs s) = st_dev s ++ flat_map r_dev rs.
Proof.
  induction rs as [|r rs IH]; intros s; simpl; [auto using app_nil_r|].
  unfold absorb_all in *. simpl. rewrite IH, dev_absorb, app_assoc. reflexivity.
Qed.

Section Inv.
  Definition allc (st : state) (v : json) : bool := forallb (fun c => ev c v) (st_all st).
  Definition cC (st : state) (v : json) : bool := conjp (st_C st (ctype_of v)) v.
  Definition core (st : state) (v : json) : bool := allc st v && allows (st_A st) (ctype_of v) && cC st v.
  Definition hasc0 (st : state) : bool :=
    match st_all st with [] => false | _ => true end ||
    existsb (fun t => match st_C st t with [] => false | _ => true end) all_ctypes.

  (* what isTop / isErrorCall may assume about an expression *)
  Definition wfe (e : expr) : Prop :=
    (is_top e = true -> forall v, ev e v = true) /\ (is_err e = true -> forall v, ev e v = false).

  Lemma wfe_other : forall p, wfe (e_other p).
  Proof. intros p. split; simpl; discriminate. Qed.
  Lemma wfe_top : wfe e_top.
  Proof. split; simpl; auto; discriminate. Qed.
  Lemma wfe_err : wfe e_err.
  Proof. split; simpl; auto; discriminate. Qed.

  (* [VS]: the instances the keywords decoded so far accept; [T]: the types the
     schema is decoded under (only kinds in [T] are spoken of). *)
  Record Inv (T : mask) (st : state) (VS : json -> Prop) : Prop := mkInv {
    i_AK : forall k, st_A st k = true -> st_K st k = true;
    i_AT : forall k, st_A st k = true -> T k = true;
    (* allowedTypes is sound: an accepted instance has an allowed kind *)
    i_snd : forall v, T (kind_of v) = true -> VS v -> st_A st (kind_of v) = true;
    (* the constraints and the allowed core types together are exact *)
    i_M : forall v, T (kind_of v) = true -> (core st v = true <-> VS v);
    (* knownTypes covers what s.all accepts: finalize may drop the disjunction when A = K *)
    i_K : mempty (st_A st) = false -> forall v, allc st v = true -> allows (st_K st) (ctype_of v) = true;
    (* a per-type constraint only accepts values of its type: the disjuncts do not overlap *)
    i_Ct : forall t p, In p (st_C st t) -> forall v, p v = true -> ctype_of v = t;
    (* without any constraint the mask alone is exact, and does not separate int
       from float inside T: what lets allOf / oneOf drop such a member *)
    i_H : hasc0 st = false ->
          (forall v, T (kind_of v) = true -> st_A st (kind_of v) = true -> VS v) /\ relcc T (st_A st);
    i_wf : forall c, In c (st_all st) -> wfe c
  }.

  (* the invariant only looks at the masks and the constraints *)
  Lemma inv_same_core : forall T st st' VS,
    st_A st = st_A st' -> st_K st = st_K st' -> st_all st = st_all st' -> st_C st = st_C st' ->
    Inv T st VS -> Inv T st' VS.
  Proof.
    intros T st st' VS EA EK Eall EC [h1 h2 h3 h4 h5 h6 h7 h8].
    assert (Ecore : forall v, core st' v = core st v).
    { intros v. unfold core, allc, cC. rewrite <- EA, <- Eall, <- EC. reflexivity. }
    constructor.
    - rewrite <- EA, <- EK. exact h1.
    - rewrite <- EA. exact h2.
    - rewrite <- EA. exact h3.
    - intros v Hv. rewrite Ecore. auto.
    - rewrite <- EA, <- EK. unfold allc in *. rewrite <- Eall. exact h5.
    - rewrite <- EC. exact h6.
    - unfold hasc0. rewrite <- EA, <- Eall, <- EC. exact h7.
    - rewrite <- Eall. exact h8.
  Qed.

  Lemma inv_sem_eq : forall T st st' VS, sem_eq st st' -> Inv T st VS -> Inv T st' VS.
  Proof. intros T st st' VS (EA & EK & Eall & EC & _). apply inv_same_core; assumption. Qed.

  Lemma inv_ext : forall T st (VS VS' : json -> Prop),
    (forall v, T (kind_of v) = true -> (VS v <-> VS' v)) -> Inv T st VS -> Inv T st VS'.
  Proof.
    intros T st VS VS' E [h1 h2 h3 h4 h5 h6 h7 h8]. constructor; auto.
    - intros v Hv H. apply h3; auto. apply E; auto.
    - intros v Hv. rewrite h4 by auto. apply E; auto.
    - intros H. destruct (h7 H) as [a b]. split; auto. intros v Hv HA. apply E; auto.
  Qed.

  Lemma inv_init : forall T, Inv T (init T) (fun _ => True).
  Proof.
    intros T. constructor; simpl; auto.
    - intros v Hv. unfold core, allc, cC, conjp. simpl. rewrite (allows_kind T v Hv). tauto.
    - intros _ v _. apply allows_iff. exists (kind_of v). split; auto.
    - intros t p [].
    - intros _. split; auto. intros k k' _ H1 H2. simpl. congruence.
    - intros c [].
  Qed.

  Lemma cC_add_C : forall st t p v,
    cC (add_C st t p) v = cC st v && (if ctype_eqb (ctype_of v) t then p v else true).
  Proof.
    intros st t p v. unfold cC, add_C, conjp. simpl.
    destruct (ctype_eqb (ctype_of v) t).
    - rewrite forallb_app. simpl. rewrite andb_true_r. reflexivity.
    - rewrite andb_true_r. reflexivity.
  Qed.

  Lemma hasc0_add_C : forall st t p, hasc0 (add_C st t p) = true.
  Proof.
    intros st t p. unfold hasc0. apply orb_true_iff. right. apply existsb_exists.
    exists t. split; [apply all_ctypes_complete|]. simpl. rewrite ctype_eqb_refl.
    destruct (st_C st t); reflexivity.
  Qed.

  Lemma inv_add_C : forall T st VS t p (Q : json -> Prop),
    Inv T st VS ->
    (forall v, p v = true -> ctype_of v = t) ->
    (forall v, ctype_of v = t -> (p v = true <-> Q v)) ->
    (forall v, ctype_of v <> t -> Q v) ->
    Inv T (add_C st t p) (fun v => VS v /\ Q v).
  Proof.
    intros T st VS t p Q [h1 h2 h3 h4 h5 h6 h7 h8] Hp HQ Hother.
    constructor; try exact h1; try exact h2; try exact h8.
    - intros v Hv [H _]. simpl. auto.
    - intros v Hv. unfold core. rewrite cC_add_C. change (allc (add_C st t p) v) with (allc st v).
      change (st_A (add_C st t p)) with (st_A st).
      rewrite <- (h4 v Hv). unfold core.
      destruct (ctype_eqb (ctype_of v) t) eqn:E.
      + apply ctype_eqb_eq in E. rewrite <- (HQ v E).
        rewrite !andb_true_iff. tauto.
      + assert (ctype_of v <> t) by (intro X; apply ctype_eqb_eq in X; congruence).
        rewrite !andb_true_iff. intuition.
    - exact h5.
    - intros t' p' Hin v Hv. simpl in Hin. destruct (ctype_eqb t' t) eqn:E.
      + apply ctype_eqb_eq in E. subst t'. apply in_app_or in Hin. destruct Hin as [Hin | [<- | []]]; eauto.
      + eauto.
    - rewrite hasc0_add_C. discriminate.
  Qed.

  (* a constraint on s.all, with new masks *)
  Definition upd (st : state) (A' K' : mask) (e : expr) : state := add_all (set_K (set_A st A') K') e.

  Lemma upd_fields : forall st A' K' e,
    st_A (upd st A' K' e) = A' /\ st_K (upd st A' K' e) = K' /\ st_C (upd st A' K' e) = st_C st /\
    st_all (upd st A' K' e) = (if is_top e then st_all st else st_all st ++ [e]) /\
    st_obj (upd st A' K' e) = st_obj st /\ st_prefix (upd st A' K' e) = st_prefix st /\
    st_rest (upd st A' K' e) = st_rest st.
  Proof. intros. unfold upd, add_all. destruct (is_top e); simpl; repeat split. Qed.

  Lemma allc_upd : forall st A' K' e v, wfe e -> allc (upd st A' K' e) v = allc st v && ev e v.
  Proof.
    intros st A' K' e v [Ht _]. unfold allc.
    destruct (upd_fields st A' K' e) as (_ & _ & _ & -> & _).
    destruct (is_top e) eqn:E.
    - rewrite (Ht eq_refl v). rewrite andb_true_r. reflexivity.
    - rewrite forallb_app. simpl. rewrite andb_true_r. reflexivity.
  Qed.

  (* [e] joins s.all and the masks become [A'], [K']; [Q] is what the keyword
     demands.  The premises, in the order the proofs that use it bullet them:
     A' below A; A' below K';
     c1g  e, on an instance whose core type A' still allows, gives Q;
     c1h  Q gives e;
     c2   an accepted instance keeps its kind in A';
     c3   K' covers what the new s.all accepts;
     cH   if e is `_` and nothing was constrained before, A' alone is exact. *)
  Lemma inv_upd : forall T st VS A' K' e (Q : json -> Prop),
    Inv T st VS -> wfe e ->
    (forall k, A' k = true -> st_A st k = true) ->
    (forall k, A' k = true -> K' k = true) ->
    (forall v, st_A st (kind_of v) = true -> VS v -> ev e v = true -> allows A' (ctype_of v) = true -> Q v) ->
    (forall v, st_A st (kind_of v) = true -> Q v -> ev e v = true) ->
    (forall v, st_A st (kind_of v) = true -> VS v -> Q v -> A' (kind_of v) = true) ->
    (mempty A' = false -> forall v, allc st v = true -> ev e v = true -> allows K' (ctype_of v) = true) ->
    (is_top e = true -> hasc0 st = false ->
       relcc T A' /\ forall v, T (kind_of v) = true -> A' (kind_of v) = true -> VS v /\ Q v) ->
    Inv T (upd st A' K' e) (fun v => VS v /\ Q v).
  Proof.
    intros T st VS A' K' e Q [h1 h2 h3 h4 h5 h6 h7 h8] We HA HAK c1g c1h c2 c3 cH.
    destruct (upd_fields st A' K' e) as (EA & EK & EC & Eall & _).
    constructor.
    - rewrite EA, EK. exact HAK.
    - rewrite EA. auto.
    - rewrite EA. intros v Hv [H1 H2]. auto.
    - intros v Hv. unfold core. rewrite allc_upd by auto. rewrite EA. unfold cC. rewrite EC.
      fold (cC st v). split.
      + intros H. rewrite !andb_true_iff in H. destruct H as [[[Ha He] Hal] Hc].
        assert (Hcore : core st v = true).
        { unfold core. rewrite Ha, Hc. rewrite (allows_mono A' (st_A st) _ HA Hal). reflexivity. }
        apply (h4 v Hv) in Hcore. split; [exact Hcore|].
        apply c1g; auto.
      + intros [HVS HQ]. pose proof (proj2 (h4 v Hv) HVS) as Hcore. unfold core in Hcore.
        rewrite !andb_true_iff in Hcore. destruct Hcore as [[Ha _] Hc].
        rewrite Ha, Hc. rewrite (c1h v (h3 v Hv HVS) HQ).
        rewrite (allows_kind A' v (c2 v (h3 v Hv HVS) HVS HQ)). reflexivity.
    - rewrite EA, EK. intros Hne v Hall. rewrite allc_upd in Hall by auto.
      apply andb_true_iff in Hall. destruct Hall. auto.
    - rewrite EC. exact h6.
    - intros Hh. assert (Htop : is_top e = true /\ hasc0 st = false).
      { unfold hasc0 in *. rewrite EC, Eall in Hh. apply orb_false_iff in Hh. destruct Hh as [Hh1 Hh2].
        destruct (is_top e) eqn:E.
        - split; auto. rewrite Hh1, Hh2. reflexivity.
        - destruct (st_all st); discriminate. }
      destruct Htop as [Htop Hh0]. destruct (cH Htop Hh0) as [Hcc Hback].
      rewrite EA. split; auto.
    - rewrite Eall. intros c Hin. destruct (is_top e); auto.
      apply in_app_or in Hin. destruct Hin as [Hin | [<- | []]]; auto.
  Qed.

  (* a constraint on s.all that leaves the masks alone *)
  Lemma inv_constraint : forall T st VS e (Q : json -> Prop),
    Inv T st VS -> wfe e -> is_top e = false ->
    (forall v, st_A st (kind_of v) = true -> (ev e v = true <-> Q v)) ->
    Inv T (upd st (st_A st) (st_K st) e) (fun v => VS v /\ Q v).
  Proof.
    intros T st VS e Q H We Ht HQ. apply inv_upd; auto.
    - apply (i_AK _ _ _ H).
    - intros v HA _ He _. apply (HQ v HA), He.
    - intros v HA Hq. apply (HQ v HA), Hq.
    - intros Hne v Hall _. apply (i_K _ _ _ H Hne v Hall).
    - rewrite Ht. discriminate.
  Qed.

  (* allowedTypes narrowed by a mask [X] that decides [q] on the kinds still
     allowed, with `_` as expression.  The invariant speaks of core types, so an
     instance must not be let through on account of the other kind of its core
     type: [X] may separate the two kinds only where the instances accepted so
     far have just one of them, and not at all while nothing is constrained. *)
  Lemma inv_narrow : forall T st VS X (q : json -> bool),
    Inv T st VS ->
    (forall v, st_A st (kind_of v) = true -> q v = X (kind_of v)) ->
    (forall v k, st_A st (kind_of v) = true -> VS v -> ctype_of_kind k = ctype_of v -> st_A st k = true ->
                 X k = true -> X (kind_of v) = true) ->
    (hasc0 st = false -> forall k k', ctype_of_kind k = ctype_of_kind k' ->
                         st_A st k = true -> st_A st k' = true -> X k = X k') ->
    Inv T (upd st (mand (st_A st) X) (st_K st) e_top) (fun v => VS v /\ q v = true).
  Proof.
    intros T st VS X q H Hq Hsep Hrel.
    assert (Hsub : forall k, mand (st_A st) X k = true -> st_A st k = true) by (intros k Hk; apply mand_true in Hk; tauto).
    apply inv_upd; try exact H; try exact Hsub; try apply wfe_top.
    - intros k Hk. apply (i_AK _ _ _ H), Hsub, Hk.
    - intros v HA HVS _ Hal. rewrite (Hq v HA). apply allows_iff in Hal. destruct Hal as [k [Ek Hk]].
      apply mand_true in Hk. destruct Hk as [Hk HX]. apply (Hsep v k); auto.
    - reflexivity.
    - intros v HA _ HQ. apply mand_true. rewrite <- (Hq v HA). auto.
    - intros Hn v Hall _. apply (i_K _ _ _ H (mempty_sub _ _ Hsub Hn) v Hall).
    - intros _ Hh. destruct (i_H _ _ _ H Hh) as [Hback Hcc]. split.
      + intros k k' E Hk Hk'. unfold mand. rewrite (Hcc k k' E Hk Hk').
        destruct (st_A st k') eqn:EA; auto. simpl. apply Hrel; auto. rewrite (Hcc k k' E Hk Hk'). exact EA.
      + intros v Hv Hk. apply mand_true in Hk. destruct Hk as [HA HX]. split; [apply Hback; auto|].
        rewrite (Hq v HA). exact HX.
  Qed.

End Inv.
