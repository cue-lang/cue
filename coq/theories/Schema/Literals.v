(* The struct literal and the list literal: the keywords that build them
   (properties, patternProperties, additionalProperties, required; prefixItems,
   items), and what the finished literals accept. *)
From Verif Require Import Schema.Json Schema.Sem Schema.Encode Schema.Proofs Schema.Invariant Schema.Track Schema.Steps1 Schema.Steps2.
From Coq Require Import List NArith ZArith Bool Lia.
Import ListNotations.

Section ObjSem.
  Variable re : pat -> str -> bool.

  Definition req_step (fs : list field) (k : str) : list field :=
    if existsb (fun f => str_eqb k (f_name f)) fs then mark_required k fs else fs ++ [mkF k true e_top].
  Definition req_fold (req : list str) (fs : list field) : list field := fold_left req_step req fs.

  Definition fval_ok (k : str) (v : json) (f : field) : bool := negb (str_eqb k (f_name f)) || ev (f_val f) v.
  Definition freq_ok (m : list (str * json)) (f : field) : bool := negb (f_req f) || has_key (f_name f) m.

  Lemma mark_vals : forall k0 k v fs, forallb (fval_ok k v) (mark_required k0 fs) = forallb (fval_ok k v) fs.
  Proof.
    induction fs as [|f fs IH]; simpl; auto.
    destruct (str_eqb k0 (f_name f)); simpl; rewrite IH; reflexivity.
  Qed.
  Lemma mark_names : forall k0 k fs,
    existsb (fun f => str_eqb k (f_name f)) (mark_required k0 fs) = existsb (fun f => str_eqb k (f_name f)) fs.
  Proof.
    induction fs as [|f fs IH]; simpl; auto.
    destruct (str_eqb k0 (f_name f)); simpl; rewrite IH; reflexivity.
  Qed.
  Lemma mark_req : forall k0 m fs,
    forallb (freq_ok m) (mark_required k0 fs) =
    forallb (freq_ok m) fs && (negb (existsb (fun f => str_eqb k0 (f_name f)) fs) || has_key k0 m).
  Proof.
    induction fs as [|f fs IH]; simpl; auto.
    destruct (str_eqb k0 (f_name f)) eqn:E; simpl; rewrite IH.
    - apply str_eqb_eq in E. unfold freq_ok at 1 3. simpl. rewrite <- E.
      destruct (f_req f), (has_key k0 m), (forallb (freq_ok m) fs); simpl; auto;
        destruct (existsb (fun f0 => str_eqb k0 (f_name f0)) fs); reflexivity.
    - rewrite andb_assoc. reflexivity.
  Qed.

  Lemma req_fold_vals : forall req k v fs, forallb (fval_ok k v) (req_fold req fs) = forallb (fval_ok k v) fs.
  Proof.
    induction req as [|k0 req IH]; intros k v fs; simpl; auto.
    unfold req_fold in *. simpl. rewrite IH. unfold req_step.
    destruct (existsb (fun f => str_eqb k0 (f_name f)) fs).
    - apply mark_vals.
    - rewrite forallb_app. simpl. unfold fval_ok at 2. simpl. rewrite orb_true_r, !andb_true_r. reflexivity.
  Qed.

  Lemma req_fold_names : forall req k fs,
    existsb (fun f => str_eqb k (f_name f)) (req_fold req fs) =
    existsb (fun f => str_eqb k (f_name f)) fs || mem_str k req.
  Proof.
    induction req as [|k0 req IH]; intros k fs; simpl; [rewrite orb_false_r; reflexivity|].
    unfold req_fold in *. simpl. rewrite IH. unfold req_step.
    destruct (existsb (fun f => str_eqb k0 (f_name f)) fs) eqn:E.
    - rewrite mark_names. destruct (str_eqb k k0) eqn:Ek; simpl; auto.
      apply str_eqb_eq in Ek. subst k0. rewrite E. reflexivity.
    - rewrite existsb_app. simpl. rewrite orb_false_r, <- orb_assoc. reflexivity.
  Qed.

  Lemma req_fold_req : forall req (m : list (str * json)) fs,
    forallb (freq_ok m) (req_fold req fs) = forallb (freq_ok m) fs && forallb (fun k => has_key k m) req.
  Proof.
    induction req as [|k0 req IH]; intros m fs; simpl; [rewrite andb_true_r; reflexivity|].
    unfold req_fold in *. simpl. rewrite IH. unfold req_step.
    destruct (existsb (fun f => str_eqb k0 (f_name f)) fs) eqn:E.
    - rewrite mark_req, E. simpl. rewrite andb_assoc. reflexivity.
    - rewrite forallb_app. simpl. unfold freq_ok at 2. simpl. rewrite andb_true_r, andb_assoc. reflexivity.
  Qed.

  (* an expression built for a subschema means what [V] says of the subschema *)
  Definition agrees {K} (V : schema -> json -> bool) (ks : K * schema) (kr : K * expr) : Prop :=
    fst ks = fst kr /\ forall x, ev (snd kr) x = V (snd ks) x.

  (* the fields and patterns built from the subschemas of properties [lp] and of
     patternProperties [lpp] *)
  Section Fields.
  Variable lp : list (str * schema).
  Variable lpp : list (pat * schema).
  Variable V : schema -> json -> bool.

  Definition fields0 (rp : list (str * expr)) : list field := map (fun kr => mkF (fst kr) false (snd kr)) rp.

  Lemma fields0_vals : forall (rp : list (str * expr)) k v,
    Forall2 (agrees V) lp rp ->
    forallb (fval_ok k v) (fields0 rp) = forallb (fun ks => negb (str_eqb k (fst ks)) || V (snd ks) v) lp.
  Proof.
    intros rp k v F. induction F as [|ks kr l r [E1 E2] F IH]; simpl; auto.
    rewrite IH. unfold fval_ok. simpl. rewrite E1, E2. reflexivity.
  Qed.

  Lemma fields0_names : forall (rp : list (str * expr)) k,
    Forall2 (agrees V) lp rp ->
    existsb (fun f => str_eqb k (f_name f)) (fields0 rp) = has_key k lp.
  Proof.
    intros rp k F. unfold has_key. induction F as [|ks kr l r [E1 E2] F IH]; simpl; auto.
    rewrite IH, E1. reflexivity.
  Qed.

  Lemma fields0_req : forall (rp : list (str * expr)) m, forallb (freq_ok m) (fields0 rp) = true.
  Proof. induction rp as [|x rp IH]; intros m; simpl; auto. Qed.

  Lemma pats_vals : forall (rpp : list (pat * expr)) k v,
    Forall2 (agrees V) lpp rpp ->
    forallb (fun pe => negb (re (fst pe) k) || ev (snd pe) v) rpp =
    forallb (fun ps => negb (re (fst ps) k) || V (snd ps) v) lpp.
  Proof.
    intros rpp k v F. induction F as [|ps pr l r [E1 E2] F IH]; simpl; auto.
    rewrite IH, E1, E2. reflexivity.
  Qed.

  Lemma pats_names : forall (rpp : list (pat * expr)) k,
    Forall2 (agrees V) lpp rpp ->
    existsb (fun pe => re (fst pe) k) rpp = existsb (fun ps => re (fst ps) k) lpp.
  Proof.
    intros rpp k F. induction F as [|ps pr l r [E1 E2] F IH]; simpl; auto.
    rewrite IH, E1. reflexivity.
  Qed.

  Lemma pats_map_fst : forall (rpp : list (pat * expr)) k,
    forallb (fun p => negb (re p k)) (map fst rpp) = negb (existsb (fun pe => re (fst pe) k) rpp).
  Proof.
    induction rpp as [|x r IH]; intros k; simpl; auto. rewrite IH, negb_orb. reflexivity.
  Qed.

  End Fields.

  Lemma mem_str_names : forall fs k, mem_str k (map f_name fs) = existsb (fun f => str_eqb k (f_name f)) fs.
  Proof. induction fs as [|f fs IH]; intros k; simpl; auto. unfold mem_str in *. simpl. rewrite IH. reflexivity. Qed.

End ObjSem.

Section Steps.
  Variable re : pat -> str -> bool.
  Variable T : mask.

  Lemma inv_set_obj : forall st o VS, Inv T st VS -> Inv T (set_obj st o) VS.
  Proof. intros. eapply inv_same_core; [| | | | exact H]; reflexivity. Qed.
  Lemma inv_set_list : forall st p r VS, Inv T st VS -> Inv T (set_list st p r) VS.
  Proof. intros. eapply inv_same_core; [| | | | exact H]; reflexivity. Qed.

  Lemma lit_set_obj : forall st st' st'' (h : objb -> objb), sem_eq st st' -> sem_eq st st'' ->
    lit_of (set_obj st' (h (the_obj st''))) = in_obj h (lit_of st).
  Proof.
    intros st st' st'' h H H'. pose proof (lit_sem_eq _ _ H) as E. pose proof (lit_sem_eq _ _ H') as E'.
    unfold lit_of in *. injection E as _ -> ->. injection E' as -> _ _. reflexivity.
  Qed.

  Lemma lit_set_list : forall st st' p r, sem_eq st st' ->
    lit_of (set_list st' p r) = in_list (fun _ => (p, r)) (lit_of st).
  Proof.
    intros st st' p r H. pose proof (lit_sem_eq _ _ H) as E. unfold lit_of in *. injection E as -> _ _. reflexivity.
  Qed.

  Definition olist {X} (o : option (list X)) : list X := match o with Some l => l | None => [] end.

  (* the expression of a subschema decoded under all types *)
  Definition e_of (s : schema) : expr := r_e (enc re s mall).

  Lemma e_of_valid : forall s, SubGood re s -> r_dev (enc re s mall) = [] -> forall x, ev (e_of s) x = valid re s x.
  Proof. intros s H D x. apply (g_ev _ _ _ _ (H mall D) x eq_refl). Qed.

  (* the subschemas of properties / patternProperties and their expressions *)
  Definition exprs {K} (o : option (list (K * schema))) : list (K * expr) :=
    map (fun ks => (fst ks, e_of (snd ks))) (olist o).

  Lemma sub_rel : forall {K} (l : list (K * schema)),
    Forall (fun ks => SubGood re (snd ks)) l ->
    flat_map r_dev (map snd (map (fun ks : K * sub => (fst ks, snd ks mall)) (map (fun ks => (fst ks, enc re (snd ks))) l))) = [] ->
    Forall2 (agrees (valid re)) l (exprs (Some l)).
  Proof.
    intros K l. induction 1 as [|ks l Hk F IH]; intros D; simpl in *; constructor.
    - split; auto. apply app_eq_nil in D. destruct D as [D _]. apply (e_of_valid _ Hk D).
    - apply IH. apply app_eq_nil in D. tauto.
  Qed.

  Definition props_obj (o : option (list (str * schema))) (ob : objb) : objb :=
    mkO (ob_fields ob ++ fields0 (exprs o)) (ob_pats ob) (ob_addl ob) (ob_open ob).
  Definition pprops_obj (o : option (list (pat * schema))) (ob : objb) : objb :=
    mkO (ob_fields ob) (ob_pats ob ++ exprs o) (ob_addl ob) (ob_open ob).

  Lemma objb_eta : forall o, mkO (ob_fields o) (ob_pats o) (ob_addl o) (ob_open o) = o.
  Proof. intros []; reflexivity. Qed.

  Lemma lit_props : forall o, optP (Forall (fun ks => SubGood re (snd ks))) o ->
    Lit T (do_props (option_map (map (fun ks => (fst ks, enc re (snd ks)))) o))
        (in_obj (props_obj o)) (fun _ => Forall2 (agrees (valid re)) (olist o) (exprs o)).
  Proof.
    intros [l|] IH.
    - apply lit_intro; intros st; cbn [option_map do_props]; unfold step_props.
      + etransitivity; [apply (lit_set_obj st _ _ (fun ob => mkO (ob_fields ob ++ _) (ob_pats ob) (ob_addl ob) (ob_open ob)));
                        (eapply sem_eq_trans; [apply sem_eq_absorb_all | apply sem_eq_dev_if])|].
        unfold props_obj, fields0, exprs, e_of. cbn [olist]. rewrite !map_map. reflexivity.
      + cbn [st_dev set_obj]. rewrite dev_dev_if, dev_absorb_all. intros D. apply app_eq_nil in D. destruct D as [D _].
        apply app_eq_nil in D. split; [tauto|]. apply sub_rel; tauto.
      + intros VS H. apply inv_set_obj.
        eapply inv_sem_eq; [|exact H]. eapply sem_eq_trans; [apply sem_eq_absorb_all | apply sem_eq_dev_if].
    - apply step_id; [|constructor|auto]. intros [ob ls]. unfold in_obj, props_obj. cbn. rewrite app_nil_r, objb_eta. reflexivity.
  Qed.

  Lemma lit_pprops : forall o, optP (Forall (fun ks => SubGood re (snd ks))) o ->
    Lit T (do_pprops (option_map (map (fun ks => (fst ks, enc re (snd ks)))) o))
        (in_obj (pprops_obj o)) (fun _ => Forall2 (agrees (valid re)) (olist o) (exprs o)).
  Proof.
    intros [l|] IH.
    - apply lit_intro; intros st; cbn [option_map do_pprops]; unfold step_pprops.
      + etransitivity; [apply (lit_set_obj st _ _ (fun ob => mkO (ob_fields ob) (ob_pats ob ++ _) (ob_addl ob) (ob_open ob)));
                        apply sem_eq_absorb_all|].
        unfold pprops_obj, exprs, e_of. cbn [olist]. rewrite !map_map. reflexivity.
      + cbn [st_dev set_obj]. rewrite dev_absorb_all. intros D. apply app_eq_nil in D. split; [tauto|]. apply sub_rel; tauto.
      + intros VS H. apply inv_set_obj. eapply inv_sem_eq; [|exact H]. apply sem_eq_absorb_all.
    - apply step_id; [|constructor|auto]. intros [ob ls]. unfold in_obj, pprops_obj. cbn. rewrite app_nil_r, objb_eta. reflexivity.
  Qed.

  (* additionalProperties on the struct under construction *)
  Definition addl_obj (syn : option schema) (e : expr) (ob : objb) : objb :=
    match syn with
    | Some (SBool b) => mkO (ob_fields ob) (ob_pats ob) (ob_addl ob) (if b then ExplicitlyOpen else ExplicitlyClosed)
    | Some _ =>
      mkO (ob_fields ob) (ob_pats ob)
          (Some (if ob_no_elts ob then AddlAll e else AddlExcept (map fst (ob_pats ob)) (map f_name (ob_fields ob)) e))
          AllFieldsCovered
    | None => ob
    end.
  Definition oe_of (o : option schema) : expr := match o with Some s => e_of s | None => e_top end.

  (* constraintAdditionalProperties switches on whether the value is a boolean;
     a schema that is not one stays a variable below *)
  Lemma do_addl_nonbool : forall s' f st, (forall b, s' <> SBool b) ->
    do_addl (Some s') (Some f) st = step_addl_schema (f mall) st.
  Proof. intros [b|a p] f st H; [destruct (H b eq_refl) | reflexivity]. Qed.
  Lemma addl_obj_nonbool : forall s' e ob, (forall b, s' <> SBool b) ->
    addl_obj (Some s') e ob =
    mkO (ob_fields ob) (ob_pats ob)
        (Some (if ob_no_elts ob then AddlAll e else AddlExcept (map fst (ob_pats ob)) (map f_name (ob_fields ob)) e))
        AllFieldsCovered.
  Proof. intros [b|a p] e ob H; [destruct (H b eq_refl) | reflexivity]. Qed.

  Lemma lit_addl : forall o, optP (SubGood re) o ->
    Lit T (do_addl o (option_map (enc re) o)) (in_obj (addl_obj o (oe_of o)))
        (fun _ => optP (fun s' => forall x, ev (e_of s') x = valid re s' x) o).
  Proof.
    intros [s'|] IH; [|apply step_id; cbn; auto; intros [ob ls]; reflexivity].
    assert (Hs : (exists b, s' = SBool b) \/ forall b, s' <> SBool b)
      by (destruct s'; [left; eauto | right; intros b' H'; discriminate H']).
    destruct Hs as [[b ->]|Hs]; apply lit_intro; intros st; cbn [option_map optP oe_of].
    - reflexivity.
    - intros D. split; [exact D|]. intros x. destruct b; reflexivity.
    - intros VS H. apply inv_set_obj, H.
    - rewrite (do_addl_nonbool _ _ _ Hs). unfold step_addl_schema.
      rewrite <- (lit_set_obj st _ _ (addl_obj (Some s') (e_of s')) (sem_eq_absorb (enc re s' mall) st)
                              (sem_eq_absorb (enc re s' mall) st)).
      rewrite (addl_obj_nonbool _ _ _ Hs). destruct (ob_no_elts _); reflexivity.
    - rewrite (do_addl_nonbool _ _ _ Hs). unfold step_addl_schema.
      assert (Dv : st_dev (absorb (enc re s' mall) st) = [] -> st_dev st = [] /\ r_dev (enc re s' mall) = [])
        by (rewrite dev_absorb; apply app_eq_nil).
      intros D. destruct (ob_no_elts _); destruct (Dv D) as [D0 Dr]; (split; [exact D0 | exact (e_of_valid _ IH Dr)]).
    - rewrite (do_addl_nonbool _ _ _ Hs). unfold step_addl_schema. intros VS H.
      assert (H' : Inv T (absorb (enc re s' mall) st) VS) by (eapply inv_sem_eq; [apply sem_eq_absorb | exact H]).
      destruct (ob_no_elts _); apply inv_set_obj; exact H'.
  Qed.

  Definition req_obj (o : option (list str)) (ob : objb) : objb :=
    mkO (req_fold (olist o) (ob_fields ob)) (ob_pats ob) (ob_addl ob) (ob_open ob).

  (* the condition under which `required` raises DEV_required_closed *)
  Definition req_dev_cond (req : list str) (o : objb) : bool :=
    match ob_open o with
    | ExplicitlyClosed => existsb (fun k => negb (existsb (fun f => str_eqb k (f_name f)) (ob_fields o))) req
    | _ => false
    end.

  Lemma lit_required : forall o,
    Lit T (opt_step step_required o) (in_obj (req_obj o))
        (fun l => optP (fun req => req_dev_cond req (fst l) = false) o).
  Proof.
    intros [req|].
    - assert (E : forall st, sem_eq st (if nodup_str req then st else set_bad st))
        by (intros st; destruct (nodup_str req); [apply sem_eq_refl | apply sem_eq_set_bad]).
      apply lit_intro; intros st; cbn [opt_step optP]; unfold step_required.
      + apply (lit_set_obj st _ _ (req_obj (Some req))); [eapply sem_eq_trans; [apply E | apply sem_eq_dev_if] | apply E].
      + cbn [st_dev set_obj]. rewrite dev_dev_if.
        assert (D0 : st_dev (if nodup_str req then st else set_bad st) = st_dev st /\
                     the_obj (if nodup_str req then st else set_bad st) = the_obj st) by (destruct (nodup_str req); auto).
        destruct D0 as [-> ->]. intros D. apply app_eq_nil in D. split; [tauto|]. destruct D as [_ D].
        unfold req_dev_cond, lit_of. cbn [fst]. destruct (ob_open _); try reflexivity.
        destruct (existsb _ req); [discriminate | reflexivity].
      + intros VS H. apply inv_set_obj. eapply inv_sem_eq; [|exact H]. eapply sem_eq_trans; [apply E | apply sem_eq_dev_if].
    - apply step_id; cbn; auto. intros [ob ls]. unfold in_obj, req_obj. cbn. rewrite objb_eta. reflexivity.
  Qed.

  Definition prefix_lit (o : option (list schema)) (ls : option (list expr) * lrest) : option (list expr) * lrest :=
    match o with Some l => (Some (map e_of l), RAny) | None => ls end.

  Lemma lit_prefix : forall o,
    Lit T (do_prefix (option_map (map (enc re)) o)) (in_list (prefix_lit o)) (fun _ => optP (fun l => l = []) o).
  Proof.
    intros [l|].
    - assert (E : forall rs st, sem_eq st (dev_if (match rs with [] => false | _ => true end) DEV_prefixItems (absorb_all rs st)))
        by (intros rs st; eapply sem_eq_trans; [apply sem_eq_absorb_all | apply sem_eq_dev_if]).
      apply lit_intro; intros st; cbn [option_map do_prefix optP]; unfold step_prefix.
      + rewrite (lit_set_list st) by apply E. unfold in_list, prefix_lit, e_of. rewrite !map_map. reflexivity.
      + cbn [st_dev set_list]. rewrite dev_dev_if, dev_absorb_all. intros D. apply app_eq_nil in D. destruct D as [D D'].
        apply app_eq_nil in D. split; [tauto|]. destruct l; [reflexivity | discriminate].
      + intros VS H. apply inv_set_list. eapply inv_sem_eq; [apply E | exact H].
    - apply step_id; cbn; auto. intros [ob ls]. reflexivity.
  Qed.

  Definition items_lit (o : option schema) (ls : option (list expr) * lrest) : option (list expr) * lrest :=
    match o with
    | Some s => (fst ls, match fst ls with
                         | Some _ => if is_err (e_of s) then RNone else if is_top (e_of s) then snd ls else RType (e_of s)
                         | None => snd ls
                         end)
    | None => ls
    end.

  (* items: the rest of the list literal when there is one (prefixItems), a
     constraint on arrays otherwise *)
  Lemma items_step : forall o, optP (SubGood re) o ->
    Step T (do_items (option_map (enc re) o)) (in_list (items_lit o))
         (fun _ => optP (fun s' => Good re mall s' (enc re s' mall)) o)
         (fun l v => optP (fun s' => fst (snd l) = None -> on_arr (forallb (valid re s')) v = true) o).
  Proof.
    intros [x|] IH; [|apply step_id; cbn; auto; intros [ob ls]; reflexivity]. pose (r := enc re x mall).
    assert (D : forall st, st_dev (step_items r st) = [] -> st_dev st = [] /\ r_dev r = []).
    { intros st Dv. unfold step_items in Dv.
      assert (X : st_dev (absorb r st) = [])
        by (destruct (st_prefix (absorb r st)); [destruct (is_err (r_e r)); [|destruct (is_top (r_e r))]|]; exact Dv).
      rewrite dev_absorb in X. apply app_eq_nil in X. exact X. }
    split; intros st; cbn [option_map do_items optP]; fold r.
    - unfold step_items. destruct (sem_eq_absorb r st) as (_ & _ & _ & _ & Eo & Ep & Er). rewrite <- Ep.
      unfold in_list, items_lit, lit_of, the_obj, e_of. fold r. cbn [fst snd].
      destruct (st_prefix st) eqn:Eps; [destruct (is_err (r_e r)); [|destruct (is_top (r_e r))]|];
        cbn [st_obj st_prefix st_rest set_list add_C]; rewrite <- ?Eo, <- ?Ep, <- ?Er, ?Eps; reflexivity.
    - intros Dv. destruct (D st Dv) as [D0 Dr]. split; [exact D0 | apply IH, Dr].
    - intros VS Dv H. destruct (D st Dv) as [_ Dr]. pose proof (IH mall Dr) as G. fold r in G.
      pose proof (inv_sem_eq T _ _ _ (sem_eq_absorb r st) H) as H'.
      unfold step_items. destruct (sem_eq_absorb r st) as (_ & _ & _ & _ & _ & Ep & _). rewrite <- Ep. cbn [lit_of fst snd].
      destruct (st_prefix st) as [ps|].
      + eapply inv_ext with (VS := VS); [intros v _; split; [intros; split; auto; discriminate | tauto]|].
        destruct (is_err (r_e r)); [|destruct (is_top (r_e r))]; try exact H'; apply inv_set_list, H'.
      + eapply inv_ext; [|exact (inv_typed T _ _ _ _ _ (typed_arr (forallb (ev (r_e r)))) H')].
        intros v _. cbv beta. destruct v; simpl; try tauto.
        assert (Y : forallb (ev (r_e r)) l = forallb (valid re x) l).
        { induction l as [|y l IHl]; simpl; auto. rewrite IHl, (g_ev _ _ _ _ G y eq_refl). reflexivity. }
        rewrite Y. tauto.
  Qed.

End Steps.

Section Accepts.
  Variable re : pat -> str -> bool.


  Lemma is_additional_norm : forall (o1 : option (list (str * schema))) (o2 : option (list (pat * schema))) k,
    is_additional re o1 o2 k = negb (has_key k (olist o1)) && negb (existsb (fun ps => re (fst ps) k) (olist o2)).
  Proof. intros [l1|] [l2|] k; reflexivity. Qed.

  Section Struct.
    Variable lp : list (str * schema).
    Variable lpp : list (pat * schema).
    Variable rp : list (str * expr).
    Variable rpp : list (pat * expr).
    Hypothesis Hp : Forall2 (agrees (valid re)) lp rp.
    Hypothesis Hpp : Forall2 (agrees (valid re)) lpp rpp.
    Variable req : list str.

    Definition sp_props (m : list (str * json)) : bool :=
      forallb (fun kv => forallb (fun ks => negb (str_eqb (fst kv) (fst ks)) || valid re (snd ks) (snd kv)) lp) m.
    Definition sp_pprops (m : list (str * json)) : bool :=
      forallb (fun kv => forallb (fun ps => negb (re (fst ps) (fst kv)) || valid re (snd ps) (snd kv)) lpp) m.
    Definition sp_req (m : list (str * json)) : bool := forallb (fun k => has_key k m) req.
    Definition is_add (k : str) : bool := negb (has_key k lp) && negb (existsb (fun ps => re (fst ps) k) lpp).

    Lemma struct_common : forall ad op m,
      struct_ok re (mkO (req_fold req (fields0 rp)) rpp ad op) m =
      sp_props m && sp_pprops m &&
      forallb (fun kv => match ad with
                         | Some a0 => match addl_applies re a0 (fst kv) with Some e => ev e (snd kv) | None => true end
                         | None => true
                         end) m &&
      forallb (fun kv => match op with
                         | ExplicitlyClosed => has_key (fst kv) lp || mem_str (fst kv) req || existsb (fun ps => re (fst ps) (fst kv)) lpp
                         | _ => true
                         end) m &&
      sp_req m.
    Proof.
      intros ad op m. unfold struct_ok. cbn [ob_fields ob_pats ob_addl ob_open].
      change (forallb (fun f => negb (f_req f) || has_key (f_name f) m) (req_fold req (fields0 rp)))
        with (forallb (freq_ok m) (req_fold req (fields0 rp))).
      rewrite req_fold_req, fields0_req. rewrite andb_true_l. f_equal.
      unfold sp_props, sp_pprops. rewrite <- !forallb_andb. apply forallb_pointwise. intros [k v]. cbn [fst snd].
      change (forallb (fun f => negb (str_eqb k (f_name f)) || ev (f_val f) v) (req_fold req (fields0 rp)))
        with (forallb (fval_ok k v) (req_fold req (fields0 rp))).
      rewrite req_fold_vals, (fields0_vals lp (valid re) rp k v Hp).
      rewrite (pats_vals re lpp (valid re) rpp k v Hpp).
      f_equal. destruct op; auto.
      rewrite req_fold_names, (fields0_names lp (valid re) rp k Hp), (pats_names re lpp (valid re) rpp k Hpp). reflexivity.
    Qed.

    (* additionalProperties absent or true *)
    Lemma struct_open : forall op m, op <> ExplicitlyClosed ->
      struct_ok re (mkO (req_fold req (fields0 rp)) rpp None op) m = sp_props m && sp_pprops m && sp_req m.
    Proof.
      intros op m Hop. rewrite struct_common. rewrite forallb_true, andb_true_r.
      assert (E : forallb (fun kv : str * json => match op with ExplicitlyClosed =>
                    has_key (fst kv) lp || mem_str (fst kv) req || existsb (fun ps => re (fst ps) (fst kv)) lpp | _ => true end) m = true).
      { destruct op; try apply forallb_true. congruence. }
      rewrite E, andb_true_r. reflexivity.
    Qed.

    (* additionalProperties: false, every required name is a property; the right side is written as
       [v_addl] unfolds for the schema `false` *)
    Lemma struct_closed : forall m, (forall k, In k req -> has_key k lp = true) ->
      struct_ok re (mkO (req_fold req (fields0 rp)) rpp None ExplicitlyClosed) m =
      sp_props m && sp_pprops m && forallb (fun kv => negb (is_add (fst kv)) || false) m && sp_req m.
    Proof.
      intros m Hreq. rewrite struct_common. rewrite forallb_true, andb_true_r. f_equal. f_equal.
      apply forallb_pointwise. intros [k v]. cbn [fst]. unfold is_add. rewrite orb_false_r, negb_andb, !negb_involutive.
      destruct (has_key k lp) eqn:E1; simpl; auto.
      destruct (mem_str k req) eqn:E2; simpl; auto.
      unfold mem_str in E2. apply existsb_exists in E2. destruct E2 as [k' [Hin Ek]]. apply str_eqb_eq in Ek. subst k'.
      rewrite (Hreq k Hin) in E1. discriminate.
    Qed.

    (* additionalProperties: a schema *)
    Lemma struct_addl : forall s' e m,
      (forall x, ev e x = valid re s' x) ->
      struct_ok re (mkO (req_fold req (fields0 rp)) rpp
                        (Some (match fields0 rp, rpp with
                               | [], [] => AddlAll e
                               | _, _ => AddlExcept (map fst rpp) (map f_name (fields0 rp)) e
                               end)) AllFieldsCovered) m =
      sp_props m && sp_pprops m && forallb (fun kv => negb (is_add (fst kv)) || valid re s' (snd kv)) m && sp_req m.
    Proof.
      intros s' e m He. rewrite struct_common. rewrite (forallb_true m), andb_true_r. f_equal. f_equal.
      apply forallb_pointwise. intros [k v]. cbn [fst snd]. unfold is_add.
      assert (Eadd : addl_applies re (match fields0 rp, rpp with
                               | [], [] => AddlAll e
                               | _, _ => AddlExcept (map fst rpp) (map f_name (fields0 rp)) e
                               end) k =
                     if negb (existsb (fun pe => re (fst pe) k) rpp) && negb (mem_str k (map f_name (fields0 rp))) then Some e else None).
      { destruct (fields0 rp) as [|f0 fr] eqn:Ef; destruct rpp as [|p0 pr] eqn:Ep; try reflexivity;
          unfold addl_applies, excluded_by_names; rewrite pats_map_fst; reflexivity. }
      rewrite Eadd. rewrite mem_str_names, (fields0_names lp (valid re) rp k Hp), (pats_names re lpp (valid re) rpp k Hpp).
      rewrite andb_comm. destruct (negb (has_key k lp) && negb (existsb (fun ps => re (fst ps) k) lpp)); simpl; auto.
    Qed.
  End Struct.

  Lemma struct_ok_empty : forall m, struct_ok re ob_empty m = true.
  Proof. intros m. unfold struct_ok. simpl. rewrite andb_true_r. induction m; simpl; auto. Qed.

  Definition obj_ok (ob : objb) (v : json) : bool := match v with JObj m => struct_ok re ob m | _ => true end.
  Definition list_ok (ls : option (list expr) * lrest) (v : json) : bool :=
    match v, fst ls with JArr l, Some ps => tuple_ok ps (snd ls) l | _, _ => true end.

  (* the struct literal after all four keywords *)
  Definition final_obj (a : assertions) (p : applic schema) : objb :=
    req_obj (a_required a)
      (addl_obj (ap_addl p) (oe_of re (ap_addl p)) (pprops_obj re (ap_pprops p) (props_obj re (ap_props p) ob_empty))).

  Lemma on_obj_other : forall f v, (forall m, v <> JObj m) -> on_obj f v = true.
  Proof. intros f [] H; try reflexivity. destruct (H m eq_refl). Qed.

  Lemma obj_part : forall a p v,
    Forall2 (agrees (valid re)) (olist (ap_props p)) (exprs re (ap_props p)) ->
    Forall2 (agrees (valid re)) (olist (ap_pprops p)) (exprs re (ap_pprops p)) ->
    optP (fun s' => forall x, ev (e_of re s') x = valid re s' x) (ap_addl p) ->
    optP (fun req => req_dev_cond req
            (addl_obj (ap_addl p) (oe_of re (ap_addl p)) (pprops_obj re (ap_pprops p) (props_obj re (ap_props p) ob_empty))) = false)
         (a_required a) ->
    (obj_ok (final_obj a p) v = true <->
     v_props (valid re) p v = true /\ v_pprops re (valid re) p v = true /\
     v_addl re (valid re) p v = true /\
     optb (fun req => on_obj (fun m => forallb (fun k => has_key k m) req) v) (a_required a) = true).
  Proof.
    intros a p v Hp Hpp He Hd.
    assert (Hn : (exists m, v = JObj m) \/ forall m, v <> JObj m)
      by (destruct v; try (right; intros m' H'; discriminate H'); left; eauto).
    destruct Hn as [[m ->]|Hv].
    2: { assert (Eo : obj_ok (final_obj a p) v = true) by (destruct v; try reflexivity; destruct (Hv m eq_refl)).
         rewrite Eo. unfold v_props, v_pprops, v_addl.
         split; [intros _|reflexivity].
         repeat split.
         all: match goal with |- optb _ ?o = true => destruct o; cbn [optb]; auto end; apply on_obj_other, Hv. }
    cbn [obj_ok].
    unfold final_obj, req_obj, pprops_obj, props_obj in *. cbn [ob_fields ob_pats ob_addl ob_open ob_empty app] in *.
    set (lp := olist (ap_props p)) in *. set (lpp := olist (ap_pprops p)) in *. set (req := olist (a_required a)).
    set (rp := exprs re (ap_props p)) in *. set (rpp := exprs re (ap_pprops p)) in *. set (e := oe_of re (ap_addl p)) in *.
    assert (Vp : v_props (valid re) p (JObj m) = sp_props lp m).
    { unfold v_props, sp_props, lp. destruct (ap_props p); simpl; auto. symmetry. apply forallb_true. }
    assert (Vpp : v_pprops re (valid re) p (JObj m) = sp_pprops lpp m).
    { unfold v_pprops, sp_pprops, lpp. destruct (ap_pprops p); simpl; auto. symmetry. apply forallb_true. }
    assert (Vr : optb (fun req => on_obj (fun m => forallb (fun k => has_key k m) req) (JObj m)) (a_required a) = true <->
                 sp_req req m = true).
    { unfold sp_req, req. destruct (a_required a); simpl; tauto. }
    rewrite Vp, Vpp, Vr. clear Vp Vpp Vr.
    unfold addl_obj in *.
    destruct (ap_addl p) as [[b|aa pa]|] eqn:Ead; cbn [ob_fields ob_pats ob_addl ob_open] in *.
    - (* boolean *)
      destruct b.
      + rewrite (struct_open lp lpp rp rpp Hp Hpp req ExplicitlyOpen m) by discriminate.
        assert (Va : v_addl re (valid re) p (JObj m) = true).
        { unfold v_addl. rewrite Ead. simpl. apply forallb_forall. intros kv _. apply orb_true_r. }
        rewrite Va, !andb_true_iff. tauto.
      + rewrite (struct_closed lp lpp rp rpp Hp Hpp req m).
        * assert (Va : v_addl re (valid re) p (JObj m) = forallb (fun kv => negb (is_add lp lpp (fst kv)) || false) m).
          { unfold v_addl. rewrite Ead. simpl. apply forallb_pointwise. intros kv. rewrite is_additional_norm. reflexivity. }
          rewrite Va, !andb_true_iff. tauto.
        * (* no deviation: the required names of a closed struct are properties *)
          intros k Hin. rewrite <- (fields0_names lp (valid re) rp k Hp).
          unfold req in Hin. destruct (a_required a) as [r|]; [|destruct Hin]. cbn [optP olist] in Hd, Hin.
          unfold req_dev_cond in Hd. cbn [ob_open ob_fields] in Hd.
          pose proof (proj1 (existsb_false_iff _ _) Hd k Hin) as Y. cbv beta in Y. apply negb_false_iff in Y. exact Y.
    - (* schema *)
      assert (Eform : (if ob_no_elts (mkO (fields0 rp) rpp None ImplicitlyOpen) then AddlAll e
                       else AddlExcept (map fst rpp) (map f_name (fields0 rp)) e) =
                      match fields0 rp, rpp with [], [] => AddlAll e | _, _ => AddlExcept (map fst rpp) (map f_name (fields0 rp)) e end).
      { unfold ob_no_elts. simpl. destruct (fields0 rp), rpp; reflexivity. }
      rewrite Eform.
      rewrite (struct_addl lp lpp rp rpp Hp Hpp req (SObj aa pa) e m He).
      assert (Va : v_addl re (valid re) p (JObj m) =
                   forallb (fun kv => negb (is_add lp lpp (fst kv)) || valid re (SObj aa pa) (snd kv)) m).
      { unfold v_addl. rewrite Ead. cbn [optb on_obj]. apply forallb_pointwise. intros kv. rewrite is_additional_norm. reflexivity. }
      rewrite Va, !andb_true_iff. tauto.
    - (* absent *)
      rewrite (struct_open lp lpp rp rpp Hp Hpp req ImplicitlyOpen m) by discriminate.
      assert (Va : v_addl re (valid re) p (JObj m) = true) by (unfold v_addl; rewrite Ead; reflexivity).
      rewrite Va, !andb_true_iff. tauto.
  Qed.

  (* Left: what `items` contributed as a constraint (only without prefixItems,
     i.e. when the list literal is absent) and what the finished list literal
     accepts; right: the two keywords of the specification.  prefixItems is [] in
     the fragment. *)
  Lemma list_part : forall p v,
    optP (fun l => l = []) (ap_prefix p) ->
    optP (fun s' => Good re mall s' (enc re s' mall)) (ap_items p) ->
    (optP (fun s' => fst (prefix_lit re (ap_prefix p) (None, RAny)) = None -> on_arr (forallb (valid re s')) v = true) (ap_items p) /\
     list_ok (items_lit re (ap_items p) (prefix_lit re (ap_prefix p) (None, RAny))) v = true <->
     v_prefix (valid re) p v = true /\ v_items (valid re) p v = true).
  Proof.
    intros p v Hpre Hit. unfold v_prefix, v_items, list_ok, prefix_lit, items_lit.
    destruct (ap_prefix p) as [l|]; cbn [optP] in Hpre; [subst l|];
      (destruct (ap_items p) as [si|]; cbn [optP optb fst snd map length] in *).
    - (* prefixItems: [] next to items: the rest of the list literal *)
      destruct (g_wfe _ _ _ _ Hit) as [Wt We]. fold (e_of re si) in *.
      destruct v; try solve [simpl; split; [intros; auto | intros; split; [discriminate | auto]]].
      assert (Hall : forallb (valid re si) l = forallb (ev (e_of re si)) l).
      { apply forallb_pointwise. intros x. symmetry. apply (g_ev _ _ _ _ Hit x eq_refl). }
      assert (Htuple : tuple_ok [] (if is_err (e_of re si) then RNone
                                    else if is_top (e_of re si) then RAny else RType (e_of re si)) l =
                       forallb (ev (e_of re si)) l).
      { destruct (is_err (e_of re si)) eqn:Ee; [|destruct (is_top (e_of re si)) eqn:Et]; simpl.
        - destruct l as [|j l']; simpl; auto. rewrite (We eq_refl j). reflexivity.
        - symmetry. apply forallb_forall. intros x _. apply (Wt eq_refl x).
        - reflexivity. }
      cbn [on_arr]. rewrite Htuple. change (prefix_ok (valid re) [] l) with true.
      change (skipn 0 l) with l. rewrite Hall.
      split; intros [_ X0]; split; auto; intros Y; discriminate Y.
    - destruct v; simpl; tauto.
    - destruct v; simpl; tauto.
    - destruct v; simpl; tauto.
  Qed.

End Accepts.
