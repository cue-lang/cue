(* finalize (the kind-indexed disjunction) and what result_of guarantees; the
   keywords of one schema object composed; the compiler-correctness theorem of
   the encoding, encode_correct. *)
From Verif Require Import Schema.Json Schema.Sem Schema.Encode Schema.Proofs Schema.Invariant Schema.Track
     Schema.Steps1 Schema.Steps2 Schema.Steps3 Schema.Steps4 Schema.Literals.
From Coq Require Import List NArith ZArith Bool Lia.
Import ListNotations.

Section Final.
  Variable re : pat -> str -> bool.
  Variable T : mask.

  (* what the struct and the list literal of a state accept *)
  Definition ObjSem (st : state) (v : json) : bool := obj_ok re (fst (lit_of st)) v.
  Definition ListSem (st : state) (v : json) : bool := list_ok (snd (lit_of st)) v.

  Lemma final_C_sem : forall st v,
    conjp (final_C re st (ctype_of v)) v = cC st v && ObjSem st v && ListSem st v.
  Proof.
    intros st v. unfold final_C, cC, conjp, ObjSem, ListSem, obj_ok, list_ok, lit_of, the_obj.
    destruct v; try rewrite ctype_num; simpl; rewrite ?forallb_app; simpl;
      try (destruct (st_prefix st)); try (destruct (st_obj st)); simpl; rewrite ?struct_ok_empty, ?andb_true_r; reflexivity.
  Qed.

  Lemma final_C_typed : forall st VS t p, Inv T st VS -> In p (final_C re st t) -> forall v, p v = true -> ctype_of v = t.
  Proof.
    intros st VS t p H Hin v Hp. unfold final_C in Hin. apply in_app_or in Hin. destruct Hin as [Hin | Hin].
    - apply (i_Ct _ _ _ H t p Hin v Hp).
    - destruct t; try destruct Hin.
      + destruct (st_prefix st); [|destruct Hin]. destruct Hin as [<- | []]. destruct v; simpl in Hp; try discriminate. reflexivity.
      + destruct (st_obj st); [|destruct Hin]. destruct Hin as [<- | []]. destruct v; simpl in Hp; try discriminate. reflexivity.
  Qed.

  (* the value of one disjunct on an instance *)
  Definition dval (st : state) (t : ctype) (v : json) : bool :=
    match disjunct re st t with Some p => p v | None => false end.

  Lemma dval_spec : forall st VS t v, Inv T st VS ->
    dval st t v = ctype_eqb (ctype_of v) t && allows (st_A st) t && conjp (final_C re st t) v.
  Proof.
    intros st VS t v H. unfold dval, disjunct.
    destruct (final_C re st t) as [|c cs] eqn:E.
    - assert (HK : allows (st_A st) t = true -> allows (st_K st) t = true).
      { apply allows_mono. apply (i_AK _ _ _ H). }
      destruct (allows (st_A st) t) eqn:EA; simpl.
      + rewrite (HK eq_refl). simpl. unfold kind_pred, conjp. simpl. rewrite !andb_true_r. reflexivity.
      + rewrite andb_false_r. reflexivity.
    - destruct (allows (st_A st) t) eqn:EA; simpl.
      + rewrite andb_true_r. destruct (ctype_eqb (ctype_of v) t) eqn:Et; simpl; auto.
        destruct (conjp (c :: cs) v) eqn:Ec; auto. unfold conjp in Ec. simpl in Ec. apply andb_true_iff in Ec.
        destruct Ec as [Ec _]. assert (Hc : In c (final_C re st t)) by (rewrite E; left; auto).
        pose proof (final_C_typed st VS t c H Hc v Ec) as X. apply ctype_eqb_eq in X. congruence.
      + rewrite andb_false_r. reflexivity.
  Qed.

  Lemma disjuncts_ev : forall st VS v, Inv T st VS -> needs_disj re st = true ->
    existsb (fun d => d v) (disjuncts re st) = allows (st_A st) (ctype_of v) && conjp (final_C re st (ctype_of v)) v.
  Proof.
    intros st VS v H Hn. unfold disjuncts. rewrite Hn.
    assert (E : forall ts, existsb (fun d => d v)
                 (flat_map (fun t => match disjunct re st t with Some p => [p] | None => [] end) ts) =
               existsb (fun t => dval st t v) ts).
    { induction ts as [|t ts IH]; [reflexivity|].
      change (flat_map (fun t0 => match disjunct re st t0 with Some p => [p] | None => [] end) (t :: ts))
        with ((match disjunct re st t with Some p => [p] | None => [] end) ++
              flat_map (fun t0 => match disjunct re st t0 with Some p => [p] | None => [] end) ts).
      rewrite existsb_app.
      change (existsb (fun t0 => dval st t0 v) (t :: ts)) with (dval st t v || existsb (fun t0 => dval st t0 v) ts).
      f_equal; [|exact IH]. unfold dval.
      destruct (disjunct re st t); simpl; rewrite ?orb_false_r; reflexivity. }
    rewrite E.
    destruct (allows (st_A st) (ctype_of v) && conjp (final_C re st (ctype_of v)) v) eqn:R.
    - apply existsb_exists. exists (ctype_of v). split; [apply all_ctypes_complete|].
      rewrite (dval_spec st VS _ v H), ctype_eqb_refl. simpl. exact R.
    - apply existsb_false_iff. intros t _. rewrite (dval_spec st VS t v H).
      destruct (ctype_eqb (ctype_of v) t) eqn:Et; auto. apply ctype_eqb_eq in Et. subst t. simpl.
      exact R.
  Qed.

  Lemma disjuncts_nonempty : forall st VS, Inv T st VS -> needs_disj re st = true -> mempty (st_A st) = false ->
    disjuncts re st <> [].
  Proof.
    intros st VS H Hn Hne. apply mempty_false in Hne. destruct Hne as [k Hk].
    (* the core type of kind k is allowed, so it has a disjunct *)
    set (t := ctype_of_kind k).
    assert (HA : allows (st_A st) t = true) by (apply allows_iff; exists k; split; [reflexivity | exact Hk]).
    assert (X : exists p, disjunct re st t = Some p).
    { unfold disjunct. rewrite HA, (allows_mono _ _ _ (i_AK _ _ _ H) HA). destruct (final_C re st t); eexists; reflexivity. }
    destruct X as [p Ep]. intros E.
    assert (Hin : In p (disjuncts re st)).
    { unfold disjuncts. rewrite Hn. apply in_flat_map. exists t. split; [apply all_ctypes_complete|]. rewrite Ep. left; auto. }
    rewrite E in Hin. destruct Hin.
  Qed.

  Lemma finalize_ev : forall st VS v, Inv T st VS -> mempty (st_A st) = false ->
    ev (finalize re st) v =
    allc st v && (if needs_disj re st then allows (st_A st) (ctype_of v) && conjp (final_C re st (ctype_of v)) v else true).
  Proof.
    intros st VS v H Hne. unfold finalize. rewrite Hne.
    destruct (needs_disj re st) eqn:Hn.
    - rewrite <- (disjuncts_ev st VS v H Hn).
      pose proof (disjuncts_nonempty st VS H Hn Hne) as Hd.
      unfold allc. destruct (st_all st) as [|c [|c' cs]]; destruct (disjuncts re st) as [|d ds]; try congruence; reflexivity.
    - assert (Ed : disjuncts re st = []) by (unfold disjuncts; rewrite Hn; reflexivity).
      rewrite Ed, andb_true_r. unfold allc. destruct (st_all st) as [|c [|c' cs]]; simpl; rewrite ?andb_true_r; reflexivity.
  Qed.

  Definition final_sem (st : state) (v : json) : bool := core st v && ObjSem st v && ListSem st v.

  Lemma finalize_sem : forall st VS v, Inv T st VS -> mempty (st_A st) = false -> ev (finalize re st) v = final_sem st v.
  Proof.
    intros st VS v H Hne. rewrite (finalize_ev st VS v H Hne). unfold final_sem, core.
    destruct (needs_disj re st) eqn:Hn.
    - rewrite final_C_sem. destruct (allc st v), (allows (st_A st) (ctype_of v)), (cC st v), (ObjSem st v), (ListSem st v); reflexivity.
    - rewrite andb_true_r. destruct (allc st v) eqn:Ea; auto. simpl.
      unfold needs_disj in Hn. apply orb_false_iff in Hn. destruct Hn as [Hm Hc].
      apply negb_false_iff in Hm. rewrite meq_true in Hm.
      pose proof (i_K _ _ _ H Hne v Ea) as HK. rewrite <- (allows_ext _ _ _ Hm) in HK. rewrite HK. simpl.
      assert (Hnil : final_C re st (ctype_of v) = []).
      { pose proof (proj1 (existsb_false_iff _ _) Hc (ctype_of v) (all_ctypes_complete _)) as X. cbv beta in X.
        destruct (final_C re st (ctype_of v)); auto. congruence. }
      rewrite <- final_C_sem, Hnil. reflexivity.
  Qed.

  Lemma finalize_allows : forall st VS v, Inv T st VS -> mempty (st_A st) = false ->
    ev (finalize re st) v = true -> allows (st_A st) (ctype_of v) = true.
  Proof.
    intros st VS v H Hne He. rewrite (finalize_ev st VS v H Hne) in He. apply andb_true_iff in He. destruct He as [Ha Hd].
    destruct (needs_disj re st) eqn:Hn.
    - apply andb_true_iff in Hd. tauto.
    - unfold needs_disj in Hn. apply orb_false_iff in Hn. destruct Hn as [Hm _].
      apply negb_false_iff in Hm. rewrite meq_true in Hm.
      rewrite (allows_ext _ _ _ Hm). apply (i_K _ _ _ H Hne v Ha).
  Qed.

  Lemma finalize_wfe : forall st VS, Inv T st VS -> wfe (finalize re st).
  Proof.
    intros st VS H. unfold finalize. destruct (mempty (st_A st)); [apply wfe_err|].
    destruct (st_all st) as [|c [|c' cs]] eqn:E; destruct (disjuncts re st) as [|d ds];
      try apply wfe_top; try (split; simpl; discriminate).
    apply (i_wf _ _ _ H). rewrite E. left; auto.
  Qed.

  (* from the invariant to the guarantees of the result *)
  Lemma good_of_inv : forall s st VS,
    Inv T st VS ->
    (forall v, T (kind_of v) = true -> (valid re s v = true <-> VS v /\ ObjSem st v = true /\ ListSem st v = true)) ->
    Good re T s (result_of re st).
  Proof.
    intros s st VS H Hval. unfold result_of.
    destruct (mempty (st_A st)) eqn:Hne.
    - (* nothing is allowed *)
      assert (Hfalse : forall v, T (kind_of v) = true -> valid re s v = false).
      { intros v Hv. destruct (valid re s v) eqn:E; auto. apply (Hval v Hv) in E. destruct E as [E _].
        pose proof (i_snd _ _ _ H v Hv E) as X. rewrite mempty_true in Hne. rewrite Hne in X. discriminate. }
      assert (Ef : finalize re st = e_err) by (unfold finalize; rewrite Hne; reflexivity).
      constructor; simpl; rewrite ?Ef; simpl.
      + intros v Hv. rewrite (Hfalse v Hv). reflexivity.
      + intros v Hv E. rewrite (Hfalse v Hv) in E. discriminate.
      + intros v E. discriminate.
      + apply (i_AT _ _ _ H).
      + apply (i_AK _ _ _ H).
      + rewrite Hne. discriminate.
      + apply wfe_err.
      + intros _. right. split.
        * intros k k' _ _ _. rewrite mempty_true in Hne. rewrite !Hne. reflexivity.
        * intros v _ X. rewrite mempty_true in Hne. rewrite Hne in X. discriminate.
    - constructor; simpl.
      + intros v Hv. rewrite (finalize_sem st VS v H Hne). unfold final_sem.
        destruct (valid re s v) eqn:E.
        * apply (Hval v Hv) in E. destruct E as (E1 & E2 & E3). rewrite (proj2 (i_M _ _ _ H v Hv) E1), E2, E3. reflexivity.
        * destruct (core st v && ObjSem st v && ListSem st v) eqn:R; auto.
          rewrite !andb_true_iff in R. destruct R as [[R1 R2] R3].
          assert (X : valid re s v = true) by (apply (Hval v Hv); split; [apply (i_M _ _ _ H v Hv); exact R1 | auto]).
          congruence.
      + intros v Hv E. apply (Hval v Hv) in E. destruct E as [E _]. apply (i_snd _ _ _ H v Hv E).
      + intros v E. apply (finalize_allows st VS v H Hne E).
      + apply (i_AT _ _ _ H).
      + auto.
      + intros _. right. auto.
      + apply (finalize_wfe st VS H).
      + intros Hh. right. unfold has_constraints in Hh. fold (hasc0 st) in Hh. apply orb_false_iff in Hh. destruct Hh as [Hh Hp].
        apply orb_false_iff in Hh. destruct Hh as [Hh Ho].
        destruct (i_H _ _ _ H Hh) as [Hback Hcc]. split; auto.
        intros v Hv HA. apply (Hval v Hv). split; [apply Hback; auto|].
        unfold ObjSem, ListSem, obj_ok, list_ok, lit_of, the_obj. destruct (st_obj st); [discriminate|].
        destruct (st_prefix st); [discriminate|]. destruct v; auto. cbn [fst]. rewrite struct_ok_empty. auto.
  Qed.

End Final.

Section Main.
  Variable re : pat -> str -> bool.

  Lemma good_bool : forall b M, Good re M (SBool b) (bool_result b M).
  Proof.
    intros b M. constructor; simpl; auto.
    - intros v _. destruct b; reflexivity.
    - intros v _. apply allows_iff. exists (kind_of v). split; auto.
    - destruct b; [apply wfe_top | apply wfe_err].
    - intros _. destruct b.
      + right. split; [intros k k' _ H1 H2; congruence | auto].
      + destruct (mempty M) eqn:E.
        * right. rewrite mempty_true in E. split; [intros k k' _ H1 _; rewrite E in H1; discriminate|].
          intros v Hv. rewrite E in Hv. discriminate.
        * left. auto.
  Qed.

  Lemma phase1_dev : forall a st, st_dev (phase1 re a st) = [] -> st_dev st = [].
  Proof. intros a st H. apply (step_dev _ _ _ _ _ (core_phase1 re mall a) st H). Qed.

End Main.

Section Thm.
  Variable re : pat -> str -> bool.

  (* validity as a conjunction of propositions, phase 1 first *)
  Lemma valid_split : forall a p v,
    valid re (SObj a p) v = true <->
    (phase1_valid re a v /\
     (optb (fun b => on_num (fun h => Z.leb h b) v) (a_max a) = true /\
      optb (fun b => on_num (fun h => Z.leb b h) v) (a_min a) = true) /\
     optb (fun req => on_obj (fun m => forallb (fun k => has_key k m) req) v) (a_required a) = true) /\
    v_ref (valid re) p v = true /\ v_allOf (valid re) p v = true /\ v_anyOf (valid re) p v = true /\
    v_oneOf (valid re) p v = true /\ v_not (valid re) p v = true /\ v_ite (valid re) p v = true /\
    v_props (valid re) p v = true /\ v_pprops re (valid re) p v = true /\ v_pnames (valid re) p v = true /\
    v_prefix (valid re) p v = true /\ v_contains (valid re) a p v = true /\ v_addl re (valid re) p v = true /\
    v_items (valid re) p v = true.
  Proof.
    intros a p v. cbn [valid]. unfold valid_assertions, phase1_valid. split; intros H.
    - repeat (apply andb_prop in H; destruct H as [H ?]). repeat split; assumption.
    - decompose [and] H. repeat (apply andb_true_intro; split); assumption.
  Qed.

  Lemma dev_result_of : forall st, r_dev (result_of re st) = [] -> st_dev st = [].
  Proof. intros st D. unfold result_of in D. cbn [r_dev] in D. apply app_eq_nil in D. tauto. Qed.

  (* The conjuncts of [valid] in the order of the specification (left) and in
     the order in which the decoder establishes them (right).  A1, A2, A4: the
     assertions of phases 1, 2, 4; Rf .. Im: one per applicator keyword; O, L:
     what the finished struct / list literal accepts; I: the constraint `items`
     adds when there is no list literal. *)
  Lemma conjuncts : forall A1 A2 A4 Rf Al An On Nt It Pr Pp Pn Pf Ct Ad Im O L I : Prop,
    (O <-> Pr /\ Pp /\ Ad /\ A4) -> (I /\ L <-> Pf /\ Im) ->
    ((A1 /\ A2 /\ A4) /\ Rf /\ Al /\ An /\ On /\ Nt /\ It /\ Pr /\ Pp /\ Pn /\ Pf /\ Ct /\ Ad /\ Im <->
     (True /\ ((((((((((A1 /\ Rf) /\ Al) /\ An) /\ On) /\ Nt) /\ Pn) /\ Ct) /\ A2) /\ I) /\ It)) /\ O /\ L).
  Proof. tauto. Qed.

  Lemma assemble_good : forall a p, applic_all (SubGood re) p -> forall M,
    r_dev (enc re (SObj a p) M) = [] -> Good re M (SObj a p) (enc re (SObj a p) M).
  Proof.
    intros a p IH M D.
    destruct IH as (I_ref & I_all & I_any & I_one & I_not & I_if & I_then & I_else & I_props & I_pprops &
                    I_pn & I_pre & I_con & I_addl & I_items).
    pose proof (core_phase1 re M a) as S.
    apply (fun S => step_then_core S (core_ref re M _ I_ref)) in S.
    apply (fun S => step_then_core S (core_allOf re M _ I_all)) in S.
    apply (fun S => step_then_core S (core_anyOf re M _ I_any)) in S.
    apply (fun S => step_then_core S (core_oneOf re M _ I_one)) in S.
    apply (fun S => step_then_core S (core_not re M _ I_not)) in S.
    apply (fun S => step_then_lit S (lit_props re M _ I_props)) in S.
    apply (fun S => step_then_lit S (lit_pprops re M _ I_pprops)) in S.
    apply (fun S => step_then_core S (core_pnames re M _ I_pn)) in S.
    apply (fun S => step_then_lit S (lit_prefix re M (ap_prefix p))) in S.
    apply (fun S => step_then_core S (core_contains re M a _ I_con)) in S.
    apply (fun S => step_then_core S (core_bounds M a)) in S.
    apply (fun S => step_then_lit S (lit_addl re M _ I_addl)) in S.
    apply (fun S => step_comp S (items_step re M _ I_items)) in S.
    apply (fun S => step_then_lit S (lit_required M (a_required a))) in S.
    apply (fun S => step_then_core S (core_ite re M _ _ _ I_if I_then I_else)) in S.
    (* The composed function is kept as a plain nest of applications, and the
       goal is brought to the same nest by reduction: the kernel then compares
       keyword function with keyword function and their arguments.  With a named
       composition or a folded intermediate state in between it unfolds the
       keyword functions instead, and every branch of their matches repeats the
       state: the comparison doubles at each of the sixteen levels. *)
    cbv beta in S.
    change (enc re (SObj a p) M) with (assemble re a p (amap (enc re) p) M) in *.
    cbv beta delta [assemble] zeta in *.
    cbn [amap ap_ref ap_allOf ap_anyOf ap_oneOf ap_not ap_if ap_then ap_else ap_props ap_pprops ap_pnames ap_prefix
         ap_contains ap_addl ap_items] in *.
    apply dev_result_of in D.
    destruct S as [L Dv I]. specialize (L (init M)). specialize (Dv _ D). specialize (I _ _ D (inv_init M)).
    change (lit_of (init M)) with lit0 in *.
    destruct Dv as [_ Ev]. cbv beta in L, Ev.
    apply (good_of_inv re M (SObj a p) _ _ I). intros v _. clear I D.
    unfold ObjSem, ListSem. rewrite L. clear L.
    unfold in_obj, in_list, lit0 in *. cbn [fst snd] in *.
    destruct Ev as ((((((_ & Ep) & Epp) & Epre) & Ead) & Eit) & Ereq).
    rewrite valid_split. cbv beta.
    apply conjuncts; [apply obj_part | apply list_part]; assumption.
  Qed.

  (* every schema, under every mask: schemaState(s, types) is exact on the kinds in types *)
  Theorem enc_good : forall s M, r_dev (enc re s M) = [] -> Good re M s (enc re s M).
  Proof.
    intros s. change (SubGood re s). apply schema_ind'.
    - intros b M _. apply good_bool.
    - intros a p IH M D. apply assemble_good; auto.
  Qed.

  (* in_fragment: the schema uses none of the deviating constructs (the DEV classes of Encode.v) *)
  Definition in_fragment (s : schema) : Prop := r_dev (enc re s mall) = [].

  Theorem encode_correct : forall s, in_fragment s -> forall j, encode re s j = valid re s j.
  Proof. intros s D j. unfold encode. apply (g_ev _ _ _ _ (enc_good s mall D) j eq_refl). Qed.

End Thm.
