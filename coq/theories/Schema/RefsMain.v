(* A document with a chain of definitions: inside the fragment, with both
   verdicts, and what too little fuel or an ill-formed table does. *)
From Coq Require Import List ZArith NArith Bool Lia.
From Verif Require Import Schema.Json Schema.Sem Schema.Encode Schema.Proofs Schema.Main Schema.Refs Schema.RefsProofs.
Import ListNotations.

Definition a_ty (t : tyname) : assertions :=
  mkA (Some [t]) None None None None None None None None None None None None None None None None None None.
Definition re0 : pat -> str -> bool := fun _ _ => false.

(* root -> d0 -> d1 -> d2 = {"type":"string"};  d1 also has "items": {"$ref": d2};
   the root has a property "a" that refers to d1 *)
Definition ex_defs : list rschema :=
  [ RObj no_assertions (Some 1) no_applic;
    RObj no_assertions (Some 2)
         (mkP None None None None None None None None None None None None None None
              (Some (RObj no_assertions (Some 2) no_applic)));
    RObj (a_ty TyString) None no_applic ].
Definition ex_root : rschema :=
  RObj no_assertions (Some 0)
       (mkP None None None None None None None None
            (Some [([97%N], RObj no_assertions (Some 1) no_applic)]) None None None None None None).

Example ex_doc_ok : doc_ok ex_defs ex_root = true.
Proof. vm_compute. reflexivity. Qed.
Example ex_doc_in_fragment : in_fragment re0 (resolve_doc ex_defs ex_root).
Proof. vm_compute. reflexivity. Qed.
Example ex_doc_verdicts :
  valid_r re0 3 ex_defs ex_root (JStr [120%N]) = true /\
  valid_r re0 3 ex_defs ex_root (JNum 2) = false /\
  encode re0 (resolve_doc ex_defs ex_root) (JStr [120%N]) = true /\
  encode re0 (resolve_doc ex_defs ex_root) (JNum 2) = false.
Proof. vm_compute. repeat split. Qed.

(* the bound on the fuel is needed: with fuel 2 the chain root -> d0 -> d1 -> d2 is cut and 1 is accepted *)
Example ex_fuel_too_small : valid_r re0 2 ex_defs ex_root (JNum 2) = true /\ valid_r re0 3 ex_defs ex_root (JNum 2) = false.
Proof. vm_compute. split; reflexivity. Qed.

(* a cyclic table, a backward reference and a dangling reference are not well-formed documents *)
Example ex_cyclic_not_ok :
  doc_ok [RObj no_assertions (Some 0) no_applic] (RBool true) = false /\
  doc_ok [RBool true; RObj no_assertions (Some 0) no_applic] (RBool true) = false /\
  doc_ok [] (RObj no_assertions (Some 0) no_applic) = false.
Proof. vm_compute. repeat split. Qed.
