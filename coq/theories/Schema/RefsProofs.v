(* Following references equals validity of the inlined schema; in an ordered
   table the inlined schema does not depend on the fuel. *)
From Coq Require Import List ZArith NArith Bool Lia.
From Verif Require Import Schema.Json Schema.Sem Schema.Encode Schema.Proofs Schema.Refs.
Import ListNotations.

(* ---------- induction principle for the nested inductive [rschema] ---------- *)
Section RSchemaInd.
  Variable P : rschema -> Prop.
  Hypothesis Hb : forall b, P (RBool b).
  Hypothesis Ho : forall a r p, gapplic_all P p -> P (RObj a r p).

  Fixpoint rschema_ind' (s : rschema) : P s :=
    match s with
    | RBool b => Hb b
    | RObj a r p => Ho a r p (gapplic_all_all P rschema_ind' p)
    end.
End RSchemaInd.

Lemma forallb_ext_Forall : forall {A} (P : A -> Prop) (f g : A -> bool) l,
  Forall P l -> (forall x, P x -> f x = g x) -> forallb f l = forallb g l.
Proof. induction 1; simpl; intros; auto. rewrite H1, IHForall; auto. Qed.
Lemma existsb_ext_Forall : forall {A} (P : A -> Prop) (f g : A -> bool) l,
  Forall P l -> (forall x, P x -> f x = g x) -> existsb f l = existsb g l.
Proof. induction 1; simpl; intros; auto. rewrite H1, IHForall; auto. Qed.
Lemma has_key_map : forall {A B} (f : A -> B) k (l : list (str * A)),
  has_key k (map (fun ks => (fst ks, f (snd ks))) l) = has_key k l.
Proof. unfold has_key. intros. rewrite existsb_map. reflexivity. Qed.

(* ---------- the semantics of a schema object commutes with mapping the subschemas ---------- *)
Section Commute.
  Variable re : pat -> str -> bool.
  Context {S S' : Type}.
  Variable V : S' -> json -> bool.
  Variable W : S -> json -> bool.
  Variable f : S -> S'.
  Definition agree (s : S) : Prop := forall j, V (f s) j = W s j.

  Lemma prefix_ok_map : forall l, Forall agree l -> forall vs,
    g_prefix_ok V (map f l) vs = g_prefix_ok W l vs.
  Proof.
    induction 1; intros vs; simpl; auto. destruct vs; auto. rewrite H, IHForall. reflexivity.
  Qed.

  Lemma g_obj_amap : forall b a p j, gapplic_all agree p ->
    g_obj re V b a (amap f p) j = g_obj re W b a p j.
  Proof.
    intros b a p j (Hal & Han & Hon & Hnt & Hi & Ht & He & Hpr & Hpp & Hpn & Hpf & Hct & Had & Hit).
    unfold g_obj, g_allOf, g_anyOf, g_oneOf, g_not, g_ite, g_props, g_pprops, g_pnames, g_prefix, g_contains, g_addl, g_items.
    cbn [amap ap_allOf ap_anyOf ap_oneOf ap_not ap_if ap_then ap_else ap_props ap_pprops ap_pnames ap_prefix
         ap_contains ap_addl ap_items].
    repeat (apply (f_equal2 andb); try reflexivity).
    - destruct (ap_allOf p) as [l|]; cbn in *; auto. rewrite forallb_map. apply (forallb_ext_Forall agree); auto.
    - destruct (ap_anyOf p) as [l|]; cbn in *; auto. rewrite existsb_map. apply (existsb_ext_Forall agree); auto.
    - destruct (ap_oneOf p) as [l|]; cbn in *; auto. rewrite count_map. f_equal. apply count_ext. intros x Hx. apply (proj1 (Forall_forall _ _) Hon x Hx).
    - destruct (ap_not p); cbn in *; auto. rewrite Hnt. reflexivity.
    - destruct (ap_if p); cbn in *; auto. rewrite Hi.
      destruct (ap_then p), (ap_else p); cbn in *; rewrite ?Ht, ?He; reflexivity.
    - destruct (ap_props p) as [l|]; cbn in *; auto. destruct j; cbn; auto.
      apply forallb_pointwise. intros kv. rewrite forallb_map. cbn.
      apply (forallb_ext_Forall (fun ks => agree (snd ks))); auto. intros x Hx. rewrite Hx. reflexivity.
    - destruct (ap_pprops p) as [l|]; cbn in *; auto. destruct j; cbn; auto.
      apply forallb_pointwise. intros kv. rewrite forallb_map. cbn.
      apply (forallb_ext_Forall (fun ks => agree (snd ks))); auto. intros x Hx. rewrite Hx. reflexivity.
    - destruct (ap_pnames p); cbn in *; auto. destruct j; cbn; auto. apply forallb_pointwise. intros kv. apply Hpn.
    - destruct (ap_prefix p) as [l|]; cbn in *; auto. destruct j; cbn; auto. apply prefix_ok_map; auto.
    - destruct (ap_contains p); cbn in *; auto. destruct j; cbn; auto. f_equal. apply count_ext. intros x _. apply Hct.
    - destruct (ap_addl p); cbn in *; auto. destruct j; cbn; auto.
      apply forallb_pointwise. intros kv. rewrite Had. f_equal. f_equal. unfold is_additional. f_equal.
      + destruct (ap_props p); cbn; auto. rewrite has_key_map. reflexivity.
      + destruct (ap_pprops p); cbn; auto. rewrite existsb_map. reflexivity.
    - destruct (ap_items p); cbn in *; auto. destruct j; cbn; auto.
      replace (match option_map (map f) (ap_prefix p) with Some l0 => length l0 | None => 0 end)
        with (match ap_prefix p with Some l0 => length l0 | None => 0 end)
        by (destruct (ap_prefix p); cbn; rewrite ?map_length; reflexivity).
      apply forallb_pointwise. intros x. apply Hit.
  Qed.
End Commute.

(* ---------- maps over applicators that agree on the subschemas ---------- *)
Section AmapExt.
  Context {S S' : Type}.
  Variable g : S -> bool.
  Variables f1 f2 : S -> S'.
  Definition same_where (s : S) : Prop := g s = true -> f1 s = f2 s.

  Lemma omap_ext : forall o, optP same_where o -> ob g o = true -> option_map f1 o = option_map f2 o.
  Proof. intros [x|] H G; cbn in *; auto. rewrite H; auto. Qed.
  Lemma map_ext_where : forall l, Forall same_where l -> forallb g l = true -> map f1 l = map f2 l.
  Proof.
    induction 1; cbn; intros G; auto. apply andb_true_iff in G as [G1 G2]. rewrite H, IHForall; auto.
  Qed.
  Lemma olmap_ext : forall o, optP (Forall same_where) o -> ob (forallb g) o = true ->
    option_map (map f1) o = option_map (map f2) o.
  Proof. intros [l|] H G; cbn in *; auto. rewrite (map_ext_where l); auto. Qed.
  Lemma opmap_ext : forall {K} (o : option (list (K * S))),
    optP (Forall (fun ks => same_where (snd ks))) o -> ob (forallb (fun ks => g (snd ks))) o = true ->
    option_map (map (fun ks => (fst ks, f1 (snd ks)))) o = option_map (map (fun ks => (fst ks, f2 (snd ks)))) o.
  Proof.
    intros K [l|] H G; cbn in *; auto. f_equal.
    induction H; cbn in *; auto. apply andb_true_iff in G as [G1 G2]. rewrite H, IHForall; auto.
  Qed.

  Lemma set_ref_amap_ext : forall x p, gapplic_all same_where p -> applic_allb g p = true ->
    set_ref x (amap f1 p) = set_ref x (amap f2 p).
  Proof.
    intros x p H G. destruct p as [rf al an on nt i t e pr pp pn pf ct ad it].
    destruct H as (Hal & Han & Hon & Hnt & Hi & Ht & He & Hpr & Hpp & Hpn & Hpf & Hct & Had & Hit).
    unfold applic_allb in G.
    cbn [ap_allOf ap_anyOf ap_oneOf ap_not ap_if ap_then ap_else ap_props ap_pprops ap_pnames ap_prefix
         ap_contains ap_addl ap_items] in *.
    repeat (apply andb_true_iff in G; destruct G as [G ?]).
    unfold set_ref, amap.
    cbn [ap_ref ap_allOf ap_anyOf ap_oneOf ap_not ap_if ap_then ap_else ap_props ap_pprops ap_pnames ap_prefix
         ap_contains ap_addl ap_items].
    rewrite (olmap_ext al), (olmap_ext an), (olmap_ext on), (omap_ext nt), (omap_ext i), (omap_ext t),
      (omap_ext e), (opmap_ext pr), (opmap_ext pp), (omap_ext pn), (olmap_ext pf), (omap_ext ct),
      (omap_ext ad), (omap_ext it); auto.
  Qed.
End AmapExt.

Section RefThm.
  Variable re : pat -> str -> bool.

  (* the verdict of the reference inside [valid_r], and the inlined reference inside
     [resolve], by name: the two functions unfold to them (valid_r_obj, resolve_obj) *)
  Definition refv (fuel : nat) (defs : list rschema) (r : option nat) (j : json) : bool :=
    match r with
    | None => true
    | Some n =>
      match fuel with
      | O => true
      | S f => match nth_error defs n with Some d => valid_r re f defs d j | None => true end
      end
    end.
  Definition rres (fuel : nat) (defs : list rschema) (r : option nat) : option schema :=
    match r with
    | None => None
    | Some n =>
      Some (match fuel with
            | O => SBool true
            | S f => match nth_error defs n with Some d => resolve f defs d | None => SBool true end
            end)
    end.

  Lemma valid_r_obj : forall fuel defs a r p j,
    valid_r re fuel defs (RObj a r p) j = g_obj re (valid_r re fuel defs) (refv fuel defs r j) a p j.
  Proof. destruct fuel; reflexivity. Qed.
  Lemma resolve_obj : forall fuel defs a r p,
    resolve fuel defs (RObj a r p) = SObj a (set_ref (rres fuel defs r) (amap (resolve fuel defs) p)).
  Proof. destruct fuel; reflexivity. Qed.
  Lemma valid_as_g_obj : forall a p j,
    valid re (SObj a p) j = g_obj re (valid re) (v_ref (valid re) p j) a p j.
  Proof. reflexivity. Qed.
  Lemma g_obj_set_ref : forall {S} (V : S -> json -> bool) b a x p j,
    g_obj re V b a (set_ref x p) j = g_obj re V b a p j.
  Proof. intros. destruct p; reflexivity. Qed.

  (* the schema objects commute as soon as the references do *)
  Lemma agree_refs : forall fuel defs,
    (forall r j, optb (fun s' => valid re s' j) (rres fuel defs r) = refv fuel defs r j) ->
    forall s, agree (valid re) (valid_r re fuel defs) (resolve fuel defs) s.
  Proof.
    intros fuel defs Hr s. pattern s. apply rschema_ind'.
    - intros b j. destruct fuel; reflexivity.
    - intros a r p IH j. rewrite valid_r_obj, resolve_obj, valid_as_g_obj, g_obj_set_ref.
      rewrite (g_obj_amap re (valid re) (valid_r re fuel defs) (resolve fuel defs)) by exact IH.
      f_equal. apply Hr.
  Qed.

  (* following references = validity of the inlined schema *)
  Theorem valid_r_resolve : forall fuel defs s j,
    valid_r re fuel defs s j = valid re (resolve fuel defs s) j.
  Proof.
    intros fuel defs s j. symmetry. revert defs s j.
    induction fuel as [|f IHf]; intros defs; apply agree_refs; intros [n|] j; cbn; auto.
    destruct (nth_error defs n); cbn; auto.
  Qed.
End RefThm.

(* ---------- the fuel suffices ---------- *)
Lemma nth_ordered : forall n l i m d,
  ordered_at n i l = true -> nth_error l m = Some d -> refs_in (S (i + m)) n d = true.
Proof.
  induction l as [|x l IH]; intros i m d O E.
  - destruct m; discriminate.
  - cbn in O. apply andb_true_iff in O as [O1 O2]. destruct m; cbn in E.
    + injection E as <-. rewrite Nat.add_0_r. exact O1.
    + replace (S (i + S m)) with (S (S i + m)) by lia. eapply IH; eauto.
Qed.

(* two amounts of fuel give the same inlined schema as soon as they give the
   same inlined references *)
Lemma resolve_refs : forall defs f f' k,
  (forall m, k <= m < length defs -> rres f defs (Some m) = rres f' defs (Some m)) ->
  forall s, refs_in k (length defs) s = true -> resolve f defs s = resolve f' defs s.
Proof.
  intros defs f f' k Hr s. pattern s. apply rschema_ind'.
  - intros b _. destruct f, f'; reflexivity.
  - intros a r p IH R. rewrite !resolve_obj. cbn [refs_in] in R. apply andb_true_iff in R as [R1 R2]. f_equal.
    replace (rres f defs r) with (rres f' defs r).
    + apply (set_ref_amap_ext (refs_in k (length defs))); auto.
    + destruct r as [m|]; auto. symmetry. apply Hr.
      apply andb_true_iff in R1 as [A B]. apply Nat.leb_le in A. apply Nat.ltb_lt in B. lia.
Qed.

Theorem resolve_stable : forall defs, ordered defs = true ->
  forall f f' k s, refs_in k (length defs) s = true ->
  length defs - k <= f -> length defs - k <= f' ->
  resolve f defs s = resolve f' defs s.
Proof.
  intros defs O. induction f as [|g IHg]; intros f' k s R L L'; apply (resolve_refs defs _ _ k); auto; intros m Hm.
  - lia.
  - destruct f' as [|g']; [lia|]. cbn. f_equal. destruct (nth_error defs m) as [d|] eqn:E; auto.
    apply (IHg g' (S m) d); [apply (nth_ordered (length defs) defs 0 m d O E) | lia | lia].
Qed.

(* a well-formed document: any fuel >= the number of definitions gives the same inlined schema *)
Theorem resolve_doc_stable : forall defs s, doc_ok defs s = true ->
  forall f, length defs <= f -> resolve f defs s = resolve_doc defs s.
Proof.
  intros defs s D f L. unfold doc_ok in D. apply andb_true_iff in D as [O R].
  unfold resolve_doc. apply (resolve_stable defs O f (length defs) 0 s R); lia.
Qed.

Section RefThm2.
  Variable re : pat -> str -> bool.

  Theorem valid_r_stable : forall defs s, doc_ok defs s = true ->
    forall f j, length defs <= f -> valid_r re f defs s j = valid re (resolve_doc defs s) j.
  Proof. intros defs s D f j L. rewrite valid_r_resolve, (resolve_doc_stable defs s D f L). reflexivity. Qed.
End RefThm2.
