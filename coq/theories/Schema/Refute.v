(* Concrete schemas: for six of the deviation classes a (schema, instance) pair
   on which the importer's encoding differs from JSON Schema validity, and three
   schemas near them on which it agrees (the verdicts are computed in
   Properties/C13.v); the named interactions inside the fragment. *)
From Verif Require Import Schema.Json Schema.Sem Schema.Encode Schema.Proofs Schema.Main.
From Coq Require Import List NArith ZArith Bool.
Import ListNotations.

(* a concrete oracle: every pattern means "starts with 'a'" *)
Definition re_a (p : pat) (s : str) : bool := match s with c :: _ => N.eqb c 97 | [] => false end.

Definition A0 := no_assertions.
Definition P0 : applic schema := no_applic.
Definition a_with_type (tys : list tyname) : assertions :=
  mkA (Some tys) None None None None None None None None None None None None None None None None None None.
Definition a_with_minLength (n : N) : assertions :=
  mkA None None None None None None None (Some n) None None None None None None None None None None None.
Definition a_with_maxLength (n : N) : assertions :=
  mkA None None None None None None (Some n) None None None None None None None None None None None None.
Definition a_with_min (h : Z) : assertions :=
  mkA None None None None None None None None None None None None None None None None None (Some h) None.
Definition a_with_pattern (p : pat) : assertions :=
  mkA None None None None None None None None (Some p) None None None None None None None None None None.
Definition a_with_required (r : list str) : assertions :=
  mkA None None None None None None None None None None None None None None None None None None (Some r).
Definition a_type_min (tys : list tyname) (h : Z) : assertions :=
  mkA (Some tys) None None None None None None None None None None None None None None None None (Some h) None.

Definition p_allOf l : applic schema := mkP None (Some l) None None None None None None None None None None None None None.
Definition p_oneOf l : applic schema := mkP None None None (Some l) None None None None None None None None None None None.
Definition p_not s : applic schema := mkP None None None None (Some s) None None None None None None None None None None.
Definition p_ite i t e : applic schema := mkP None None None None None (Some i) t e None None None None None None None.
Definition p_pnames s : applic schema := mkP None None None None None None None None None None (Some s) None None None None.
Definition p_prefix l : applic schema := mkP None None None None None None None None None None None (Some l) None None None.
Definition p_obj props pprops addl : applic schema :=
  mkP None None None None None None None None props pprops None None None addl None.

Definition S_type tys := SObj (a_with_type tys) P0.
Definition sa := [97%N].     (* "a" *)
Definition sb := [98%N].     (* "b" *)
Definition sab := [97%N; 98%N].

(* allOf:[{type:string},{minLength:1},{maxLength:3}] accepts "ab", as it should: the member
   without constraints is dropped and matchN counts the members that were kept (C13-F1) *)
Definition w_allOf := SObj A0 (p_allOf [S_type [TyString]; SObj (a_with_minLength 1%N) P0; SObj (a_with_maxLength 3%N) P0]).

(* allOf:[true,false] accepts 1 *)
Definition w_allOf_false := SObj A0 (p_allOf [SBool true; SBool false]).

(* propertyNames:{pattern:"^a"} accepts {"b":1} *)
Definition w_pnames := SObj A0 (p_pnames (SObj (a_with_pattern 0%N) P0)).

(* properties:{a:{}}, additionalProperties:false, required:[b] accepts {"b":1} *)
Definition w_req := SObj (a_with_required [sb]) (p_obj (Some [(sa, SObj A0 P0)]) None (Some (SBool false))).

(* prefixItems:[{type:string}] rejects [] *)
Definition w_prefix := SObj A0 (p_prefix [S_type [TyString]]).

(* patternProperties:{"^a":{type:integer}}, additionalProperties:{type:string} rejects {"":1}, as it
   should: no exclusion conjunct without property names, the empty name is not skipped (C13-F6) *)
Definition w_empty := SObj A0 (p_obj None (Some [(0%N, S_type [TyInteger])]) (Some (S_type [TyString]))).

(* properties:{p:{if:{type:string},then:false}} rejects {"p":1} *)
Definition w_ite := SObj A0 (p_obj (Some [(sa, SObj A0 (p_ite (S_type [TyString]) (Some (SBool false)) None))]) None None).

(* oneOf:[false] accepts 1 *)
Definition w_oneOf := SObj A0 (p_oneOf [SBool false]).

(* type:[integer,number] accepts 1.5, as it should: `int` is only added when "number" is not listed (C13-F10) *)
Definition w_intnum := S_type [TyInteger; TyNumber].

Section Named.
  Variable re : pat -> str -> bool.

  (* an object without assertion keywords: only the applicators count *)
  Lemma valid_applic_only : forall p j,
    valid re (SObj A0 p) j =
    v_ref (valid re) p j && v_allOf (valid re) p j && v_anyOf (valid re) p j && v_oneOf (valid re) p j &&
    v_not (valid re) p j && v_ite (valid re) p j && v_props (valid re) p j && v_pprops re (valid re) p j &&
    v_pnames (valid re) p j && v_prefix (valid re) p j && v_contains (valid re) A0 p j && v_addl re (valid re) p j &&
    v_items (valid re) p j.
  Proof. reflexivity. Qed.

  (* not next to a type list *)
  Theorem not_with_type_list : forall tys s',
    in_fragment re (SObj (a_with_type tys) (p_not s')) ->
    forall j, encode re (SObj (a_with_type tys) (p_not s')) j = existsb (ty_matches j) tys && negb (valid re s' j).
  Proof.
    intros tys s' F j. rewrite (encode_correct re _ F j). cbn. unfold valid_assertions, A0, no_assertions. cbn. rewrite ?andb_true_r. reflexivity.
  Qed.

  (* additionalProperties next to properties and patternProperties *)
  Theorem additional_vs_pattern_properties : forall lp lpp s',
    in_fragment re (SObj A0 (p_obj (Some lp) (Some lpp) (Some s'))) ->
    forall m, encode re (SObj A0 (p_obj (Some lp) (Some lpp) (Some s'))) (JObj m) =
      forallb (fun kv => forallb (fun ks => negb (str_eqb (fst kv) (fst ks)) || valid re (snd ks) (snd kv)) lp) m &&
      forallb (fun kv => forallb (fun ps => negb (re (fst ps) (fst kv)) || valid re (snd ps) (snd kv)) lpp) m &&
      forallb (fun kv => negb (negb (has_key (fst kv) lp) && negb (existsb (fun ps => re (fst ps) (fst kv)) lpp))
                         || valid re s' (snd kv)) m.
  Proof. intros lp lpp s' F m. rewrite (encode_correct re _ F (JObj m)), valid_applic_only. cbn. rewrite ?andb_true_r. reflexivity. Qed.

End Named.

(* concrete schemas inside the fragment *)
Definition ex_not_type := SObj (a_with_type [TyString; TyNumber]) (p_not (S_type [TyString])).
Definition ex_oneOf := SObj A0 (p_oneOf [S_type [TyInteger]; SObj (a_with_min 4%Z) P0]).
Definition ex_ite := SObj A0 (p_ite (S_type [TyString]) (Some (SObj (a_with_minLength 2%N) P0)) (Some (SObj (a_type_min [TyString] 6%Z) P0))).
Definition ex_obj := SObj A0 (p_obj (Some [(sa, S_type [TyInteger])]) (Some [(0%N, SObj (a_with_min 6%Z) P0)]) (Some (S_type [TyString]))).
Definition ex_allOf := SObj A0 (p_allOf [SObj (a_with_minLength 1%N) P0; SObj (a_with_maxLength 3%N) P0]).
Definition ex_nested := SObj A0 (p_obj (Some [(sa, ex_oneOf); (sb, ex_ite)]) None (Some (SBool false))).

Example fragment_examples :
  in_fragment re_a ex_not_type /\ in_fragment re_a ex_oneOf /\ in_fragment re_a ex_ite /\
  in_fragment re_a ex_obj /\ in_fragment re_a ex_allOf /\ in_fragment re_a ex_nested.
Proof. unfold in_fragment. vm_compute. auto 10. Qed.

Example verdict_examples :
  map (encode re_a ex_not_type) [JStr sa; JNum 2%Z; JNum 3%Z; JNull] = [false; true; true; false] /\
  map (encode re_a ex_oneOf) [JNum 2%Z; JNum 6%Z; JNum 5%Z; JStr sa] = [true; false; true; true] /\
  map (encode re_a ex_ite) [JStr sa; JStr sab; JNum 2%Z] = [false; true; false] /\
  map (encode re_a ex_obj) [JObj [(sa, JNum 2%Z)]; JObj [(sa, JNum 8%Z)]; JObj [(sab, JNum 8%Z)]; JObj [(sb, JNum 8%Z)]; JObj [(sb, JStr sa)]]
    = [false; true; true; false; true] /\
  map (encode re_a ex_nested) [JObj [(sa, JNum 2%Z)]; JObj [(sa, JNum 6%Z)]; JObj [(sb, JStr sab)]; JObj [(sab, JNull)]; JNull]
    = [true; false; true; false; true].
Proof. vm_compute. auto 10. Qed.
