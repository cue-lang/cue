(* Phase 1 of schemaState: the assertion keywords without subschemas. *)
From Verif Require Import Schema.Json Schema.Sem Schema.Encode Schema.Proofs Schema.Invariant Schema.Track.
From Coq Require Import List NArith ZArith Bool Lia.
Import ListNotations.

Lemma json_eqb_kind : forall a b, json_eqb a b = true -> kind_of a = kind_of b.
Proof.
  intros [] []; simpl; try discriminate; auto.
  intros H. apply Z.eqb_eq in H. subst. reflexivity.
Qed.

Lemma ctype_num : forall h, ctype_of (JNum h) = TNum.
Proof. intros h. unfold ctype_of. simpl. destruct (is_int h); reflexivity. Qed.

(* goals about the core type of a value after case analysis on the value *)
Ltac tysolve :=
  simpl in *; try rewrite ctype_num in *; try discriminate; try reflexivity; try tauto; auto;
  try (match goal with H : ?x <> ?x |- _ => exfalso; apply H; reflexivity end).

Section Phase1.
  Variable re : pat -> str -> bool.
  Variable T : mask.

  (* an optional keyword without subschemas *)
  Lemma core_opt_step : forall {X} (f : X -> state -> state) (q : X -> json -> bool) o,
    (forall x, Core T (f x) (fun v => q x v = true)) ->
    Core T (opt_step f o) (fun v => optb (fun x => q x v) o = true).
  Proof. intros X f q [x|] H; [apply H | apply step_id; auto]. Qed.

  Definition Qint (v : json) : Prop := match v with JNum h => is_int h = true | _ => True end.

  (* the two halves of [step_type] by name: the is_int constraint, then the mask (step_type_eq) *)
  Definition add_ints (tys : list tyname) (s : state) : state :=
    if int_only tys then add_C s TNum (num_pred is_int) else s.

  Lemma inv_add_ints : forall tys st VS,
    Inv T st VS -> Inv T (add_ints tys st) (fun v => VS v /\ (int_only tys = true -> Qint v)).
  Proof.
    intros tys st VS H. unfold add_ints. destruct (int_only tys).
    - eapply inv_ext; [|apply (inv_add_C T st VS TNum (num_pred is_int) Qint H)].
      + intros v _. tauto.
      + intros [] Hv; tysolve.
      + intros [] Hv; tysolve.
      + intros [] Hv; tysolve.
    - eapply inv_ext; [|exact H]. intros v _. split; [intros; split; auto; discriminate | tauto].
  Qed.

  Lemma fold_mor_acc : forall {X} (g : X -> mask) l m k,
    fold_left (fun m x => mor m (g x)) l m k = m k || existsb (fun x => g x k) l.
  Proof.
    induction l as [|x l IH]; intros m k; simpl.
    - rewrite orb_false_r; reflexivity.
    - rewrite IH. unfold mor. rewrite orb_assoc. reflexivity.
  Qed.

  (* the union of the masks [g x]: how the decoder collects the kinds of a type
     list, of enum values, and the allowed / known types of combinator members *)
  Definition munion {X} (g : X -> mask) (l : list X) : mask := fold_left (fun m x => mor m (g x)) l mnone.

  Lemma munion_spec : forall {X} (g : X -> mask) l k, munion g l k = existsb (fun x => g x k) l.
  Proof. intros. unfold munion. rewrite fold_mor_acc. reflexivity. Qed.

  Definition tymask (tys : list tyname) : mask := munion mask_of_tyname tys.

  Lemma ty_matches_mask : forall v t, ty_matches v t = mask_of_tyname t (kind_of v).
  Proof.
    intros v t. destruct t, v; simpl; try reflexivity; unfold mor, msingle; simpl;
      try (destruct (is_int h); reflexivity).
  Qed.

  Lemma tymask_matches : forall tys v, tymask tys (kind_of v) = existsb (ty_matches v) tys.
  Proof.
    intros. unfold tymask. rewrite munion_spec. induction tys as [|t tys IH]; simpl; auto.
    rewrite ty_matches_mask, IH. reflexivity.
  Qed.

  (* the number kinds in the mask of a type list *)
  Lemma tymask_num : forall tys,
    tymask tys KInt = has_ty TyInteger tys || has_ty TyNumber tys /\ tymask tys KFloat = has_ty TyNumber tys.
  Proof.
    intros tys. unfold tymask. rewrite !munion_spec. induction tys as [|t tys [IH1 IH2]]; [split; reflexivity|].
    cbn [existsb has_ty]. fold (has_ty TyInteger tys) (has_ty TyNumber tys). rewrite IH1, IH2.
    destruct t, (has_ty TyInteger tys), (has_ty TyNumber tys); split; reflexivity.
  Qed.

  Lemma not_int_only_relcc : forall tys, int_only tys = false ->
    forall k k', ctype_of_kind k = ctype_of_kind k' -> tymask tys k = tymask tys k'.
  Proof.
    intros tys H k k' E. destruct (tymask_num tys) as [Ei Ef]. unfold int_only in H.
    destruct k, k'; try discriminate E; try reflexivity; rewrite Ei, Ef;
      destruct (has_ty TyInteger tys), (has_ty TyNumber tys); try reflexivity; discriminate H.
  Qed.

  Lemma step_type_eq : forall tys s,
    sem_eq (upd (add_ints tys s) (mand (st_A (add_ints tys s)) (tymask tys)) (st_K (add_ints tys s)) e_top)
           (step_type tys s).
  Proof. intros tys s. unfold step_type, upd, add_all, add_ints. simpl. repeat split. Qed.

  Lemma hasc0_add_ints : forall tys s, int_only tys = true -> hasc0 (add_ints tys s) = true.
  Proof. intros tys s H. unfold add_ints. rewrite H. apply hasc0_add_C. Qed.

  (* The type list narrows allowedTypes by its mask, with `_` as expression.  The
     only core type whose two kinds a list can separate is number: "integer"
     without "number" (int_only) keeps KInt only and adds the is_int constraint,
     which is what makes the mask exact on numbers again. *)
  Lemma inv_step_type : forall tys st VS,
    Inv T st VS ->
    Inv T (step_type tys st) (fun v => VS v /\ existsb (ty_matches v) tys = true).
  Proof.
    intros tys st VS H.
    eapply inv_sem_eq; [apply step_type_eq|].
    pose proof (inv_add_ints tys st VS H) as H1.
    set (s1 := add_ints tys st) in *.
    eapply inv_ext; [| apply (inv_narrow T s1 _ (tymask tys) (fun v => existsb (ty_matches v) tys) H1)].
    - (* under int_only the is_int constraint follows from the type list: "number" is absent *)
      intros v Hv. split; [tauto|]. intros [HVS Hm]. split; [split; auto|auto].
      intros Hint. destruct v; simpl; auto.
      rewrite <- tymask_matches in Hm. simpl in Hm. destruct (is_int h) eqn:Ei; auto.
      unfold int_only in Hint. rewrite (proj2 (tymask_num tys)) in Hm. rewrite Hm, andb_false_r in Hint. discriminate.
    - intros v _. symmetry. apply tymask_matches.
    - intros v k _ [_ Hint] Ek _ Hk.
      destruct (kind_eqb k (kind_of v)) eqn:E; [apply kind_eqb_eq in E; subst; auto|].
      (* two different kinds of one core type: numbers *)
      assert (Hn : exists h, v = JNum h).
      { destruct v; destruct k; simpl in Ek, E; try discriminate; eauto. }
      destruct Hn as [h ->]. rewrite ctype_num in Ek. simpl in *.
      destruct k; simpl in Ek; try discriminate.
      + (* k = KInt, v not an integer: "integer" is listed, so "number" is too *)
        destruct (is_int h) eqn:Ei; [simpl in E; discriminate|]. destruct (tymask_num tys) as [Ei' Ef]. rewrite Ef.
        destruct (has_ty TyNumber tys) eqn:F; auto.
        assert (Hio : int_only tys = true).
        { unfold int_only. rewrite F. rewrite Ei', orb_false_r in Hk. rewrite Hk. reflexivity. }
        pose proof (Hint Hio) as X. simpl in X. congruence.
      + (* k = KFloat, v an integer: "number" is listed *)
        destruct (is_int h) eqn:Ei; [|simpl in E; discriminate]. destruct (tymask_num tys) as [Ei' Ef].
        rewrite Ef in Hk. rewrite Ei', Hk. apply orb_true_r.
    - intros Hh k k' E _ _. apply not_int_only_relcc; auto.
      destruct (int_only tys) eqn:E'; auto. pose proof (hasc0_add_ints tys st E') as X. fold s1 in X. congruence.
  Qed.

  Lemma core_type : forall tys, Core T (step_type tys) (fun v => existsb (ty_matches v) tys = true).
  Proof.
    intros tys. apply core_intro; intros st.
    - unfold step_type. destruct (int_only tys); reflexivity.
    - unfold step_type. destruct (int_only tys); auto.
    - intros VS _. apply inv_step_type.
  Qed.

  (* the pieces of [step_enum] by name: the values still allowed, the mask of their kinds, the
     expression (step_enum_eq) *)
  Definition enum_a (vs : list json) (s : state) := filter (fun x => st_A s (kind_of x)) vs.
  Definition kmask (a : list json) : mask := munion (fun x => msingle (kind_of x)) a.

  Lemma kmask_spec : forall a k, kmask a k = existsb (fun x => kind_eqb k (kind_of x)) a.
  Proof. intros. apply munion_spec. Qed.

  Definition enum_e (a : list json) : expr :=
    match a with [] => e_top | _ => e_other (fun j => existsb (json_eqb j) a) end.

  Lemma step_enum_eq : forall vs s,
    step_enum vs s = upd s (mand (st_A s) (kmask (enum_a vs s))) (mand (st_K s) (kmask (enum_a vs s))) (enum_e (enum_a vs s)).
  Proof.
    intros vs s. unfold step_enum, upd, enum_e. fold (enum_a vs s). fold (kmask (enum_a vs s)).
    destruct (enum_a vs s); reflexivity.
  Qed.

  Lemma wfe_enum_e : forall a, wfe (enum_e a).
  Proof. intros [|x a]; [apply wfe_top | apply wfe_other]. Qed.

  Lemma ev_enum_e : forall a v, a <> [] -> ev (enum_e a) v = existsb (json_eqb v) a.
  Proof. intros [|x a] v H; [congruence | reflexivity]. Qed.

  Lemma inv_step_enum : forall vs st VS,
    Inv T st VS -> Inv T (step_enum vs st) (fun v => VS v /\ existsb (json_eqb v) vs = true).
  Proof.
    intros vs st VS H. rewrite step_enum_eq.
    set (a := enum_a vs st).
    assert (Ha : forall x, In x a <-> In x vs /\ st_A st (kind_of x) = true) by (intros; apply filter_In).
    assert (Hin : forall v, st_A st (kind_of v) = true -> existsb (json_eqb v) vs = true ->
                            existsb (json_eqb v) a = true /\ kmask a (kind_of v) = true).
    { intros v HA Hex. apply existsb_exists in Hex. destruct Hex as [x [Hx E]].
      pose proof (json_eqb_kind _ _ E) as Ek. split.
      - apply existsb_exists. exists x. split; auto. apply Ha. split; auto. rewrite <- Ek; auto.
      - rewrite kmask_spec. apply existsb_exists. exists x. split.
        + apply Ha. split; auto. rewrite <- Ek; auto.
        + apply kind_eqb_eq; auto. }
    apply inv_upd; try exact H; try apply wfe_enum_e.
    - intros k Hk. apply mand_true in Hk. tauto.
    - intros k Hk. unfold mand in *. apply andb_true_iff in Hk. destruct Hk as [H1 H2].
      rewrite (i_AK _ _ _ H k H1), H2. reflexivity.
    - (* c1g *) intros v HA _ He Hal. destruct a as [|x a'] eqn:Ea.
      + apply allows_iff in Hal. destruct Hal as [k [_ Hk]]. unfold mand in Hk. rewrite kmask_spec in Hk.
        simpl in Hk. rewrite andb_false_r in Hk. discriminate.
      + rewrite ev_enum_e in He by discriminate. apply existsb_exists in He. destruct He as [y [Hy E]].
        apply existsb_exists. exists y. split; auto. apply Ha in Hy. tauto.
    - (* c1h *) intros v HA Hex. destruct (Hin v HA Hex) as [H1 _].
      destruct a as [|x a'] eqn:Ea; [reflexivity|]. rewrite ev_enum_e by discriminate. exact H1.
    - (* c2 *) intros v HA _ Hex. destruct (Hin v HA Hex) as [_ H2]. unfold mand. rewrite HA, H2. reflexivity.
    - (* c3 *) intros Hne v Hall He. destruct a as [|x a'] eqn:Ea.
      + apply mempty_false in Hne. destruct Hne as [k Hk]. unfold mand in Hk. rewrite kmask_spec in Hk.
        simpl in Hk. rewrite andb_false_r in Hk. discriminate.
      + rewrite ev_enum_e in He by discriminate. apply existsb_exists in He. destruct He as [y [Hy E]].
        pose proof (json_eqb_kind _ _ E) as Ek.
        apply allows_iff. exists (kind_of v). split; auto. unfold mand.
        pose proof (proj1 (Ha y) Hy) as [_ HAy].
        rewrite Ek. rewrite (i_AK _ _ _ H _ HAy). rewrite kmask_spec. rewrite andb_true_l.
        apply existsb_exists. exists y. split; auto. apply kind_eqb_eq; reflexivity.
    - (* cH *) intros Htop _. destruct a as [|x a'] eqn:Ea; [|simpl in Htop; discriminate].
      split.
      + intros k k' _ _ _. unfold mand. rewrite !kmask_spec. simpl. rewrite !andb_false_r. reflexivity.
      + intros v _ HA. unfold mand in HA. rewrite kmask_spec in HA. simpl in HA. rewrite andb_false_r in HA. discriminate.
  Qed.

  Lemma core_enum : forall vs, Core T (step_enum vs) (fun v => existsb (json_eqb v) vs = true).
  Proof.
    intros vs. apply core_intro; intros st.
    - rewrite step_enum_eq. apply shape_upd.
    - unfold step_enum. destruct (filter _ vs); auto.
    - intros VS _. apply inv_step_enum.
  Qed.

  Lemma step_const_eq : forall c s,
    sem_eq (upd s (mand (st_A s) (msingle (kind_of c))) (mand (st_K s) (msingle (kind_of c))) (const_pred c))
           (step_const c s).
  Proof. intros c s. unfold step_const, upd, add_all. simpl. repeat split. Qed.

  Lemma inv_step_const : forall c st VS,
    Inv T st VS -> Inv T (step_const c st) (fun v => VS v /\ json_eqb v c = true).
  Proof.
    intros c st VS H. eapply inv_sem_eq; [apply step_const_eq|].
    apply inv_upd; try exact H; try (unfold const_pred; apply wfe_other).
    - intros k Hk. apply mand_true in Hk. tauto.
    - intros k Hk. unfold mand in *. apply andb_true_iff in Hk. destruct Hk as [H1 H2].
      rewrite (i_AK _ _ _ H k H1), H2. reflexivity.
    - intros v _ _ He _. exact He.
    - intros v _ He. exact He.
    - intros v HA _ He. unfold mand, msingle. rewrite HA.
      rewrite (json_eqb_kind _ _ He). simpl. apply kind_eqb_eq. reflexivity.
    - intros Hne v Hall He. simpl in He. apply allows_iff. exists (kind_of v). split; auto.
      unfold mand, msingle. rewrite (json_eqb_kind _ _ He).
      apply mempty_false in Hne. destruct Hne as [k Hk]. unfold mand, msingle in Hk.
      apply andb_true_iff in Hk. destruct Hk as [HAk Ek]. apply kind_eqb_eq in Ek. subst k.
      rewrite (i_AK _ _ _ H _ HAk). simpl. apply kind_eqb_eq. reflexivity.
    - intros Htop. simpl in Htop. discriminate.
  Qed.

  Lemma core_const : forall c, Core T (step_const c) (fun v => json_eqb v c = true).
  Proof. intros c. apply core_intro; auto. intros st VS _. apply inv_step_const. Qed.

  (* [p] is the constraint generated for core type [t] from a keyword whose
     meaning is [q]: it accepts only values of type [t], where it agrees with
     [q], and [q] ignores the other types *)
  Definition typed (t : ctype) (p q : json -> bool) : Prop :=
    (forall v, p v = true -> ctype_of v = t) /\ (forall v, ctype_of v = t -> p v = q v) /\
    (forall v, ctype_of v <> t -> q v = true).

  Lemma typed_num : forall f, typed TNum (num_pred f) (on_num f).
  Proof. intros f. repeat split; intros [] Hv; tysolve. Qed.
  Lemma typed_str : forall f, typed TStr (str_pred f) (on_str f).
  Proof. intros f. repeat split; intros [] Hv; tysolve. Qed.
  Lemma typed_arr : forall f, typed TArr (arr_pred f) (on_arr f).
  Proof. intros f. repeat split; intros [] Hv; tysolve. Qed.
  Lemma typed_obj : forall f, typed TObj (obj_pred f) (on_obj f).
  Proof. intros f. repeat split; intros [] Hv; tysolve. Qed.

  Lemma inv_typed : forall t p q st VS, typed t p q ->
    Inv T st VS -> Inv T (add_C st t p) (fun v => VS v /\ q v = true).
  Proof.
    intros t p q st VS (Hp & Hq & Ho) H. apply inv_add_C; auto. intros v Hv. rewrite (Hq v Hv). tauto.
  Qed.

  Lemma core_typed : forall t p q, typed t p q -> Core T (fun st => add_C st t p) (fun v => q v = true).
  Proof. intros t p q Ht. apply core_intro; auto. intros st VS _. apply inv_typed, Ht. Qed.

  (* a step that first records an error *)
  Lemma core_set_bad : forall (b : bool) f Q,
    Core T f Q -> Core T (fun st => f (if b then set_bad st else st)) Q.
  Proof.
    intros [] f Q [L D I]; [|split; assumption]. split.
    - intros st. rewrite L. reflexivity.
    - intros st Dv. apply (D _ Dv).
    - intros st VS Dv H. apply (I _ _ Dv). apply (inv_sem_eq T st); [apply sem_eq_set_bad | exact H].
  Qed.

  Lemma core_multipleOf : forall k, Core T (step_multipleOf k) (fun v => on_num (multiple_of k) v = true).
  Proof. intros k. apply (core_set_bad (Z.leb k 0) (fun st => add_C st TNum (num_pred (multiple_of k)))), core_typed, typed_num. Qed.

  Lemma core_unique : forall u : bool,
    Core T (fun st => if u then add_C st TArr (arr_pred unique_items) else st)
         (fun v => (if u then on_arr unique_items v else true) = true).
  Proof. intros []; [apply core_typed, typed_arr | apply step_id; auto]. Qed.

  Definition phase1_valid (a : assertions) (v : json) : Prop :=
    (((((((((((( optb (fun tys => existsb (ty_matches v) tys) (a_type a) = true /\
    optb (fun vs => existsb (json_eqb v) vs) (a_enum a) = true) /\
    optb (fun c => json_eqb v c) (a_const a) = true) /\
    optb (fun k => on_num (multiple_of k) v) (a_multipleOf a) = true) /\
    optb (fun b => on_num (fun h => Z.ltb h b) v) (a_xmax a) = true) /\
    optb (fun b => on_num (fun h => Z.ltb b h) v) (a_xmin a) = true) /\
    optb (fun n => on_str (fun s => N.leb (N_len s) n) v) (a_maxLength a) = true) /\
    optb (fun n => on_str (fun s => N.leb n (N_len s)) v) (a_minLength a) = true) /\
    optb (fun p => on_str (re p) v) (a_pattern a) = true) /\
    optb (fun n => on_obj (fun m => N.leb (N_len m) n) v) (a_maxProps a) = true) /\
    optb (fun n => on_obj (fun m => N.leb n (N_len m)) v) (a_minProps a) = true) /\
    optb (fun n => on_arr (fun l => N.leb (N_len l) n) v) (a_maxItems a) = true) /\
    optb (fun n => on_arr (fun l => N.leb n (N_len l)) v) (a_minItems a) = true) /\
    optb (fun u : bool => if u then on_arr unique_items v else true) (a_unique a) = true.

  Lemma core_phase1 : forall a, Core T (phase1 re a) (phase1_valid a).
  Proof.
    intros a.
    pose proof (core_opt_step step_type _ (a_type a) core_type) as S.
    apply (fun S => step_then_core S (core_opt_step step_enum _ (a_enum a) core_enum)) in S.
    apply (fun S => step_then_core S (core_opt_step step_const _ (a_const a) core_const)) in S.
    apply (fun S => step_then_core S (core_opt_step step_multipleOf _ (a_multipleOf a) core_multipleOf)) in S.
    apply (fun S => step_then_core S (core_opt_step _ _ (a_xmax a) (fun b => core_typed _ _ _ (typed_num (fun h => Z.ltb h b))))) in S.
    apply (fun S => step_then_core S (core_opt_step _ _ (a_xmin a) (fun b => core_typed _ _ _ (typed_num (fun h => Z.ltb b h))))) in S.
    apply (fun S => step_then_core S (core_opt_step _ _ (a_maxLength a) (fun n => core_typed _ _ _ (typed_str (fun x => N.leb (N_len x) n))))) in S.
    apply (fun S => step_then_core S (core_opt_step _ _ (a_minLength a) (fun n => core_typed _ _ _ (typed_str (fun x => N.leb n (N_len x)))))) in S.
    apply (fun S => step_then_core S (core_opt_step _ _ (a_pattern a) (fun p => core_typed _ _ _ (typed_str (re p))))) in S.
    apply (fun S => step_then_core S (core_opt_step _ _ (a_maxProps a) (fun n => core_typed _ _ _ (typed_obj (fun m => N.leb (N_len m) n))))) in S.
    apply (fun S => step_then_core S (core_opt_step _ _ (a_minProps a) (fun n => core_typed _ _ _ (typed_obj (fun m => N.leb n (N_len m)))))) in S.
    apply (fun S => step_then_core S (core_opt_step _ _ (a_maxItems a) (fun n => core_typed _ _ _ (typed_arr (fun l => N.leb (N_len l) n))))) in S.
    apply (fun S => step_then_core S (core_opt_step _ _ (a_minItems a) (fun n => core_typed _ _ _ (typed_arr (fun l => N.leb n (N_len l)))))) in S.
    apply (fun S => step_then_core S (core_opt_step _ _ (a_unique a) core_unique)) in S.
    exact S.
  Qed.

End Phase1.
