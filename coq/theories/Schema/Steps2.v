(* Phase 2 of schemaState: $ref, not, allOf (constraints_combinator.go). *)
From Verif Require Import Schema.Json Schema.Sem Schema.Encode Schema.Proofs Schema.Invariant Schema.Track Schema.Steps1.
From Coq Require Import List NArith ZArith Bool Lia.
Import ListNotations.

Definition kind_witness (k : kind) : json :=
  match k with
  | KNull => JNull | KBool => JBool true | KInt => JNum 0 | KFloat => JNum 1
  | KStr => JStr [] | KList => JArr [] | KStruct => JObj []
  end.
Lemma kind_witness_kind : forall k, kind_of (kind_witness k) = k.
Proof. intros []; reflexivity. Qed.

Section Steps2.
  Variable re : pat -> str -> bool.

  (* What the result of schemaState(sub, T) guarantees.  [g_KA]: knownTypes is
     either everything or inside allowedTypes (what the combinators need to
     narrow K).  [g_H], left case: an unconstrained result whose expression is
     an error is the schema `false` met with a non-empty mask; otherwise an
     unconstrained result is characterised by its mask alone. *)
  Record Good (T : mask) (s : schema) (r : result) : Prop := mkGood {
    g_ev : forall v, T (kind_of v) = true -> ev (r_e r) v = valid re s v;
    g_snd : forall v, T (kind_of v) = true -> valid re s v = true -> r_A r (kind_of v) = true;
    g_K : forall v, ev (r_e r) v = true -> allows (r_K r) (ctype_of v) = true;
    g_AT : forall k, r_A r k = true -> T k = true;
    g_AK : forall k, r_A r k = true -> r_K r k = true;
    g_KA : mempty (r_A r) = false ->
           (forall k, r_K r k = true) \/ (forall k, r_K r k = true -> r_A r k = true);
    g_wfe : wfe (r_e r);
    g_H : r_hasC r = false ->
          (is_err (r_e r) = true /\ mempty (r_A r) = false) \/
          (relcc T (r_A r) /\ forall v, T (kind_of v) = true -> r_A r (kind_of v) = true -> valid re s v = true)
  }.

  Lemma good_top_full : forall T s r, Good T s r -> is_top (r_e r) = true ->
    (forall k, T k = true -> r_A r k = true) /\ (forall v, T (kind_of v) = true -> valid re s v = true).
  Proof.
    intros T s r G Ht.
    assert (V : forall v, T (kind_of v) = true -> valid re s v = true).
    { intros v Hv. rewrite <- (g_ev _ _ _ G v Hv). apply (proj1 (g_wfe _ _ _ G) Ht). }
    split; auto. intros k Hk.
    pose proof (g_snd _ _ _ G (kind_witness k)) as X. rewrite kind_witness_kind in X. apply X; auto.
    apply V. rewrite kind_witness_kind; auto.
  Qed.

  (* the induction hypothesis of the main theorem for a subschema: decoded
     under any mask, without deviation, it is good *)
  Definition SubGood (s : schema) : Prop := forall M, r_dev (enc re s M) = [] -> Good M s (enc re s M).

  Variable T : mask.

  Lemma core_ref : forall o, optP SubGood o ->
    Core T (do_ref (option_map (enc re) o)) (fun v => optb (fun s' => valid re s' v) o = true).
  Proof.
    intros [x|] IH; [|apply step_id; auto]. pose (r := enc re x mall).
    set (e := mkE (ev (r_e r)) ShOther false (cl (r_e r)) (op (r_e r))).
    assert (E : forall st, sem_eq (upd st (st_A st) (st_K st) e) (step_ref r st)).
    { intros st. assert (Y : sem_eq st (if eager (r_e r) then set_poison (absorb r st) else absorb r st))
        by (destruct (eager (r_e r)); exact (sem_eq_absorb r st)).
      unfold step_ref, upd, add_all, e. simpl. destruct Y as (a & b & c & d & f & g & h). repeat split; simpl; congruence. }
    assert (D : forall st, st_dev (step_ref r st) = st_dev st ++ r_dev r).
    { intros st. unfold step_ref. cbn [st_dev]. destruct (eager (r_e r)); cbn [st_dev set_poison]; apply dev_absorb. }
    apply core_intro; intros st; cbn [option_map do_ref optb]; fold r.
    - rewrite <- (shape_sem_eq _ _ (E st)). apply shape_upd.
    - rewrite D. intros Dv. apply app_eq_nil in Dv. tauto.
    - rewrite D. intros VS Dv H. apply app_eq_nil in Dv. destruct Dv as [_ Dr]. pose proof (IH mall Dr) as G. fold r in G.
      apply (inv_sem_eq T _ _ _ (E st)). apply inv_constraint; [exact H | split; simpl; discriminate | reflexivity |].
      intros v _. simpl. rewrite (g_ev _ _ _ G v eq_refl). tauto.
  Qed.

  Lemma core_not : forall o, optP SubGood o ->
    Core T (do_not (option_map (enc re) o)) (fun v => optb (fun s' => negb (valid re s' v)) o = true).
  Proof.
    intros [x|] IH; [|apply step_id; auto]. pose (r := enc re x mall).
    set (e := e_other (matchN_eq 0 [r_e r])).
    assert (E : forall st, sem_eq (upd st (st_A st) (st_K st) e) (dev_if (is_err (r_e r)) DEV_error_member (step_not r st))).
    { intros st. eapply sem_eq_trans; [|apply sem_eq_dev_if]. unfold step_not, upd. apply sem_eq_add_all.
      eapply sem_eq_trans; [apply sem_eq_setAK_id | apply sem_eq_absorb]. }
    assert (D : forall st, st_dev (dev_if (is_err (r_e r)) DEV_error_member (step_not r st)) = [] -> st_dev st = [] /\ r_dev r = []).
    { intros st Dv. rewrite dev_dev_if in Dv. apply app_eq_nil in Dv. destruct Dv as [Dv _].
      change (st_dev (step_not r st)) with (st_dev (absorb r st)) in Dv. rewrite dev_absorb in Dv. apply app_eq_nil in Dv. exact Dv. }
    apply core_intro; intros st; cbn [option_map do_not optb]; fold r.
    - rewrite <- (shape_sem_eq _ _ (E st)). apply shape_upd.
    - intros Dv. apply (D st Dv).
    - intros VS Dv H. destruct (D st Dv) as [_ Dr]. pose proof (IH mall Dr) as G. fold r in G.
      apply (inv_sem_eq T _ _ _ (E st)). apply inv_constraint; [exact H | apply wfe_other | reflexivity |].
      intros v _. unfold e, matchN_eq, cnt, count. simpl. rewrite (g_ev _ _ _ G v eq_refl).
      destruct (valid re x v); simpl; split; congruence.
  Qed.

  (* the members decoded one after the other, each under the mask left by the previous ones *)
  Inductive Run : mask -> list schema -> list result -> mask -> Prop :=
  | Run_nil : forall A, Run A [] [] A
  | Run_cons : forall A s l r rs A',
      Good A s r -> Run (mand A (r_A r)) l rs A' -> Run A (s :: l) (r :: rs) A'.

  Lemma run_sub : forall A l rs A', Run A l rs A' -> forall k, A' k = true -> A k = true.
  Proof.
    induction 1 as [|A s l r rs A' G R IH]; intros k Hk; auto. apply IH in Hk. apply mand_true in Hk. tauto.
  Qed.

  Lemma run_len : forall A l rs A', Run A l rs A' -> length rs = length l.
  Proof. induction 1; simpl; auto. Qed.

  (* a member is "transparent" when it has no constraints of its own or its expression is `_` *)
  Definition transparent (r : result) : Prop :=
    (r_hasC r = false /\ (is_err (r_e r) && negb (mempty (r_A r))) = false) \/ is_top (r_e r) = true.

  Lemma transparent_spec : forall A s r, Good A s r -> transparent r ->
    relcc A (r_A r) /\ forall v, A (kind_of v) = true -> r_A r (kind_of v) = true -> valid re s v = true.
  Proof.
    intros A s r G [[Hh Hne] | Ht].
    - destruct (g_H _ _ _ G Hh) as [[He Hm] | X]; auto.
      rewrite He, Hm in Hne. discriminate.
    - destruct (good_top_full _ _ _ G Ht) as [Hfull V]. split; auto.
      intros k k' _ Hk Hk'. rewrite !Hfull; auto.
  Qed.

  (* forward: validity of all members pushes the kind through every mask *)
  Lemma run_fwd : forall A l rs A', Run A l rs A' ->
    forall v, A (kind_of v) = true -> forallb (fun s' => valid re s' v) l = true ->
              A' (kind_of v) = true /\ forallb (fun r => ev (r_e r) v) rs = true.
  Proof.
    induction 1 as [|A s l r rs A' G R IH]; intros v HA Hall; auto.
    simpl in *. apply andb_true_iff in Hall. destruct Hall as [H1 H2].
    rewrite (g_ev _ _ _ G v HA), H1. apply IH; auto.
    unfold mand. rewrite HA. simpl. apply (g_snd _ _ _ G v HA H1).
  Qed.

  (* backward: when every member either holds as an expression or is transparent,
     a kind whose core type survives in the final mask satisfies every member *)
  Lemma run_back : forall A l rs A', Run A l rs A' ->
    forall v, A (kind_of v) = true -> allows A' (ctype_of v) = true ->
    (forall r, In r rs -> ev (r_e r) v = true \/ transparent r) ->
    forallb (fun s' => valid re s' v) l = true.
  Proof.
    induction 1 as [|A s l r rs A' G R IH]; intros v HA Hal Hm; auto.
    assert (Hr : valid re s v = true /\ r_A r (kind_of v) = true).
    { destruct (Hm r (or_introl eq_refl)) as [He | Htr].
      - rewrite (g_ev _ _ _ G v HA) in He. split; auto. apply (g_snd _ _ _ G v HA He).
      - destruct (transparent_spec _ _ _ G Htr) as [Hcc Hv].
        assert (X : r_A r (kind_of v) = true).
        { apply allows_iff in Hal. destruct Hal as [k [Ek Hk]].
          apply (run_sub _ _ _ _ R) in Hk. apply mand_true in Hk. destruct Hk as [Hk1 Hk2].
          rewrite (Hcc (kind_of v) k); auto. }
        split; auto. }
    destruct Hr as [Hv HrA]. simpl. rewrite Hv. apply IH; auto.
    - unfold mand. rewrite HA, HrA. reflexivity.
    - intros r' Hin. apply Hm. right; auto.
  Qed.

  Lemma run_relcc : forall A l rs A', Run A l rs A' -> (forall r, In r rs -> transparent r) ->
    forall T0, relcc T0 A -> (forall k, A k = true -> T0 k = true) -> relcc T0 A'.
  Proof.
    induction 1 as [|A s l r rs A' G R IH]; intros Htr T0 Hcc Hsub; auto.
    apply IH.
    - intros r' Hin. apply Htr. right; auto.
    - destruct (transparent_spec _ _ _ G (Htr r (or_introl eq_refl))) as [Hcr _].
      intros k k' E Hk Hk'. unfold mand. rewrite (Hcc k k' E Hk Hk').
      destruct (A k') eqn:EA; auto. simpl.
      apply Hcr; auto. rewrite (Hcc k k' E Hk Hk'). exact EA.
    - intros k Hk. apply mand_true in Hk. apply Hsub. tauto.
  Qed.

  (* How constraintAllOf / AnyOf / OneOf turn the expressions of the members
     they keep into one: none gives `_`, one is used as it is, several go into
     the validator [F]. *)
  Definition joined (F : list expr -> pred) (a : list expr) : expr :=
    match a with [] => e_top | [x] => x | _ => e_other (F a) end.

  Lemma wfe_joined : forall F a, (forall e, In e a -> wfe e) -> wfe (joined F a).
  Proof. intros F [|x [|y t]] H; [apply wfe_top | apply H; left; auto | apply wfe_other]. Qed.

  Lemma ev_joined : forall F a v, (forall x, F [x] v = ev x v) -> a <> [] -> ev (joined F a) v = F a v.
  Proof. intros F [|x [|y t]] v H Hne; [congruence | symmetry; apply H | reflexivity]. Qed.

  Lemma top_joined : forall F a e, is_top (joined F a) = true -> In e a -> is_top e = true.
  Proof. intros F [|x [|y t]] e H Hin; [destruct Hin | destruct Hin as [<-|[]]; exact H | discriminate H]. Qed.

  Lemma matchN_all : forall a v, matchN_eq (length a) a v = forallb (fun e => ev e v) a.
  Proof.
    intros a v. unfold matchN_eq, cnt. destruct (forallb (fun e => ev e v) a) eqn:E.
    - apply Nat.eqb_eq, count_all, E.
    - apply Nat.eqb_neq. intros C. apply count_all in C. congruence.
  Qed.

  Lemma matchN_some : forall a v, matchN_ge1 a v = existsb (fun e => ev e v) a.
  Proof.
    intros a v. unfold matchN_ge1, cnt. destruct (existsb (fun e => ev e v) a) eqn:E.
    - apply Nat.leb_le, count_pos, E.
    - apply count_zero in E. rewrite E. reflexivity.
  Qed.

  Definition allOf_e (rs : list result) : expr :=
    joined (fun a => matchN_eq (length a) a) (map r_e (filter r_hasC rs)).

  Lemma ev_allOf_e : forall rs v, ev (allOf_e rs) v = forallb (fun r => ev (r_e r) v) (filter r_hasC rs).
  Proof.
    intros rs v. unfold allOf_e. rewrite <- (forallb_map r_e (fun e => ev e v)).
    destruct (map r_e (filter r_hasC rs)) as [|x t] eqn:Em; [reflexivity|].
    rewrite ev_joined, matchN_all by (try discriminate; intros y; rewrite matchN_all; apply andb_true_r). reflexivity.
  Qed.

  Definition allOf_K (K : mask) (rs : list result) : mask :=
    match filter r_hasC rs with
    | [] => K
    | kept => mand K (munion r_K kept)
    end.

  (* every combinator first records an empty member list as an error and takes
     over the flags and deviations of its members *)
  Lemma absorbed : forall n rs st,
    sem_eq st (absorb_all rs (if Nat.eqb n 0 then set_bad st else st)) /\
    st_dev (absorb_all rs (if Nat.eqb n 0 then set_bad st else st)) = st_dev st ++ flat_map r_dev rs.
  Proof.
    intros n rs st. split.
    - eapply sem_eq_trans; [|apply sem_eq_absorb_all]. destruct (Nat.eqb n 0); [apply sem_eq_set_bad | apply sem_eq_refl].
    - rewrite dev_absorb_all. destruct (Nat.eqb n 0); reflexivity.
  Qed.

  Lemma step_allOf_eq : forall n rs A' st,
    sem_eq (upd st A' (allOf_K (st_K st) rs) (allOf_e rs)) (step_allOf n rs A' st) /\
    st_dev (step_allOf n rs A' st) = st_dev st ++ flat_map r_dev rs ++
      (if existsb (fun r => is_err (r_e r) && negb (r_hasC r) && negb (mempty (r_A r))) rs
       then [DEV_allOf_false] else []).
  Proof.
    intros n rs A' st. unfold step_allOf, allOf_e, allOf_K, joined, munion.
    destruct (absorbed n rs st) as [E0 D].
    set (s2 := absorb_all rs _) in *.
    set (c := existsb _ rs).
    set (s4 := dev_if c DEV_allOf_false s2).
    assert (E : sem_eq st s4) by (eapply sem_eq_trans; [exact E0 | apply sem_eq_dev_if]).
    assert (D4 : st_dev s4 = st_dev st ++ flat_map r_dev rs ++ (if c then [DEV_allOf_false] else [])).
    { unfold s4. rewrite dev_dev_if, D, <- app_assoc. reflexivity. }
    rewrite <- D4.
    destruct E as (a & b & c0 & d & e & f & g).
    unfold upd, add_all.
    destruct (map r_e (filter r_hasC rs)) as [|x [|y t]] eqn:Em.
    - split; [|reflexivity]. destruct (filter r_hasC rs); [|discriminate]. simpl. repeat split; simpl; congruence.
    - split; [|destruct (is_top x); reflexivity]. destruct (filter r_hasC rs) as [|r0 [|r1 t0]]; try discriminate.
      destruct (is_top x); simpl; repeat split; simpl; congruence.
    - split; [|reflexivity]. destruct (filter r_hasC rs) as [|r0 [|r1 t0]]; try discriminate.
      simpl. repeat split; simpl; congruence.
  Qed.

  Lemma run_in : forall A l rs A', Run A l rs A' -> forall r, In r rs ->
    exists s Ai, Good Ai s r /\ (forall k, Ai k = true -> A k = true) /\ (forall k, A' k = true -> r_A r k = true).
  Proof.
    induction 1 as [|A s l r rs A' G R IH]; intros r0 Hin; [destruct Hin|].
    destruct Hin as [<- | Hin].
    - exists s, A. split; auto. split; auto. intros k Hk. apply (run_sub _ _ _ _ R) in Hk.
      apply mand_true in Hk. tauto.
    - destruct (IH r0 Hin) as (s0 & Ai & G0 & S1 & S2). exists s0, Ai. split; auto. split; auto.
      intros k Hk. apply S1 in Hk. apply mand_true in Hk. tauto.
  Qed.

  (* knownTypes after a combinator: sound for an instance accepted by a kept member *)
  Lemma known_sound : forall (A K : mask) (kept : list result) x v,
    (forall k, A k = true -> K k = true) ->
    In x kept -> ev (r_e x) v = true ->
    (exists s Ai, Good Ai s x /\ (forall k, Ai k = true -> A k = true)) ->
    mempty (r_A x) = false ->
    allows K (ctype_of v) = true ->
    allows (mand K (munion r_K kept)) (ctype_of v) = true.
  Proof.
    intros A K kept x v HAK Hin He (s & Ai & G & Hsub) Hne HK.
    pose proof (g_K _ _ _ G v He) as Hk. apply allows_iff in Hk. destruct Hk as [k [Ek Hk]].
    destruct (g_KA _ _ _ G Hne) as [Hall | Hsubk].
    - apply allows_iff in HK. destruct HK as [k' [Ek' Hk']]. apply allows_iff. exists k'. split; auto.
      unfold mand. rewrite Hk', andb_true_l. rewrite munion_spec. apply existsb_exists. exists x. split; auto.
    - apply allows_iff. exists k. split; auto. unfold mand.
      rewrite (HAK k) by (apply Hsub; apply (g_AT _ _ _ G); apply Hsubk; exact Hk). rewrite andb_true_l.
      rewrite munion_spec. apply existsb_exists. exists x. split; auto.
  Qed.

  Lemma filter_nil_all : forall {X} (f : X -> bool) l, filter f l = [] -> forall x, In x l -> f x = false.
  Proof.
    intros X f l H x Hin. destruct (f x) eqn:E; auto.
    assert (Hx : In x (filter f l)) by (apply filter_In; auto). rewrite H in Hx. destruct Hx.
  Qed.

  (* Only the members with constraints of their own enter matchN; a dropped
     member is transparent: its allowed mask alone says which instances it
     accepts, and the masks are threaded through the members (Run), so the final
     mask A' carries what the dropped members demand (run_back). *)
  Lemma inv_step_allOf : forall l rs A' st VS,
    Inv T st VS -> Run (st_A st) l rs A' ->
    existsb (fun r => is_err (r_e r) && negb (r_hasC r) && negb (mempty (r_A r))) rs = false ->
    Inv T (step_allOf (length l) rs A' st) (fun v => VS v /\ forallb (fun s' => valid re s' v) l = true).
  Proof.
    intros l rs A' st VS H R Hd1.
    eapply inv_sem_eq; [apply (proj1 (step_allOf_eq _ _ _ _))|].
    set (n := length l). set (kept := filter r_hasC rs).
    assert (Hkept : forall r, In r kept <-> In r rs /\ r_hasC r = true) by (intros; apply filter_In).
    assert (Htr : forall r, In r rs -> r_hasC r = false -> transparent r).
    { intros r Hin Hh. left. split; auto.
      pose proof (proj1 (existsb_false_iff _ _) Hd1 r Hin) as X. cbv beta in X. rewrite Hh in X. simpl in X.
      rewrite andb_true_r in X. exact X. }
    assert (E1 : forall v, ev (allOf_e rs) v = true -> forall r, In r rs -> ev (r_e r) v = true \/ transparent r).
    { intros v He r Hin. destruct (r_hasC r) eqn:Hh; [|right; apply Htr; auto]. left.
      rewrite ev_allOf_e, forallb_forall in He. apply He, Hkept. auto. }
    assert (Wf : wfe (allOf_e rs)).
    { apply wfe_joined. intros e He. apply in_map_iff in He. destruct He as [r [<- Hr]]. apply Hkept in Hr.
      destruct (run_in _ _ _ _ R r (proj1 Hr)) as (s0 & Ai & G & _). apply (g_wfe _ _ _ G). }
    assert (Htop : is_top (allOf_e rs) = true -> forall r, In r rs -> transparent r).
    { intros Ht r Hin. destruct (r_hasC r) eqn:Hh; [|apply Htr; auto]. right.
      apply (top_joined _ _ _ Ht). apply in_map, Hkept. auto. }
    apply inv_upd; try exact H; try exact Wf.
    - apply (run_sub _ _ _ _ R).
    - (* A' <= K' *)
      intros k Hk. pose proof (run_sub _ _ _ _ R k Hk) as HA. pose proof (i_AK _ _ _ H k HA) as HK.
      unfold allOf_K. fold kept. destruct kept as [|x0 kept'] eqn:Ek; auto.
      unfold mand. rewrite HK, andb_true_l. rewrite munion_spec. apply existsb_exists. exists x0. split; [left; auto|].
      assert (Hin0 : In x0 rs) by (apply (proj1 (Hkept x0)); left; auto).
      destruct (run_in _ _ _ _ R x0 Hin0) as (s0 & Ai & G & _ & S2). apply (g_AK _ _ _ G). apply S2. exact Hk.
    - (* c1g *)
      intros v HA _ He Hal. apply (run_back _ _ _ _ R v HA Hal (E1 v He)).
    - (* c1h *)
      intros v HA HQ. rewrite ev_allOf_e. apply forallb_forall. intros r Hr.
      pose proof (proj2 (run_fwd _ _ _ _ R v HA HQ)) as X. rewrite forallb_forall in X. apply X, Hkept, Hr.
    - (* c2 *)
      intros v HA _ HQ. apply (run_fwd _ _ _ _ R v HA HQ).
    - (* c3 *)
      intros Hne v Hall He.
      assert (HneA : mempty (st_A st) = false) by apply (mempty_sub _ _ (run_sub _ _ _ _ R) Hne).
      pose proof (i_K _ _ _ H HneA v Hall) as HK.
      unfold allOf_K. fold kept. destruct kept as [|x0 kept'] eqn:Ek; auto.
      assert (Hin0 : In x0 rs /\ r_hasC x0 = true) by (apply (proj1 (Hkept x0)); left; auto).
      destruct Hin0 as [Hin0 Hh0].
      destruct (run_in _ _ _ _ R x0 Hin0) as (s0 & Ai & G & S1 & S2).
      apply (known_sound (st_A st) (st_K st) (x0 :: kept') x0 v); auto.
      + apply (i_AK _ _ _ H).
      + left; auto.
      + destruct (E1 v He x0 Hin0) as [X | [[X _] | X]]; auto.
        * congruence.
        * apply (proj1 (g_wfe _ _ _ G) X).
      + exists s0, Ai. split; auto.
      + apply (mempty_sub _ _ S2 Hne).
    - (* cH *)
      intros Ht Hh. destruct (i_H _ _ _ H Hh) as [Hback Hcc]. split.
      + apply (run_relcc _ _ _ _ R (Htop Ht) T Hcc). apply (i_AT _ _ _ H).
      + intros v Hv HA'. pose proof (run_sub _ _ _ _ R _ HA') as HA. split; [apply Hback; auto|].
        apply (run_back _ _ _ _ R v HA (allows_kind _ _ HA')). intros r Hin. right. apply Htop; auto.
  Qed.

  Lemma allOf_loop_run : forall l, Forall SubGood l -> forall A rs A',
    allOf_loop (map (enc re) l) A = (rs, A') -> flat_map r_dev rs = [] -> Run A l rs A'.
  Proof.
    induction 1 as [|s l G F IH]; intros A rs A' E D; simpl in E.
    - injection E as <- <-. constructor.
    - destruct (allOf_loop (map (enc re) l) (mand A (r_A (enc re s A)))) as [rs0 A0] eqn:E0. injection E as <- <-.
      simpl in D. apply app_eq_nil in D. destruct D as [D1 D2].
      constructor; [apply G; exact D1 | apply IH; auto].
  Qed.

  Lemma core_allOf : forall o, optP (Forall SubGood) o ->
    Core T (do_allOf (option_map (map (enc re)) o)) (fun v => optb (fun l => forallb (fun s' => valid re s' v) l) o = true).
  Proof.
    intros [l|] IH; [|apply step_id; auto].
    apply core_intro; intros st; cbn [option_map do_allOf optb];
      destruct (allOf_loop (map (enc re) l) (st_A st)) as [rs A'] eqn:E.
    - rewrite <- (shape_sem_eq _ _ (sem_eq_dev_if _ _ _)), <- (shape_sem_eq _ _ (proj1 (step_allOf_eq _ rs A' st))). apply shape_upd.
    - intros D. rewrite dev_dev_if, (proj2 (step_allOf_eq _ _ _ _)) in D. apply app_eq_nil in D. destruct D as [D _].
      apply app_eq_nil in D. tauto.
    - intros VS D H. rewrite dev_dev_if, (proj2 (step_allOf_eq _ _ _ _)) in D. apply app_eq_nil in D. destruct D as [D _].
      apply app_eq_nil in D. destruct D as [_ D]. apply app_eq_nil in D. destruct D as [D2 D3].
      eapply inv_sem_eq; [apply sem_eq_dev_if|]. rewrite map_length. apply inv_step_allOf; auto.
      + apply (allOf_loop_run l IH _ _ _ E D2).
      + destruct (existsb _ rs); [discriminate D3 | reflexivity].
  Qed.

End Steps2.
