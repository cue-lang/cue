(* Phase 2 of schemaState: anyOf and oneOf (members decoded under one mask). *)
From Verif Require Import Schema.Json Schema.Sem Schema.Encode Schema.Proofs Schema.Invariant Schema.Track Schema.Steps1 Schema.Steps2.
From Coq Require Import List NArith ZArith Bool Lia.
Import ListNotations.

Section Steps3.
  Variable re : pat -> str -> bool.
  Variable T : mask.

  Definition keptf (r : result) : bool := negb (mempty (r_A r)).

  Lemma par_count : forall A l rs, Forall2 (Good re A) l rs ->
    forall v, A (kind_of v) = true ->
    count (fun s' => valid re s' v) l = count (fun r => ev (r_e r) v) (filter keptf rs).
  Proof.
    induction 1 as [|s r l rs G F IH]; intros v HA; [reflexivity|].
    unfold count in *. simpl. rewrite <- (g_ev _ _ _ _ G v HA).
    destruct (keptf r) eqn:Ek; simpl.
    - destruct (ev (r_e r) v); simpl; rewrite IH; auto.
    - destruct (ev (r_e r) v) eqn:Ee.
      + exfalso. rewrite (g_ev _ _ _ _ G v HA) in Ee. pose proof (g_snd _ _ _ _ G v HA Ee) as X.
        unfold keptf in Ek. apply negb_false_iff in Ek. rewrite mempty_true in Ek. rewrite Ek in X. discriminate.
      + apply IH; auto.
  Qed.

  Lemma kept_good : forall A l rs, Forall2 (Good re A) l rs ->
    forall r, In r (filter keptf rs) -> exists s, Good re A s r /\ mempty (r_A r) = false.
  Proof.
    intros A l rs F r Hin. apply filter_In in Hin. destruct Hin as [Hin Hk]. apply negb_true_iff in Hk.
    induction F as [|s r0 l rs G F IH]; [destruct Hin|]. destruct Hin as [<- | Hin]; eauto.
  Qed.

  Lemma par_len : forall A l rs, Forall2 (Good re A) l rs -> length rs = length l.
  Proof. induction 1; simpl; auto. Qed.

  (* a valid member puts the kind of the instance into the union of the allowed masks *)
  Lemma par_types : forall A l rs, Forall2 (Good re A) l rs ->
    forall v, A (kind_of v) = true -> existsb (fun r => ev (r_e r) v) (filter keptf rs) = true ->
    munion r_A (filter keptf rs) (kind_of v) = true.
  Proof.
    intros A l rs F v HA Hex. rewrite munion_spec. apply existsb_exists in Hex. destruct Hex as [r [Hin He]].
    apply existsb_exists. exists r. split; auto. destruct (kept_good _ _ _ F r Hin) as [s [G _]].
    apply (g_snd _ _ _ _ G v HA). rewrite <- (g_ev _ _ _ _ G v HA). exact He.
  Qed.

  Lemma types_sub_known : forall A l rs, Forall2 (Good re A) l rs -> forall k,
    munion r_A (filter keptf rs) k = true ->
    munion r_K (filter keptf rs) k = true.
  Proof.
    intros A l rs F k. rewrite munion_spec, munion_spec. rewrite !existsb_exists.
    intros [r [Hin Hk]]. exists r. split; auto. destruct (kept_good _ _ _ F r Hin) as [s [G _]].
    apply (g_AK _ _ _ _ G). exact Hk.
  Qed.

  Lemma kept_known_sound : forall st VS l rs v, Inv T st VS -> Forall2 (Good re (st_A st)) l rs ->
    existsb (fun r => ev (r_e r) v) (filter keptf rs) = true ->
    allows (st_K st) (ctype_of v) = true ->
    allows (mand (st_K st) (munion r_K (filter keptf rs))) (ctype_of v) = true.
  Proof.
    intros st VS l rs v H F Hex HK. apply existsb_exists in Hex. destruct Hex as [x [Hin He]].
    destruct (kept_good _ _ _ F x Hin) as [s [G Hne]].
    apply (known_sound re (st_A st) (st_K st) (filter keptf rs) x v); auto.
    - apply (i_AK _ _ _ H).
    - exists s, (st_A st). split; auto.
  Qed.

  (* anyOf and oneOf keep the members whose mask is not empty and ask that the
     number of kept members an instance satisfies has the property [P] (at least
     one, exactly one).  A member with an empty mask accepts nothing on the kinds
     at hand, so that number is the number of member schemas the instance
     satisfies (par_count).  The new allowedTypes lies between the old one
     narrowed by the union of the members' masks, which every accepted instance
     survives, and the old one; it is empty when no member is kept. *)
  Lemma inv_counted : forall (P : nat -> bool) l rs st VS A' K',
    Inv T st VS -> Forall2 (Good re (st_A st)) l rs ->
    P 0 = false -> P 1 = true ->
    (forall k, A' k = true -> st_A st k = true /\ filter keptf rs <> []) ->
    (forall k, st_A st k = true -> munion r_A (filter keptf rs) k = true -> A' k = true) ->
    (forall k, A' k = true -> K' k = true) ->
    (forall k, mand (st_K st) (munion r_K (filter keptf rs)) k = true -> K' k = true) ->
    Inv T (upd st A' K' (joined (fun a v => P (cnt a v)) (map r_e (filter keptf rs))))
          (fun v => VS v /\ P (count (fun s' => valid re s' v) l) = true).
  Proof.
    intros P l rs st VS A' K' H F P0 P1 HA' Hty HAK HK.
    set (kept := filter keptf rs) in *.
    assert (Hq : forall v, st_A st (kind_of v) = true ->
                 count (fun s' => valid re s' v) l = cnt (map r_e kept) v).
    { intros v HA. rewrite (par_count _ _ _ F v HA). symmetry. apply count_map. }
    assert (Hev : forall v, map r_e kept <> [] ->
                  ev (joined (fun a v => P (cnt a v)) (map r_e kept)) v = P (cnt (map r_e kept) v)).
    { intros v Hne. apply ev_joined; auto. intros x. unfold cnt, count. simpl. destruct (ev x v); auto. }
    assert (Hpos : forall v, P (cnt (map r_e kept) v) = true -> existsb (fun r => ev (r_e r) v) kept = true).
    { intros v Hp. rewrite <- (existsb_map r_e (fun e => ev e v)). apply count_pos. unfold cnt in Hp.
      destruct (count (fun e => ev e v) (map r_e kept)); [congruence | lia]. }
    assert (Hne : forall k, A' k = true -> map r_e kept <> []).
    { intros k Hk E. apply map_eq_nil in E. apply (proj2 (HA' k Hk) E). }
    apply inv_upd; try exact H; try exact HAK.
    - apply wfe_joined. intros e He. apply in_map_iff in He. destruct He as [r [<- Hr]].
      destruct (kept_good _ _ _ F r Hr) as [s [G _]]. apply (g_wfe _ _ _ _ G).
    - intros k Hk. apply HA', Hk.
    - (* c1g *) intros v HA _ He Hal. apply allows_iff in Hal. destruct Hal as [k [_ Hk]].
      rewrite (Hq v HA), <- (Hev v (Hne k Hk)). exact He.
    - (* c1h *) intros v HA HQ. rewrite (Hq v HA) in HQ. rewrite Hev; auto.
      intros E. rewrite E in HQ. unfold cnt, count in HQ. simpl in HQ. congruence.
    - (* c2 *) intros v HA _ HQ. apply Hty; auto.
      apply (par_types _ _ _ F v HA), Hpos. rewrite <- (Hq v HA). exact HQ.
    - (* c3 *) intros Hn v Hall He. apply mempty_false in Hn. destruct Hn as [k Hk].
      assert (HnA : mempty (st_A st) = false) by (apply mempty_false; exists k; apply HA', Hk).
      apply (allows_mono _ _ _ HK). apply (kept_known_sound st VS l rs v H F).
      + apply Hpos. rewrite <- (Hev v (Hne k Hk)). exact He.
      + apply (i_K _ _ _ H HnA v Hall).
    - (* cH: `_` comes from no member, where A' is empty, or from a single member `_`, where A' is A *)
      intros Ht Hh. destruct (i_H _ _ _ H Hh) as [Hback Hcc].
      destruct (map r_e kept) as [|x [|y t]] eqn:Em; [| |discriminate Ht].
      + assert (Z : forall k, A' k = false).
        { intros k. destruct (A' k) eqn:E; auto. destruct (Hne k E eq_refl). }
        split; [intros k k' _ _ _; rewrite !Z; reflexivity | intros v _ Hk; rewrite Z in Hk; discriminate].
      + destruct kept as [|r [|r' kk]] eqn:Ek; try discriminate. injection Em as <-.
        destruct (kept_good _ _ _ F r) as [s [G _]]; [fold kept; rewrite Ek; left; auto|].
        destruct (good_top_full _ _ _ _ G Ht) as [Hfull _].
        assert (EA : forall k, A' k = st_A st k).
        { intros k. destruct (st_A st k) eqn:E.
          - apply Hty; auto. rewrite munion_spec. simpl. rewrite (Hfull k E). reflexivity.
          - destruct (A' k) eqn:E'; auto. apply HA' in E'. destruct E'. congruence. }
        split.
        * intros k k' E Hk Hk'. rewrite !EA. apply Hcc; auto.
        * intros v Hv Hk. rewrite EA in Hk. split; [apply Hback; auto|].
          rewrite (Hq v Hk). unfold cnt, count. simpl. rewrite (proj1 (g_wfe _ _ _ _ G) Ht v). exact P1.
  Qed.

  (* Three shapes: no member is possible (no kind stays allowed), one kept
     member (used as it is, masks untouched), several (matchN(>=1, kept) and the
     masks narrowed by the unions of the members' masks). *)
  Definition anyOf_e (rs : list result) : expr := joined matchN_ge1 (map r_e (filter keptf rs)).
  Definition anyOf_A (A : mask) (rs : list result) : mask :=
    match map r_e (filter keptf rs) with
    | [] => mnone
    | [x] => A
    | _ => mand A (munion r_A (filter keptf rs))
    end.
  Definition anyOf_K (K : mask) (rs : list result) : mask :=
    match map r_e (filter keptf rs) with
    | [] => K
    | [x] => K
    | _ => mand K (munion r_K (filter keptf rs))
    end.

  Lemma step_anyOf_eq : forall n rs st,
    sem_eq (upd st (anyOf_A (st_A st) rs) (anyOf_K (st_K st) rs) (anyOf_e rs)) (step_anyOf n rs st) /\
    st_dev (step_anyOf n rs st) = st_dev st ++ flat_map r_dev rs.
  Proof.
    intros n rs st. unfold step_anyOf, anyOf_e, anyOf_A, anyOf_K, joined, munion. fold keptf.
    destruct (absorbed n rs st) as [E D]. rewrite <- D.
    set (s2 := absorb_all rs _) in *.
    destruct (map r_e (filter keptf rs)) as [|x [|y t]] eqn:Em.
    - split; [|reflexivity]. unfold upd, add_all. simpl.
      destruct E as (a & b & c & d & e & f & g). repeat split; simpl; congruence.
    - split; [|unfold add_all; destruct (is_top x); reflexivity].
      unfold upd. apply sem_eq_add_all. eapply sem_eq_trans; [apply sem_eq_setAK_id | exact E].
    - split; [|reflexivity]. unfold upd. apply sem_eq_add_all.
      destruct E as (a & b & c & d & e & f & g). rewrite a, b. repeat split; simpl; congruence.
  Qed.

  Lemma inv_step_anyOf : forall l rs st VS,
    Inv T st VS -> Forall2 (Good re (st_A st)) l rs ->
    Inv T (step_anyOf (length l) rs st) (fun v => VS v /\ existsb (fun s' => valid re s' v) l = true).
  Proof.
    intros l rs st VS H F.
    eapply inv_sem_eq; [apply (proj1 (step_anyOf_eq _ _ _))|].
    eapply inv_ext; [|apply (inv_counted (Nat.leb 1) l rs st VS (anyOf_A (st_A st) rs) (anyOf_K (st_K st) rs) H F); auto].
    - intros v _. cbv beta. rewrite Nat.leb_le, count_pos. tauto.
    - intros k Hk. unfold anyOf_A in Hk. destruct (filter keptf rs) as [|x [|y t]]; simpl in Hk;
        [discriminate | split; [exact Hk | discriminate] | apply mand_true in Hk; split; [tauto | discriminate]].
    - intros k Hk Ht. unfold anyOf_A. destruct (filter keptf rs) as [|x [|y t]];
        [discriminate Ht | exact Hk | apply mand_true; auto].
    - intros k Hk. unfold anyOf_A, anyOf_K in *. destruct (map r_e (filter keptf rs)) as [|x [|y t]];
        [discriminate Hk | apply (i_AK _ _ _ H), Hk |].
      apply mand_true in Hk. apply mand_true. split; [apply (i_AK _ _ _ H), Hk | apply (types_sub_known _ _ _ F), Hk].
    - intros k Hk. unfold anyOf_K. destruct (map r_e (filter keptf rs)) as [|x [|y t]];
        [apply mand_true in Hk; tauto .. | exact Hk].
  Qed.

  Lemma moverlap_false : forall a b, moverlap a b = false <-> forall k, a k && b k = false.
  Proof.
    intros a b. unfold moverlap. rewrite existsb_false_iff. split.
    - intros H k. apply H. apply all_kinds_complete.
    - intros H k _. apply H.
  Qed.

  Lemma needs_false : forall kept m, oneOf_needs kept m = false ->
    (forall r, In r kept -> r_hasC r = false) /\
    (forall k, m k = true -> existsb (fun r => r_A r k) kept = false) /\
    (forall k, count (fun r => r_A r k) kept <= 1).
  Proof.
    induction kept as [|r rest IH]; intros m Hn; simpl in *.
    - repeat split; auto. intros r [].
    - apply orb_false_iff in Hn. destruct Hn as [H1 H2].
      destruct (r_hasC r) eqn:Hh; [discriminate|].
      rewrite moverlap_false in H1.
      destruct (IH _ H2) as (I1 & I2 & I3). repeat split.
      + intros r0 [<- | Hin]; auto.
      + intros k Hk. pose proof (H1 k) as X. rewrite Hk in X. simpl in X. rewrite X. simpl.
        apply I2. unfold mor. rewrite Hk. reflexivity.
      + intros k. unfold count in *. simpl. destruct (r_A r k) eqn:E; simpl.
        * assert (X : existsb (fun r0 => r_A r0 k) rest = false) by (apply I2; unfold mor; rewrite E; apply orb_true_r).
          apply count_zero in X. unfold count in X. rewrite X. lia.
        * apply I3.
  Qed.

  Definition oneOf_e (rs : list result) : expr :=
    if oneOf_needs (filter keptf rs) mnone then joined (matchN_eq 1) (map r_e (filter keptf rs)) else e_top.
  Definition oneOf_K (K : mask) (rs : list result) : mask :=
    if oneOf_needs (filter keptf rs) mnone then
      match map r_e (filter keptf rs) with
      | [] => K
      | _ => mand K (munion r_K (filter keptf rs))
      end
    else K.
  Definition oneOf_A (A : mask) (rs : list result) : mask :=
    mand A (munion r_A (filter keptf rs)).

  Lemma step_oneOf_eq : forall n rs st,
    sem_eq (upd st (oneOf_A (st_A st) rs) (oneOf_K (st_K st) rs) (oneOf_e rs)) (step_oneOf n rs st) /\
    st_dev (step_oneOf n rs st) = st_dev st ++ flat_map r_dev rs ++
      (if negb (oneOf_needs (filter keptf rs) mnone) && existsb (fun r => is_err (r_e r)) (filter keptf rs)
       then [DEV_oneOf_false] else []).
  Proof.
    intros n rs st. unfold step_oneOf, oneOf_e, oneOf_A, oneOf_K, joined, munion. fold keptf.
    destruct (absorbed n rs st) as [E D].
    set (s2 := absorb_all rs _) in *.
    set (ty := fold_left (fun m r => mor m (r_A r)) (filter keptf rs) mnone).
    set (kn := fold_left (fun m r => mor m (r_K r)) (filter keptf rs) mnone).
    set (c := negb _ && _).
    set (s3 := dev_if c DEV_oneOf_false (set_A s2 (mand (st_A s2) ty))).
    assert (E3 : sem_eq (set_A st (mand (st_A st) ty)) s3).
    { eapply sem_eq_trans; [|apply sem_eq_dev_if].
      destruct E as (a & b & c0 & d & e & f & g). rewrite a. repeat split; simpl; congruence. }
    assert (D3 : st_dev s3 = st_dev st ++ flat_map r_dev rs ++ (if c then [DEV_oneOf_false] else [])).
    { unfold s3. rewrite dev_dev_if. simpl. rewrite D, <- app_assoc. reflexivity. }
    rewrite <- D3.
    assert (EK : st_K s3 = st_K st) by (destruct E3 as (_ & b & _); simpl in b; congruence).
    unfold upd.
    destruct (oneOf_needs (filter keptf rs) mnone).
    - destruct (map r_e (filter keptf rs)) as [|x [|y t]].
      + split; [|reflexivity]. unfold add_all. simpl. eapply sem_eq_trans; [|exact E3]. repeat split.
      + split; [|unfold add_all; destruct (is_top x); reflexivity].
        apply sem_eq_add_all. rewrite EK. apply sem_eq_set_K. exact E3.
      + split; [|reflexivity]. apply sem_eq_add_all. rewrite EK. apply sem_eq_set_K. exact E3.
    - split; [|reflexivity]. unfold add_all. simpl. eapply sem_eq_trans; [|exact E3]. repeat split.
  Qed.

  Lemma count_le1 : forall {X} (f : X -> bool) l, count f l <= 1 -> (Nat.eqb (count f l) 1 = existsb f l).
  Proof.
    intros X f l H. destruct (existsb f l) eqn:E.
    - apply count_pos in E. apply Nat.eqb_eq. lia.
    - apply count_zero in E. rewrite E. reflexivity.
  Qed.

  (* Either a constraint is generated (matchN(1, kept), or the only kept member
     itself), or none is needed: then the kept members are unconstrained, none
     is an error, and their masks are pairwise disjoint, so "exactly one member"
     is "the kind lies in the union of the masks", which the new allowedTypes says. *)
  Lemma inv_step_oneOf : forall l rs st VS,
    Inv T st VS -> Forall2 (Good re (st_A st)) l rs ->
    (negb (oneOf_needs (filter keptf rs) mnone) && existsb (fun r => is_err (r_e r)) (filter keptf rs)) = false ->
    Inv T (step_oneOf (length l) rs st) (fun v => VS v /\ Nat.eqb (count (fun s' => valid re s' v) l) 1 = true).
  Proof.
    intros l rs st VS H F Hdev.
    eapply inv_sem_eq; [apply (proj1 (step_oneOf_eq _ _ _))|].
    set (kept := filter keptf rs).
    destruct (oneOf_needs kept mnone) eqn:En.
    - (* a constraint is needed *)
      assert (Ee : oneOf_e rs = joined (matchN_eq 1) (map r_e kept)) by (unfold oneOf_e; fold kept; rewrite En; reflexivity).
      rewrite Ee. apply (inv_counted (fun n => Nat.eqb n 1) l rs st VS _ _ H F); auto.
      + intros k Hk. apply mand_true in Hk. destruct Hk as [Hk Ht]. split; auto.
        intros E. rewrite E in Ht. discriminate.
      + intros k Hk Ht. apply mand_true. auto.
      + intros k Hk. unfold oneOf_K. fold kept. rewrite En. apply mand_true in Hk.
        destruct (map r_e kept); [apply (i_AK _ _ _ H), Hk|].
        apply mand_true. split; [apply (i_AK _ _ _ H), Hk | apply (types_sub_known _ _ _ F), Hk].
      + intros k Hk. unfold oneOf_K. fold kept. rewrite En.
        destruct (map r_e kept); [apply mand_true in Hk; tauto | exact Hk].
    - (* no constraint: the members are unconstrained and their masks are disjoint *)
      destruct (needs_false _ _ En) as (N1 & _ & N3).
      fold kept in Hdev. rewrite En in Hdev. simpl in Hdev.
      assert (Hun : forall r, In r kept -> exists s, Good re (st_A st) s r /\ transparent r).
      { intros r Hin. destruct (kept_good _ _ _ F r Hin) as [s [G _]]. exists s. split; auto. left.
        rewrite (N1 r Hin), (proj1 (existsb_false_iff _ _) Hdev r Hin). auto. }
      assert (Hmember : forall r, In r kept -> forall v, st_A st (kind_of v) = true ->
                        ev (r_e r) v = r_A r (kind_of v)).
      { intros r Hin v HA. destruct (Hun r Hin) as [s [G Htr]].
        destruct (transparent_spec re _ _ _ G Htr) as [_ Hv].
        rewrite (g_ev _ _ _ _ G v HA).
        destruct (valid re s v) eqn:E1.
        - symmetry. apply (g_snd _ _ _ _ G v HA E1).
        - destruct (r_A r (kind_of v)) eqn:E2; auto. rewrite (Hv v HA E2) in E1. discriminate. }
      assert (Hcnt : forall v, st_A st (kind_of v) = true ->
                     Nat.eqb (count (fun s' => valid re s' v) l) 1 =
                     munion r_A kept (kind_of v)).
      { intros v HA. rewrite (par_count _ _ _ F v HA). fold kept.
        rewrite (count_ext _ (fun r => r_A r (kind_of v))) by (intros r Hin; apply Hmember; auto).
        rewrite count_le1 by apply N3. rewrite munion_spec. reflexivity. }
      assert (Ee : oneOf_e rs = e_top) by (unfold oneOf_e; fold kept; rewrite En; reflexivity).
      assert (EK : oneOf_K (st_K st) rs = st_K st) by (unfold oneOf_K; fold kept; rewrite En; reflexivity).
      rewrite Ee, EK.
      assert (Hrel : forall k k', ctype_of_kind k = ctype_of_kind k' -> st_A st k = true -> st_A st k' = true ->
                     munion r_A kept k = munion r_A kept k').
      { intros k k' E Hk Hk'. rewrite !munion_spec.
        assert (Hsame : forall r, In r kept -> r_A r k = r_A r k').
        { intros r Hin. destruct (Hun r Hin) as [s [G Htr]]. apply (transparent_spec re _ _ _ G Htr); auto. }
        clear - Hsame. induction kept as [|r kk IH]; simpl; auto. rewrite (Hsame r) by (left; auto).
        rewrite IH; auto. intros r0 Hin. apply Hsame. right; auto. }
      apply (inv_narrow T st VS _ (fun v => Nat.eqb (count (fun s' => valid re s' v) l) 1) H Hcnt).
      + intros v k HA _ E Hk HX. rewrite (Hrel (kind_of v) k); auto.
      + intros _. exact Hrel.
  Qed.

  (* the members decoded under one mask *)
  Lemma par_good : forall l, Forall (SubGood re) l -> forall A,
    flat_map r_dev (map (fun f => f A) (map (enc re) l)) = [] ->
    Forall2 (Good re A) l (map (fun f => f A) (map (enc re) l)).
  Proof.
    induction 1 as [|s l G F IH]; intros A D; simpl in *; constructor.
    - apply app_eq_nil in D. apply G. tauto.
    - apply IH. apply app_eq_nil in D. tauto.
  Qed.

  Lemma core_anyOf : forall o, optP (Forall (SubGood re)) o ->
    Core T (do_anyOf (option_map (map (enc re)) o)) (fun v => optb (fun l => existsb (fun s' => valid re s' v) l) o = true).
  Proof.
    intros [l|] IH; [|apply step_id; auto]. apply core_intro; intros st; cbn [option_map do_anyOf optb].
    - rewrite <- (shape_sem_eq _ _ (sem_eq_dev_if _ _ _)), <- (shape_sem_eq _ _ (proj1 (step_anyOf_eq _ _ st))). apply shape_upd.
    - intros D. rewrite dev_dev_if, (proj2 (step_anyOf_eq _ _ _)) in D. apply app_eq_nil in D. destruct D as [D _].
      apply app_eq_nil in D. tauto.
    - intros VS D H. rewrite dev_dev_if, (proj2 (step_anyOf_eq _ _ _)) in D. apply app_eq_nil in D. destruct D as [D _].
      apply app_eq_nil in D. destruct D as [_ D2].
      eapply inv_sem_eq; [apply sem_eq_dev_if|]. rewrite map_length. apply inv_step_anyOf; auto. apply par_good; auto.
  Qed.

  Lemma core_oneOf : forall o, optP (Forall (SubGood re)) o ->
    Core T (do_oneOf (option_map (map (enc re)) o)) (fun v => optb (fun l => Nat.eqb (count (fun s' => valid re s' v) l) 1) o = true).
  Proof.
    intros [l|] IH; [|apply step_id; auto]. apply core_intro; intros st; cbn [option_map do_oneOf optb].
    - rewrite <- (shape_sem_eq _ _ (sem_eq_dev_if _ _ _)), <- (shape_sem_eq _ _ (proj1 (step_oneOf_eq _ _ st))). apply shape_upd.
    - intros D. rewrite dev_dev_if, (proj2 (step_oneOf_eq _ _ _)) in D. apply app_eq_nil in D. destruct D as [D _].
      apply app_eq_nil in D. tauto.
    - intros VS D H. rewrite dev_dev_if, (proj2 (step_oneOf_eq _ _ _)) in D. apply app_eq_nil in D. destruct D as [D _].
      apply app_eq_nil in D. destruct D as [_ D]. apply app_eq_nil in D. destruct D as [D2 D3].
      eapply inv_sem_eq; [apply sem_eq_dev_if|]. rewrite map_length. apply inv_step_oneOf; auto.
      + apply par_good; auto.
      + destruct (negb _ && _); [discriminate D3 | reflexivity].
  Qed.

End Steps3.
