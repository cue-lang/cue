(* if/then/else, contains, propertyNames, maximum/minimum. *)
From Verif Require Import Schema.Json Schema.Sem Schema.Encode Schema.Proofs Schema.Invariant Schema.Track Schema.Steps1 Schema.Steps2.
From Coq Require Import List NArith ZArith Bool Lia.
Import ListNotations.

Section Steps4.
  Variable re : pat -> str -> bool.
  Variable T : mask.

  Definition ite_valid (oi ot oe : option schema) (v : json) : bool :=
    match oi with
    | Some i => if valid re i v then optb (fun s' => valid re s' v) ot else optb (fun s' => valid re s' v) oe
    | None => true
    end.

  (* What the three shapes of constraintIfThenElse share.  [fl] absorbs the
     flags of the subschemas; when nothing deviates the condition is good and the
     branch expressions [et], [ee] mean the branches ([et] is only evaluated on
     instances of the condition, under the mask narrowed by it). *)
  Lemma core_matchIf : forall i ot oe (ri : state -> result) (fl : state -> state) (et ee : state -> expr),
    (forall st, sem_eq st (fl st)) ->
    (forall st, st_dev (fl st) = [] ->
       st_dev st = [] /\ Good re (st_A st) i (ri st) /\
       (forall v, st_A st (kind_of v) = true -> valid re i v = true -> ev (et st) v = optb (fun s' => valid re s' v) ot) /\
       (forall v, st_A st (kind_of v) = true -> ev (ee st) v = optb (fun s' => valid re s' v) oe)) ->
    Core T (fun st =>
              let c := is_err (r_e (ri st)) || is_err (et st) || is_err (ee st) in
              add_all (dev_if c DEV_error_argument (fl st)) (mkE (matchIf (r_e (ri st)) (et st) (ee st)) ShOther c false false))
         (fun v => ite_valid (Some i) ot oe v = true).
  Proof.
    intros i ot oe ri fl et ee Hsem Hdev.
    assert (D : forall st c e, st_dev (add_all (dev_if c DEV_error_argument (fl st)) e) = [] -> st_dev (fl st) = [] /\ c = false).
    { intros st c e Dv. unfold add_all in Dv. destruct (is_top e); rewrite dev_dev_if in Dv; apply app_eq_nil in Dv;
        (split; [tauto|]); destruct c; [destruct Dv; discriminate | reflexivity | destruct Dv; discriminate | reflexivity]. }
    apply core_intro; intros st; cbv zeta.
    - rewrite shape_add_all. apply eq_sym, shape_sem_eq. eapply sem_eq_trans; [apply Hsem | apply sem_eq_dev_if].
    - intros Dv. apply (Hdev st), (D _ _ _ Dv).
    - intros VS Dv H. destruct (D _ _ _ Dv) as [Df Hc]. destruct (Hdev st Df) as (_ & GI & Ht & He).
      eapply inv_sem_eq.
      { unfold upd. apply sem_eq_add_all. eapply sem_eq_trans; [apply sem_eq_setAK_id|].
        eapply sem_eq_trans; [apply Hsem | apply sem_eq_dev_if]. }
      apply inv_constraint; [exact H | split; simpl; discriminate | reflexivity |].
      intros v HA. cbn [ev ite_valid]. unfold matchIf. rewrite Hc, (g_ev _ _ _ _ GI v HA).
      destruct (valid re i v) eqn:Ei; [rewrite (Ht v HA Ei) | rewrite (He v HA)]; tauto.
  Qed.

  Lemma core_ite : forall oi ot oe, optP (SubGood re) oi -> optP (SubGood re) ot -> optP (SubGood re) oe ->
    Core T (step_ite (option_map (enc re) oi) (option_map (enc re) ot) (option_map (enc re) oe))
         (fun v => ite_valid oi ot oe v = true).
  Proof.
    intros [i|] ot oe Hi Ht He; [|apply step_id; auto].
    assert (Gt : forall t st, SubGood re t -> r_dev (enc re t (mand (st_A st) (r_A (enc re i (st_A st))))) = [] ->
                 r_dev (enc re i (st_A st)) = [] ->
                 forall v, st_A st (kind_of v) = true -> valid re i v = true ->
                 ev (r_e (enc re t (mand (st_A st) (r_A (enc re i (st_A st)))))) v = valid re t v).
    { intros t st Pt Dt Di v HA Ei. apply (g_ev _ _ _ _ (Pt _ Dt) v). unfold mand. rewrite HA.
      apply (g_snd _ _ _ _ (Hi _ Di) v HA Ei). }
    destruct ot as [t|], oe as [e|]; cbn [option_map optP] in *.
    - apply (core_matchIf i (Some t) (Some e) (fun st => enc re i (st_A st))
               (fun st => absorb (enc re e (st_A st)) (absorb (enc re t (mand (st_A st) (r_A (enc re i (st_A st))))) (absorb (enc re i (st_A st)) st)))
               (fun st => r_e (enc re t (mand (st_A st) (r_A (enc re i (st_A st)))))) (fun st => r_e (enc re e (st_A st)))).
      + intros st. repeat (eapply sem_eq_trans; [|apply sem_eq_absorb]). apply sem_eq_refl.
      + intros st D. rewrite !dev_absorb in D. apply app_eq_nil in D. destruct D as [D De]. apply app_eq_nil in D.
        destruct D as [D Dt]. apply app_eq_nil in D. destruct D as [D0 Di].
        exact (conj D0 (conj (Hi _ Di) (conj (Gt t st Ht Dt Di) (fun v HA => g_ev _ _ _ _ (He _ De) v HA)))).
    - apply (core_matchIf i (Some t) None (fun st => enc re i (st_A st))
               (fun st => absorb (enc re t (mand (st_A st) (r_A (enc re i (st_A st))))) (absorb (enc re i (st_A st)) st))
               (fun st => r_e (enc re t (mand (st_A st) (r_A (enc re i (st_A st)))))) (fun _ => e_top)).
      + intros st. repeat (eapply sem_eq_trans; [|apply sem_eq_absorb]). apply sem_eq_refl.
      + intros st D. rewrite !dev_absorb in D. apply app_eq_nil in D. destruct D as [D Dt]. apply app_eq_nil in D.
        destruct D as [D0 Di].
        exact (conj D0 (conj (Hi _ Di) (conj (Gt t st Ht Dt Di) (fun v _ => eq_refl)))).
    - apply (core_matchIf i None (Some e) (fun st => enc re i (st_A st))
               (fun st => absorb (enc re e (st_A st)) (absorb (enc re i (st_A st)) st))
               (fun _ => e_top) (fun st => r_e (enc re e (st_A st)))).
      + intros st. repeat (eapply sem_eq_trans; [|apply sem_eq_absorb]). apply sem_eq_refl.
      + intros st D. rewrite !dev_absorb in D. apply app_eq_nil in D. destruct D as [D De]. apply app_eq_nil in D.
        destruct D as [D0 Di].
        exact (conj D0 (conj (Hi _ Di) (conj (fun v _ _ => eq_refl) (fun v HA => g_ev _ _ _ _ (He _ De) v HA)))).
    - apply step_id; auto. intros _ v. simpl. destruct (valid re i v); reflexivity.
  Qed.

  Lemma core_contains : forall a o, optP (SubGood re) o ->
    Core T (do_contains a (option_map (enc re) o))
         (fun v => optb (fun s' => on_arr (fun vs => in_range (count (valid re s') vs)
                                  (match a_minContains a with Some n => n | None => 1%N end) (a_maxContains a)) v) o = true).
  Proof.
    intros a [x|] IH; [|apply step_id; auto]. pose (r := enc re x mall).
    assert (E : forall st, sem_eq st (dev_if (is_err (r_e r)) DEV_error_argument (absorb r st)))
      by (intros st; eapply sem_eq_trans; [apply sem_eq_absorb | apply sem_eq_dev_if]).
    assert (D : forall st lo hi, st_dev (step_contains lo hi r st) = [] -> st_dev st = [] /\ r_dev r = []).
    { intros st lo hi Dv. unfold step_contains in Dv. cbn [st_dev add_C] in Dv. rewrite dev_dev_if, dev_absorb in Dv.
      apply app_eq_nil in Dv. destruct Dv as [Dv _]. apply app_eq_nil in Dv. exact Dv. }
    apply core_intro; intros st; cbn [option_map do_contains optb]; fold r.
    - apply eq_sym, (shape_sem_eq _ _ (E st)).
    - intros Dv. apply (D _ _ _ Dv).
    - intros VS Dv H. destruct (D _ _ _ Dv) as [_ Dr]. pose proof (IH mall Dr) as G. fold r in G.
      unfold step_contains.
      eapply inv_ext; [|exact (inv_typed T _ _ _ _ _ (typed_arr _) (inv_sem_eq T _ _ _ (E st) H))].
      intros v _. cbv beta. destruct v; simpl; try tauto.
      rewrite (count_ext (ev (r_e r)) (valid re x)) by (intros y _; apply (g_ev _ _ _ _ G y eq_refl)). tauto.
  Qed.

  (* propertyNames inside the fragment: the names schema is `_` *)
  Lemma core_pnames : forall o, optP (SubGood re) o ->
    Core T (do_pnames (option_map (enc re) o))
         (fun v => optb (fun s' => on_obj (fun m => forallb (fun kv => valid re s' (JStr (fst kv))) m) v) o = true).
  Proof.
    intros [x|] IH; [|apply step_id; auto]. pose (r := enc re x (msingle KStr)).
    assert (E : forall st, sem_eq st (dev_if (negb (is_top (r_e r))) DEV_propertyNames (absorb r st)))
      by (intros st; eapply sem_eq_trans; [apply sem_eq_absorb | apply sem_eq_dev_if]).
    assert (D : forall st, st_dev (step_pnames r st) = [] -> st_dev st = [] /\ r_dev r = [] /\ is_top (r_e r) = true).
    { intros st Dv. unfold step_pnames in Dv.
      assert (X : st_dev (dev_if (negb (is_top (r_e r))) DEV_propertyNames (absorb r st)) = []).
      { destruct (is_top (r_e r)); [exact Dv|]. destruct (is_err (r_e r)); exact Dv. }
      rewrite dev_dev_if, dev_absorb in X. apply app_eq_nil in X. destruct X as [X Y]. apply app_eq_nil in X.
      destruct (is_top (r_e r)); [tauto | discriminate]. }
    apply core_intro; intros st; cbn [option_map do_pnames optb]; fold r.
    - unfold step_pnames. apply eq_sym. destruct (is_top (r_e r)); [|destruct (is_err (r_e r))]; apply (shape_sem_eq _ _ (E st)).
    - intros Dv. apply (D _ Dv).
    - intros VS Dv H. destruct (D _ Dv) as (_ & Dr & Ht). pose proof (IH _ Dr) as G. fold r in G.
      destruct (good_top_full _ _ _ _ G Ht) as [_ HV]. pose proof (inv_sem_eq T _ _ _ (E st) H) as H'.
      unfold step_pnames. rewrite Ht in *. eapply inv_ext; [|exact H'].
      intros v _. split; [|tauto]. intros X. split; auto. destruct v; simpl; auto.
      apply forallb_forall. intros kv _. apply HV. reflexivity.
  Qed.

  Lemma core_bounds : forall a,
    Core T (phase2_bounds a)
         (fun v => optb (fun b => on_num (fun h => Z.leb h b) v) (a_max a) = true /\
                   optb (fun b => on_num (fun h => Z.leb b h) v) (a_min a) = true).
  Proof.
    intros a. unfold phase2_bounds.
    pose proof (core_opt_step T _ _ (a_max a) (fun b => core_typed T _ _ _ (typed_num (fun h => Z.leb h b)))) as S.
    apply (fun S => step_then_core S (core_opt_step T _ _ (a_min a) (fun b => core_typed T _ _ _ (typed_num (fun h => Z.leb b h))))) in S.
    exact S.
  Qed.

End Steps4.
