(* The struct and list literals under construction, and what every keyword
   function of the decoder guarantees (a step). *)
From Verif Require Import Schema.Json Schema.Sem Schema.Encode Schema.Proofs Schema.Invariant.
From Coq Require Import List NArith ZArith Bool Lia.
Import ListNotations.

Definition shape (s : state) := (st_obj s, st_prefix s, st_rest s).

Lemma shape_sem_eq : forall a b, sem_eq a b -> shape a = shape b.
Proof. intros a b (_ & _ & _ & _ & e & f & g). unfold shape. congruence. Qed.

Lemma shape_upd : forall st A K e, shape (upd st A K e) = shape st.
Proof. intros. unfold shape, upd, add_all. destruct (is_top e); reflexivity. Qed.

Lemma shape_add_all : forall st e, shape (add_all st e) = shape st.
Proof. intros. unfold shape, add_all. destruct (is_top e); reflexivity. Qed.

Lemma shape_step_addl_bool : forall b s,
  shape (step_addl_bool b s) =
  (Some (mkO (ob_fields (the_obj s)) (ob_pats (the_obj s)) (ob_addl (the_obj s))
             (if b then ExplicitlyOpen else ExplicitlyClosed)), st_prefix s, st_rest s).
Proof. intros. reflexivity. Qed.

(* The literals with [s.object(n)] already applied: the part of the state the
   invariant does not see. *)
Definition lit : Type := objb * (option (list expr) * lrest).
Definition lit_of (st : state) : lit := (the_obj st, (st_prefix st, st_rest st)).
Definition lit0 : lit := (ob_empty, (None, RAny)).
Definition in_obj (h : objb -> objb) (l : lit) : lit := (h (fst l), snd l).
Definition in_list (h : option (list expr) * lrest -> option (list expr) * lrest) (l : lit) : lit := (fst l, h (snd l)).

Lemma lit_shape : forall a b, shape a = shape b -> lit_of a = lit_of b.
Proof. intros a b H. unfold shape in H. injection H as H1 H2 H3. unfold lit_of, the_obj. rewrite H1, H2, H3. reflexivity. Qed.

Lemma lit_sem_eq : forall a b, sem_eq a b -> lit_of a = lit_of b.
Proof. intros a b H. apply lit_shape, shape_sem_eq, H. Qed.

Section Step.
  Variable T : mask.

  (* What a keyword function [f] of the decoder guarantees: it acts on the
     literals as [g]; it only appends to the deviation list, and when it appends
     nothing the facts [E] about its subschemas hold; it keeps the invariant,
     adding the conjunct [Q] of [valid] that the keyword stands for.  [E] and [Q]
     may depend on the literals the step finds. *)
  Record Step (f : state -> state) (g : lit -> lit) (E : lit -> Prop) (Q : lit -> json -> Prop) : Prop := mkStep {
    step_lit : forall st, lit_of (f st) = g (lit_of st);
    step_dev : forall st, st_dev (f st) = [] -> st_dev st = [] /\ E (lit_of st);
    step_inv : forall st VS, st_dev (f st) = [] -> Inv T st VS -> Inv T (f st) (fun v => VS v /\ Q (lit_of st) v)
  }.

  Lemma step_comp : forall f g E Q f' g' E' Q', Step f g E Q -> Step f' g' E' Q' ->
    Step (fun st => f' (f st)) (fun l => g' (g l)) (fun l => E l /\ E' (g l)) (fun l v => Q l v /\ Q' (g l) v).
  Proof.
    intros f g E Q f' g' E' Q' [L1 D1 I1] [L2 D2 I2]. split.
    - intros st. rewrite L2, L1. reflexivity.
    - intros st D. destruct (D2 _ D) as [D' e']. destruct (D1 _ D') as [D'' e]. rewrite L1 in e'. auto.
    - intros st VS D H. destruct (D2 _ D) as [D' _].
      eapply inv_ext; [|apply (I2 _ _ D (I1 _ _ D' H))]. intros v _. cbv beta. rewrite L1. tauto.
  Qed.

  (* the two frequent kinds of steps: one that leaves the literals alone and
     needs no facts, and one that only touches the literals *)
  Definition Core (f : state -> state) (Q : json -> Prop) : Prop := Step f (fun l => l) (fun _ => True) (fun _ => Q).
  Definition Lit (f : state -> state) (g : lit -> lit) (E : lit -> Prop) : Prop := Step f g E (fun _ _ => True).

  Lemma step_then_core : forall f g E Q f' Q', Step f g E Q -> Core f' Q' ->
    Step (fun st => f' (f st)) g E (fun l v => Q l v /\ Q' v).
  Proof.
    intros f g E Q f' Q' S S'. destruct (step_comp _ _ _ _ _ _ _ _ S S') as [L D I]. split; auto.
    intros st Dv. destruct (D st Dv) as (? & ? & _). auto.
  Qed.

  Lemma step_then_lit : forall f g E Q f' g' E', Step f g E Q -> Lit f' g' E' ->
    Step (fun st => f' (f st)) (fun l => g' (g l)) (fun l => E l /\ E' (g l)) Q.
  Proof.
    intros f g E Q f' g' E' S S'. destruct (step_comp _ _ _ _ _ _ _ _ S S') as [L D I]. split; auto.
    intros st VS Dv H. eapply inv_ext; [|apply (I _ _ Dv H)]. intros v _. cbv beta. tauto.
  Qed.

  (* an absent keyword does nothing *)
  Lemma step_id : forall (g : lit -> lit) (E : lit -> Prop) (Q : lit -> json -> Prop),
    (forall l, g l = l) -> (forall l, E l) -> (forall l v, Q l v) -> Step (fun st => st) g E Q.
  Proof.
    intros g E Q Hg He Hq. split.
    - intros st. rewrite Hg. reflexivity.
    - auto.
    - intros st VS _ H. eapply inv_ext; [|exact H]. intros v _. split; [auto | tauto].
  Qed.

  Lemma core_intro : forall f (Q : json -> Prop),
    (forall st, shape (f st) = shape st) ->
    (forall st, st_dev (f st) = [] -> st_dev st = []) ->
    (forall st VS, st_dev (f st) = [] -> Inv T st VS -> Inv T (f st) (fun v => VS v /\ Q v)) ->
    Core f Q.
  Proof. intros f Q Hs Hd Hi. split; auto. intros st. apply lit_shape, Hs. Qed.

  Lemma lit_intro : forall f g E,
    (forall st, lit_of (f st) = g (lit_of st)) ->
    (forall st, st_dev (f st) = [] -> st_dev st = [] /\ E (lit_of st)) ->
    (forall st VS, Inv T st VS -> Inv T (f st) VS) ->
    Lit f g E.
  Proof.
    intros f g E Hl Hd Hi. split; auto.
    intros st VS _ H. eapply inv_ext; [|apply Hi, H]. intros v _. tauto.
  Qed.
End Step.
Arguments step_comp {T f g E Q f' g' E' Q'}.
Arguments step_then_core {T f g E Q f' Q'}.
Arguments step_then_lit {T f g E Q f' g' E'}.
