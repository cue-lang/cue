(* Canonical versions: on canonical semantic versions (what module.Version carries) Compare
   is antisymmetric AS STRINGS - "two semantic versions compare equal only if their canonical
   formattings are identical strings" - so together with "none" (bottom) and "" (top) the
   comparison closure that mvs.buildList derives from Versions.Max is a total order: the
   hypotheses of the MVS theorems (MVS/Proofs.v) are met by the real version order. *)
From Verif Require Import Base.Order Semver.Model Semver.Spec Semver.Proofs.
From Coq Require Import List NArith Bool Lia Arith.
Import ListNotations.
Open Scope N_scope.

Definition null_b (l : str) : bool := match l with [] => true | _ => false end.

Definition is_canon (v : str) : bool :=
  match parse v with
  | Some p => null_b (p_build p) && null_b (p_short p)
  | None => false
  end.

(* a canonical version is spelled exactly v MAJOR . MINOR . PATCH PRERELEASE *)
Lemma canon_spelling v :
  is_canon v = true ->
  exists p, parse v = Some p /\
            v = 118 :: p_major p ++ 46 :: p_minor p ++ 46 :: p_patch p ++ p_prerelease p.
Proof.
  unfold is_canon. destruct (parse v) as [p|] eqn:E; [|discriminate]. intros H.
  exists p. split; [reflexivity|]. apply parse_spec in E as [_ E].
  destruct (p_build p); [|discriminate]. destruct (p_short p); [|discriminate].
  rewrite !app_nil_r in E. exact E.
Qed.

Lemma map_ident_of_inj xs : forall ys,
  Forall wf_id xs -> Forall wf_id ys -> map ident_of xs = map ident_of ys -> xs = ys.
Proof.
  induction xs as [|x xs IH]; destruct ys as [|y ys]; simpl; intros Hx Hy E; try discriminate; auto.
  inversion Hx; inversion Hy; subst. injection E as E1 E2. f_equal; auto using ident_of_inj.
Qed.

Lemma pre_idents_inj x y : pre_ok x -> pre_ok y -> pre_idents x = pre_idents y -> x = y.
Proof.
  intros (xs & -> & Wx) (ys & -> & Wy). rewrite !pre_idents_dotted by assumption.
  intros E. apply map_ident_of_inj in E; auto. subst. reflexivity.
Qed.

Theorem compare_eq_canonical v w :
  is_canon v = true -> is_canon w = true -> compare v w = Eq -> v = w.
Proof.
  intros Hv Hw. apply canon_spelling in Hv as (pv & Ev & Sv). apply canon_spelling in Hw as (pw & Ew & Sw).
  rewrite (compare_refines_spec v w pv pw Ev Ew). intros E. apply (tc_eq _ spec_cmp_total) in E.
  apply parse_spec in Ev as [(V1 & V2 & V3 & V4) _]. apply parse_spec in Ew as [(W1 & W2 & W3 & W4) _].
  unfold abs in E. injection E as E1 E2 E3 E4.
  rewrite Sv, Sw.
  rewrite (digits_val_inj _ _ V1 W1 E1), (digits_val_inj _ _ V2 W2 E2), (digits_val_inj _ _ V3 W3 E3),
          (pre_idents_inj _ _ V4 W4 E4). reflexivity.
Qed.

(* the versions a requirement graph can carry: "none", "" or a canonical version *)
Definition okv (s : str) : bool := str_eqb s s_none || str_eqb s [] || is_canon s.

Lemma canon_not_special s : is_canon s = true -> str_eqb s s_none = false /\ str_eqb s [] = false.
Proof.
  intros H. split; apply str_eqb_neq; intros ->; vm_compute in H; discriminate.
Qed.

Lemma mvs_cmp_canon a b : is_canon a = true -> is_canon b = true -> mvs_cmp a b = compare a b.
Proof.
  intros Ha Hb. destruct (canon_not_special a Ha) as [A1 A2]. destruct (canon_not_special b Hb) as [B1 B2].
  unfold mvs_cmp, vmax. rewrite A1, A2, B1, B2. simpl.
  assert (N : compare a b <> Eq -> str_eqb a b = false /\ str_eqb b a = false).
  { intros N. split; apply str_eqb_neq; intros ->; apply N, (tp_refl _ compare_total_preorder). }
  rewrite (tp_opp _ compare_total_preorder b a). destruct (compare a b) eqn:E; simpl.
  - apply compare_eq_canonical in E; auto. subst b. rewrite str_eqb_refl. reflexivity.
  - destruct N as [_ ->]; [discriminate | reflexivity].
  - rewrite str_eqb_refl. destruct N as [-> _]; [discriminate | reflexivity].
Qed.

(* the three classes of versions, in ascending order *)
Definition vclass (s : str) : nat :=
  if str_eqb s s_none then 0 else if str_eqb s [] then 2 else 1.

Lemma okv_class s :
  okv s = true -> match vclass s with O => s = s_none | 1%nat => is_canon s = true | _ => s = [] end.
Proof.
  unfold okv, vclass.
  destruct (str_eqb s s_none) eqn:E1; [intros _; apply str_eqb_eq, E1|].
  destruct (str_eqb s []) eqn:E2; [intros _; apply str_eqb_eq, E2|]. intros H; exact H.
Qed.

(* Max returns the argument of the higher class *)
Lemma vmax_lt_class a b : (vclass a < vclass b)%nat -> vmax a b = b /\ vmax b a = b.
Proof.
  unfold vclass, vmax. destruct (str_eqb a s_none) eqn:A1.
  - apply str_eqb_eq in A1. subst a.
    destruct (str_eqb b s_none); [intros L; inversion L|]. split; reflexivity.
  - destruct (str_eqb a []) eqn:A2; destruct (str_eqb b s_none); destruct (str_eqb b []); intros L;
      try (split; reflexivity); lia.
Qed.

Lemma mvs_cmp_lt_class a b : (vclass a < vclass b)%nat -> mvs_cmp a b = Lt /\ mvs_cmp b a = Gt.
Proof.
  intros L. destruct (vmax_lt_class a b L) as [E1 E2]. unfold mvs_cmp. rewrite E1, E2, str_eqb_refl.
  assert (N : str_eqb b a = false) by (apply str_eqb_neq; intros ->; lia).
  rewrite N. split; reflexivity.
Qed.

Lemma mvs_cmp_by_class a b :
  okv a = true -> okv b = true ->
  mvs_cmp a b = match Nat.compare (vclass a) (vclass b) with Eq => compare a b | c => c end.
Proof.
  intros Ha Hb. destruct (Nat.compare_spec (vclass a) (vclass b)) as [E|L|L].
  - apply okv_class in Ha, Hb. rewrite <- E in Hb. destruct (vclass a) as [|[|]].
    + subst. reflexivity.
    + apply mvs_cmp_canon; assumption.
    + subst. reflexivity.
  - apply mvs_cmp_lt_class, L.
  - apply mvs_cmp_lt_class, L.
Qed.

(* the versions of a requirement graph as a type, with the order buildList uses *)
Definition ver : Type := { s : str | okv s = true }.
Definition ver_str (v : ver) : str := proj1_sig v.
Definition ver_cmp (a b : ver) : comparison := mvs_cmp (ver_str a) (ver_str b).

Lemma ver_eq (a b : ver) : ver_str a = ver_str b -> a = b.
Proof.
  destruct a as [x Hx], b as [y Hy]. simpl. intros ->. f_equal.
  apply Eqdep_dec.UIP_dec. apply bool_dec.
Qed.

Lemma okv_none : okv s_none = true.
Proof. reflexivity. Qed.

Definition ver_none : ver := exist _ s_none okv_none.

(* ver_cmp orders by class, then by what the version denotes *)
Definition vkey (a : ver) : nat * option sv := (vclass (ver_str a), key (ver_str a)).

Lemma ver_cmp_lex a b : ver_cmp a b = lex Nat.compare key_cmp (vkey a) (vkey b).
Proof.
  unfold ver_cmp, lex, vkey; simpl. rewrite <- compare_is_key_cmp.
  exact (mvs_cmp_by_class _ _ (proj2_sig a) (proj2_sig b)).
Qed.

Lemma vkey_inj a b : vkey a = vkey b -> a = b.
Proof.
  intros [= Ec Ek]. apply ver_eq.
  pose proof (okv_class _ (proj2_sig a)) as Ca. pose proof (okv_class _ (proj2_sig b)) as Cb.
  fold (ver_str a) (ver_str b) in *. rewrite <- Ec in Cb.
  destruct (vclass (ver_str a)) as [|[|]]; try congruence.
  apply compare_eq_canonical; auto. rewrite compare_is_key_cmp, Ek. apply (tc_refl _ key_cmp_total).
Qed.

Theorem ver_cmp_total : total_cmp ver_cmp.
Proof.
  apply (total_cmp_ext _ _ ver_cmp_lex), total_cmp_inj, vkey_inj.
  apply lex_total; [apply nat_compare_total | apply key_cmp_total].
Qed.

Theorem ver_none_bottom : forall v : ver, ver_cmp ver_none v <> Gt.
Proof.
  intros v. rewrite ver_cmp_lex. unfold lex, vkey. simpl.
  destruct (vclass (ver_str v)); [destruct (key (ver_str v))|]; discriminate.
Qed.

Definition ver_eq_dec (a b : ver) : {a = b} + {a <> b}.
Proof.
  destruct (list_eq_dec N.eq_dec (ver_str a) (ver_str b)) as [E|N].
  - left. apply ver_eq. exact E.
  - right. intros ->. apply N. reflexivity.
Defined.
