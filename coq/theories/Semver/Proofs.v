(* Proofs about the semver model: it refines SemVer 2.0 precedence and is a
   total preorder on all strings. *)
From Verif Require Import Base.Order Semver.Model Semver.Spec.
From Coq Require Import List NArith Bool Lia Arith.
Import ListNotations.
Open Scope N_scope.

Lemma str_compare_list_cmp x y : str_compare x y = list_cmp N.compare x y.
Proof.
  revert y; induction x as [|a x IH]; destruct y as [|b y]; simpl; auto.
  rewrite IH. reflexivity.
Qed.

Lemma str_compare_total : total_cmp str_compare.
Proof. exact (total_cmp_ext _ _ str_compare_list_cmp (list_cmp_total _ N_compare_total)). Qed.

Lemma str_eqb_eq x y : str_eqb x y = true <-> x = y.
Proof.
  unfold str_eqb. rewrite <- (tc_eq _ str_compare_total).
  destruct (str_compare x y); split; congruence.
Qed.

Lemma str_eqb_refl x : str_eqb x x = true.
Proof. apply str_eqb_eq. reflexivity. Qed.

Lemma str_eqb_neq x y : str_eqb x y = false <-> x <> y.
Proof.
  rewrite <- str_eqb_eq. destruct (str_eqb x y); split; congruence.
Qed.

Definition pow10 (n : nat) : N := 10 ^ N.of_nat n.

Lemma pow10_S n : pow10 (S n) = 10 * pow10 n.
Proof. unfold pow10. rewrite Nat2N.inj_succ, N.pow_succ_r'. reflexivity. Qed.

Lemma pow10_pos n : 0 < pow10 n.
Proof. unfold pow10. apply N.neq_0_lt_0, N.pow_nonzero. discriminate. Qed.

Lemma pow10_mono a b : (a <= b)%nat -> pow10 a <= pow10 b.
Proof. intros. unfold pow10. apply N.pow_le_mono_r; lia. Qed.

Lemma digits_val_acc_spec s : forall acc,
  digits_val_acc acc s = acc * pow10 (length s) + digits_val s.
Proof.
  unfold digits_val. induction s as [|c r IH]; intros acc; cbn [digits_val_acc length].
  - unfold pow10; simpl. lia.
  - rewrite IH. rewrite (IH (0 * 10 + (c - 48))). rewrite pow10_S. lia.
Qed.

Lemma digits_val_cons c r : digits_val (c :: r) = (c - 48) * pow10 (length r) + digits_val r.
Proof.
  unfold digits_val at 1. cbn [digits_val_acc]. rewrite digits_val_acc_spec. lia.
Qed.

Lemma is_digit_range c : is_digit c = true -> 48 <= c <= 57.
Proof. unfold is_digit. rewrite andb_true_iff, !N.leb_le. tauto. Qed.

Lemma digits_val_bound s : all_digits s = true -> digits_val s < pow10 (length s).
Proof.
  induction s as [|c r IH]; simpl; intros H.
  - unfold pow10; simpl; unfold digits_val; simpl. lia.
  - apply andb_true_iff in H as [Hc Hr]. apply is_digit_range in Hc.
    specialize (IH Hr). rewrite digits_val_cons, pow10_S. nia.
Qed.

(* a higher leading digit outweighs whatever follows *)
Lemma lead_digit_lt p a b x y : a < b -> x < p -> a * p + x < b * p + y.
Proof.
  intros L B. apply N.lt_le_trans with ((a + 1) * p).
  - rewrite N.mul_add_distr_r, N.mul_1_l. apply N.add_lt_mono_l, B.
  - apply N.le_trans with (b * p); [|apply N.le_add_r].
    apply N.mul_le_mono_r. rewrite N.add_1_r. apply N.le_succ_l, L.
Qed.

Lemma same_len_compare x : forall y,
  all_digits x = true -> all_digits y = true -> length x = length y ->
  str_compare x y = (digits_val x ?= digits_val y).
Proof.
  induction x as [|a x IH]; destruct y as [|b y]; simpl; intros Hx Hy Hl; try discriminate.
  - reflexivity.
  - apply andb_true_iff in Hx as [Ha Hx]. apply andb_true_iff in Hy as [Hb Hy].
    injection Hl as Hl.
    pose proof (digits_val_bound x Hx) as Bx. pose proof (digits_val_bound y Hy) as By.
    apply is_digit_range in Ha. apply is_digit_range in Hb.
    rewrite !digits_val_cons. rewrite <- Hl in *. symmetry.
    destruct (N.compare_spec a b) as [->|L|L].
    + rewrite (IH y Hx Hy Hl).
      destruct (N.compare_spec (digits_val x) (digits_val y)) as [->|L|L].
      * apply N.compare_refl.
      * apply N.compare_lt_iff, N.add_lt_mono_l, L.
      * apply N.compare_gt_iff, N.add_lt_mono_l, L.
    + apply N.compare_lt_iff, lead_digit_lt; [lia | exact Bx].
    + apply N.compare_gt_iff, lead_digit_lt; [lia | exact By].
Qed.

(* a canonical decimal numeral: digits only, non-empty, no leading zero unless "0" *)
Definition wf_num (t : str) : Prop :=
  all_digits t = true /\ t <> [] /\ (forall r, t = 48 :: r -> r = []).

(* a longer numeral is larger: its leading digit is not 0 *)
Lemma digits_val_lt_len x y :
  wf_num x -> wf_num y -> (length x < length y)%nat -> digits_val x < digits_val y.
Proof.
  intros (Dx & Nx & _) (Dy & _ & Zy) Hl. pose proof (digits_val_bound x Dx) as Bx.
  destruct y as [|c r]; [inversion Hl|]. simpl in Dy, Hl.
  apply andb_true_iff in Dy as [Hc _]. apply is_digit_range in Hc.
  assert (c <> 48).
  { intros ->. rewrite (Zy r eq_refl) in Hl. destruct x; [congruence | simpl in Hl; lia]. }
  pose proof (pow10_mono (length x) (length r)) as M. rewrite digits_val_cons. nia.
Qed.

Lemma compare_int_spec x y :
  wf_num x -> wf_num y -> compare_int x y = (digits_val x ?= digits_val y).
Proof.
  intros Hx Hy. unfold compare_int.
  destruct (Nat.compare (length x) (length y)) eqn:E.
  - apply Nat.compare_eq_iff in E. apply same_len_compare; auto; [apply Hx | apply Hy].
  - apply Nat.compare_lt_iff in E. symmetry. apply N.compare_lt_iff.
    apply digits_val_lt_len; auto.
  - apply Nat.compare_gt_iff in E. symmetry. apply N.compare_gt_iff.
    apply digits_val_lt_len; auto.
Qed.

Lemma span_digits_spec v : forall t rest,
  span_digits v = (t, rest) ->
  v = t ++ rest /\ all_digits t = true /\ (match rest with c :: _ => is_digit c = false | [] => True end).
Proof.
  induction v as [|c r IH]; simpl; intros t rest H.
  - injection H as <- <-. auto.
  - destruct (is_digit c) eqn:Ec.
    + destruct (span_digits r) as [a b] eqn:Er. injection H as <- <-.
      destruct (IH a b eq_refl) as (-> & Ha & Hb). simpl. rewrite Ec. auto.
    + injection H as <- <-. simpl. rewrite Ec. auto.
Qed.

Lemma parse_int_spec v t rest :
  parse_int v = Some (t, rest) -> v = t ++ rest /\ wf_num t.
Proof.
  unfold parse_int. destruct v as [|c r]; [discriminate|].
  destruct (is_digit c) eqn:Ec; [|discriminate].
  destruct (span_digits (c :: r)) as [a b] eqn:Es.
  pose proof (span_digits_spec _ _ _ Es) as (Hv & Hd & _).
  destruct ((c =? 48) && negb (Nat.eqb (length a) 1)) eqn:Ez; [discriminate|].
  intros [= <- <-]. split; [exact Hv|]. split; [exact Hd|].
  simpl in Es. rewrite Ec in Es. destruct (span_digits r) as [a' b']. injection Es as <- <-.
  split; [discriminate|]. intros r0 [= -> <-].
  simpl in Ez. destruct a'; [reflexivity|]. simpl in Ez. discriminate.
Qed.

Fixpoint join (ids : list str) : str :=
  match ids with
  | [] => []
  | i :: r => match r with [] => i | _ => i ++ 46 :: join r end
  end.

Definition no_dot (i : str) : Prop := forallb is_ident_char i = true.

Definition wf_id (i : str) : Prop :=
  i <> [] /\ no_dot i /\ is_bad_num i = false.

(* the identifiers [ids] behind the introducer [c] ('-', '+', or the '.' before the
   remaining ones); no identifiers, no text *)
Definition dotted (c : N) (ids : list str) : str :=
  match ids with [] => [] | _ => c :: join ids end.

Definition pre_ok (pre : str) : Prop := exists ids, pre = dotted 45 ids /\ Forall wf_id ids.

Lemma pre_ok_nil : pre_ok [].
Proof. exists []. split; [reflexivity | constructor]. Qed.

Lemma join_cons i r : join (i :: r) = i ++ dotted 46 r.
Proof. destruct r; [symmetry; apply app_nil_r | reflexivity]. Qed.

Lemma forallb_rev {A} (f : A -> bool) l : forallb f (rev l) = forallb f l.
Proof.
  induction l as [|a l IH]; simpl; auto.
  rewrite forallb_app, IH. simpl. rewrite andb_true_r, andb_comm. reflexivity.
Qed.

Lemma seg_ok_wf chk cur :
  forallb is_ident_char cur = true ->
  negb match cur with [] => true | _ :: _ => false end && negb (chk && is_bad_num (rev cur)) = true ->
  rev cur <> [] /\ no_dot (rev cur) /\ chk && is_bad_num (rev cur) = false.
Proof.
  intros Hcur. rewrite andb_true_iff, !negb_true_iff. intros [E1 E2].
  repeat split; auto.
  - intros E. apply (f_equal (@rev N)) in E. rewrite rev_involutive in E. simpl in E.
    subst cur. discriminate.
  - unfold no_dot. rewrite forallb_rev. exact Hcur.
Qed.

(* the scanned text is a non-empty dotted list of identifiers, each non-empty, of
   identifier characters and, where [chk] asks for it, not a numeral with a leading zero *)
Lemma scan_idents_spec stop chk v : forall cur acc pre rest,
  forallb is_ident_char cur = true ->
  scan_idents stop chk v cur acc = Some (pre, rest) ->
  exists body ids, pre = rev acc ++ body /\ v = body ++ rest /\ ids <> [] /\
                   rev cur ++ body = join ids /\
                   Forall (fun i => i <> [] /\ no_dot i /\ chk && is_bad_num i = false) ids.
Proof.
  induction v as [|c r IH]; intros cur acc pre rest Hcur; cbn [scan_idents];
    pose proof (seg_ok_wf chk cur Hcur) as Hseg;
    set (seg_ok := negb match cur with [] => true | _ :: _ => false end && negb (chk && is_bad_num (rev cur))) in *.
  - destruct seg_ok eqn:Eok; [|discriminate]. intros [= <- <-].
    exists [], [rev cur]. rewrite !app_nil_r. repeat split; auto; discriminate.
  - destruct (stop && (c =? 43)) eqn:Es.
    { destruct seg_ok eqn:Eok; [|discriminate]. intros [= <- <-].
      exists [], [rev cur]. rewrite !app_nil_r. repeat split; auto; discriminate. }
    destruct (negb (is_ident_char c) && negb (c =? 46)) eqn:Ebad; [discriminate|].
    destruct (c =? 46) eqn:Edot.
    + destruct seg_ok eqn:Eok; [|discriminate]. intros Hr.
      apply IH in Hr; [|reflexivity]. destruct Hr as (body & ids & Hp & Hv & Hne & Hj & Hw).
      apply N.eqb_eq in Edot. subst c.
      exists (46 :: body), (rev cur :: ids). simpl in Hp, Hj. repeat split.
      * rewrite Hp. simpl. rewrite <- app_assoc. reflexivity.
      * rewrite Hv. reflexivity.
      * discriminate.
      * rewrite join_cons, Hj. destruct ids; [congruence | reflexivity].
      * constructor; auto.
    + intros Hr. apply IH in Hr.
      2:{ simpl. rewrite Hcur, andb_true_r. simpl in Ebad.
          rewrite andb_true_r in Ebad. apply negb_false_iff in Ebad. exact Ebad. }
      destruct Hr as (body & ids & Hp & Hv & Hne & Hj & Hw).
      exists (c :: body), ids. simpl in Hp, Hj. repeat split; auto.
      * rewrite Hp. rewrite <- app_assoc. reflexivity.
      * rewrite Hv. reflexivity.
      * rewrite <- Hj. rewrite <- app_assoc. reflexivity.
Qed.

Lemma parse_prerelease_spec v pre rest :
  parse_prerelease v = Some (pre, rest) -> v = pre ++ rest /\ pre_ok pre.
Proof.
  unfold parse_prerelease. destruct v as [|c r]; [discriminate|].
  destruct (c =? 45) eqn:Ec; [|discriminate]. apply N.eqb_eq in Ec. subst c.
  intros H. apply scan_idents_spec in H; [|reflexivity].
  destruct H as (body & ids & -> & -> & Hne & Hj & Hw). simpl in Hj. subst body.
  split; [reflexivity|]. exists ids. split; [destruct ids; [congruence | reflexivity]|].
  (* chk is true here and [true && _] reduces, so Hw is Forall wf_id ids *)
  exact Hw.
Qed.

Lemma parse_build_spec v b rest : parse_build v = Some (b, rest) -> v = b ++ rest.
Proof.
  unfold parse_build. destruct v as [|c r]; [discriminate|].
  destruct (c =? 43) eqn:Ec; [|discriminate]. apply N.eqb_eq in Ec. subst c.
  intros H. apply scan_idents_spec in H; [|reflexivity].
  destruct H as (body & _ & -> & -> & _). reflexivity.
Qed.

Definition wf_parsed (p : parsed) : Prop :=
  wf_num (p_major p) /\ wf_num (p_minor p) /\ wf_num (p_patch p) /\ pre_ok (p_prerelease p).

Lemma wf_num_zero : wf_num zero.
Proof. repeat split; try discriminate. intros r [= <-]. reflexivity. Qed.

(* parse accepts v MAJOR [. MINOR [. PATCH PRERELEASE BUILD]] and nothing else;
   [p_short] is what the short forms leave out *)
Lemma parse_spec v p :
  parse v = Some p ->
  wf_parsed p /\
  v ++ p_short p = 118 :: p_major p ++ 46 :: p_minor p ++ 46 :: p_patch p ++ p_prerelease p ++ p_build p.
Proof.
  unfold parse, wf_parsed. destruct v as [|c0 v1]; [discriminate|].
  destruct (c0 =? 118) eqn:E0; simpl; [|discriminate]. apply N.eqb_eq in E0. subst c0.
  destruct (parse_int v1) as [[major v2]|] eqn:E1; [|discriminate].
  apply parse_int_spec in E1 as [-> W1].
  destruct v2 as [|c2 v3].
  { intros [= <-]. simpl. rewrite app_nil_r. auto 6 using wf_num_zero, pre_ok_nil. }
  destruct (c2 =? 46) eqn:E2; simpl; [|discriminate]. apply N.eqb_eq in E2. subst c2.
  destruct (parse_int v3) as [[minor v4]|] eqn:E3; [|discriminate].
  apply parse_int_spec in E3 as [-> W2].
  destruct v4 as [|c4 v5].
  { intros [= <-]. simpl. rewrite app_nil_r, <- !app_assoc. auto 6 using wf_num_zero, pre_ok_nil. }
  destruct (c4 =? 46) eqn:E4; simpl; [|discriminate]. apply N.eqb_eq in E4. subst c4.
  destruct (parse_int v5) as [[patch v6]|] eqn:E5; [|discriminate].
  apply parse_int_spec in E5 as [-> W3].
  destruct (if starts 45 v6 then parse_prerelease v6 else Some ([], v6)) as [[pre v7]|] eqn:E6; [|discriminate].
  assert (H6 : v6 = pre ++ v7 /\ pre_ok pre).
  { destruct (starts 45 v6).
    - apply parse_prerelease_spec, E6.
    - injection E6 as <- <-. split; [reflexivity | apply pre_ok_nil]. }
  destruct H6 as [-> W4].
  destruct (if starts 43 v7 then parse_build v7 else Some ([], v7)) as [[b v8]|] eqn:E7; [|discriminate].
  assert (H7 : v7 = b ++ v8).
  { destruct (starts 43 v7).
    - apply parse_build_spec, E7.
    - injection E7 as <- <-. reflexivity. }
  destruct v8; [|discriminate]. intros [= <-]. simpl. subst v7.
  rewrite !app_nil_r. auto 6.
Qed.

Lemma ident_char_not_dot c : is_ident_char c = true -> (c =? 46) = false.
Proof.
  unfold is_ident_char, is_digit. intros H. apply N.eqb_neq. intros ->. vm_compute in H. discriminate.
Qed.

Lemma next_ident_app i rest :
  no_dot i -> next_ident rest = ([], rest) -> next_ident (i ++ rest) = (i, rest).
Proof.
  unfold no_dot. intros H E. induction i as [|c r IH]; simpl; [exact E|].
  simpl in H. apply andb_true_iff in H as [Hc Hr]. rewrite (ident_char_not_dot c Hc), (IH Hr). reflexivity.
Qed.

Lemma next_ident_dotted r : next_ident (dotted 46 r) = ([], dotted 46 r).
Proof. destruct r; reflexivity. Qed.

Lemma split_dots_app i : forall cur rest,
  no_dot i -> split_dots cur (i ++ rest) = split_dots (rev i ++ cur) rest.
Proof.
  unfold no_dot. induction i as [|c r IH]; simpl; intros cur rest H; auto.
  apply andb_true_iff in H as [Hc Hr]. rewrite (ident_char_not_dot c Hc), (IH _ _ Hr).
  rewrite <- app_assoc. reflexivity.
Qed.

Lemma split_dots_join ids :
  ids <> [] -> Forall wf_id ids -> split_dots [] (join ids) = ids.
Proof.
  induction ids as [|i r IH]; [congruence|]. intros _ Hw. inversion Hw as [|? ? (_ & Hnd & _) Hr]; subst.
  rewrite join_cons, split_dots_app, app_nil_r by exact Hnd.
  destruct r as [|j r']; simpl; rewrite rev_involutive; [reflexivity|].
  f_equal. apply IH; [discriminate | exact Hr].
Qed.

Lemma pre_idents_dotted ids : Forall wf_id ids -> pre_idents (dotted 45 ids) = map ident_of ids.
Proof.
  intros W. destruct ids; [reflexivity|]. unfold pre_idents, dotted.
  rewrite split_dots_join; [reflexivity | discriminate | exact W].
Qed.

Lemma ident_cmp_total : total_cmp ident_cmp.
Proof.
  constructor.
  - intros [x|s] [y|t]; simpl; split; try congruence.
    + intros E. apply N.compare_eq_iff in E. congruence.
    + intros [= ->]. apply N.compare_refl.
    + intros E. apply (tc_eq _ str_compare_total) in E. congruence.
    + intros [= ->]. apply (tc_refl _ str_compare_total).
  - intros [x|s] [y|t]; simpl; auto.
    + apply N.compare_antisym.
    + apply (tc_opp _ str_compare_total).
  - intros [x|s] [y|t] [z|u]; simpl; try congruence.
    + apply (tc_trans _ N_compare_total).
    + apply (tc_trans _ str_compare_total).
Qed.

(* 11.3 puts the empty list on top of the otherwise lexicographic order *)
Lemma pre_cmp_total : total_cmp pre_cmp.
Proof.
  pose proof (list_cmp_total ident_cmp ident_cmp_total) as T.
  constructor.
  - intros [|a x] [|b y]; split; try (simpl; congruence).
    + intros E. apply (tc_eq _ T (a :: x) (b :: y)). exact E.
    + intros ->. apply (tc_refl _ T (b :: y)).
  - intros [|a x] [|b y]; try reflexivity. apply (tc_opp _ T (a :: x) (b :: y)).
  - intros [|a x] [|b y] [|d z]; try (simpl; congruence). apply (tc_trans _ T (a :: x) (b :: y) (d :: z)).
Qed.

Lemma wf_id_num i : wf_id i -> is_num i = true -> wf_num i.
Proof.
  intros (Hne & _ & Hb) Hn. unfold is_num in Hn. repeat split; auto.
  intros r ->. unfold is_bad_num in Hb. rewrite Hn in Hb. simpl in Hb.
  destruct r; auto. simpl in Hb. discriminate.
Qed.

Lemma compare_int_eq x y : compare_int x y = Eq -> x = y.
Proof.
  unfold compare_int. destruct (Nat.compare (length x) (length y)); try discriminate.
  apply (tc_eq _ str_compare_total).
Qed.

(* numerals and identifiers are determined by what they denote *)
Lemma digits_val_inj x y : wf_num x -> wf_num y -> digits_val x = digits_val y -> x = y.
Proof.
  intros Hx Hy E. apply compare_int_eq. rewrite (compare_int_spec x y Hx Hy), E. apply N.compare_refl.
Qed.

Lemma ident_of_inj i j : wf_id i -> wf_id j -> ident_of i = ident_of j -> i = j.
Proof.
  intros Hi Hj. unfold ident_of. destruct (is_num i) eqn:Ei; destruct (is_num j) eqn:Ej; intros [= E]; auto.
  apply digits_val_inj; auto using wf_id_num.
Qed.

(* the decision taken by comparePrerelease on two different identifiers *)
Definition ident_decision (dx dy : str) : comparison :=
  let ix := is_num dx in
  let iy := is_num dy in
  if negb (Bool.eqb ix iy) then (if ix then Lt else Gt)
  else if ix then
         match Nat.compare (length dx) (length dy) with
         | Eq => str_compare dx dy
         | c => c
         end
       else str_compare dx dy.

Lemma compare_pre_loop_step fuel c x1 d y1 :
  compare_pre_loop (S fuel) (c :: x1) (d :: y1) =
  let (dx, x2) := next_ident x1 in
  let (dy, y2) := next_ident y1 in
  if negb (str_eqb dx dy) then ident_decision dx dy else compare_pre_loop fuel x2 y2.
Proof. reflexivity. Qed.

Lemma ident_decision_spec dx dy :
  wf_id dx -> wf_id dy -> ident_decision dx dy = ident_cmp (ident_of dx) (ident_of dy).
Proof.
  intros Hx Hy. unfold ident_decision, ident_of.
  destruct (is_num dx) eqn:Ex; destruct (is_num dy) eqn:Ey; simpl; auto.
  apply (compare_int_spec dx dy); apply wf_id_num; auto.
Qed.

(* each round of the loop drops the separator and compares the next identifiers *)
Lemma compare_pre_loop_spec xs : forall ys fuel a b,
  Forall wf_id xs -> Forall wf_id ys -> xs <> ys ->
  (length (dotted a xs) < fuel)%nat ->
  compare_pre_loop fuel (dotted a xs) (dotted b ys) =
  list_cmp ident_cmp (map ident_of xs) (map ident_of ys).
Proof.
  induction xs as [|i xr IH]; intros ys fuel a b Hwx Hwy Hne Hfuel;
    (destruct fuel as [|fuel]; [inversion Hfuel|]); destruct ys as [|j yr]; try reflexivity.
  - congruence.
  - inversion Hwx as [|? ? Hi Hxr]; subst. inversion Hwy as [|? ? Hj Hyr]; subst.
    cbn [dotted] in *. rewrite compare_pre_loop_step. rewrite !join_cons in *.
    (* both texts are dotted lists, so next_ident peels exactly one identifier per round *)
    rewrite !next_ident_app by (apply Hi || apply Hj || apply next_ident_dotted).
    cbn [map list_cmp].
    destruct (str_eqb i j) eqn:Eij; cbn [negb].
    + apply str_eqb_eq in Eij. subst j. rewrite (tc_refl _ ident_cmp_total).
      apply IH; auto.
      * congruence.
      * cbn [length] in Hfuel. rewrite app_length in Hfuel. lia.
    + apply str_eqb_neq in Eij.
      rewrite (ident_decision_spec i j Hi Hj).
      destruct (ident_cmp (ident_of i) (ident_of j)) eqn:C; auto.
      apply (tc_eq _ ident_cmp_total), ident_of_inj in C; auto. contradiction.
Qed.

Lemma join_nonempty ids : ids <> [] -> Forall wf_id ids -> join ids <> [].
Proof.
  destruct ids as [|i r]; [congruence|]. intros _ H. inversion H as [|? ? (Hne & _) _]; subst.
  destruct r; simpl; [exact Hne|]. destruct i; [congruence | discriminate].
Qed.

Lemma join_inj xs : forall ys,
  xs <> [] -> ys <> [] -> Forall wf_id xs -> Forall wf_id ys -> join xs = join ys -> xs = ys.
Proof.
  intros ys Hx Hy Wx Wy E.
  rewrite <- (split_dots_join xs Hx Wx), <- (split_dots_join ys Hy Wy), E. reflexivity.
Qed.

Lemma compare_prerelease_spec x y :
  pre_ok x -> pre_ok y -> compare_prerelease x y = pre_cmp (pre_idents x) (pre_idents y).
Proof.
  intros Hx Hy. unfold compare_prerelease.
  destruct (str_eqb x y) eqn:E.
  - apply str_eqb_eq in E. subst y. symmetry. apply (tc_refl _ pre_cmp_total).
  - apply str_eqb_neq in E.
    destruct Hx as (xs & -> & Wx), Hy as (ys & -> & Wy). rewrite !pre_idents_dotted by assumption.
    assert (xs <> ys) by congruence.
    destruct xs as [|i xr], ys as [|j yr]; try reflexivity; [congruence|].
    apply compare_pre_loop_spec; auto.
Qed.

Theorem compare_refines_spec v w pv pw :
  parse v = Some pv -> parse w = Some pw -> compare v w = spec_cmp (abs pv) (abs pw).
Proof.
  intros Hv Hw. unfold compare. rewrite Hv, Hw.
  apply parse_spec in Hv as [(V1 & V2 & V3 & V4) _]. apply parse_spec in Hw as [(W1 & W2 & W3 & W4) _].
  unfold spec_cmp, abs; simpl.
  rewrite (compare_int_spec _ _ V1 W1), (compare_int_spec _ _ V2 W2), (compare_int_spec _ _ V3 W3).
  rewrite (compare_prerelease_spec _ _ V4 W4). reflexivity.
Qed.

Definition sv_tuple (a : sv) : N * (N * (N * list ident)) :=
  (sv_major a, (sv_minor a, (sv_patch a, sv_pre a))).

(* spec_cmp is, by unfolding, the lexicographic order on sv_tuple *)
Theorem spec_cmp_total : total_cmp spec_cmp.
Proof.
  apply (total_cmp_inj (lex N.compare (lex N.compare (lex N.compare pre_cmp))) sv_tuple).
  - apply lex_total, lex_total, lex_total, pre_cmp_total; apply N_compare_total.
  - intros [] [] [= -> -> -> ->]. reflexivity.
Qed.

(* Compare, on ALL strings: invalid versions form the bottom class. *)
Definition key (v : str) : option sv := option_map abs (parse v).

Definition key_cmp (a b : option sv) : comparison :=
  match a, b with
  | None, None => Eq
  | None, Some _ => Lt
  | Some _, None => Gt
  | Some x, Some y => spec_cmp x y
  end.

Lemma key_cmp_total : total_cmp key_cmp.
Proof.
  pose proof spec_cmp_total as T. constructor.
  - intros [x|] [y|]; simpl; split; try congruence.
    + intros E. apply (tc_eq _ T) in E. congruence.
    + intros [= ->]. apply (tc_refl _ T).
  - intros [x|] [y|]; simpl; auto. apply (tc_opp _ T).
  - intros [x|] [y|] [z|]; simpl; try congruence. apply (tc_trans _ T).
Qed.

Theorem compare_is_key_cmp v w : compare v w = key_cmp (key v) (key w).
Proof.
  unfold key. destruct (parse v) as [pv|] eqn:Ev; destruct (parse w) as [pw|] eqn:Ew; simpl;
    [apply compare_refines_spec; assumption | | |]; unfold compare; rewrite Ev, Ew; reflexivity.
Qed.

Theorem compare_total_preorder : total_pre compare.
Proof.
  pose proof (total_pre_of_map key_cmp key key_cmp_total) as T.
  constructor.
  - intros x. rewrite compare_is_key_cmp. apply (tp_refl _ T).
  - intros x y. rewrite !compare_is_key_cmp. apply (tp_opp _ T).
  - intros x y z. rewrite !compare_is_key_cmp. apply (tp_trans _ T).
  - intros x y z. rewrite !compare_is_key_cmp. apply (tp_eq_l _ T).
Qed.

Theorem invalid_lowest v w : is_valid v = false -> is_valid w = true -> compare v w = Lt.
Proof.
  unfold is_valid, compare. destruct (parse v); [discriminate|]. destruct (parse w); [reflexivity | discriminate].
Qed.

Theorem invalid_all_equal v w : is_valid v = false -> is_valid w = false -> compare v w = Eq.
Proof.
  unfold is_valid, compare. destruct (parse v); [discriminate|]. destruct (parse w); [discriminate | reflexivity].
Qed.

Theorem build_ignored v w pv pw :
  parse v = Some pv -> parse w = Some pw ->
  p_major pv = p_major pw -> p_minor pv = p_minor pw -> p_patch pv = p_patch pw ->
  p_prerelease pv = p_prerelease pw ->
  compare v w = Eq.
Proof.
  intros Hv Hw E1 E2 E3 E4. rewrite (compare_refines_spec v w pv pw Hv Hw).
  apply (tc_eq _ spec_cmp_total). unfold abs. rewrite E1, E2, E3, E4. reflexivity.
Qed.

Theorem prerelease_below_release v w pv pw :
  parse v = Some pv -> parse w = Some pw ->
  p_major pv = p_major pw -> p_minor pv = p_minor pw -> p_patch pv = p_patch pw ->
  p_prerelease pv <> [] -> p_prerelease pw = [] ->
  compare v w = Lt.
Proof.
  intros Hv Hw E1 E2 E3 N4 E4. rewrite (compare_refines_spec v w pv pw Hv Hw).
  unfold spec_cmp, abs; simpl. rewrite E1, E2, E3, E4, !N.compare_refl. simpl.
  apply parse_spec in Hv as [(_ & _ & _ & ids & E & W) _].
  rewrite E in N4. rewrite E, pre_idents_dotted by exact W.
  destruct ids; [exfalso; apply N4; reflexivity | reflexivity].
Qed.
