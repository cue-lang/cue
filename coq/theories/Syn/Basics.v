(* Syn/Basics.v - induction principle, tree shapes, fuel monotonicity of the parser model. *)
From Coq Require Import List NArith Bool Arith Lia.
From Verif Require Import Syn.Lex Syn.Expr.
Import ListNotations.
Open Scope nat_scope.

Section All.
  Context {A : Type} (P : A -> Prop).
  Fixpoint All (l : list A) : Prop :=
    match l with [] => True | a :: l' => P a /\ All l' end.
End All.

Lemma All_Forall : forall A (P : A -> Prop) l, All P l <-> Forall P l.
Proof.
  induction l; simpl; split; intros H; auto.
  - destruct H; constructor; tauto.
  - inversion H; subst; tauto.
Qed.

Lemma All_impl : forall A (P Q : A -> Prop) l, (forall a, P a -> Q a) -> All P l -> All Q l.
Proof. induction l; simpl; intros; tauto || (destruct H0; split; auto). Qed.

(* the forms in which the list hypothesis of [expr_ind2] is used *)
Lemma All_mp : forall A (P Q : A -> Prop) l, All (fun a => P a -> Q a) l -> All P l -> All Q l.
Proof.
  induction l as [|a l IH]; simpl; [trivial|]. intros [H Hl] [Pa Pl]. split; [exact (H Pa) | exact (IH Hl Pl)].
Qed.

Lemma All_map : forall A B (f : A -> B) (P : A -> Prop) (Q : B -> Prop) l,
  All P l -> (forall a, P a -> Q (f a)) -> All Q (map f l).
Proof. induction l as [|a l IH]; simpl; [trivial|]. intros [H Hl] F. split; [exact (F a H) | exact (IH Hl F)]. Qed.

Lemma All_map_ext : forall A B (f g : A -> B) (P : A -> Prop) l,
  All P l -> (forall a, P a -> f a = g a) -> map f l = map g l.
Proof.
  induction l as [|a l IH]; simpl; [reflexivity|]. intros [H Hl] F. rewrite (F a H), (IH Hl F). reflexivity.
Qed.

Section expr_ind2.
  Variable P : expr -> Prop.
  Hypothesis Hatom : forall t, P (EAtom t).
  Hypothesis Hbin : forall o x y, P x -> P y -> P (EBin o x y).
  Hypothesis Hun : forall o x, P x -> P (EUn o x).
  Hypothesis Hsel : forall x l, P x -> P (ESel x l).
  Hypothesis Hidx : forall x i, P x -> P i -> P (EIdx x i).
  Hypothesis Hcall : forall f a, P f -> All P a -> P (ECall f a).
  Hypothesis Hparen : forall x, P x -> P (EParen x).

  Fixpoint expr_ind2 (e : expr) : P e :=
    match e with
    | EAtom t => Hatom t
    | EBin o x y => Hbin o x y (expr_ind2 x) (expr_ind2 y)
    | EUn o x => Hun o x (expr_ind2 x)
    | ESel x l => Hsel x l (expr_ind2 x)
    | EIdx x i => Hidx x i (expr_ind2 x) (expr_ind2 i)
    | ECall f a =>
      Hcall f a (expr_ind2 f)
            ((fix go (l : list expr) : All P l :=
                match l with
                | [] => I
                | x :: l' => conj (expr_ind2 x) (go l')
                end) a)
    | EParen x => Hparen x (expr_ind2 x)
    end.
End expr_ind2.

(* [shape true]  : exactly the trees the parser produces for printer output
   [shape false] : the trees the parser produces (nested parentheses allowed) *)
Fixpoint shape (strict : bool) (e : expr) : Prop :=
  match e with
  | EAtom t => is_atom t = true
  | EBin o x y =>
    1 <= binprec o /\ binprec o <= level x /\ S (binprec o) <= level y /\
    shape strict x /\ shape strict y
  | EUn o x => is_unop o = true /\ unary_prec <= level x /\ shape strict x
  | ESel x l => is_sel l = true /\ level x = highest_prec /\ shape strict x
  | EIdx x i => level x = highest_prec /\ shape strict x /\ shape strict i
  | ECall f a => level f = highest_prec /\ shape strict f /\ All (shape strict) a
  | EParen x => (strict = true -> is_paren x = false) /\ shape strict x
  end.

Definition wf := shape true.
Definition pwf := shape false.

(* operators and atoms are of the right class; no constraint on the tree shape *)
Fixpoint valid (e : expr) : Prop :=
  match e with
  | EAtom t => is_atom t = true
  | EBin o x y => 1 <= binprec o /\ valid x /\ valid y
  | EUn o x => is_unop o = true /\ valid x
  | ESel x l => is_sel l = true /\ valid x
  | EIdx x i => valid x /\ valid i
  | ECall f a => valid f /\ All valid a
  | EParen x => valid x
  end.

Fixpoint noparen (e : expr) : Prop :=
  match e with
  | EAtom _ => True
  | EBin _ x y => noparen x /\ noparen y
  | EUn _ x => noparen x
  | ESel x _ => noparen x
  | EIdx x i => noparen x /\ noparen i
  | ECall f a => noparen f /\ All noparen a
  | EParen _ => False
  end.

Lemma binprec_le7 : forall o, binprec o <= 7.
Proof. destruct o; simpl; lia. Qed.

Lemma level_le9 : forall e, level e <= 9.
Proof. destruct e; simpl; unfold unary_prec, highest_prec; try lia. pose proof (binprec_le7 o). lia. Qed.

Lemma shape_level_ge1 : forall s e, shape s e -> 1 <= level e.
Proof. destruct e; simpl; unfold unary_prec, highest_prec; intros; try lia; tauto. Qed.

Lemma shape_weaken : forall e, wf e -> pwf e.
Proof.
  unfold wf, pwf. induction e using expr_ind2; simpl; intros W; try tauto.
  destruct W as (L & Wf & Wa). repeat split; auto. exact (All_mp _ _ _ _ H Wa).
Qed.

Lemma shape_valid : forall s e, shape s e -> valid e.
Proof.
  induction e using expr_ind2; simpl; intros W; try tauto.
  destruct W as (L & Wf & Wa). split; auto. exact (All_mp _ _ _ _ H Wa).
Qed.

Fixpoint sepcat (l : list (list tok)) : list tok :=
  match l with
  | [] => []
  | x :: l' => match l' with [] => x | _ => x ++ TP COMMA :: sepcat l' end
  end.

Lemma pr1_call : forall f a q,
  pr1 (ECall f a) q = pr1 f highest_prec ++ TP LPAREN :: sepcat (map (fun x => pr1 x 0) a) ++ [TP RPAREN].
Proof.
  intros f a q. simpl. f_equal. f_equal. f_equal.
  induction a as [|x l IH]; [reflexivity|]. simpl. destruct l; [reflexivity|].
  rewrite IH. reflexivity.
Qed.

(* where V1 puts no parentheses *)
Lemma pr1_bin : forall o x y q, q <= binprec o ->
  pr1 (EBin o x y) q = pr1 x (binprec o) ++ TOp o :: pr1 y (S (binprec o)).
Proof. intros o x y q L. simpl. rewrite (proj2 (Nat.ltb_ge _ _) L). reflexivity. Qed.

Lemma pr1_un : forall o x q, q <= unary_prec -> pr1 (EUn o x) q = TOp o :: pr1 x unary_prec.
Proof. intros o x q L. simpl. rewrite (proj2 (Nat.ltb_ge _ _) L). reflexivity. Qed.

Lemma pr1_level : forall e q q', q <= level e -> q' <= level e -> pr1 e q = pr1 e q'.
Proof.
  intros [t|o x y|o x|x l|x i|f a|x] q q' H H'; try reflexivity.
  - rewrite !pr1_bin by assumption. reflexivity.
  - rewrite !pr1_un by assumption. reflexivity.
Qed.

Lemma p_unary_S : forall n ts, p_unary (S n) ts =
  match ts with
  | TOp o :: r =>
    if is_unop o then
      match p_unary n r with Some (x, r') => Some (EUn o x, r') | None => None end
    else None
  | _ => match p_operand n ts with Some (x, r) => p_ptail n x r | None => None end
  end.
Proof. reflexivity. Qed.

Lemma p_operand_S : forall n ts, p_operand (S n) ts =
  match ts with
  | TP LPAREN :: r =>
    match p_binary n 1 r with
    | Some (x, TP RPAREN :: r') => Some (EParen x, r')
    | _ => None
    end
  | t :: r => if is_atom t then Some (EAtom t, r) else None
  | [] => None
  end.
Proof. reflexivity. Qed.

Lemma p_ptail_S : forall n x ts, p_ptail (S n) x ts =
  match ts with
  | TP PERIOD :: r =>
    match r with
    | l :: r' => if is_sel l then p_ptail n (ESel x l) r' else None
    | [] => None
    end
  | TP LBRACK :: r =>
    match p_binary n 1 r with
    | Some (i, TP RBRACK :: r') => p_ptail n (EIdx x i) r'
    | Some (i, TP COMMA :: TP RBRACK :: r') => p_ptail n (EIdx x i) r'
    | _ => None
    end
  | TP LPAREN :: r =>
    match p_args n r with
    | Some (a, r') => p_ptail n (ECall x a) r'
    | None => None
    end
  | _ => Some (x, ts)
  end.
Proof. reflexivity. Qed.

Lemma p_args_S : forall n ts, p_args (S n) ts =
  match ts with
  | TP RPAREN :: r => Some ([], r)
  | _ =>
    match p_binary n 1 ts with
    | Some (a, TP COMMA :: r) =>
      match p_args n r with Some (l, r') => Some (a :: l, r') | None => None end
    | Some (a, TP RPAREN :: r) => Some ([a], r)
    | _ => None
    end
  end.
Proof. reflexivity. Qed.

Lemma p_binary_S : forall n q ts, p_binary (S n) q ts =
  match p_unary n ts with Some (x, r) => p_btail n q x r | None => None end.
Proof. reflexivity. Qed.

Lemma p_btail_S : forall n q x ts, p_btail (S n) q x ts =
  match ts with
  | TOp o :: r =>
    if q <=? binprec o then
      match p_binary n (S (binprec o)) r with
      | Some (y, r') => p_btail n q (EBin o x y) r'
      | None => None
      end
    else Some (x, ts)
  | _ => Some (x, ts)
  end.
Proof. reflexivity. Qed.

(* p_unary and p_args look at the first token only to pick a branch; splitting on
   these two cases first keeps the default branch from being copied per token class *)
Lemma p_unary_cases : forall ts, (exists o r, ts = TOp o :: r) \/
  forall n, p_unary (S n) ts = match p_operand n ts with Some (x, r) => p_ptail n x r | None => None end.
Proof. intros [|[] ts]; try (right; intros n; exact (p_unary_S n _)). left; eauto. Qed.

Lemma p_args_cases : forall ts, (exists r, ts = TP RPAREN :: r) \/
  forall n, p_args (S n) ts =
    match p_binary n 1 ts with
    | Some (a, TP COMMA :: r) =>
      match p_args n r with Some (l, r') => Some (a :: l, r') | None => None end
    | Some (a, TP RPAREN :: r) => Some ([a], r)
    | _ => None
    end.
Proof. intros [|[| | | | | |[]] ts]; try (right; intros n; exact (p_args_S n _)). left; eauto. Qed.

(* [below a b]: b is defined wherever a is, with the same value *)
Definition below {A} (a b : option A) : Prop := forall r, a = Some r -> b = Some r.

Lemma below_refl : forall A (a : option A), below a a.
Proof. intros A a r H. exact H. Qed.

Lemma below_bind : forall A B (a a' : option A) (f f' : A -> option B),
  below a a' -> (forall x, below (f x) (f' x)) ->
  below (match a with Some x => f x | None => None end) (match a' with Some x => f' x | None => None end).
Proof.
  intros A B [x|] a' f f' Ha Hf r H; [|discriminate H].
  rewrite (Ha x eq_refl). apply Hf. exact H.
Qed.

Definition mono_stmt (n m : nat) : Prop :=
  (forall ts, below (p_unary n ts) (p_unary m ts)) /\
  (forall ts, below (p_operand n ts) (p_operand m ts)) /\
  (forall x ts, below (p_ptail n x ts) (p_ptail m x ts)) /\
  (forall ts, below (p_args n ts) (p_args m ts)) /\
  (forall q ts, below (p_binary n q ts) (p_binary m q ts)) /\
  (forall q x ts, below (p_btail n q x ts) (p_btail m q x ts)).

(* a step of the parser is built from recursive calls (below by induction), binds,
   and case distinctions on tokens that do not involve the fuel *)
Ltac below_step :=
  first [ apply below_refl
        | apply below_bind; [auto | intros]
        | match goal with |- below (match ?x with _ => _ end) _ => destruct x end ].

Lemma p_mono : forall n m, n <= m -> mono_stmt n m.
Proof.
  induction n as [|n IH]; intros m L.
  - repeat split; intros; intros r H; discriminate H.
  - destruct m as [|m]; [lia|]. destruct (IH m) as (Iu & Io & Ip & Ia & Ib & It); [lia|].
    repeat split; intros.
    + destruct (p_unary_cases ts) as [(o & r & ->) | E]; [rewrite !p_unary_S | rewrite !E];
        repeat below_step; auto.
    + rewrite !p_operand_S. repeat below_step; auto.
    + rewrite !p_ptail_S. repeat below_step; auto.
    + destruct (p_args_cases ts) as [(r & ->) | E]; [apply below_refl | rewrite !E].
      repeat below_step; auto.
    + rewrite !p_binary_S. repeat below_step; auto.
    + rewrite !p_btail_S. repeat below_step; auto.
Qed.

Lemma p_ptail_mono : forall n m x ts res, p_ptail n x ts = Some res -> n <= m -> p_ptail m x ts = Some res.
Proof. intros n m x ts res H L. exact (proj1 (proj2 (proj2 (p_mono n m L))) x ts res H). Qed.
Lemma p_btail_mono : forall n m q x ts res, p_btail n q x ts = Some res -> n <= m -> p_btail m q x ts = Some res.
Proof. intros n m q x ts res H L. exact (proj2 (proj2 (proj2 (proj2 (proj2 (p_mono n m L))))) q x ts res H). Qed.
