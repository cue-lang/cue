(* Syn/Examples.v - the concrete trees and token lists on which Properties/C08.v shows that
   the hypotheses of the C08 theorems can be met *)
From Coq Require Import List NArith.
From Verif Require Import Syn.Lex Syn.Expr.
Import ListNotations.

Definition id (c : N) := EAtom (TIdent [c]).
Definition num (c : N) := EAtom (TInt [c]).

(* f(a + b*c, -x)[0].y | (p & q) == !(z < 1.5)  -- with explicit parentheses where the parser puts them *)
Definition ex_tree : expr :=
  EBin OR
    (ESel (EIdx (ECall (id 102) [EBin ADD (id 97) (EBin MUL (id 98) (id 99)); EUn SUB (id 120)]) (num 48)) (TIdent [121%N]))
    (EBin EQL (EParen (EBin AND (id 112) (id 113)))
              (EUn NOT (EParen (EBin LSS (id 122) (EAtom (TFloat [49; 46; 53]%N)))))).

(* (((a+b))) * ((c)) *)
Definition ex_soup : list tok :=
  [TP LPAREN; TP LPAREN; TP LPAREN; TIdent [97%N]; TOp ADD; TIdent [98%N]; TP RPAREN; TP RPAREN; TP RPAREN;
   TOp MUL; TP LPAREN; TP LPAREN; TIdent [99%N]; TP RPAREN; TP RPAREN].
Definition ex_soup_tree : expr :=
  EBin MUL (EParen (EParen (EParen (EBin ADD (id 97) (id 98))))) (EParen (EParen (id 99))).
Definition ex_soup_fmt : list tok :=
  [TP LPAREN; TIdent [97%N]; TOp ADD; TIdent [98%N]; TP RPAREN; TOp MUL; TP LPAREN; TIdent [99%N]; TP RPAREN] ++ [] .

(* x< -1&&y  with the one necessary blank *)
Definition ex_sep : list (bool * tok) :=
  [(false, TIdent [120%N]); (false, TOp LSS); (true, TOp SUB); (false, TInt [49%N]); (false, TOp LAND); (false, TIdent [121%N])].
