(* Syn/Layout.v - the blanks that the model leaves to the layout engine (around
   + - * /) are never needed by the scanner. *)
From Coq Require Import List NArith Bool Arith Lia.
From Verif Require Import Syn.Lex Syn.LexProofs Syn.Expr Syn.Basics Syn.Proofs Syn.Space.
Import ListNotations.
Open Scope nat_scope.

(* every adjacent pair (previous token, (flag, token)) satisfies P *)
Fixpoint adj_from (P : tok -> sp * tok -> Prop) (prev : tok) (l : list (sp * tok)) : Prop :=
  match l with
  | [] => True
  | (s, t) :: r => P prev (s, t) /\ adj_from P t r
  end.

Definition adj (P : tok -> sp * tok -> Prop) (l : list (sp * tok)) : Prop :=
  match l with [] => True | (_, t) :: r => adj_from P t r end.

Definition lastt (d : tok) (l : list (sp * tok)) : tok := snd (last l (Glue, d)).

Lemma last_nonempty_default : forall (A : Type) (l : list A) x d d', last (x :: l) d = last (x :: l) d'.
Proof.
  induction l as [|y r IH]; intros x d d'; [reflexivity|].
  change (last (x :: y :: r) d) with (last (y :: r) d). change (last (x :: y :: r) d') with (last (y :: r) d').
  apply IH.
Qed.

Lemma lastt_cons : forall prev s t r, lastt prev ((s, t) :: r) = lastt t r.
Proof.
  intros prev s t [|x r]; [reflexivity|]. unfold lastt.
  change (last ((s, t) :: x :: r) (Glue, prev)) with (last (x :: r) (Glue, prev)).
  rewrite (last_nonempty_default _ r x (Glue, prev) (Glue, t)). reflexivity.
Qed.

Lemma adj_from_app : forall P l1 l2 prev,
  adj_from P prev (l1 ++ l2) <-> adj_from P prev l1 /\ adj_from P (lastt prev l1) l2.
Proof.
  induction l1 as [|[s t] r IH]; intros l2 prev.
  - simpl. unfold lastt. simpl. tauto.
  - rewrite lastt_cons. simpl. rewrite IH. tauto.
Qed.

Lemma adj_app : forall P l1 l2 d, l1 <> [] ->
  (adj P (l1 ++ l2) <-> adj P l1 /\ adj_from P (lastt d l1) l2).
Proof.
  intros P [|[s t] r] l2 d H; [congruence|]. rewrite lastt_cons. simpl. apply adj_from_app.
Qed.

Lemma adj_set_first : forall P s l, adj P (set_first s l) <-> adj P l.
Proof. intros P s [|[s' t] r]; simpl; tauto. Qed.

Lemma lastt_set_first : forall d s l, lastt d (set_first s l) = lastt d l.
Proof.
  intros d s [|[s' t] r]; [reflexivity|]. simpl set_first. rewrite !lastt_cons. reflexivity.
Qed.

Lemma adj_from_cons_free : forall (P : tok -> sp * tok -> Prop) prev s t r,
  P prev (s, t) -> adj P ((s, t) :: r) -> adj_from P prev ((s, t) :: r).
Proof. intros. simpl in *. tauto. Qed.

(* the property: a layout-dependent position never needs a blank *)
Definition layP (prev : tok) (x : sp * tok) : Prop :=
  fst x = Layout -> needs_sep prev (snd x) = false.

Definition lay_ok (l : list (sp * tok)) : Prop := adj layP l.

(* classes of first and last tokens of printed expressions *)
Definition firstF (t : tok) : bool :=
  is_atom t || match t with TP LPAREN => true | TOp o => is_unop o | _ => false end.

Definition lastL (t : tok) : bool :=
  is_atom t || is_sel t || match t with TP RPAREN | TP RBRACK => true | _ => false end.

Lemma layout_op : forall o, 1 <= binprec o -> bin_sp o = Layout -> o = ADD \/ o = SUB \/ o = MUL \/ o = QUO.
Proof. destruct o; simpl; intros; try discriminate; try lia; auto. Qed.

Lemma sep_last_op : forall t o, lastL t = true -> 1 <= binprec o -> bin_sp o = Layout ->
  needs_sep t (TOp o) = false.
Proof.
  intros t o L P B. destruct (layout_op o P B) as [-> | [-> | [-> | ->]]];
    destruct t as [s|s|s|id| |o'|[]]; try discriminate L; unfold needs_sep; simpl;
      rewrite ?andb_false_r; reflexivity.
Qed.

(* first character of a well-formed atom is not '/' *)
Lemma atom_first_char : forall t, is_atom t = true -> tok_wf t ->
  exists c r, spell t = c :: r /\ (c =? 47)%N = false.
Proof.
  intros t A W. destruct (wf_spell t W) as (c & r & E & _). exists c, r. split; [exact E|].
  destruct (c =? 47)%N eqn:C; [|reflexivity]. exfalso. apply N.eqb_eq in C. subst c.
  unfold tok_wf in W. rewrite E in W. cbn in W.
  destruct (next_is 47 r); [discriminate|]. inversion W. subst. discriminate A.
Qed.

Lemma sep_op_first : forall o t, firstF t = true -> (is_atom t = true -> tok_wf t) ->
  1 <= binprec o -> bin_sp o = Layout -> needs_sep (TOp o) t = false.
Proof.
  intros o t F W P B. unfold firstF in F. apply orb_prop in F. destruct F as [A | F].
  - destruct (atom_first_char t A (W A)) as (c & r & E & C). unfold needs_sep. rewrite E.
    destruct (layout_op o P B) as [-> | [-> | [-> | ->]]]; simpl; try reflexivity. rewrite C. reflexivity.
  - destruct t as [s|s|s|id| |o'|[]]; try discriminate F.
    + destruct (layout_op o P B) as [-> | [-> | [-> | ->]]]; destruct o'; try discriminate F; reflexivity.
    + destruct (layout_op o P B) as [-> | [-> | [-> | ->]]]; reflexivity.
Qed.

(* atoms of a tree are well-formed tokens *)
Fixpoint atoms_wf (e : expr) : Prop :=
  match e with
  | EAtom t => tok_wf t
  | EBin _ x y => atoms_wf x /\ atoms_wf y
  | EUn _ x => atoms_wf x
  | ESel x l => atoms_wf x /\ tok_wf l
  | EIdx x i => atoms_wf x /\ atoms_wf i
  | ECall f a => atoms_wf f /\ All atoms_wf a
  | EParen x => atoms_wf x
  end.

Definition hd_ok (l : list (sp * tok)) : Prop :=
  match l with
  | (_, t) :: _ => firstF t = true /\ (is_atom t = true -> tok_wf t)
  | [] => False
  end.

Definition last_ok (l : list (sp * tok)) : Prop :=
  l <> [] /\ forall d, lastL (lastt d l) = true.

Lemma hd_ok_set_first : forall s l, hd_ok l -> hd_ok (set_first s l).
Proof. intros s [|[s' t] r]; simpl; tauto. Qed.

Lemma hd_ok_app : forall l1 l2, hd_ok l1 -> hd_ok (l1 ++ l2).
Proof. intros [|[s t] r] l2; simpl; tauto. Qed.

Lemma lastt_app : forall d l1 l2, l2 <> [] -> lastt d (l1 ++ l2) = lastt d l2.
Proof.
  intros d l1 l2 H. unfold lastt. f_equal. induction l1 as [|x r IH]; [reflexivity|].
  simpl. destruct (r ++ l2) eqn:E; [|exact IH].
  apply app_eq_nil in E. destruct E. contradiction.
Qed.

Lemma last_ok_app : forall l1 l2, last_ok l2 -> last_ok (l1 ++ l2).
Proof.
  intros l1 l2 [N L]. split.
  - intros E. apply app_eq_nil in E. tauto.
  - intros d. rewrite lastt_app by exact N. apply L.
Qed.

Lemma last_ok_single : forall s t, lastL t = true -> last_ok [(s, t)].
Proof. intros s t L. split; [discriminate | intros d; exact L]. Qed.

Lemma last_ok_set_first : forall s l, last_ok l -> last_ok (set_first s l).
Proof.
  intros s l [N L]. split.
  - destruct l as [|[]]; [congruence | discriminate].
  - intros d. rewrite lastt_set_first. apply L.
Qed.

Lemma last_ok_cons : forall x l, last_ok l -> last_ok (x :: l).
Proof. intros x l L. change (x :: l) with ([x] ++ l). apply last_ok_app. exact L. Qed.

(* junctions whose flag is not Layout are trivially fine *)
Lemma adj_from_nolayout : forall prev s t r, s <> Layout -> lay_ok ((s, t) :: r) ->
  adj_from layP prev ((s, t) :: r).
Proof. intros prev s t r N A. simpl. split; [intros H; simpl in H; congruence | exact A]. Qed.

Definition ok3 (l : list (sp * tok)) : Prop := lay_ok l /\ hd_ok l /\ last_ok l.

(* binary node: X op Y with the operator's spacing flag on both sides *)
Lemma bin_ok : forall o X Y, 1 <= binprec o -> ok3 X -> ok3 Y ->
  ok3 (X ++ (bin_sp o, TOp o) :: set_first (bin_sp o) Y).
Proof.
  intros o X Y P (AX & HX & LX) (AY & HY & LY). split; [|split].
  - unfold lay_ok. rewrite (adj_app layP X _ (TOp o)) by (apply LX). split; [exact AX|].
    simpl. split.
    + intros B. simpl in B. simpl. apply sep_last_op; [apply LX | exact P | exact B].
    + destruct Y as [|[s t] r]; [exact I|]. simpl. split; [|exact AY].
      intros B. simpl in B. simpl. destruct HY as [F W]. apply sep_op_first; assumption.
  - apply hd_ok_app. exact HX.
  - apply last_ok_app. apply last_ok_cons. apply last_ok_set_first. exact LY.
Qed.

(* gluing pieces with flags that are never Layout *)
Lemma app_ok_nolayout : forall X s t Y, ok3 X -> s <> Layout -> lay_ok ((s, t) :: Y) -> last_ok ((s, t) :: Y) ->
  ok3 (X ++ (s, t) :: Y).
Proof.
  intros X s t Y (AX & HX & LX) N AY LY. split; [|split].
  - unfold lay_ok. rewrite (adj_app layP X _ t) by (apply LX). split; [exact AX|].
    apply adj_from_nolayout; assumption.
  - apply hd_ok_app. exact HX.
  - apply last_ok_app. exact LY.
Qed.

Lemma lay_ok_cons_nolayout : forall s t s' t' r, s' <> Layout -> lay_ok ((s', t') :: r) -> lay_ok ((s, t) :: (s', t') :: r).
Proof. intros. unfold lay_ok in *. simpl in *. split; [intros E; simpl in E; congruence | assumption]. Qed.

Lemma lay_ok_set_first_nl : forall s t s' l, s' <> Layout -> lay_ok l -> lay_ok ((s, t) :: set_first s' l).
Proof.
  intros s t s' [|[s0 t0] r] N A; [exact I|]. simpl set_first. apply lay_ok_cons_nolayout; [exact N|exact A].
Qed.

Definition first_nolayout (l : list (sp * tok)) : Prop :=
  match l with (s, _) :: _ => s <> Layout | [] => True end.

(* open inner close, the brackets glued *)
Lemma bracketed : forall open inner close, lay_ok inner -> first_nolayout inner -> lastL close = true ->
  lay_ok ((Glue, open) :: inner ++ [(Glue, close)]) /\ last_ok ((Glue, open) :: inner ++ [(Glue, close)]).
Proof.
  intros open inner close AI FI LC.
  change ((Glue, open) :: inner ++ [(Glue, close)]) with (((Glue, open) :: inner) ++ [(Glue, close)]). split.
  - unfold lay_ok. rewrite (adj_app layP _ _ open) by discriminate. split.
    + destruct inner as [|[s t] r]; [exact I|]. apply lay_ok_cons_nolayout; assumption.
    + simpl. split; [intros E; discriminate E | exact I].
  - apply last_ok_app. apply last_ok_single. exact LC.
Qed.

Lemma ok3_sparen : forall l, ok3 l -> ok3 (sparen l).
Proof.
  intros l (A & _ & _). unfold sparen.
  destruct (bracketed (TP LPAREN) (set_first Glue l) (TP RPAREN)) as [A' L']; try reflexivity.
  - unfold lay_ok. rewrite adj_set_first. exact A.
  - destruct l as [|[s t] r]; [exact I | discriminate].
  - split; [exact A'|]. split; [|exact L']. simpl. split; [reflexivity | discriminate].
Qed.

(* bracketed tail: X open inner close *)
Lemma bracket_ok : forall X open inner close, ok3 X -> lay_ok inner -> first_nolayout inner ->
  lastL close = true -> ok3 (X ++ (Glue, open) :: inner ++ [(Glue, close)]).
Proof.
  intros X open inner close OX AI FI LC. destruct (bracketed open inner close AI FI LC) as [A L].
  apply app_ok_nolayout; try assumption; discriminate.
Qed.

Definition spargs (f : expr -> list (sp * tok)) : bool -> list expr -> list (sp * tok) :=
  fix go (first : bool) (l : list expr) : list (sp * tok) :=
    match l with
    | [] => []
    | x :: l' =>
      let xs := set_first (if first then Glue else Blank) (f x) in
      match l' with
      | [] => xs
      | _ => xs ++ (Glue, TP COMMA) :: go false l'
      end
    end.

Lemma spargs_cons2 : forall f b x y r,
  spargs f b (x :: y :: r) = set_first (if b then Glue else Blank) (f x) ++ (Glue, TP COMMA) :: spargs f false (y :: r).
Proof. reflexivity. Qed.

Lemma spargs_one : forall f b x, spargs f b [x] = set_first (if b then Glue else Blank) (f x).
Proof. reflexivity. Qed.

Lemma first_nolayout_set_first : forall (b : bool) l, first_nolayout (set_first (if b then Glue else Blank) l).
Proof. intros b [|[s t] r]; simpl; [exact I | destruct b; discriminate]. Qed.

Lemma ok3_set_first_nl : forall s l, ok3 l -> ok3 (set_first s l).
Proof.
  intros s l (A & H & L). split; [unfold lay_ok; rewrite adj_set_first; exact A|].
  split; [apply hd_ok_set_first; exact H | apply last_ok_set_first; exact L].
Qed.

Lemma spargs_lay_ok : forall (f : expr -> list (sp * tok)) (a : list expr) (b : bool),
  All (fun x => ok3 (f x)) a -> lay_ok (spargs f b a) /\ first_nolayout (spargs f b a).
Proof.
  induction a as [|x r IH]; intros b A; [split; exact I|].
  destruct A as [Ax Ar]. destruct (IH false Ar) as [AR FR].
  destruct (ok3_set_first_nl (if b then Glue else Blank) _ Ax) as (AX & _ & [NX _]).
  pose proof (first_nolayout_set_first b (f x)) as FX.
  destruct r as [|y r'].
  - rewrite spargs_one. split; assumption.
  - rewrite spargs_cons2. split.
    + unfold lay_ok. rewrite (adj_app layP _ _ (TP COMMA)) by exact NX. split; [exact AX|].
      apply adj_from_nolayout; [discriminate|].
      destruct (spargs f false (y :: r')) as [|[s0 t0] r0]; [exact I|]. apply lay_ok_cons_nolayout; assumption.
    + destruct (set_first (if b then Glue else Blank) (f x)) as [|[s t] r0]; [destruct (NX eq_refl) | exact FX].
Qed.

Lemma atom_ok : forall t, is_atom t = true -> tok_wf t -> ok3 [(Glue, t)].
Proof.
  intros t A W. split; [exact I|]. split.
  - simpl. unfold firstF. rewrite A. split; [reflexivity | intros _; exact W].
  - apply last_ok_single. unfold lastL. rewrite A. reflexivity.
Qed.

Lemma un_ok : forall o s X, is_unop o = true -> s <> Layout -> ok3 X -> ok3 ((Glue, TOp o) :: set_first s X).
Proof.
  intros o s X U N O. split; [|split].
  - apply lay_ok_set_first_nl; [exact N | apply O].
  - simpl. unfold firstF. simpl. rewrite U. split; [reflexivity | discriminate].
  - apply last_ok_cons. apply last_ok_set_first. apply O.
Qed.

(* a chain of | or & has blanks around its operator *)
Lemma chain_ok : forall o X Y, ok3 X -> ok3 Y -> ok3 (X ++ (Blank, TOp o) :: set_first Blank Y).
Proof.
  intros o X Y OX OY. apply app_ok_nolayout; try assumption; try discriminate.
  - apply lay_ok_set_first_nl; [discriminate | apply OY].
  - apply last_ok_cons. apply last_ok_set_first. apply OY.
Qed.

Lemma sel_ok : forall X s l, is_sel l = true -> s <> Layout -> ok3 X -> ok3 (X ++ [(s, TP PERIOD); (Glue, l)]).
Proof.
  intros X s l S N O. apply app_ok_nolayout; try assumption.
  - unfold lay_ok. simpl. split; [intros E; discriminate E | exact I].
  - change [(s, TP PERIOD); (Glue, l)] with ([(s, TP PERIOD)] ++ [(Glue, l)]).
    apply last_ok_app. apply last_ok_single. unfold lastL. rewrite S. rewrite orb_true_r. reflexivity.
Qed.

Lemma idx_ok : forall X Y, ok3 X -> ok3 Y ->
  ok3 (X ++ (Glue, TP LBRACK) :: set_first Glue Y ++ [(Glue, TP RBRACK)]).
Proof.
  intros X Y OX OY. apply bracket_ok; try assumption; try reflexivity.
  - unfold lay_ok. rewrite adj_set_first. apply OY.
  - destruct Y as [|[s t] r]; [exact I | discriminate].
Qed.

Lemma call_ok : forall X f a, ok3 X -> All (fun x => ok3 (f x)) a ->
  ok3 (X ++ (Glue, TP LPAREN) :: spargs f true a ++ [(Glue, TP RPAREN)]).
Proof.
  intros X f a OX A. destruct (spargs_lay_ok f a true A) as (A1 & F1).
  apply bracket_ok; try assumption; reflexivity.
Qed.

Theorem sp1_layout_ok : forall e, valid e -> atoms_wf e -> forall q, ok3 (sp1 e q).
Proof.
  induction e using expr_ind2; intros V W q; simpl in V, W.
  - apply atom_ok; assumption.
  - destruct V as (P & Vx & Vy). destruct W as [Wx Wy].
    pose proof (bin_ok o _ _ P (IHe1 Vx Wx (binprec o)) (IHe2 Vy Wy (S (binprec o)))) as B.
    simpl. destruct (binprec o <? q); [apply ok3_sparen|]; exact B.
  - destruct V as (U & Vx).
    cbn [sp1]. destruct (unary_prec <? q); [apply ok3_sparen|]; apply un_ok; auto;
      destruct (opt_combine _ _); discriminate.
  - destruct V as (S & Vx). destruct W as [Wx Wl].
    cbn [sp1]. apply sel_ok; auto. destruct (opt_combine _ _); discriminate.
  - destruct V as (Vx & Vi). destruct W as [Wx Wi]. simpl. apply idx_ok; auto.
  - destruct V as (Vf & Va). destruct W as [Wf Wa].
    change (sp1 (ECall e a) q)
      with (sp1 e highest_prec ++ (Glue, TP LPAREN) :: spargs (fun x => sp1 x 0) true a ++ [(Glue, TP RPAREN)]).
    apply call_ok; auto.
    apply (All_impl _ _ _ _ (fun x (Hx : forall q, ok3 (sp1 x q)) => Hx 0)).
    exact (All_mp _ _ _ _ (All_mp _ _ _ _ H Va) Wa).
  - specialize (IHe V W 0). simpl. destruct (is_paren e); [exact IHe | apply ok3_sparen; exact IHe].
Qed.

Theorem sp2_layout_ok : forall e, valid e -> atoms_wf e -> forall m, ok3 (sp2 m e).
Proof.
  induction e using expr_ind2; intros V W m; simpl in V, W.
  - apply atom_ok; assumption.
  - destruct V as (P & Vx & Vy). destruct W as [Wx Wy].
    pose proof (bin_ok o _ _ P (IHe1 Vx Wx (MOperand (binprec o))) (IHe2 Vy Wy (MOperand (S (binprec o))))) as PB.
    pose proof (chain_ok o _ _ (IHe1 Vx Wx (MChain o)) (IHe2 Vy Wy (MChain o))) as CB.
    (* whatever the mode: one of the two bodies, parenthesised or not *)
    cbn [sp2]. destruct (chain_case o (EBin o e1 e2)), m as [|o'|q'];
      try destruct (op_eqb o o'); try destruct (binprec o <? binprec o'); try destruct (q' <=? binprec o);
      try apply ok3_sparen; assumption.
  - destruct V as (U & Vx).
    assert (B : ok3 ((Glue, TOp o) :: set_first (match un_inner e with
                                                 | Some o' => if v2_unary_merges o o' then Blank else Glue
                                                 | None => Glue
                                                 end) (sp2 (MOperand unary_prec) e))).
    { apply un_ok; auto. destruct (un_inner e); [destruct (v2_unary_merges o o0)|]; discriminate. }
    cbn [sp2]. destruct m as [|o'|q]; try exact B.
    destruct (unary_prec <? q); [apply ok3_sparen|]; exact B.
  - destruct V as (S & Vx). destruct W as [Wx Wl].
    simpl. apply sel_ok; auto. destruct (is_int_atom e); discriminate.
  - destruct V as (Vx & Vi). destruct W as [Wx Wi]. simpl. apply idx_ok; auto.
  - destruct V as (Vf & Va). destruct W as [Wf Wa].
    change (sp2 m (ECall e a))
      with (sp2 (MOperand highest_prec) e ++ (Glue, TP LPAREN) :: spargs (fun x => sp2 MDisp x) true a ++ [(Glue, TP RPAREN)]).
    apply call_ok; auto.
    apply (All_impl _ _ _ _ (fun x (Hx : forall m, ok3 (sp2 m x)) => Hx MDisp)).
    exact (All_mp _ _ _ _ (All_mp _ _ _ _ H Va) Wa).
  - specialize (IHe V W MDisp). simpl. destruct (is_paren e); [exact IHe | apply ok3_sparen; exact IHe].
Qed.

(* no hazards (Glue pairs) + layout pairs are safe  ==>  sep_ok *)
Lemma hazards_lay_sep_from : forall l prev, hazards_from prev l = [] -> adj_from layP prev l ->
  sep_ok_from prev l = true.
Proof.
  induction l as [|[s t] r IH]; intros prev H A; [reflexivity|].
  simpl in *. destruct A as [A1 A2].
  apply app_eq_nil in H. destruct H as [H1 H2]. rewrite (IH t H2 A2), andb_true_r.
  destruct s.
  - destruct (needs_sep prev t); [discriminate | reflexivity].
  - reflexivity.
  - pose proof (A1 eq_refl) as A3. simpl in A3. rewrite A3. reflexivity.
Qed.

Lemma hazards_lay_sep : forall l, hazards l = [] -> lay_ok l -> sep_ok l = true.
Proof. intros [|[s t] r] H A; [reflexivity|]. simpl in *. apply hazards_lay_sep_from; assumption. Qed.
