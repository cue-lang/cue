(* Syn/LexProofs.v - the scanner model reads a separated token sequence back. *)
From Coq Require Import List NArith Bool Lia Arith.
From Verif Require Import Syn.Lex.
Import ListNotations.
Open Scope N_scope.

Lemma span_spec : forall p l a b, span p l = (a, b) ->
  l = a ++ b /\ forallb p a = true /\ hd_is p b = false.
Proof.
  induction l as [|c l IH]; intros a b H; simpl in H.
  - inversion H; subst. auto.
  - destruct (p c) eqn:E.
    + destruct (span p l) as [a' b'] eqn:S. inversion H; subst.
      destruct (IH _ _ eq_refl) as (H1 & H2 & H3). subst l. simpl. rewrite E, H2. auto.
    + inversion H; subst. simpl. rewrite E. auto.
Qed.

Lemma span_app : forall p a b, forallb p a = true -> hd_is p b = false -> span p (a ++ b) = (a, b).
Proof.
  induction a as [|c a IH]; intros b Ha Hb; simpl in *.
  - destruct b as [|d b]; simpl in *; [reflexivity | rewrite Hb; reflexivity].
  - apply andb_prop in Ha. destruct Ha as [Hc Ha]. rewrite Hc, (IH b Ha Hb). reflexivity.
Qed.

Lemma span_all : forall p l a, span p l = (a, []) -> a = l /\ forallb p l = true.
Proof.
  intros p l a H. destruct (span_spec _ _ _ _ H) as (H1 & H2 & _).
  rewrite app_nil_r in H1. subst. auto.
Qed.

Lemma hd_is_app_nonempty : forall p (a b : list N), a <> [] -> hd_is p (a ++ b) = hd_is p a.
Proof. intros p [|c a] b H; [congruence | reflexivity]. Qed.

(* span stays folded from here on: simpl would unfold it on every c :: s *)
Local Opaque span.

Lemma is_num_suffix_letter : forall c, is_num_suffix c = true -> is_letter c = true \/ c = 95.
Proof.
  intros c H. unfold is_num_suffix in H.
  repeat (apply orb_prop in H; destruct H as [H | H]);
    apply N.eqb_eq in H; subst; auto.
Qed.

Lemma not_suffix : forall c, is_letter c = false -> (c =? 95) = false -> is_num_suffix c = false.
Proof.
  intros c H1 H2. destruct (is_num_suffix c) eqn:E; [|reflexivity].
  destruct (is_num_suffix_letter _ E) as [H | H]; [congruence|].
  subst. discriminate.
Qed.

Lemma digit_not_46 : forall c, is_digit c = true -> (c =? 46) = false.
Proof.
  intros c H. unfold is_digit in H. apply andb_prop in H. destruct H as [H _].
  apply N.leb_le in H. apply N.eqb_neq. lia.
Qed.

Lemma digit_lt_256 : forall c, is_digit c = true -> (lit_base <=? c) = false.
Proof.
  intros c H. unfold is_digit in H. apply andb_prop in H. destruct H as [_ H].
  apply N.leb_le in H. apply N.leb_gt. unfold lit_base. lia.
Qed.

Lemma digit_not_letter : forall c, is_digit c = true -> is_letter c = false.
Proof.
  intros c H. unfold is_digit in H. apply andb_prop in H. destruct H as [H1 H2].
  apply N.leb_le in H1, H2. unfold is_letter.
  apply orb_false_intro; apply andb_false_intro1; apply N.leb_gt; lia.
Qed.

(* what may follow: either nothing or a character accepted by follow1 *)
Definition follows (t : tok) (rest : list N) : Prop :=
  match rest with [] => True | c :: _ => follow1 t c = true end.

(* split every test [c =? k] on a character c that is not a numeral *)
Ltac break_eqb :=
  repeat match goal with
  | |- context [N.eqb ?c ?k] =>
    lazymatch c with
    | N0 => fail | Npos _ => fail
    | _ => destruct (N.eqb c k) eqn:?
    end
  end.

Lemma scan1_op : forall o rest, follows (TOp o) rest ->
  scan1 (spell (TOp o) ++ rest) = Some (TOp o, rest).
Proof.
  intros o rest H. destruct rest as [|c r].
  - destruct o; reflexivity.
  - simpl in H. destruct o; cbn in *; try reflexivity;
      break_eqb; simpl in *; try discriminate; reflexivity.
Qed.

Lemma scan1_punct : forall p rest, follows (TP p) rest ->
  scan1 (spell (TP p) ++ rest) = Some (TP p, rest).
Proof.
  intros p rest H. destruct rest as [|c r].
  - destruct p; reflexivity.
  - simpl in H. destruct p; cbn in *; try reflexivity.
    destruct (is_digit c) eqn:D; simpl in H; [discriminate|].
    unfold next_is. simpl. destruct (c =? 46) eqn:E; simpl in H; [discriminate|]. reflexivity.
Qed.

Lemma scan1_bottom : forall rest, scan1 (spell TBottom ++ rest) = Some (TBottom, rest).
Proof. reflexivity. Qed.

Lemma scan1_lit : forall id rest, scan1 (spell (TLit id) ++ rest) = Some (TLit id, rest).
Proof.
  intros id rest. change (spell (TLit id) ++ rest) with ((lit_base + id) :: rest).
  remember (lit_base + id) as x eqn:Ex.
  assert (G : 256 <= x) by (subst; unfold lit_base; lia).
  assert (D : is_digit x = false).
  { unfold is_digit. apply andb_false_intro2. apply N.leb_gt. lia. }
  assert (L : is_letter x = false).
  { unfold is_letter. apply orb_false_intro; apply andb_false_intro2; apply N.leb_gt; lia. }
  unfold scan1. rewrite D, L.
  replace (x =? 36) with false by (symmetry; apply N.eqb_neq; lia).
  replace (x =? 35) with false by (symmetry; apply N.eqb_neq; lia).
  simpl. replace (lit_base <=? x) with true by (symmetry; apply N.leb_le; unfold lit_base; lia).
  f_equal. f_equal. f_equal. subst x. unfold lit_base. lia.
Qed.

Lemma scan_number_shape : forall cs t r, scan_number cs = Some (t, r) ->
  (exists s, t = TInt s) \/ (exists s, t = TFloat s).
Proof.
  intros cs t r H. unfold scan_number in H.
  destruct (span is_digit cs) as [ds r0].
  destruct (lead_zero ds); [discriminate|].
  destruct (next_is 46 r0).
  - destruct (next_is 46 (tl r0)).
    + inversion H; eauto.
    + destruct (span is_digit (tl r0)) as [fs r3]. destruct (bad_after_num r3); inversion H; eauto.
  - destruct (bad_after_num r0); inversion H; eauto.
Qed.

(* the class of a token determines the class of the first character it is scanned from *)
Lemma scan1_first : forall c r t r', scan1 (c :: r) = Some (t, r') ->
  match t with
  | TInt _ => is_digit c = true
  | TFloat _ => is_digit c = true \/ c = 46
  | TIdent _ => is_digit c = false /\ ((is_letter c || (c =? 36) || (c =? 35)) = true \/ c = 95)
  | _ => True
  end.
Proof.
  intros c r t r' H. unfold scan1 in H.
  destruct (is_digit c) eqn:D.
  { destruct (scan_number_shape _ _ _ H) as [[s ->] | [s ->]]; auto. }
  destruct (is_letter c || (c =? 36) || (c =? 35)) eqn:L.
  { destruct (scan_field_ident (c :: r)) as [lit r0].
    match type of H with (if ?b then _ else _) = _ => destruct b end; inversion H. auto. }
  destruct (lit_base <=? c); [inversion H; exact I|].
  destruct (c =? 95) eqn:U.
  { apply N.eqb_eq in U. destruct (next_is 124 r && next_is 95 (tl r)); [inversion H; exact I|].
    destruct (scan_field_ident r) as [lit r0].
    match type of H with (if ?b then _ else _) = _ => destruct b end; inversion H. auto. }
  destruct (c =? 46) eqn:P; [apply N.eqb_eq in P|];
    repeat match type of H with
           | (if ?b then _ else _) = _ => destruct b
           | (let (_, _) := ?x in _) = _ => destruct x
           end;
    inversion H; subst; simpl; auto.
Qed.

Lemma follow1_int : forall s c, follow1 (TInt s) c = true ->
  is_digit c = false /\ is_letter c = false /\ (c =? 95) = false /\ (c =? 46) = false.
Proof.
  intros s c H. simpl in H. apply negb_true_iff in H.
  repeat (apply orb_false_elim in H; destruct H as [H ?]). auto.
Qed.

Lemma follow1_float : forall s c, follow1 (TFloat s) c = true ->
  is_digit c = false /\ is_letter c = false /\ (c =? 95) = false /\
  (next_is 46 (rev s) && (c =? 46)) = false.
Proof.
  intros s c H. simpl in H. apply andb_prop in H. destruct H as [H H2].
  apply negb_true_iff in H. apply negb_true_iff in H2.
  repeat (apply orb_false_elim in H; destruct H as [H ?]). auto.
Qed.

Lemma next_is_rev_snoc : forall (fs : list N) d c, next_is c (rev (d ++ 46 :: fs)) = true ->
  forallb is_digit fs = true -> c = 46 -> fs = [].
Proof.
  intros fs d c H A E. subst c. destruct fs as [|f fs] using rev_ind; [reflexivity|].
  exfalso. rewrite forallb_app in A. apply andb_prop in A. destruct A as [_ A]. simpl in A.
  rewrite andb_true_r in A.
  replace (d ++ 46 :: fs ++ [f]) with ((d ++ 46 :: fs) ++ [f]) in H by (rewrite <- app_assoc; reflexivity).
  rewrite rev_app_distr in H. simpl in H. unfold next_is in H. simpl in H.
  apply N.eqb_eq in H. subst f. discriminate.
Qed.

(* the fraction digits of a float and what follows them *)
Lemma float_tail : forall (d fs rest : list N), forallb is_digit fs = true ->
  follows (TFloat (d ++ 46 :: fs)) rest ->
  next_is 46 (fs ++ rest) = false /\ span is_digit (fs ++ rest) = (fs, rest) /\ bad_after_num rest = false.
Proof.
  intros d fs rest A F.
  assert (Hr : hd_is is_digit rest = false /\ bad_after_num rest = false /\
               (fs = [] -> next_is 46 rest = false)).
  { destruct rest as [|c r]; [auto|]. unfold follows in F. apply follow1_float in F.
    destruct F as (F1 & F2 & F3 & F4). unfold bad_after_num. simpl.
    rewrite F1, (not_suffix _ F2 F3). repeat split; auto.
    intros ->. unfold next_is. simpl.
    rewrite rev_app_distr in F4. simpl in F4. unfold next_is in F4. simpl in F4. exact F4. }
  destruct Hr as (H1 & H2 & H3). repeat split; auto.
  - destruct fs as [|f fs]; [simpl; auto|]. simpl in A. apply andb_prop in A. destruct A as [A _].
    unfold next_is. simpl. apply digit_not_46; exact A.
  - apply span_app; auto.
Qed.

(* scanNumber on a complete number followed by an allowed character *)
Lemma scan_number_app : forall cs t rest, scan_number cs = Some (t, []) -> follows t rest ->
  scan_number (cs ++ rest) = Some (t, rest).
Proof.
  intros cs t rest W F. unfold scan_number in *.
  destruct (span is_digit cs) as [ds r] eqn:S.
  destruct (span_spec _ _ _ _ S) as (E & A & _).
  destruct (lead_zero ds) eqn:LZ; [discriminate|].
  destruct r as [|c1 r1].
  - rewrite app_nil_r in E. subst ds. inversion W; subst t.
    destruct rest as [|c r]; [rewrite app_nil_r, S, LZ; reflexivity|].
    apply follow1_int in F. destruct F as (F1 & F2 & F3 & F4).
    rewrite (span_app is_digit cs (c :: r) A F1), LZ.
    unfold next_is, bad_after_num. simpl. rewrite F4, (not_suffix _ F2 F3). reflexivity.
  - destruct (next_is 46 (c1 :: r1)) eqn:N1; [|destruct (bad_after_num (c1 :: r1)); discriminate].
    apply N.eqb_eq in N1. subst c1. cbn [tl] in *.
    destruct (next_is 46 r1); [discriminate|].
    destruct (span is_digit r1) as [fs r3] eqn:S2.
    destruct (bad_after_num r3); [discriminate|]. inversion W; subst t r3.
    destruct (span_all _ _ _ S2) as [-> A2].
    destruct (float_tail ds r1 rest A2 F) as (T1 & T2 & T3).
    rewrite E, <- app_assoc. cbn [app].
    rewrite (span_app is_digit ds (46 :: r1 ++ rest) A eq_refl), LZ.
    unfold next_is at 1. cbn [hd_is tl]. rewrite N.eqb_refl, T1, T2, T3. reflexivity.
Qed.

Lemma scan1_int : forall s rest, tok_wf (TInt s) -> follows (TInt s) rest ->
  scan1 (spell (TInt s) ++ rest) = Some (TInt s, rest).
Proof.
  intros s rest W F. unfold tok_wf in W. cbn [spell] in *.
  destruct s as [|c0 s']; [discriminate|].
  pose proof (scan1_first _ _ _ _ W) as D. cbn [app]. unfold scan1 in *. rewrite D in *.
  apply (scan_number_app (c0 :: s')); assumption.
Qed.

Lemma scan1_float : forall s rest, tok_wf (TFloat s) -> follows (TFloat s) rest ->
  scan1 (spell (TFloat s) ++ rest) = Some (TFloat s, rest).
Proof.
  intros s rest W F. unfold tok_wf in W. cbn [spell] in *.
  destruct s as [|c0 s']; [discriminate|].
  destruct (scan1_first _ _ _ _ W) as [D | ->]; cbn [app]; unfold scan1 in *.
  - rewrite D in *. apply (scan_number_app (c0 :: s')); assumption.
  - (* the spelling starts with the period *)
    cbn -[hd_is next_is bad_after_num span tl] in W |- *.
    destruct (hd_is is_digit s') eqn:HD.
    + destruct (span is_digit s') as [fs r3] eqn:S2.
      destruct (bad_after_num r3); [discriminate|]. inversion W; subst fs r3.
      destruct (span_all _ _ _ S2) as [_ A2].
      destruct (float_tail [] s' rest A2 F) as (_ & T2 & T3).
      replace (hd_is is_digit (s' ++ rest)) with true by (destruct s'; [discriminate | symmetry; exact HD]).
      rewrite T2, T3. reflexivity.
    + destruct (next_is 46 s'); [destruct (next_is 46 (tl s'))|]; discriminate.
Qed.

Lemma follow1_ident : forall s c, follow1 (TIdent s) c = true ->
  is_idc c = false /\ (c =? 35) = false /\
  (is_single s && next_is 95 s && (c =? 124)) = false /\
  (is_single s && next_is 35 s && ((lit_base <=? c) || (c =? 34) || (c =? 39))) = false.
Proof.
  intros s c H. simpl in H.
  apply andb_prop in H. destruct H as [H H3].
  apply andb_prop in H. destruct H as [H H2].
  apply negb_true_iff in H. apply negb_true_iff in H2. apply negb_true_iff in H3.
  apply orb_false_elim in H. tauto.
Qed.

Lemma idc_not_digit_false : forall c, is_idc c = false -> is_digit c = false.
Proof.
  intros c H. unfold is_idc in H.
  repeat (apply orb_false_elim in H; destruct H as [H ?]). assumption.
Qed.

(* scan_field_ident on a complete identifier body followed by a non-identifier character *)
Lemma scan_field_ident_app : forall s rest, scan_field_ident s = (s, []) ->
  hd_is is_idc rest = false -> next_is 35 rest = false ->
  scan_field_ident (s ++ rest) = (s, rest).
Proof.
  assert (SA : forall a x, span is_idc a = (x, []) -> forall rest, hd_is is_idc rest = false ->
               span is_idc (a ++ rest) = (a, rest)).
  { intros a x S rest F. destruct (span_all _ _ _ S) as [_ A]. apply span_app; assumption. }
  intros s rest H F1 F2. destruct s as [|c0 s'].
  - destruct rest as [|c r]; [reflexivity|]. unfold next_is in F2. simpl in *. rewrite F2.
    apply (span_app is_idc [] (c :: r) eq_refl F1).
  - simpl in *. destruct (c0 =? 35) eqn:E.
    + apply N.eqb_eq in E. subst c0. destruct s' as [|d s''].
      * destruct rest as [|c r]; [reflexivity|]. simpl in *. rewrite (idc_not_digit_false _ F1).
        pose proof (span_app is_idc [] (c :: r) eq_refl F1) as SP. simpl in SP. rewrite SP. reflexivity.
      * simpl. destruct (is_digit d); [inversion H|].
        destruct (span is_idc (d :: s'')) as [a b] eqn:S. inversion H; subst.
        change (d :: s'' ++ rest) with ((d :: s'') ++ rest). rewrite (SA _ _ S rest F1). reflexivity.
    + destruct (span is_idc (c0 :: s')) as [a b] eqn:S. inversion H; subst.
      change (c0 :: s' ++ rest) with ((c0 :: s') ++ rest). rewrite (SA _ _ S rest F1). reflexivity.
Qed.

Lemma sfi_prefix : forall cs lit r, scan_field_ident cs = (lit, r) -> cs = lit ++ r.
Proof.
  intros cs lit r H. destruct cs as [|c0 s']; simpl in H.
  - inversion H; reflexivity.
  - destruct (c0 =? 35) eqn:E.
    + apply N.eqb_eq in E. subst c0. destruct s' as [|d s''].
      * inversion H; reflexivity.
      * destruct (is_digit d); [inversion H; reflexivity|].
        destruct (span is_idc (d :: s'')) as [a b] eqn:S. inversion H; subst.
        destruct (span_spec _ _ _ _ S) as [E _]. rewrite E. reflexivity.
    + destruct (span is_idc (c0 :: s')) as [a b] eqn:S. inversion H; subst.
      destruct (span_spec _ _ _ _ S) as [E' _]. exact E'.
Qed.

Lemma scan1_ident : forall s rest, tok_wf (TIdent s) -> follows (TIdent s) rest ->
  scan1 (spell (TIdent s) ++ rest) = Some (TIdent s, rest).
Proof.
  intros s rest W F. unfold tok_wf in W. cbn [spell] in *.
  destruct s as [|c0 s']; [discriminate|].
  assert (FF : hd_is is_idc rest = false /\ next_is 35 rest = false).
  { destruct rest as [|c r]; [split; reflexivity|]. apply follow1_ident in F. tauto. }
  destruct FF as [FF1 FF2].
  destruct (scan1_first _ _ _ _ W) as [D [L | ->]]; cbn [app]; unfold scan1 in *.
  - rewrite D, L in *.
    destruct (scan_field_ident (c0 :: s')) as [lit r'] eqn:S.
    match type of W with (if ?b then _ else _) = _ => destruct b eqn:C end; [discriminate|].
    inversion W; subst lit r'.
    change (c0 :: s' ++ rest) with ((c0 :: s') ++ rest).
    rewrite (scan_field_ident_app _ _ S FF1 FF2).
    destruct rest as [|c r].
    + rewrite C. reflexivity.
    + unfold follows in F. apply follow1_ident in F. destruct F as (F1 & F2 & F3 & F4).
      destruct (is_single (c0 :: s')) eqn:SG; [|reflexivity].
      destruct (c0 =? 35) eqn:E35; [|reflexivity].
      simpl. simpl in F4. unfold next_is in F4. simpl in F4. rewrite E35 in F4. simpl in F4.
      rewrite F2. apply orb_false_elim in F4. destruct F4 as [F4 F5].
      apply orb_false_elim in F4. destruct F4 as [F4 F6].
      rewrite F4, F5, F6. reflexivity.
  - (* the spelling starts with the underscore *)
    cbn -[next_is scan_field_ident is_single tl] in W |- *.
    destruct (next_is 124 s' && next_is 95 (tl s')) eqn:B; [discriminate|].
    destruct (scan_field_ident s') as [lit r'] eqn:S.
    match type of W with (if ?b then _ else _) = _ => destruct b end; [discriminate|].
    inversion W; subst lit r'.
    rewrite (scan_field_ident_app _ _ S FF1 FF2).
    assert (B' : next_is 124 (s' ++ rest) && next_is 95 (tl (s' ++ rest)) = false).
    { destruct s' as [|d s''].
      - destruct rest as [|c r]; [reflexivity|]. unfold follows in F.
        apply follow1_ident in F. destruct F as (_ & _ & F3 & _).
        simpl in F3. unfold next_is in *. simpl in *. rewrite F3. reflexivity.
      - destruct (next_is 124 (d :: s'')) eqn:N1; [|unfold next_is in *; simpl in *; rewrite N1; reflexivity].
        exfalso. unfold next_is in N1. simpl in N1. apply N.eqb_eq in N1. subst d.
        simpl in S. inversion S. }
    rewrite B', FF2, andb_false_r. reflexivity.
Qed.

Theorem scan1_spell : forall t rest, tok_wf t -> follows t rest ->
  scan1 (spell t ++ rest) = Some (t, rest).
Proof.
  intros [s|s|s|id| |o|p] rest W F.
  - apply scan1_ident; assumption.
  - apply scan1_int; assumption.
  - apply scan1_float; assumption.
  - apply scan1_lit.
  - apply scan1_bottom.
  - apply scan1_op; assumption.
  - apply scan1_punct; assumption.
Qed.

Lemma follow1_blank : forall t, follow1 t 32 = true.
Proof.
  intros [s|s|s|id| |o|p]; try reflexivity.
  - simpl. rewrite !andb_false_r. reflexivity.
  - simpl. rewrite andb_false_r. reflexivity.
  - destruct o; reflexivity.
  - destruct p; reflexivity.
Qed.

Lemma wf_spell : forall t, tok_wf t -> exists c r, spell t = c :: r /\ is_blank c = false.
Proof.
  intros t W. unfold tok_wf in W. destruct (spell t) as [|c r] eqn:E; [discriminate|].
  exists c, r. split; [reflexivity|].
  destruct (is_blank c) eqn:B; [|reflexivity].
  unfold is_blank in B. apply N.eqb_eq in B. subst c. discriminate.
Qed.

Lemma skip_blanks_nonblank : forall c r, is_blank c = false -> skip_blanks (c :: r) = c :: r.
Proof. intros c r H. simpl. rewrite H. reflexivity. Qed.

Lemma render_follows : forall prev ts, Forall tok_wf (map snd ts) ->
  separated_from prev ts = true -> follows prev (render ts).
Proof.
  intros prev [|[b t] r] W S; [exact I|].
  simpl in S. apply andb_prop in S. destruct S as [S _].
  inversion W as [|? ? Wt _]; subst. destruct (wf_spell _ Wt) as (c & r' & E & _).
  simpl. destruct b.
  - simpl. apply follow1_blank.
  - simpl in S. unfold needs_sep in S. rewrite E in S. rewrite E. simpl.
    apply negb_true_iff in S. apply negb_false_iff in S. exact S.
Qed.

Lemma separated_tail : forall b t r, separated ((b, t) :: r) = true -> separated r = true.
Proof.
  intros b t [|[b' t'] r] H; [reflexivity|].
  simpl in *. apply andb_prop in H. tauto.
Qed.

Lemma scan_fuel_render : forall ts fuel, Forall tok_wf (map snd ts) ->
  separated ts = true -> (length (render ts) < fuel)%nat ->
  scan_fuel fuel (render ts) = Some (map snd ts).
Proof.
  induction ts as [|[b t] r IH]; intros fuel W S L.
  - destruct fuel; [inversion L|]. reflexivity.
  - inversion W as [|? ? Wt Wr]; subst.
    destruct (wf_spell _ Wt) as (c & r' & E & NB).
    destruct fuel as [|n]; [inversion L|].
    assert (SK : skip_blanks (render ((b, t) :: r)) = spell t ++ render r).
    { simpl. destruct b; simpl; rewrite E; simpl; rewrite NB; reflexivity. }
    cbn [scan_fuel]. rewrite SK.
    destruct (spell t ++ render r) as [|c' rr] eqn:EQ; [rewrite E in EQ; discriminate|].
    rewrite <- EQ.
    rewrite (scan1_spell t (render r) Wt (render_follows t r Wr S)).
    rewrite (IH n Wr (separated_tail _ _ _ S)).
    + reflexivity.
    + simpl in L. destruct b; simpl in L; rewrite app_length, E in L; simpl in L; lia.
Qed.

Theorem scan_render : forall ts, Forall tok_wf (map snd ts) -> separated ts = true ->
  scan (render ts) = Some (map snd ts).
Proof.
  intros ts W S. unfold scan. apply scan_fuel_render; [exact W | exact S | lia].
Qed.

(* the evaluations below run the scanner, span included *)
Local Transparent span.

(* `<` followed by unary `-` needs a blank: glued, the scanner reads the arrow token *)
Theorem lss_sub_needs_sep :
  needs_sep (TOp LSS) (TOp SUB) = true /\
  scan (render [(false, TOp LSS); (false, TOp SUB); (false, TInt [49])]) = Some [TOp ARROW; TInt [49]] /\
  scan (render [(false, TOp LSS); (true, TOp SUB); (false, TInt [49])]) = Some [TOp LSS; TOp SUB; TInt [49]].
Proof. repeat split; reflexivity. Qed.

(* the operators of parseUnaryExpr, over which the printers' merge tests are compared
   with the separation table *)
Definition unops : list op := [EQL; ADD; SUB; NOT; MUL; LSS; LEQ; GEQ; GTR; NEQ; MAT; NMAT].

(* the seven pairs of finding K1: unary operators that lex as another token when glued *)
Definition v1_missed : list (op * op) :=
  [(NOT, EQL); (LSS, EQL); (GTR, EQL); (LSS, SUB); (NOT, MAT); (LSS, MAT); (GTR, MAT)].

(* printer.go mayCombine separates an INT from a following period *)
Theorem v1_covers_int_period : forall s, v1_may_combine (TInt s) (TP PERIOD) = true.
Proof. reflexivity. Qed.
