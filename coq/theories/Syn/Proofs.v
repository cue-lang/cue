(* Syn/Proofs.v - the parser model inverts the printer models. *)
From Coq Require Import List NArith Bool Arith Lia.
From Verif Require Import Syn.Lex Syn.Expr Syn.Basics.
Import ListNotations.
Open Scope nat_scope.

Definition nopost (r : list tok) : Prop :=
  match r with
  | TP PERIOD :: _ | TP LBRACK :: _ | TP LPAREN :: _ => False
  | _ => True
  end.

(* the rest of the input does not continue a binary expression at precedence q *)
Definition stop (q : nat) (r : list tok) : Prop :=
  match r with TOp o :: _ => binprec o < q | _ => True end.

Lemma stop_le : forall q q' r, stop q r -> q <= q' -> stop q' r.
Proof. intros q q' [|[] r] H L; simpl in *; trivial. lia. Qed.

Lemma ptail_stop : forall n x r, nopost r -> p_ptail (S n) x r = Some (x, r).
Proof.
  intros n x r H. rewrite p_ptail_S. destruct r as [|[| | | | |o|[]] r]; simpl in H; try reflexivity; contradiction.
Qed.

Lemma btail_stop : forall n q x r, stop q r -> p_btail (S n) q x r = Some (x, r).
Proof.
  intros n q x r H. rewrite p_btail_S. destruct r as [|[| | | | |o|p] r]; try reflexivity.
  simpl in H. replace (q <=? binprec o) with false by (symmetry; apply Nat.leb_gt; exact H). reflexivity.
Qed.

(* fuel that suffices to read [pr1 e] back: per node, the calls on the way down that
   consume no token (p_binary, p_unary, p_operand and the two tails); it stays below
   the 5 per token that [fuel_of] grants (cost_le) *)
Fixpoint cost (e : expr) : nat :=
  match e with
  | EAtom _ => 1
  | EBin _ x y => cost x + cost y + 4
  | EUn _ x => cost x + 1
  | ESel x _ => cost x + 1
  | EIdx x i => cost x + cost i + 4
  | ECall f a => cost f + list_sum (map (fun x => cost x + 4) a) + 2
  | EParen x => cost x + 5
  end.

(* The statements carried through the induction, one per entry point of the parser.
   The postfix and binary tails are loops whose end is not known at the node e: the node
   above decides whether a selector, an operator or a closing token follows.  So GP and GB
   take the run of the loop as given - p_ptail / p_btail started on the tree e with rest r
   and fuel m ends in res - and conclude that the parser started on the printed tokens of
   e followed by r ends in the same res, with cost e more fuel; res and m are whatever the
   context makes them.  GU has no loop to continue.  Each holds for every fuel from the
   stated bound on. *)
Definition GP (e : expr) : Prop :=
  level e = highest_prec -> forall r m res, p_ptail m e r = Some res ->
  forall n, m + cost e <= n -> p_unary n (pr1 e highest_prec ++ r) = Some res.

Definition GU (e : expr) : Prop :=
  unary_prec <= level e -> forall r, nopost r ->
  forall n, cost e + 1 <= n -> p_unary n (pr1 e unary_prec ++ r) = Some (e, r).

Definition GB (e : expr) : Prop :=
  forall q, 1 <= q -> q <= level e -> forall r, nopost r -> stop (S (level e)) r ->
  forall m res, p_btail m q e r = Some res ->
  forall n, m + cost e + 2 <= n -> p_binary n q (pr1 e q ++ r) = Some res.

Lemma GU_of_GP : forall e, level e = highest_prec -> GP e -> GU e.
Proof.
  intros e L G _ r N n Hn.
  rewrite (pr1_level e unary_prec highest_prec) by (rewrite L; unfold unary_prec, highest_prec; lia).
  apply (G L r 1); [apply ptail_stop; exact N | lia].
Qed.

Lemma GB_of_GU : forall e, unary_prec <= level e -> GU e -> GB e.
Proof.
  intros e L G q Q1 Q2 r N _ m res H n Hn.
  destruct n as [|n]; [lia|]. rewrite p_binary_S, (pr1_level e q unary_prec) by lia.
  rewrite (G L r N n) by lia. apply (p_btail_mono m); [exact H | lia].
Qed.

(* for a primary expression everything follows from the postfix-tail statement *)
Lemma G_primary : forall e, level e = highest_prec -> GP e -> GP e /\ GU e /\ GB e.
Proof.
  intros e L P. pose proof (GU_of_GP e L P) as U.
  split; [exact P|]. split; [exact U|].
  apply GB_of_GU; [rewrite L; unfold unary_prec, highest_prec; lia | exact U].
Qed.

(* a complete expression in front of what ends it: a closing bracket or parenthesis,
   the comma of an argument list, the end of the input *)
Lemma GB_top : forall e, wf e -> GB e -> forall r, nopost r -> stop 1 r ->
  forall n, cost e + 3 <= n -> p_binary n 1 (pr1 e 0 ++ r) = Some (e, r).
Proof.
  intros e W G r N S n Hn. pose proof (shape_level_ge1 _ _ W) as L1.
  rewrite (pr1_level e 0 1) by lia.
  apply (G 1 (le_n 1) L1 r N) with (m := 1); [|apply btail_stop; exact S | lia].
  apply (stop_le 1); [exact S | lia].
Qed.

Lemma nopost_op : forall o r, nopost (TOp o :: r).
Proof. intros; exact I. Qed.

Definition costargs (a : list expr) : nat := list_sum (map (fun x => cost x + 4) a) + 1.

(* no expression starts with a closing parenthesis *)
Lemma p_binary_rparen : forall n q r, p_binary n q (TP RPAREN :: r) = None.
Proof. intros [|[|[|n]]] q r; reflexivity. Qed.

Lemma p_args_arg : forall n ts x rest, p_binary n 1 ts = Some (x, rest) ->
  p_args (S n) ts =
  match rest with
  | TP COMMA :: r => match p_args n r with Some (l, r') => Some (x :: l, r') | None => None end
  | TP RPAREN :: r => Some ([x], r)
  | _ => None
  end.
Proof.
  intros n ts x rest H. destruct (p_args_cases ts) as [(r0 & ->) | ->]; [|rewrite H; reflexivity].
  rewrite p_binary_rparen in H. discriminate.
Qed.

Lemma p_args_printed : forall a, All wf a -> All GB a -> forall r n, costargs a <= n ->
  p_args n (sepcat (map (fun x => pr1 x 0) a) ++ TP RPAREN :: r) = Some (a, r).
Proof.
  unfold costargs. induction a as [|x l IH].
  - intros _ _ r [|n] Hn; [simpl in Hn; lia | reflexivity].
  - intros [W Wl] [G Gl] r [|n] Hn; simpl in Hn; [lia|]. specialize (IH Wl Gl).
    assert (PB : forall rest, nopost rest -> stop 1 rest -> p_binary n 1 (pr1 x 0 ++ rest) = Some (x, rest)).
    { intros rest N S. apply GB_top; try assumption. lia. }
    destruct l as [|y l'].
    + cbn [map sepcat]. rewrite (p_args_arg _ _ _ _ (PB (TP RPAREN :: r) I I)). reflexivity.
    + change (sepcat (map (fun x0 => pr1 x0 0) (x :: y :: l')))
        with (pr1 x 0 ++ TP COMMA :: sepcat (map (fun x0 => pr1 x0 0) (y :: l'))).
      rewrite <- app_assoc. cbn [app]. rewrite (p_args_arg _ _ _ _ (PB (TP COMMA :: _) I I)).
      rewrite (IH r n) by lia. reflexivity.
Qed.

Lemma G_all : forall e, wf e -> GP e /\ GU e /\ GB e.
Proof.
  unfold wf. induction e using expr_ind2; intros W; simpl in W.
  - (* atom *)
    apply G_primary; [reflexivity|].
    intros _ r m res H n Hn. destruct m as [|m]; [discriminate|]. simpl in Hn.
    destruct n as [|[|n]]; [lia | lia |].
    cbn [pr1 app]. rewrite p_unary_S, p_operand_S.
    destruct t as [| | | | |o|p]; try discriminate W; apply (p_ptail_mono (S m)); (exact H || lia).
  - (* binary *)
    destruct W as (P1 & Lx & Ly & Wx & Wy).
    destruct (IHe1 Wx) as (_ & _ & Bx). destruct (IHe2 Wy) as (_ & _ & By).
    pose proof (binprec_le7 o) as P7.
    split; [intros L; simpl in L; unfold highest_prec in L; lia|].
    split; [intros L; simpl in L; unfold unary_prec in L; lia|].
    intros q Q1 Q2 r N Lo m res H n Hn. simpl in Q2, Lo, Hn.
    rewrite pr1_bin, <- app_assoc by exact Q2. simpl app.
    rewrite (pr1_level e1 (binprec o) q) by lia.
    apply (Bx q Q1) with (m := S (m + cost e2 + 3)); try exact I; try (simpl; lia).
    (* the right operand is read by the recursive call and stops at r *)
    rewrite p_btail_S. replace (q <=? binprec o) with true by (symmetry; apply Nat.leb_le; lia).
    rewrite (By (S (binprec o))) with (m := 1) (res := (e2, r)); try assumption; try lia.
    + apply (p_btail_mono m); [exact H | lia].
    + apply (stop_le _ _ _ Lo). lia.
    + apply btail_stop. exact Lo.
  - (* unary *)
    destruct W as (U & Lx & Wx). destruct (IHe Wx) as (_ & Ux & _).
    assert (GUe : GU (EUn o e)).
    { intros _ r N n Hn. simpl in Hn. destruct n as [|n]; [lia|].
      rewrite pr1_un by exact (le_n _). cbn [app].
      rewrite p_unary_S, U, (Ux Lx r N n) by lia. reflexivity. }
    split; [intros L; simpl in L; unfold unary_prec, highest_prec in L; lia|].
    split; [exact GUe|]. apply GB_of_GU; [simpl; lia | exact GUe].
  - (* selector *)
    destruct W as (Sl & Lx & Wx). destruct (IHe Wx) as (Px & _ & _).
    apply G_primary; [reflexivity|].
    intros _ r m res H n Hn. simpl in Hn. simpl pr1. rewrite <- app_assoc. simpl app.
    apply (Px Lx) with (m := S m); [|lia]. rewrite p_ptail_S, Sl. exact H.
  - (* index *)
    destruct W as (Lx & Wx & Wi). destruct (IHe1 Wx) as (Px & _ & _). destruct (IHe2 Wi) as (_ & _ & Bi).
    apply G_primary; [reflexivity|].
    intros _ r m res H n Hn. simpl in Hn.
    simpl pr1. rewrite <- app_assoc. simpl app. rewrite <- app_assoc. simpl app.
    apply (Px Lx) with (m := S (m + cost e2 + 3)); [|lia]. rewrite p_ptail_S.
    rewrite (GB_top e2 Wi Bi (TP RBRACK :: r) I I) by lia.
    apply (p_ptail_mono m); [exact H | lia].
  - (* call *)
    destruct W as (Lf & Wf & Wa). destruct (IHe Wf) as (Pf & _ & _).
    pose proof (All_impl _ _ _ _ (fun x Hx => proj2 (proj2 Hx)) (All_mp _ _ _ _ H Wa)) as A.
    apply G_primary; [reflexivity|].
    intros _ r m res H0 n Hn. simpl in Hn.
    rewrite pr1_call, <- app_assoc. simpl app. rewrite <- app_assoc. simpl app.
    apply (Pf Lf) with (m := S (m + costargs a)); [|unfold costargs; lia]. rewrite p_ptail_S.
    rewrite (p_args_printed a Wa A r) by lia.
    apply (p_ptail_mono m); [exact H0 | lia].
  - (* parentheses *)
    destruct W as (NP & Wx). destruct (IHe Wx) as (_ & _ & Bx).
    apply G_primary; [reflexivity|].
    intros _ r m res H n Hn. simpl in Hn. destruct n as [|[|n]]; [lia | lia |].
    simpl pr1. rewrite (NP eq_refl). unfold paren. simpl app. rewrite <- app_assoc. simpl app.
    rewrite p_unary_S, p_operand_S.
    rewrite (GB_top e Wx Bx (TP RPAREN :: r) I I) by lia.
    apply (p_ptail_mono m); [exact H | lia].
Qed.

(* the fuel the parser is given suffices *)
Lemma cost_le : forall e, wf e -> forall q, cost e <= 5 * length (pr1 e q).
Proof.
  unfold wf. induction e using expr_ind2; intros W q; simpl in W.
  - simpl. lia.
  - destruct W as (_ & _ & _ & Wx & Wy).
    specialize (IHe1 Wx (binprec o)). specialize (IHe2 Wy (S (binprec o))).
    simpl. destruct (binprec o <? q); unfold paren; simpl; rewrite ?app_length; simpl;
      rewrite ?app_length; simpl; lia.
  - destruct W as (_ & _ & Wx). specialize (IHe Wx unary_prec).
    simpl. destruct (unary_prec <? q); unfold paren; simpl; rewrite ?app_length; simpl; lia.
  - destruct W as (_ & _ & Wx). specialize (IHe Wx highest_prec). simpl. rewrite app_length. simpl. lia.
  - destruct W as (_ & Wx & Wi). specialize (IHe1 Wx highest_prec). specialize (IHe2 Wi 0).
    simpl. rewrite app_length. simpl. rewrite app_length. simpl. lia.
  - destruct W as (_ & Wf & Wa). specialize (IHe Wf highest_prec).
    rewrite pr1_call. simpl cost. rewrite app_length. simpl length. rewrite app_length. simpl length.
    assert (S : list_sum (map (fun x => cost x + 4) a) <= 5 * length (sepcat (map (fun x => pr1 x 0) a)) + 4).
    { clear -H Wa. induction a as [|x l IH]; [simpl; lia|].
      destruct H as [Hx Hl], Wa as [Wx Wl]. specialize (IH Hl Wl). specialize (Hx Wx 0).
      destruct l as [|y l']; [simpl in *; lia|].
      change (sepcat (map (fun x0 => pr1 x0 0) (x :: y :: l')))
        with (pr1 x 0 ++ TP COMMA :: sepcat (map (fun x0 => pr1 x0 0) (y :: l'))).
      rewrite app_length. simpl in *. lia. }
    lia.
  - destruct W as (NP & Wx). specialize (IHe Wx 0). simpl. rewrite (NP eq_refl).
    unfold paren. simpl. rewrite app_length. simpl. lia.
Qed.

Theorem parse_print_wf : forall e, wf e -> parse (print1 e) = Some e.
Proof.
  intros e W. unfold parse, print1. rewrite <- (app_nil_r (pr1 e 0)) at 2.
  rewrite (GB_top e W (proj2 (proj2 (G_all e W))) [] I I); [reflexivity|].
  unfold fuel_of. pose proof (cost_le e W 0). lia.
Qed.

Definition out_stmt (n : nat) : Prop :=
  (forall ts x r, p_unary n ts = Some (x, r) -> pwf x /\ unary_prec <= level x) /\
  (forall ts x r, p_operand n ts = Some (x, r) -> pwf x /\ level x = highest_prec) /\
  (forall x ts y r, p_ptail n x ts = Some (y, r) -> pwf x -> level x = highest_prec ->
                    pwf y /\ level y = highest_prec) /\
  (forall ts l r, p_args n ts = Some (l, r) -> All pwf l) /\
  (forall q ts x r, p_binary n q ts = Some (x, r) -> 1 <= q -> q <= unary_prec ->
                    pwf x /\ q <= level x /\ stop q r) /\
  (forall q x ts y r, p_btail n q x ts = Some (y, r) -> 1 <= q -> pwf x -> q <= level x ->
                      stop (S (level x)) ts -> pwf y /\ q <= level y /\ stop q r).

Lemma p_out : forall n, out_stmt n.
Proof.
  induction n as [|n IH]; unfold out_stmt.
  - repeat split; intros; discriminate.
  - destruct IH as (Iu & Io & Ip & Ia & Ib & It). unfold pwf, unary_prec in *.
    split; [|split; [|split; [|split; [|split]]]].
    + (* unary *)
      intros ts x r H. destruct (p_unary_cases ts) as [(o & ts' & ->) | E].
      * rewrite p_unary_S in H. destruct (is_unop o) eqn:U; [|discriminate].
        destruct (p_unary n ts') as [[x0 r0]|] eqn:E; [|discriminate]. inversion H; subst.
        destruct (Iu _ _ _ E) as [W0 L0]. split; [|exact (le_n 8)]. simpl. auto.
      * rewrite E in H. destruct (p_operand n ts) as [[x0 r0]|] eqn:E0; [|discriminate].
        destruct (Io _ _ _ E0) as [W0 L0]. destruct (Ip _ _ _ _ H W0 L0) as [W L].
        split; [exact W|]. rewrite L. unfold unary_prec, highest_prec. lia.
    + (* operand *)
      intros ts x r H. rewrite p_operand_S in H.
      destruct ts as [|[| | | | |o|[]] ts']; simpl in H; try discriminate;
        try (inversion H; subst; split; reflexivity).
      destruct (p_binary n 1 ts') as [[x0 [|[| | | | |o|[]] r0]]|] eqn:E; simpl in H; try discriminate.
      inversion H; subst. destruct (Ib _ _ _ _ E) as (W0 & _ & _); try lia.
      split; [|reflexivity]. split; [discriminate | exact W0].
    + (* postfix tail *)
      intros x ts y r H W L. rewrite p_ptail_S in H.
      destruct ts as [|[| | | | |o|[]] ts']; try (inversion H; subst; auto; fail).
      * (* call *)
        destruct (p_args n ts') as [[a r0]|] eqn:E; [|discriminate].
        apply (Ip _ _ _ _ H); [|reflexivity]. simpl. repeat split; auto. apply (Ia _ _ _ E).
      * (* index *)
        destruct (p_binary n 1 ts') as [[i r0]|] eqn:E; [|discriminate].
        destruct (Ib _ _ _ _ E) as (Wi & _ & _); try lia.
        assert (WI : shape false (EIdx x i)) by (simpl; auto).
        destruct r0 as [|[| | | | |o|[]] r0]; try discriminate.
        -- apply (Ip _ _ _ _ H WI eq_refl).
        -- destruct r0 as [|[| | | | |o|[]] r0]; try discriminate. apply (Ip _ _ _ _ H WI eq_refl).
      * (* selector *)
        destruct ts' as [|l r0]; [discriminate|]. destruct (is_sel l) eqn:S; [|discriminate].
        apply (Ip _ _ _ _ H); [|reflexivity]. simpl. auto.
    + (* arguments *)
      intros ts l r H. destruct (p_args_cases ts) as [(r0 & ->) | E]; [inversion H; exact I|].
      rewrite E in H. destruct (p_binary n 1 ts) as [[a r0]|] eqn:Eb; [|discriminate].
      destruct (Ib _ _ _ _ Eb) as (Wa & _ & _); try lia.
      destruct r0 as [|[| | | | |o|[]] r0]; try discriminate.
      * inversion H; subst. simpl. auto.
      * destruct (p_args n r0) as [[l0 r']|] eqn:E2; [|discriminate]. inversion H; subst.
        simpl. split; [exact Wa | apply (Ia _ _ _ E2)].
    + (* binary *)
      intros q ts x r H Q1 Q8. rewrite p_binary_S in H.
      destruct (p_unary n ts) as [[x0 r0]|] eqn:E; [|discriminate].
      destruct (Iu _ _ _ E) as [W0 L0].
      apply (It _ _ _ _ _ H Q1 W0); [unfold unary_prec in L0; lia|].
      destruct r0 as [|[| | | | |o|p] r0]; simpl; auto.
      pose proof (binprec_le7 o). unfold unary_prec in L0. lia.
    + (* binary tail *)
      intros q x ts y r H Q1 W Lq Lo. rewrite p_btail_S in H.
      destruct ts as [|[| | | | |o|p] ts']; try (inversion H; subst; simpl; auto; fail).
      destruct (q <=? binprec o) eqn:C.
      * apply Nat.leb_le in C.
        destruct (p_binary n (S (binprec o)) ts') as [[y0 r0]|] eqn:E; [|discriminate].
        pose proof (binprec_le7 o) as P7.
        destruct (Ib _ _ _ _ E) as (Wy & Ly & St); try lia.
        apply (It _ _ _ _ _ H Q1).
        -- simpl. simpl in Lo. repeat split; auto; lia.
        -- simpl. exact C.
        -- simpl. exact St.
      * apply Nat.leb_gt in C. inversion H; subst. simpl. auto.
Qed.

Lemma p_binary_out : forall n q ts x r, p_binary n q ts = Some (x, r) -> 1 <= q -> q <= unary_prec ->
  pwf x /\ q <= level x /\ stop q r.
Proof. intros n. exact (proj1 (proj2 (proj2 (proj2 (proj2 (p_out n)))))). Qed.

(* where canon adds no ParenExpr node *)
Lemma canon_bin : forall o x y q, q <= binprec o ->
  canon (EBin o x y) q = EBin o (canon x (binprec o)) (canon y (S (binprec o))).
Proof. intros o x y q L. simpl. rewrite (proj2 (Nat.ltb_ge _ _) L). reflexivity. Qed.

Lemma canon_un : forall o x q, q <= unary_prec -> canon (EUn o x) q = EUn o (canon x unary_prec).
Proof. intros o x q L. simpl. rewrite (proj2 (Nat.ltb_ge _ _) L). reflexivity. Qed.

Lemma canon_not_paren : forall e q, is_paren e = false -> q <= level e -> is_paren (canon e q) = false.
Proof.
  intros [t|o x y|o x|x l|x i|f a|x] q H L; try reflexivity; try discriminate.
  - rewrite canon_bin by exact L. reflexivity.
  - rewrite canon_un by exact L. reflexivity.
Qed.

Lemma canon_paren_level : forall e q, is_paren e = true -> level (canon e q) = highest_prec.
Proof.
  induction e using expr_ind2; intros q P; try discriminate.
  simpl. destruct (is_paren e) eqn:P2; [apply IHe; reflexivity | reflexivity].
Qed.

Lemma canon_level : forall e q, q <= 9 -> q <= level (canon e q).
Proof.
  intros [t|o x y|o x|x l|x i|f a|x] q Q; simpl; unfold highest_prec; try lia.
  - destruct (binprec o <? q) eqn:C; simpl; [unfold highest_prec; lia | apply Nat.ltb_ge in C; exact C].
  - destruct (unary_prec <? q) eqn:C; simpl; [unfold highest_prec; lia | apply Nat.ltb_ge in C; exact C].
  - destruct (is_paren x) eqn:P.
    + rewrite (canon_paren_level x 0 P). unfold highest_prec. lia.
    + simpl. unfold highest_prec. lia.
Qed.

Lemma canon_level_highest : forall e, level (canon e highest_prec) = highest_prec.
Proof.
  intros e. pose proof (canon_level e highest_prec (le_n 9)). pose proof (level_le9 (canon e highest_prec)).
  unfold highest_prec in *. lia.
Qed.

Lemma canon_wf : forall e, valid e -> forall q, wf (canon e q).
Proof.
  unfold wf. induction e using expr_ind2; intros V q; simpl in V.
  - exact V.
  - destruct V as (P1 & Vx & Vy). pose proof (binprec_le7 o) as P7.
    assert (B : shape true (EBin o (canon e1 (binprec o)) (canon e2 (S (binprec o))))).
    { simpl. repeat split; auto; apply canon_level; lia. }
    simpl. destruct (binprec o <? q); [|exact B]. split; [reflexivity | exact B].
  - destruct V as (U & Vx).
    assert (B : shape true (EUn o (canon e unary_prec))).
    { simpl. repeat split; auto. apply canon_level. unfold unary_prec. lia. }
    simpl. destruct (unary_prec <? q); [|exact B]. split; [reflexivity | exact B].
  - destruct V as (S & Vx). simpl. auto using canon_level_highest.
  - destruct V as (Vx & Vi). simpl. auto using canon_level_highest.
  - destruct V as (Vf & Va). simpl. repeat split; auto using canon_level_highest.
    exact (All_map _ _ _ _ _ _ (All_mp _ _ _ _ H Va) (fun x Hx => Hx 0)).
  - simpl. destruct (is_paren e) eqn:P; [apply IHe; exact V|].
    simpl. split; [|apply IHe; exact V]. intros _. apply canon_not_paren; [exact P | lia].
Qed.

Lemma pr1_paren_nopar : forall x q, is_paren x = false -> pr1 (EParen x) q = paren (pr1 x 0).
Proof. intros x q H. simpl. rewrite H. reflexivity. Qed.

Lemma pr1_canon : forall e q q', q' <= level (canon e q) -> pr1 (canon e q) q' = pr1 e q.
Proof.
  induction e using expr_ind2; intros q q' L.
  - reflexivity.
  - pose proof (binprec_le7 o) as P7.
    assert (B : forall k, k <= binprec o ->
                pr1 (EBin o (canon e1 (binprec o)) (canon e2 (S (binprec o)))) k = pr1 (EBin o e1 e2) 0).
    { intros k K. rewrite !pr1_bin by lia. rewrite IHe1, IHe2 by (apply canon_level; lia). reflexivity. }
    cbn [canon] in *. destruct (binprec o <? q) eqn:C.
    + rewrite pr1_paren_nopar, (B 0) by (reflexivity || lia). simpl. rewrite C. reflexivity.
    + rewrite (B q' L). simpl. rewrite C. reflexivity.
  - assert (B : forall k, k <= unary_prec -> pr1 (EUn o (canon e unary_prec)) k = pr1 (EUn o e) 0).
    { intros k K. rewrite !pr1_un by lia. rewrite IHe by (apply canon_level; unfold unary_prec; lia). reflexivity. }
    cbn [canon] in *. destruct (unary_prec <? q) eqn:C.
    + rewrite pr1_paren_nopar, (B 0) by (reflexivity || lia). simpl. rewrite C. reflexivity.
    + rewrite (B q' L). simpl. rewrite C. reflexivity.
  - simpl. rewrite IHe by (rewrite canon_level_highest; lia). reflexivity.
  - simpl. rewrite IHe1 by (rewrite canon_level_highest; lia). rewrite IHe2 by lia. reflexivity.
  - simpl canon. rewrite !pr1_call. rewrite IHe by (rewrite canon_level_highest; lia).
    rewrite map_map.
    rewrite (All_map_ext _ _ _ _ _ _ H (fun x Hx => Hx 0 0 (Nat.le_0_l _))). reflexivity.
  - simpl canon in *. destruct (is_paren e) eqn:P.
    + simpl pr1. rewrite P. apply IHe. exact L.
    + rewrite pr1_paren_nopar by (apply canon_not_paren; [exact P | lia]).
      rewrite pr1_paren_nopar by exact P. rewrite IHe by lia. reflexivity.
Qed.

Lemma unparen_canon : forall e q, unparen (canon e q) = unparen e.
Proof.
  induction e using expr_ind2; intros q; simpl.
  - reflexivity.
  - destruct (binprec o <? q); simpl; rewrite IHe1, IHe2; reflexivity.
  - destruct (unary_prec <? q); simpl; rewrite IHe; reflexivity.
  - rewrite IHe. reflexivity.
  - rewrite IHe1, IHe2. reflexivity.
  - rewrite IHe, map_map.
    rewrite (All_map_ext _ _ _ _ _ _ H (fun x Hx => Hx 0)). reflexivity.
  - destruct (is_paren e); simpl; apply IHe.
Qed.

Lemma canon_collapse : forall e, pwf e -> forall q, q <= level e -> canon e q = collapse e.
Proof.
  unfold pwf. induction e using expr_ind2; intros W q L; simpl in W.
  - reflexivity.
  - destruct W as (P1 & Lx & Ly & Wx & Wy).
    rewrite canon_bin, IHe1, IHe2 by auto. reflexivity.
  - destruct W as (U & Lx & Wx).
    rewrite canon_un, IHe by auto. reflexivity.
  - destruct W as (S & Lx & Wx). simpl. rewrite IHe by (auto; lia). reflexivity.
  - destruct W as (Lx & Wx & Wi). simpl. rewrite IHe1 by (auto; lia). rewrite IHe2 by (auto; lia). reflexivity.
  - destruct W as (Lf & Wf & Wa). simpl. rewrite IHe by (auto; lia).
    rewrite (All_map_ext _ _ _ _ _ _ (All_mp _ _ _ _ H Wa) (fun x Hx => Hx 0 (Nat.le_0_l _))).
    reflexivity.
  - destruct W as (_ & Wx). simpl. rewrite IHe by (auto; lia). reflexivity.
Qed.

Lemma collapse_wf : forall e, pwf e -> wf (collapse e).
Proof.
  intros e W. rewrite <- (canon_collapse e W 0) by lia. apply canon_wf. eapply shape_valid. exact W.
Qed.

Lemma noparen_unparen : forall e, noparen e -> unparen e = e.
Proof.
  induction e using expr_ind2; simpl; intros N; try tauto.
  - destruct N. rewrite IHe1, IHe2 by assumption. reflexivity.
  - rewrite IHe by assumption. reflexivity.
  - rewrite IHe by assumption. reflexivity.
  - destruct N. rewrite IHe1, IHe2 by assumption. reflexivity.
  - destruct N as [Nf Na].
    rewrite IHe, (All_map_ext _ _ _ _ _ _ (All_mp _ _ _ _ H Na) (fun x Hx => Hx)), map_id by assumption. reflexivity.
Qed.

(* reading printed text back gives the tree with exactly the printed parentheses *)
Theorem parse_print1 : forall e, valid e -> parse (print1 e) = Some (canon e 0).
Proof.
  intros e V. unfold print1. rewrite <- (pr1_canon e 0 0) by lia.
  apply (parse_print_wf (canon e 0)). apply canon_wf. exact V.
Qed.

(* for trees without ParenExpr nodes: modulo the inserted parentheses, the same tree *)
Theorem parse_print_expr : forall e, valid e -> noparen e ->
  exists e', parse (print1 e) = Some e' /\ unparen e' = e.
Proof.
  intros e V N. exists (canon e 0). split; [apply parse_print1; exact V|].
  rewrite unparen_canon. apply noparen_unparen. exact N.
Qed.

Lemma op_eqb_eq : forall a b, op_eqb a b = true -> a = b.
Proof. intros a b H. destruct a, b; first [reflexivity | discriminate H]. Qed.

Lemma chain_prec_inj : forall o o', is_chain_op o' = true -> binprec o = binprec o' -> op_eqb o o' = true.
Proof. intros o o' C E. destruct o'; try discriminate; destruct o; simpl in *; try discriminate; reflexivity. Qed.

Lemma chain_prec_le2 : forall o, is_chain_op o = true -> binprec o <= 2.
Proof. destruct o; simpl; intros; try discriminate; lia. Qed.

(* the context precedence of printer V1 that a mode of printer V2 stands for *)
Definition mprec (m : mode) : nat :=
  match m with MDisp => 0 | MOperand q => q | MChain o => binprec o end.

Definition mode_ok (m : mode) : Prop :=
  match m with MChain o => is_chain_op o = true | _ => True end.

(* the right operand of a chain is printed by V1 one level higher; this matters only
   for an operand that is itself a node of the chain's operator *)
Lemma pr1_chain_S : forall o e, is_chain_op o = true -> same_chain_op o e = false ->
  pr1 e (S (binprec o)) = pr1 e (binprec o).
Proof.
  intros o e C N. pose proof (chain_prec_le2 o C) as L2.
  destruct e as [t|o' x y|o' x|x l|x i|f a|x]; try reflexivity; simpl in *.
  - assert (NE : binprec o' <> binprec o).
    { intros E. rewrite (chain_prec_inj o' o C E) in N. discriminate. }
    destruct (binprec o' <? binprec o) eqn:L.
    + apply Nat.ltb_lt in L. replace (binprec o' <? S (binprec o)) with true by (symmetry; apply Nat.ltb_lt; lia).
      reflexivity.
    + apply Nat.ltb_ge in L. replace (binprec o' <? S (binprec o)) with false by (symmetry; apply Nat.ltb_ge; lia).
      reflexivity.
  - replace (unary_prec <? S (binprec o)) with false by (symmetry; apply Nat.ltb_ge; unfold unary_prec; lia).
    replace (unary_prec <? binprec o) with false by (symmetry; apply Nat.ltb_ge; unfold unary_prec; lia).
    reflexivity.
Qed.

(* without a right-nested chain, V2 in mode m prints what V1 prints at precedence [mprec m] *)
Lemma v2_eq : forall e, right_nested_chain e = false -> forall m, mode_ok m -> pr2 m e = pr1 e (mprec m).
Proof.
  induction e using expr_ind2; intros R m M; simpl in R.
  - reflexivity.
  - apply orb_false_elim in R. destruct R as [R Ry]. apply orb_false_elim in R. destruct R as [RC Rx].
    specialize (IHe1 Rx). specialize (IHe2 Ry).
    set (p := binprec o) in *.
    set (body := pr1 e1 p ++ TOp o :: pr1 e2 (S p)).
    assert (PB : pr2 (MOperand p) e1 ++ TOp o :: pr2 (MOperand (S p)) e2 = body).
    { unfold body. rewrite (IHe1 (MOperand p) I), (IHe2 (MOperand (S p)) I). reflexivity. }
    assert (CB : is_chain_op o = true -> pr2 (MChain o) e1 ++ TOp o :: pr2 (MChain o) e2 = body).
    { intros C. unfold body. rewrite (IHe1 (MChain o) C), (IHe2 (MChain o) C). rewrite C in RC.
      cbn [mprec]. rewrite <- (pr1_chain_S o e2 C RC). reflexivity. }
    assert (DB : (if chain_case o (EBin o e1 e2)
                  then pr2 (MChain o) e1 ++ TOp o :: pr2 (MChain o) e2
                  else pr2 (MOperand p) e1 ++ TOp o :: pr2 (MOperand (S p)) e2) = body).
    { destruct (chain_case o (EBin o e1 e2)) eqn:CC; [|exact PB].
      apply CB. unfold chain_case in CC. apply andb_prop in CC. tauto. }
    cbn [pr2 pr1]. fold p. rewrite DB, PB. fold body. destruct m as [|o'|q]; cbn [mprec].
    + reflexivity.
    + destruct (op_eqb o o') eqn:E; [|reflexivity].
      apply op_eqb_eq in E. subst o'. fold p. rewrite (CB M), Nat.ltb_irrefl. reflexivity.
    + rewrite Nat.leb_antisym. destruct (p <? q); reflexivity.
  - (* unary: parenthesised exactly when the context binds tighter, in both printers *)
    cbn [pr2 pr1]. rewrite (IHe R (MOperand unary_prec) I). destruct m as [|o'|q]; cbn [mprec]; try reflexivity.
    pose proof (chain_prec_le2 _ M).
    replace (unary_prec <? binprec o') with false by (symmetry; apply Nat.ltb_ge; unfold unary_prec; lia).
    reflexivity.
  - simpl. rewrite (IHe R (MOperand highest_prec) I). reflexivity.
  - apply orb_false_elim in R. destruct R as [Rx Ri].
    simpl. rewrite (IHe1 Rx (MOperand highest_prec) I), (IHe2 Ri MDisp I). reflexivity.
  - apply orb_false_elim in R. destruct R as [Rf Ra].
    simpl. rewrite (IHe Rf (MOperand highest_prec) I). f_equal. f_equal. f_equal.
    clear -H Ra. induction a as [|x l IH]; [reflexivity|]. simpl in *.
    destruct H as [Hx Hl]. apply orb_false_elim in Ra. destruct Ra as [Rx Rl].
    rewrite (Hx Rx MDisp I), (IH Hl Rl). reflexivity.
  - simpl. rewrite (IHe R MDisp I). reflexivity.
Qed.

(* atoms of the two witnesses on trees without ParenExpr nodes *)
Definition ex_a := EAtom (TIdent [97%N]).
Definition ex_b := EAtom (TIdent [98%N]).
Definition ex_c := EAtom (TIdent [99%N]).

(* wrapForPrecedence parenthesises a unary operand of a postfix operator (finding K25) *)
Theorem print2_unary_postfix_parenthesised :
  let e := ESel (EUn SUB ex_a) (TIdent [98%N]) in
  valid e /\ noparen e /\ print2 e = print1 e /\
  parse (print2 e) = Some (ESel (EParen (EUn SUB ex_a)) (TIdent [98%N])).
Proof. vm_compute. repeat split; reflexivity. Qed.

Theorem print2_chain_refuted :
  let e := EBin OR ex_a (EBin OR (EUn MUL ex_b) ex_c) in
  valid e /\ noparen e /\ parse (print2 e) = Some (EBin OR (EBin OR ex_a (EUn MUL ex_b)) ex_c) /\ parse (print1 e) = Some (EBin OR ex_a (EParen (EBin OR (EUn MUL ex_b) ex_c))).
Proof. vm_compute. repeat split; reflexivity. Qed.
