(* Syn/Space.v - the spacing printers print the tokens of the plain printers; the
   criterion sep_ok under which the blanks they put suffice for the scanner *)
From Coq Require Import List NArith Bool Arith Lia.
From Verif Require Import Syn.Lex Syn.LexProofs Syn.Expr Syn.Basics Syn.Proofs.
Import ListNotations.
Open Scope nat_scope.

(* unops, over which the printers' merge tests are compared with the separation table
   (Properties/C08.v), lists exactly the operators that parseUnaryExpr accepts *)
Lemma unops_is_unop : forall o, In o unops <-> is_unop o = true.
Proof.
  intros o. split.
  - intros H. simpl in H. repeat (destruct H as [<- | H]; [reflexivity|]). contradiction.
  - destruct o; intros H; try discriminate H; simpl; tauto.
Qed.

Lemma map_snd_set_first : forall s l, map snd (set_first s l) = map (@snd sp tok) l.
Proof. intros s [|[s' t] r]; reflexivity. Qed.

Lemma map_snd_sparen : forall l, map snd (sparen l) = paren (map (@snd sp tok) l).
Proof.
  intros l. unfold sparen, paren. simpl. rewrite map_app, map_snd_set_first. reflexivity.
Qed.

(* the spacing printers print the same tokens as the plain printers *)
Lemma sp1_toks : forall e q, map snd (sp1 e q) = pr1 e q.
Proof.
  induction e using expr_ind2; intros q; simpl.
  - reflexivity.
  - destruct (binprec o <? q); rewrite ?map_snd_sparen; rewrite map_app; simpl;
      rewrite map_snd_set_first, IHe1, IHe2; reflexivity.
  - destruct (unary_prec <? q); rewrite ?map_snd_sparen; simpl; rewrite map_snd_set_first, IHe; reflexivity.
  - rewrite map_app, IHe. reflexivity.
  - rewrite map_app. simpl. rewrite map_app, map_snd_set_first, IHe1, IHe2. reflexivity.
  - rewrite map_app. simpl. rewrite map_app, IHe. simpl. f_equal. f_equal. f_equal.
    generalize true. clear -H. induction a as [|x l IH]; intros b; [reflexivity|].
    simpl in H. destruct H as [Hx Hl]. simpl.
    destruct l as [|y l'].
    + rewrite map_snd_set_first. apply Hx.
    + rewrite map_app. simpl. rewrite map_snd_set_first, Hx. rewrite (IH Hl false). reflexivity.
  - destruct (is_paren e); [apply IHe|]. rewrite map_snd_sparen, IHe. reflexivity.
Qed.

Lemma sp2_toks : forall e m, map snd (sp2 m e) = pr2 m e.
Proof.
  induction e using expr_ind2; intros m.
  - reflexivity.
  - (* whatever the mode: one of the two bodies, parenthesised or not *)
    cbn [sp2 pr2]. destruct (chain_case o (EBin o e1 e2)), m as [|o'|q];
      try destruct (op_eqb o o'); try destruct (binprec o <? binprec o'); try destruct (q <=? binprec o);
      rewrite ?map_snd_sparen, map_app; cbn [map snd]; rewrite map_snd_set_first, IHe1, IHe2; reflexivity.
  - cbn [sp2 pr2]. destruct m as [|o'|q]; try destruct (unary_prec <? q);
      rewrite ?map_snd_sparen; cbn [map snd]; rewrite map_snd_set_first, IHe; reflexivity.
  - simpl. rewrite map_app, IHe. reflexivity.
  - simpl. rewrite map_app. simpl. rewrite map_app, map_snd_set_first, IHe1, IHe2. reflexivity.
  - simpl. rewrite map_app. simpl. rewrite map_app, IHe. simpl. f_equal. f_equal. f_equal.
    generalize true. clear -H. induction a as [|x l IH]; intros b; [reflexivity|].
    simpl in H. destruct H as [Hx Hl]. simpl.
    destruct l as [|y l'].
    + rewrite map_snd_set_first. apply Hx.
    + rewrite map_app. simpl. rewrite map_snd_set_first, Hx. rewrite (IH Hl false). reflexivity.
  - simpl. destruct (is_paren e); [apply IHe|]. rewrite map_snd_sparen, IHe. reflexivity.
Qed.

(* every pair that is not separated by a modelled blank is safe without one
   (layout-dependent pairs are treated as if they were printed without a blank) *)
Fixpoint sep_ok_from (prev : tok) (l : list (sp * tok)) : bool :=
  match l with
  | [] => true
  | (s, t) :: r =>
    (match s with Blank => true | _ => negb (needs_sep prev t) end) && sep_ok_from t r
  end.

Definition sep_ok (l : list (sp * tok)) : bool :=
  match l with [] => true | (_, t) :: r => sep_ok_from t r end.

Lemma resolve_toks : forall ch l i, map snd (resolve ch i l) = map snd l.
Proof. induction l as [|[s t] r IH]; intros i; simpl; [reflexivity | rewrite IH; reflexivity]. Qed.

Lemma sep_ok_separated_from : forall ch l prev i, sep_ok_from prev l = true ->
  separated_from prev (resolve ch i l) = true.
Proof.
  induction l as [|[s t] r IH]; intros prev i H; [reflexivity|].
  simpl in *. apply andb_prop in H. destruct H as [H1 H2]. rewrite (IH t (S i) H2), andb_true_r.
  destruct s; simpl in *; try reflexivity; rewrite H1; try reflexivity; apply orb_true_r.
Qed.

Lemma sep_ok_separated : forall ch l, sep_ok l = true -> separated (resolve ch 0 l) = true.
Proof.
  intros ch [|[s t] r] H; [reflexivity|]. simpl in *. apply sep_ok_separated_from. exact H.
Qed.

(* the literal 1, operand of the witnesses of findings K1 and K2 in Properties/C08.v *)
Definition one := EAtom (TInt [49%N]).
