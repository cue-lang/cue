(* Concrete universes: non-vacuity examples and the witnesses of the places where
   the faithful model of `cue mod tidy` refutes the property as worded.  Every
   witness was replayed against the real modload.Tidy / CheckTidy (corpus/C17). *)
From Coq Require Import List Bool NArith.
From Verif Require Import Base.Order Tidy.Model Tidy.Sets Tidy.Proofs.
Import ListNotations.
Open Scope N_scope.

(* path elements *)
Definition a := 1. Definition b := 2. Definition c := 3. Definition mn := 9.
Definition x := 11. Definition y := 12. Definition z := 13.
Definition p := 14. Definition q := 15. Definition r := 16.
Definition v (mj mi : N) : ver := (mj, mi, 0, false).
Definition main0 (dirs : list path) (imps : list import) : mainmod := mkM [mn] 0 dirs imps.
Definition plain (n : node) : dep := (n, false).

(* --- W0: a fresh tidy that succeeds: nested dependencies, an unused entry is
       dropped, a transitive provider is promoted to a requirement ------------- *)
Definition u0 : universe :=
  mkU [([a], v 0 1); ([a], v 0 2); ([b], v 0 1); ([b], v 0 5); ([c], v 0 1)]
      [(([a], v 0 2), plain ([b], v 0 1))]
      [(([a], v 0 1), [p]); (([a], v 0 2), [p]); (([b], v 0 1), [q]); (([b], v 0 5), [q]); (([c], v 0 1), [r])]
      [((([a], v 0 2), [p]), ([b; q], Some 0))]
      [].
Definition m0 := main0 [[]] [([a; p], Some 0)].
Definition d0 : list dep := [plain ([c], v 0 1)].
Definition f0 : list dep := [plain ([a], v 0 2); plain ([b], v 0 1)].

Example w0_tidy : tidy_model 10 1000 u0 m0 d0 = TOk f0.
Proof. vm_compute. reflexivity. Qed.
Example w0_idempotent : tidy_model 10 1000 u0 m0 f0 = TOk f0 /\ check_model 1000 u0 m0 f0 = CAccept.
Proof. vm_compute. split; reflexivity. Qed.
Example w0_check_rejects_input : check_model 1000 u0 m0 d0 = CErr true false false.
Proof. vm_compute. reflexivity. Qed.
(* presentation: the same facts in another order, with repetitions *)
Definition u0' : universe :=
  mkU (rev (u_mods u0) ++ u_mods u0) (u_deps u0) (rev (u_pkgs u0)) (u_imps u0 ++ u_imps u0) [].
Example w0_order : tidy_model 10 1000 u0' m0 (d0 ++ d0) = TOk f0.
Proof. vm_compute. reflexivity. Qed.

(* --- W1 (finding F-C17-1): Tidy(Tidy(x)) fails.  c imports a/x/z, which only the
   transitive requirement a/x provides; tidy promotes a/x to a requirement; with
   a/x among the roots, a/x/y is found both in a (dir x/y) and in a/x (dir y). ---- *)
Definition u1 : universe :=
  mkU [([a], v 0 1); ([a; x], v 0 1); ([c], v 0 1)]
      [(([c], v 0 1), plain ([a; x], v 0 1))]
      [(([a], v 0 1), [x; y]); (([a; x], v 0 1), [y]); (([a; x], v 0 1), [z]); (([c], v 0 1), [q])]
      [((([c], v 0 1), [q]), ([a; x; z], Some 0))]
      [].
Definition m1 := main0 [[]] [([a; x; y], Some 0); ([c; q], Some 0)].
Definition d1 : list dep := [plain ([a], v 0 1); plain ([c], v 0 1)].
Definition f1 : list dep := [plain ([a], v 0 1); plain ([a; x], v 0 1); plain ([c], v 0 1)].

Example w1_tidy : tidy_model 10 1000 u1 m1 d1 = TOk f1.
Proof. vm_compute. reflexivity. Qed.
Example w1_second_tidy_fails : tidy_model 10 1000 u1 m1 f1 = TErr false true false.
Proof. vm_compute. reflexivity. Qed.
Example w1_check_fails_on_output : check_model 1000 u1 m1 f1 = CErr false true false.
Proof. vm_compute. reflexivity. Qed.

(* --- W2 (finding F-C17-2): the implicit default major version is lost.  module.cue
   lists b@v1 only, so "b/x" means b@v1; a dependency uses b/y@v2; tidy writes both
   b@v1 and b@v2 without a default, after which "b/x" no longer resolves. --------- *)
Definition u2 : universe :=
  mkU [([a], v 0 1); ([b], v 1 0); ([b], v 2 0)]
      [(([a], v 0 1), plain ([b], v 2 0))]
      [(([a], v 0 1), [p]); (([b], v 1 0), [x]); (([b], v 2 0), [y])]
      [((([a], v 0 1), [p]), ([b; y], Some 2))]
      [].
Definition m2 := main0 [[]] [([b; x], None); ([a; p], Some 0)].
Definition d2 : list dep := [plain ([b], v 1 0)].
Definition f2 : list dep := [plain ([a], v 0 1); plain ([b], v 1 0); plain ([b], v 2 0)].

Example w2_tidy : tidy_model 10 1000 u2 m2 d2 = TOk f2.
Proof. vm_compute. reflexivity. Qed.
Example w2_second_tidy_fails : tidy_model 10 1000 u2 m2 f2 = TErr true false false.
Proof. vm_compute. reflexivity. Qed.
Example w2_check_rejects_output : check_model 1000 u2 m2 f2 = CErr true false false.
Proof. vm_compute. reflexivity. Qed.

(* --- W3 (finding F-C17-3): the written requirements are not closed under minimal
   version selection.  a requires b@v0.1 and c; c (promoted to a requirement because
   a/p imports c/r) requires b@v0.2; tidy writes b@v0.1. -------------------------- *)
Definition u3 : universe :=
  mkU [([a], v 0 1); ([b], v 0 1); ([b], v 0 2); ([c], v 0 1)]
      [(([a], v 0 1), plain ([b], v 0 1)); (([a], v 0 1), plain ([c], v 0 1)); (([c], v 0 1), plain ([b], v 0 2))]
      [(([a], v 0 1), [p]); (([b], v 0 1), [q]); (([b], v 0 2), [q]); (([c], v 0 1), [r])]
      [((([a], v 0 1), [p]), ([b; q], Some 0)); ((([a], v 0 1), [p]), ([c; r], Some 0))]
      [].
Definition m3 := main0 [[]] [([a; p], Some 0)].
Definition f3 : list dep := [plain ([a], v 0 1); plain ([b], v 0 1); plain ([c], v 0 1)].

Example w3_tidy : tidy_model 10 1000 u3 m3 [] = TOk f3.
Proof. vm_compute. reflexivity. Qed.
Example w3_accepted : tidy_model 10 1000 u3 m3 f3 = TOk f3 /\ check_model 1000 u3 m3 f3 = CAccept.
Proof. vm_compute. split; reflexivity. Qed.

(* --- W5 (finding F-C17-4): Tidy(Tidy(x)) <> Tidy(x), both succeed.  b is reached
   only through a, so in the first run b's requirement c@v1 is pruned from the module
   graph and b's unversioned import "c/z" falls back to the main module's default
   (c@v2); tidy promotes b to a requirement; in the second run b's requirements are
   read, "c/z" inside b means c@v1, and c@v1 is added. ---------------------------- *)
Definition u5 : universe :=
  mkU [([a], v 0 1); ([b], v 0 1); ([c], v 1 0); ([c], v 2 0)]
      [(([a], v 0 1), plain ([b], v 0 1)); (([b], v 0 1), plain ([c], v 1 0))]
      [(([a], v 0 1), [p]); (([b], v 0 1), [x]); (([c], v 1 0), [z]); (([c], v 2 0), [z])]
      [((([a], v 0 1), [p]), ([b; x], Some 0)); ((([b], v 0 1), [x]), ([c; z], None))]
      [].
Definition m5 := main0 [[]] [([a; p], Some 0); ([c; z], Some 2)].
Definition f5 : list dep := [plain ([a], v 0 1); plain ([b], v 0 1); plain ([c], v 2 0)].
Definition f5' : list dep := [plain ([a], v 0 1); plain ([b], v 0 1); plain ([c], v 1 0); plain ([c], v 2 0)].

Example w5_tidy : tidy_model 10 1000 u5 m5 [] = TOk f5.
Proof. vm_compute. reflexivity. Qed.
Example w5_second_tidy_differs : tidy_model 10 1000 u5 m5 f5 = TOk f5' /\ check_model 1000 u5 m5 f5 = CReject.
Proof. vm_compute. split; reflexivity. Qed.
Example w5_third_tidy_stable : tidy_model 10 1000 u5 m5 f5' = TOk f5' /\ check_model 1000 u5 m5 f5' = CAccept.
Proof. vm_compute. split; reflexivity. Qed.

(* --- W4: a lexical candidate that provides nothing still drives version selection.
   a/x/y is provided by a; the query also adds a/x (latest), whose requirement b@v0.3
   raises b; a/x is then pruned but b stays at v0.3 although only b@v0.1 is required
   by what remains. --------------------------------------------------------------- *)
Definition u4 : universe :=
  mkU [([a], v 0 1); ([a; x], v 0 1); ([b], v 0 1); ([b], v 0 3); ([c], v 0 1)]
      [(([a; x], v 0 1), plain ([b], v 0 3)); (([c], v 0 1), plain ([b], v 0 1))]
      [(([a], v 0 1), [x; y]); (([a; x], v 0 1), [z]); (([b], v 0 1), [p]); (([b], v 0 3), [p]); (([c], v 0 1), [q])]
      [((([c], v 0 1), [q]), ([b; p], Some 0))]
      [].
Definition m4 := main0 [[]] [([a; x; y], Some 0); ([c; q], Some 0)].
Example w4_tidy : tidy_model 10 1000 u4 m4 [] =
                  TOk [plain ([a], v 0 1); plain ([b], v 0 3); plain ([c], v 0 1)].
Proof. vm_compute. reflexivity. Qed.

(* non-vacuity of the positive theorems: an accepted, tidy module file *)
Example w0_is_tidy : IsTidy (norm_universe u0) (norm_main m0) f0.
Proof. apply (accepted_is_tidy _ _ 20). vm_compute. reflexivity. Qed.
Example w0_wf : wf_file (norm_main m0) f0.
Proof.
  apply (tidy_output_wf (norm_universe u0) (norm_main m0)) with (fuel := 3%nat) (ifuel := 20%nat) (ds := norm_deps d0).
  - vm_compute. intros n Hn. repeat (destruct Hn as [<-|Hn]; [discriminate|]). destruct Hn.
  - vm_compute. reflexivity.
Qed.
Example w0_mvs_closed : mvs_closed (norm_universe u0) f0.
Proof.
  intros d q d' Hd Hq Hd' E.
  destruct Hd as [<-|[<-|[]]]; vm_compute in Hq.
  - destruct Hq as [<-|[]]. destruct Hd' as [<-|[<-|[]]]; [discriminate E | apply ver_le_refl].
  - destruct Hq.
Qed.
