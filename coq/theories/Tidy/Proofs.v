From Coq Require Import List Bool NArith Arith Lia Sorted Permutation.
From Verif Require Import Base.Order Tidy.Model Tidy.Sets.
Import ListNotations.

Definition set_eq {A} (l l' : list A) : Prop := forall z, In z l <-> In z l'.

Lemma norm_universe_set_eq u u' :
  set_eq (u_mods u) (u_mods u') -> set_eq (u_deps u) (u_deps u') ->
  set_eq (u_pkgs u) (u_pkgs u') -> set_eq (u_imps u) (u_imps u') -> set_eq (u_std u) (u_std u') ->
  norm_universe u = norm_universe u'.
Proof.
  intros H1 H2 H3 H4 H5. unfold norm_universe.
  f_equal; apply sort_dedup_set_eq; auto with total_cmp.
Qed.

Lemma norm_main_set_eq m m' :
  m_base m = m_base m' -> m_major m = m_major m' ->
  set_eq (m_dirs m) (m_dirs m') -> set_eq (m_imports m) (m_imports m') ->
  norm_main m = norm_main m'.
Proof.
  intros H1 H2 H3 H4. unfold norm_main. rewrite H1, H2.
  f_equal; apply sort_dedup_set_eq; auto with total_cmp.
Qed.

Lemma norm_deps_set_eq ds ds' : set_eq ds ds' -> norm_deps ds = norm_deps ds'.
Proof. apply sort_dedup_set_eq, dep_cmp_total. Qed.

(* files, imports, module.cue entries, registry contents: only the SETS matter
   (any permutation, any repetition, any distribution over files) *)
Theorem resolve_order_independent fuel ifuel u u' m m' ds ds' :
  set_eq (u_mods u) (u_mods u') -> set_eq (u_deps u) (u_deps u') ->
  set_eq (u_pkgs u) (u_pkgs u') -> set_eq (u_imps u) (u_imps u') -> set_eq (u_std u) (u_std u') ->
  m_base m = m_base m' -> m_major m = m_major m' ->
  set_eq (m_dirs m) (m_dirs m') -> set_eq (m_imports m) (m_imports m') ->
  set_eq ds ds' ->
  tidy_model fuel ifuel u m ds = tidy_model fuel ifuel u' m' ds' /\
  check_model ifuel u m ds = check_model ifuel u' m' ds'.
Proof.
  intros. unfold tidy_model, check_model.
  rewrite (norm_universe_set_eq u u'), (norm_main_set_eq m m'), (norm_deps_set_eq ds ds'); auto.
Qed.

(* LoadPackages computes exactly the reachable packages *)
Section Closure.
  Variable proc : import -> pentry.
  Variable init : list import.

  Inductive reach : import -> Prop :=
  | reach_init k : In k init -> reach k
  | reach_step k i : reach k -> In i (pe_imports (proc k)) -> reach i.

  Definition keys (l : list (import * pentry)) : list import := map fst l.

  Definition known (seen : list (import * pentry)) (todo : list import) (k : import) : Prop :=
    In k (keys seen) \/ In k todo.

  Record cinv (seen : list (import * pentry)) (todo : list import) : Prop := {
    ci_proc : forall k e, In (k, e) seen -> e = proc k;
    ci_reach : forall k, known seen todo k -> reach k;
    ci_init : forall k, In k init -> known seen todo k;
    ci_closed : forall k e i, In (k, e) seen -> In i (pe_imports e) -> known seen todo i }.

  Lemma seen_mem seen k :
    existsb (fun e : import * pentry => import_eqb (fst e) k) seen = true <-> In k (keys seen).
  Proof.
    rewrite existsb_exists. unfold keys. rewrite in_map_iff. split.
    - intros [e [He E]]. apply import_eqb_iff in E. eauto.
    - intros [e [E He]]. exists e. split; [exact He|]. apply import_eqb_iff. exact E.
  Qed.

  (* the two moves of the closure loop: the head of todo is loaded already and is dropped,
     or it is loaded and its imports are queued *)
  Lemma known_drop_loaded seen k rest x :
    In k (keys seen) -> (known seen (k :: rest) x <-> known seen rest x).
  Proof. unfold known. simpl. intros Hk. split; [intros [?|[<-|?]]; auto | tauto]. Qed.

  Lemma known_load seen k rest x :
    known seen (k :: rest) x -> known ((k, proc k) :: seen) (pe_imports (proc k) ++ rest) x.
  Proof.
    unfold known. simpl. intros [H|[H|H]]; [left; right; exact H | left; left; exact H | right].
    apply in_or_app. right. exact H.
  Qed.

  Lemma closure_inv fuel : forall seen todo s,
    cinv seen todo -> closure fuel proc seen todo = Some s -> cinv s [].
  Proof.
    induction fuel as [|f IH]; intros seen todo s Hi; destruct todo as [|k rest]; simpl;
      try discriminate; try (intros [= <-]; exact Hi).
    destruct Hi as [H1 H2 H3 H4]. destruct (existsb _ seen) eqn:E; apply IH.
    - apply seen_mem in E. pose proof (fun x => known_drop_loaded seen k rest x E) as M.
      constructor; [exact H1 | intros x Hx; apply H2, M, Hx | intros x Hx; apply M, H3, Hx |].
      intros k' e i Hke Hi. apply M, (H4 k' e i Hke Hi).
    - pose proof (known_load seen k rest) as M.
      assert (Hk : reach k) by (apply H2; right; left; reflexivity).
      constructor.
      + intros k' e [[= <- <-]|H]; [reflexivity | eauto].
      + intros x [[<-|Hx]|Hx]; [exact Hk | apply H2; left; exact Hx |].
        apply in_app_or in Hx.
        destruct Hx as [Hx|Hx]; [exact (reach_step _ _ Hk Hx) | apply H2; right; right; exact Hx].
      + intros x Hx. apply M, H3, Hx.
      + intros k' e i [[= <- <-]|Hke] Hi; [right; apply in_or_app; left; exact Hi|].
        apply M, (H4 k' e i Hke Hi).
  Qed.

  Theorem closure_entries fuel s k e :
    closure fuel proc [] init = Some s -> (In (k, e) s <-> reach k /\ e = proc k).
  Proof.
    intros H. apply closure_inv in H.
    2:{ constructor; [intros x y [] | intros x [[]|Hx]; apply reach_init, Hx | right; assumption | intros x y i []]. }
    destruct H as [H1 H2 H3 H4].
    assert (Hp : forall x, In x (keys s) -> In (x, proc x) s).
    { intros x Hx. apply in_map_iff in Hx. destruct Hx as [[x' e'] [E He]]. simpl in E. subst x'.
      rewrite <- (H1 x e' He). exact He. }
    split.
    - intros Hin. split; [|exact (H1 k e Hin)]. apply H2. left. apply in_map_iff. exists (k, e). auto.
    - intros [Hk ->]. apply Hp. induction Hk as [k Hk|k i Hk IH Hi].
      + destruct (H3 k Hk) as [H|[]]. exact H.
      + destruct (H4 k (proc k) i (Hp k IH) Hi) as [H|[]]. exact H.
  Qed.
End Closure.

Lemma seen_mpath seen mp : existsb (mpath_eqb mp) seen = true <-> In mp seen.
Proof. apply existsb_eqb_in, mpath_eqb_iff. Qed.

Lemma dedup_paths_mpaths seen l mp :
  In mp (map n_mpath (dedup_paths seen l)) <-> In mp (map n_mpath l) /\ ~ In mp seen.
Proof.
  revert seen. induction l as [|n l IH]; intros seen; simpl; [tauto|].
  destruct (existsb (mpath_eqb (n_mpath n)) seen) eqn:E.
  - apply seen_mpath in E. rewrite IH. split; [tauto|]. intros [[<-|H] Hs]; tauto.
  - apply not_true_iff_false in E. rewrite seen_mpath in E. simpl. rewrite IH. simpl.
    assert (Hd : n_mpath n = mp \/ n_mpath n <> mp).
    { destruct (mpath_eqb (n_mpath n) mp) eqn:Ee; [left; apply mpath_eqb_iff, Ee | right].
      intros H. apply mpath_eqb_iff in H. congruence. }
    split; [intros [<-|H]; tauto | tauto].
Qed.

Lemma dedup_paths_NoDup seen l : NoDup (map n_mpath (dedup_paths seen l)).
Proof.
  revert seen. induction l as [|n l IH]; intros seen; simpl; [constructor|].
  destruct (existsb (mpath_eqb (n_mpath n)) seen); [apply IH|].
  simpl. constructor; [|apply IH]. rewrite dedup_paths_mpaths. intros [_ H]. apply H. left. reflexivity.
Qed.

(* the deduplicated list has the same module paths without repetition, so it is as long
   as the original exactly when the original has no repetition either *)
Lemma unique_paths_iff l : unique_paths l = true <-> NoDup (map n_mpath l).
Proof.
  unfold unique_paths. rewrite Nat.eqb_eq, <- (map_length n_mpath (dedup_paths [] l)), <- (map_length n_mpath l).
  assert (Hi : forall mp, In mp (map n_mpath (dedup_paths [] l)) <-> In mp (map n_mpath l)).
  { intros mp. rewrite dedup_paths_mpaths. simpl. tauto. }
  pose proof (dedup_paths_NoDup [] l) as Hd. split.
  - intros E. apply (NoDup_incl_NoDup Hd); [rewrite E; apply le_n | intros mp; apply Hi].
  - intros Hn. apply Nat.le_antisymm.
    + apply (NoDup_incl_length Hd). intros mp. apply Hi.
    + apply (NoDup_incl_length Hn). intros mp. apply Hi.
Qed.

Lemma providers_in l n :
  In n (providers l) <-> exists k e, In (k, e) l /\ pe_found e = Found (PExt n).
Proof.
  unfold providers. rewrite (In_sort_dedup node_cmp node_cmp_total), in_flat_map. split.
  - intros [[k e] [H1 H2]]. simpl in H2. destruct (pe_found e) as [[|n'|]| | |] eqn:E; simpl in H2; try tauto.
    destruct H2 as [<-|[]]. eauto.
  - intros [k [e [H1 H2]]]. exists (k, e). split; [exact H1|]. simpl. rewrite H2. left; reflexivity.
Qed.

Lemma providers_sorted l : ssorted node_cmp (providers l).
Proof. apply sort_dedup_sorted, node_cmp_total. Qed.

(* a load without errors in which every module path is loaded at one version: what
   tidyOnce and CheckTidy ask for before they look at the providers *)
Definition load_ok (l : list (import * pentry)) : Prop :=
  existsb (fun e => entry_bad (snd e)) l = false /\ unique_paths (providers l) = true.

Section Spec.
  Variable u : universe.
  Variable mm : mainmod.

  (* the packages transitively imported by the main module, under requirements rs *)
  Definition Reach (rs : reqs) : import -> Prop := reach (process u mm rs) (m_imports mm).
  (* the import resolves: exactly one module of the build list provides it (or the main
     module, or the standard library), and so do the unversioned imports of its files *)
  Definition resolves (rs : reqs) (k : import) : Prop := entry_bad (process u mm rs k) = false.
  Definition provides (rs : reqs) (k : import) (n : node) : Prop :=
    pe_found (process u mm rs k) = Found (PExt n).

  (* module.cue [ds] is tidy: every import of every reachable package resolves; the
     entries are exactly the modules that provide a reachable package, at the version
     it is loaded from (nothing missing, nothing unused); one entry per module path *)
  Record IsTidy (ds : list dep) : Prop := {
    it_resolves : forall k, Reach (of_file mm ds) k -> resolves (of_file mm ds) k;
    it_exact : forall n, In n (map fst ds) <->
                         exists k, Reach (of_file mm ds) k /\ provides (of_file mm ds) k n;
    it_paths : NoDup (map n_mpath (r_roots (of_file mm ds))) }.

  Lemma of_file_roots_in ds n : In n (r_roots (of_file mm ds)) <-> In n (map fst ds).
  Proof. simpl. apply In_sort_dedup, node_cmp_total. Qed.

  Lemma load_entries ifuel rs l k e :
    load u mm ifuel rs = Some l -> (In (k, e) l <-> Reach rs k /\ e = process u mm rs k).
  Proof. apply closure_entries. Qed.

  Lemma load_providers ifuel rs l n :
    load u mm ifuel rs = Some l ->
    (In n (providers l) <-> exists k, Reach rs k /\ provides rs k n).
  Proof.
    intros H. rewrite providers_in. setoid_rewrite (load_entries ifuel rs l _ _ H). split.
    - intros [k [e [[Hr ->] Hf]]]. exists k. auto.
    - intros [k [Hr Hp]]. exists k, (process u mm rs k). auto.
  Qed.

  Lemma load_ok_spec ifuel rs l :
    load u mm ifuel rs = Some l ->
    (load_ok l <-> (forall k, Reach rs k -> resolves rs k) /\ NoDup (map n_mpath (providers l))).
  Proof.
    intros H. unfold load_ok. rewrite existsb_false, unique_paths_iff.
    apply and_iff_compat_r. split.
    - intros Hb k Hk. apply (Hb (k, process u mm rs k)), (load_entries ifuel rs l _ _ H). auto.
    - intros Hr [k e] Hin. apply (load_entries ifuel rs l _ _ H) in Hin. destruct Hin as [Hk ->].
      apply Hr, Hk.
  Qed.

  (* equalRequirements: the verdict of CheckTidy in terms of its one load *)
  Lemma check_accept_iff ifuel ds l :
    load u mm ifuel (of_file mm ds) = Some l ->
    (check u mm ifuel ds = CAccept <-> load_ok l /\ r_roots (of_file mm ds) = providers l).
  Proof.
    intros Hl. unfold check, load_ok. rewrite Hl, <- (list_eqb_iff node_eqb node_eqb_iff).
    destruct (existsb _ l); [unfold err_of; intuition discriminate|].
    destruct (unique_paths _), (list_eqb _ _ _); intuition discriminate.
  Qed.

  Lemma check_accept_inv ifuel ds :
    check u mm ifuel ds = CAccept ->
    exists l, load u mm ifuel (of_file mm ds) = Some l /\ load_ok l /\
              r_roots (of_file mm ds) = providers l.
  Proof.
    intros H. destruct (load u mm ifuel (of_file mm ds)) as [l|] eqn:Hl.
    - exists l. split; [reflexivity|]. apply (check_accept_iff ifuel ds l Hl), H.
    - unfold check in H. rewrite Hl in H. discriminate.
  Qed.

  (* l is not in the conclusion: the premise only says that the load is defined *)
  Theorem is_tidy_check_accepts ifuel ds l :
    load u mm ifuel (of_file mm ds) = Some l ->
    (check u mm ifuel ds = CAccept <-> IsTidy ds).
  Proof.
    intros Hl. rewrite (check_accept_iff ifuel ds l Hl), (load_ok_spec ifuel _ l Hl).
    pose proof (fun n => load_providers ifuel _ l n Hl) as Hprov.
    split.
    - intros [[Hr Hn] Er]. constructor.
      + exact Hr.
      + intros n. rewrite <- of_file_roots_in, Er. apply Hprov.
      + rewrite Er. exact Hn.
    - intros [H1 H2 H3].
      (* both sides are canonical forms of the same set *)
      assert (Er : r_roots (of_file mm ds) = providers l).
      { apply (sort_dedup_unique node_cmp node_cmp_total); [apply providers_sorted|].
        intros n. rewrite H2. symmetry. apply Hprov. }
      rewrite <- Er. auto.
  Qed.

  Lemma accepted_is_tidy ifuel ds : check u mm ifuel ds = CAccept -> IsTidy ds.
  Proof.
    intros H. destruct (check_accept_inv ifuel ds H) as [l [Hl _]].
    apply (is_tidy_check_accepts ifuel ds l Hl), H.
  Qed.
End Spec.

Lemma missing_keys_nil l :
  existsb (fun e : import * pentry => entry_bad (snd e)) l = false -> missing_keys l = [].
Proof.
  intros H. unfold missing_keys.
  destruct (filter _ l) as [|[k e] t] eqn:Ef; [reflexivity|]. exfalso.
  assert (Hin : In (k, e) ((k, e) :: t)) by (left; reflexivity).
  rewrite <- Ef in Hin. apply filter_In in Hin. destruct Hin as [Hin Hm].
  rewrite existsb_false in H. specialize (H (k, e) Hin). simpl in *.
  unfold entry_bad in H. destruct (pe_found e); discriminate.
Qed.

(* the shape tidy writes (sorted, one entry per module path, none on the main module's base
   path, one default per base path); File.init accepts such a file *)
Record wf_file (mm : mainmod) (ds : list dep) : Prop := {
  wf_sorted : ssorted dep_cmp ds;
  wf_paths : NoDup (map (fun d : dep => n_mpath (fst d)) ds);
  wf_nomain : forall d, In d ds -> fst (fst d) <> m_base mm;
  wf_default : forall d d', In d ds -> In d' ds -> snd d = true -> snd d' = true ->
                            fst (fst d) = fst (fst d') -> d = d' }.

Lemma lookup_default_some ds p m : lookup_default ds p = Some m -> In (p, m) ds.
Proof.
  induction ds as [|[q k] ds IH]; simpl; [discriminate|].
  destruct (path_eqb q p) eqn:E; [|auto]. apply path_eqb_iff in E. intros [= <-]. left. congruence.
Qed.

Lemma lookup_default_none ds p m : lookup_default ds p = None -> ~ In (p, m) ds.
Proof.
  induction ds as [|[q k] ds IH]; simpl; [tauto|].
  destruct (path_eqb q p) eqn:E; [discriminate|]. intros H [[= -> _]|Hin]; [|exact (IH H Hin)].
  rewrite (eqb_of_refl path_cmp path_cmp_total) in E. discriminate.
Qed.

(* DefaultMajorVersions of a module file: the main module and the entries marked default *)
Lemma of_file_defaults_in mm ds mp :
  In mp (r_defaults (of_file mm ds)) <->
  mp = (m_base mm, m_major mm) \/ exists d, In d ds /\ snd d = true /\ n_mpath (fst d) = mp.
Proof.
  simpl. rewrite in_flat_map. split.
  - intros [E|[d [Hd H]]]; [left; congruence | right]. exists d.
    destruct (snd d); [|destruct H]. destruct H as [E|[]]. auto.
  - intros [->|[d [Hd [Hf E]]]]; [left; reflexivity | right]. exists d. rewrite Hf. split; [exact Hd | left; exact E].
Qed.

Lemma to_file_of_file mm ds : wf_file mm ds -> to_file (of_file mm ds) = ds.
Proof.
  intros [Hs Hp Hm Hd]. unfold to_file.
  assert (Hr : r_roots (of_file mm ds) = map fst ds).
  { apply (sort_dedup_id node_cmp node_cmp_total), (ssorted_map dep_cmp); [exact Hs|].
    intros d d' Hin Hin' Hlt. unfold dep_cmp, lex in Hlt.
    destruct (node_cmp (fst d) (fst d')) eqn:E; try congruence.
    apply (tc_eq node_cmp node_cmp_total) in E.
    assert (d = d') by (apply (NoDup_map_inj _ _ _ _ Hp); congruence). subst d'.
    rewrite (tc_refl bool_cmp bool_cmp_total) in Hlt. discriminate. }
  rewrite Hr, map_map. rewrite <- (map_id ds) at 2. apply map_ext_in. intros [n f] Hin. simpl fst. f_equal.
  destruct (lookup_default _ (fst n)) as [m|] eqn:El.
  - apply lookup_default_some, of_file_defaults_in in El. destruct El as [[= E _]|[d' [H1 [H2 [= Ep <-]]]]].
    { destruct (Hm _ Hin). exact E. }
    destruct f.
    + rewrite (Hd d' (n, true) H1 Hin H2 eq_refl Ep). apply N.eqb_refl.
    + apply not_true_iff_false. intros E. apply N.eqb_eq in E.
      assert (E' : d' = (n, false)) by (apply (NoDup_map_inj _ _ _ _ Hp); auto; unfold n_mpath; simpl; congruence).
      rewrite E' in H2. discriminate.
  - destruct f; [|reflexivity]. destruct (lookup_default_none _ _ (v_major (snd n)) El).
    apply of_file_defaults_in. right. exists (n, true). auto.
Qed.

Section Accepted.
  Variable u : universe.
  Variable mm : mainmod.

  Theorem tidy_fixpoint_of_accepted fuel ifuel ds :
    wf_file mm ds -> check u mm ifuel ds = CAccept -> tidy u mm (S fuel) ifuel ds = TOk ds.
  Proof.
    intros Hwf Hc. destruct (check_accept_inv u mm ifuel ds Hc) as [l [Hl [[Hb Hu] Hr]]].
    unfold tidy. simpl. rewrite Hl.
    unfold to_add, new_defaults. rewrite (missing_keys_nil l Hb). simpl.
    unfold finish. rewrite Hb, Hu. rewrite <- Hr.
    replace (mkR (r_roots (of_file mm ds)) (r_defaults (of_file mm ds))) with (of_file mm ds) by reflexivity.
    f_equal. apply to_file_of_file, Hwf.
  Qed.
End Accepted.

Definition ver_le (v w : ver) : Prop := ver_cmp v w <> Gt.

Lemma ver_le_refl v : ver_le v v.
Proof. exact (tc_le_refl _ ver_cmp_total v). Qed.

Lemma ver_le_trans a b c : ver_le a b -> ver_le b c -> ver_le a c.
Proof. exact (tc_le_trans _ ver_cmp_total a b c). Qed.

Lemma ver_le_antisym v w : ver_le v w -> ver_le w v -> v = w.
Proof. exact (tc_le_antisym _ ver_cmp_total v w). Qed.

Lemma ver_ltb_min_le_max v w : ver_le (if ver_ltb v w then v else w) (if ver_ltb v w then w else v).
Proof.
  unfold ver_ltb, ver_le. destruct (ver_cmp v w) eqn:E; try congruence;
    rewrite (tc_opp ver_cmp ver_cmp_total), E; discriminate.
Qed.

Lemma max_ver_none l : max_ver l = None -> l = [].
Proof. destruct l as [|x l]; [reflexivity|]. simpl. destruct (max_ver l); discriminate. Qed.

Lemma max_ver_spec l v :
  max_ver l = Some v -> In v l /\ forall w, In w l -> ver_le w v.
Proof.
  revert v. induction l as [|x l IH]; simpl; [discriminate|]. intros v.
  destruct (max_ver l) as [w|] eqn:E; intros [= <-].
  - destruct (IH w eq_refl) as [H1 H2]. pose proof (ver_ltb_min_le_max x w) as Hle.
    destruct (ver_ltb x w).
    + split; [right; exact H1|]. intros y [<-|Hy]; [exact Hle | apply H2, Hy].
    + split; [left; reflexivity|]. intros y [<-|Hy]; [apply ver_le_refl|].
      exact (ver_le_trans _ _ _ (H2 y Hy) Hle).
  - apply max_ver_none in E. subst l.
    split; [left; reflexivity|]. intros y [<-|[]]. apply ver_le_refl.
Qed.

(* Selected / RootSelected: the maximum over the nodes of that module path *)
Definition max_over (nodes : list node) (mp : mpath) : option ver :=
  max_ver (map snd (filter (fun r => mpath_eqb (n_mpath r) mp) nodes)).

Lemma selected_max_over u rs mp : selected u rs mp = max_over (graph_nodes u rs) mp.
Proof. reflexivity. Qed.

Lemma root_selected_max_over rs mp : root_selected rs mp = max_over (r_roots rs) mp.
Proof. reflexivity. Qed.

Lemma max_over_spec (nodes : list node) mp v :
  max_over nodes mp = Some v ->
  In (fst mp, v) nodes /\ v_major v = snd mp /\
  forall n, In n nodes -> n_mpath n = mp -> ver_le (snd n) v.
Proof.
  unfold max_over. intros H. apply max_ver_spec in H. destruct H as [H1 H2].
  apply in_map_iff in H1. destruct H1 as [[b w] [E Hin]]. simpl in E. subst w.
  apply filter_In in Hin. destruct Hin as [Hin Hmp]. apply mpath_eqb_iff in Hmp.
  unfold n_mpath in Hmp. simpl in Hmp. subst mp. simpl. repeat split; auto.
  intros n Hn En. apply H2. apply in_map. apply filter_In. split; [exact Hn|].
  apply mpath_eqb_iff. exact En.
Qed.

Lemma max_over_none (nodes : list node) mp :
  max_over nodes mp = None -> ~ In mp (map n_mpath nodes).
Proof.
  unfold max_over. intros H Hin. apply in_map_iff in Hin. destruct Hin as [n [E Hn]].
  apply max_ver_none, map_eq_nil in H.
  assert (Hin : In n (filter (fun r => mpath_eqb (n_mpath r) mp) nodes)).
  { apply filter_In. split; [exact Hn | apply mpath_eqb_iff; exact E]. }
  rewrite H in Hin. destruct Hin.
Qed.

Section Settled.
  Variable u : universe.

  (* every root is at the version the module graph of the roots selects for its path *)
  Definition settled (rs : reqs) : Prop :=
    forall r, In r (r_roots rs) -> selected u rs (n_mpath r) = Some (snd r).

  Lemma selected_root_some rs r : In r (r_roots rs) -> selected u rs (n_mpath r) <> None.
  Proof.
    intros Hr H. rewrite selected_max_over in H. apply (max_over_none _ _ H), in_map.
    unfold graph_nodes. apply in_or_app. left. exact Hr.
  Qed.

  (* updateRoots replaces a root by the selected version of the same module path *)
  Definition reselect1 (rs : reqs) (r : node) : node :=
    match selected u rs (n_mpath r) with Some v => (fst r, v) | None => r end.

  Lemma reselect_map ds roots :
    reselect u ds roots = dedup_paths [] (map (reselect1 (mkR roots ds)) roots).
  Proof. reflexivity. Qed.

  Lemma reselect1_mpath rs r : n_mpath (reselect1 rs r) = n_mpath r.
  Proof.
    unfold reselect1. destruct (selected u rs (n_mpath r)) as [v|] eqn:Es; [|reflexivity].
    rewrite selected_max_over in Es. apply max_over_spec in Es. destruct Es as [_ [Hm _]]. unfold n_mpath in *. simpl in *. congruence.
  Qed.

  Lemma dedup_paths_incl seen l x : In x (dedup_paths seen l) -> In x l.
  Proof.
    revert seen. induction l as [|n l IH]; intros seen; simpl; [tauto|].
    destruct (existsb _ seen); simpl; intros H.
    - right. eapply IH; eauto.
    - destruct H as [<-|H]; [left; reflexivity | right; eapply IH; eauto].
  Qed.

  (* the roots are kept in canonical form, so a pass that changes no root leaves them as they are *)
  Lemma settle_settled fuel ds : forall roots roots',
    ssorted node_cmp roots ->
    settle u fuel ds roots = Some (Some roots') -> settled (mkR (sort_dedup node_cmp roots') ds).
  Proof.
    induction fuel as [|f IH]; intros roots roots' Hs; simpl; [discriminate|].
    destruct (graph_ok u (mkR roots ds)); [|discriminate].
    destruct (forallb _ roots) eqn:Hconv; [|apply IH, sort_dedup_sorted, node_cmp_total].
    intros [= <-].
    assert (Hsub : forall x, In x (reselect u ds roots) -> exists r, In r roots /\ x = reselect1 (mkR roots ds) r).
    { intros x Hx. rewrite reselect_map in Hx. apply dedup_paths_incl, in_map_iff in Hx.
      destruct Hx as [r [E Hr]]. exists r. split; [exact Hr | symmetry; exact E]. }
    assert (Hin : forall r, In r roots -> In r (reselect u ds roots)).
    { intros r Hr. rewrite forallb_forall in Hconv.
      apply (existsb_eqb_in node_eqb node_eqb_iff), Hconv, Hr. }
    assert (Hsel : settled (mkR roots ds)).
    { intros r Hr. destruct (Hsub r (Hin r Hr)) as [r' [Hr' E]].
      rewrite E, reselect1_mpath. unfold reselect1.
      destruct (selected u (mkR roots ds) (n_mpath r')) eqn:Es; [reflexivity|].
      destruct (selected_root_some (mkR roots ds) r' Hr' Es). }
    rewrite (sort_dedup_unique node_cmp node_cmp_total _ roots Hs); [exact Hsel|].
    intros x. split; [|apply Hin]. intros Hx. destruct (Hsub x Hx) as [r [Hr ->]]. unfold reselect1. rewrite (Hsel r Hr).
    destruct r; exact Hr.
  Qed.

  Theorem update_roots_settled ifuel rs l add rs2 :
    update_roots u ifuel rs l add = Some (Some rs2) -> settled rs2.
  Proof.
    unfold update_roots. destruct (settle u ifuel (r_defaults rs) _) as [[roots'|]|] eqn:Es; try discriminate.
    intros [= <-]. eapply settle_settled; [|exact Es]. apply sort_dedup_sorted, node_cmp_total.
  Qed.
End Settled.

Section Sound.
  Variable u : universe.
  Variable mm : mainmod.

  Lemma mod_exists_in n : mod_exists u n = true <-> In n (u_mods u).
  Proof. apply existsb_eqb_in, node_eqb_iff. Qed.

  Lemma cands_in sel dflt i sps ps x :
    cands u mm sel dflt i sps = Some ps -> In x ps ->
    exists sp psp, In sp sps /\ cand_at u mm sel dflt i sp = Some psp /\ In x psp.
  Proof.
    revert ps. induction sps as [|sp sps IH]; simpl; intros ps.
    - intros [= <-] [].
    - destruct (cand_at u mm sel dflt i sp) as [a|] eqn:Ea; [|discriminate].
      destruct (cands u mm sel dflt i sps) as [b|] eqn:Eb; [|discriminate].
      intros [= <-] Hin. apply in_app_or in Hin. destruct Hin as [Hin|Hin].
      + exists sp, a. auto.
      + destruct (IH b eq_refl Hin) as [sp' [psp [H1 H2]]]. exists sp', psp. auto.
  Qed.

  (* a package found in an external module: the module is in the registry, at the
     version that the roots, or else the whole module graph, select for its path *)
  Lemma find_pkg_ext rs dflt i n :
    find_pkg u mm rs dflt i = Found (PExt n) ->
    mod_exists u n = true /\
    exists m, root_selected rs (fst n, m) = Some (snd n) \/ selected u rs (fst n, m) = Some (snd n).
  Proof.
    assert (Hc : forall sel ps, cands u mm sel dflt i (splits (fst i)) = Some ps -> In (PExt n) ps ->
                 mod_exists u n = true /\ exists m, sel (fst n, m) = Some (snd n)).
    { intros sel ps Hps Hin. destruct (cands_in _ _ _ _ _ _ Hps Hin) as [[pre dir] [psp [_ [Hc Hx]]]].
      unfold cand_at in Hc.
      destruct (match snd i with Some m => Some m | None => dflt pre end) as [m|]; [|injection Hc as <-; destruct Hx].
      destruct (mpath_eqb (pre, m) (main_mpath mm)).
      { injection Hc as <-. destruct (main_has mm dir); [destruct Hx as [E|[]]; discriminate | destruct Hx]. }
      destruct (sel (pre, m)) as [v|] eqn:Es; [|injection Hc as <-; destruct Hx].
      destruct (mod_exists u (pre, v)) eqn:Em; [|discriminate]. injection Hc as <-.
      destruct (has_pkg u (pre, v) dir); [|destruct Hx]. destruct Hx as [[= <-]|[]].
      split; [exact Em | exists m; exact Es]. }
    unfold find_pkg.
    destruct (cands u mm (root_selected rs) dflt i (splits (fst i))) as [[|x [|y ps]]|] eqn:E1; try discriminate.
    - destruct (graph_ok u rs); [|discriminate].
      destruct (cands u mm (selected u rs) dflt i (splits (fst i))) as [[|x [|y ps]]|] eqn:E2; try discriminate.
      intros [= ->]. destruct (Hc _ _ E2 (or_introl eq_refl)) as [Hm [m Hs]]. eauto.
    - intros [= ->]. destruct (Hc _ _ E1 (or_introl eq_refl)) as [Hm [m Hs]]. eauto.
  Qed.

  Lemma process_found_ext rs k n :
    pe_found (process u mm rs k) = Found (PExt n) -> find_pkg u mm rs (main_default rs) k = Found (PExt n).
  Proof.
    unfold process. destruct (is_std u (fst k)); [discriminate|].
    destruct (find_pkg u mm rs (main_default rs) k) as [[|n'|]| | |]; simpl; congruence.
  Qed.

  Lemma provides_spec rs k n :
    provides u mm rs k n ->
    In n (u_mods u) /\
    (root_selected rs (n_mpath n) = Some (snd n) \/ selected u rs (n_mpath n) = Some (snd n)).
  Proof.
    intros H. apply process_found_ext, find_pkg_ext in H. destruct H as [He [m Hs]].
    split; [apply mod_exists_in, He|].
    assert (E : n_mpath n = (fst n, m)).
    { unfold n_mpath. f_equal. rewrite root_selected_max_over, selected_max_over in Hs.
      destruct Hs as [Hs|Hs]; apply max_over_spec in Hs; apply Hs. }
    rewrite E. exact Hs.
  Qed.

  Lemma finish_ok rs l F :
    finish rs l = TOk F -> load_ok l /\ F = to_file (mkR (providers l) (r_defaults rs)).
  Proof.
    unfold finish, load_ok. destruct (existsb _ l); [unfold err_of; discriminate|].
    destruct (unique_paths (providers l)); [|discriminate]. intros [= <-]. auto.
  Qed.

  Lemma no_add_no_new_defaults rs l : to_add u rs l = [] -> new_defaults u rs l = r_defaults rs.
  Proof.
    unfold to_add, new_defaults. intros H.
    assert (Hq : forall k, In k (missing_keys l) -> query u rs k = []).
    { intros k Hk. destruct (query u rs k) as [|c cs] eqn:Eq; [reflexivity|].
      assert (Hin : In c (sort_dedup node_cmp (flat_map (query u rs) (missing_keys l)))).
      { apply (In_sort_dedup node_cmp node_cmp_total), in_flat_map. exists k. rewrite Eq. simpl. auto. }
      rewrite H in Hin. destruct Hin. }
    clear H. induction (missing_keys l) as [|k ks IH]; simpl; [reflexivity|].
    rewrite (Hq k (or_introl eq_refl)). destruct (snd k); apply IH; intros x Hx; apply Hq; right; exact Hx.
  Qed.

  (* the requirements the loop stops at: an error-free load whose providers are returned *)
  Lemma resolve_loop_ok fuel ifuel : forall rs0 F,
    resolve_loop u mm fuel ifuel rs0 = TOk F ->
    exists rs l, load u mm ifuel rs = Some l /\ load_ok l /\
                 F = to_file (mkR (providers l) (r_defaults rs)) /\
                 (rs = rs0 \/ settled u rs).
  Proof.
    induction fuel as [|f IH]; intros rs0 F; simpl; [discriminate|].
    destruct (load u mm ifuel rs0) as [l|] eqn:El; [|discriminate].
    destruct (to_add u rs0 l) as [|c add] eqn:Ea.
    - rewrite (no_add_no_new_defaults rs0 l Ea). intros H. apply finish_ok in H. simpl in H.
      exists rs0, l. tauto.
    - destruct (update_roots u ifuel _ l (c :: add)) as [[rs2|]|] eqn:Eu; try discriminate.
      intros H. apply IH in H. destruct H as [rs [l' [H1 [H2 [H3 H4]]]]].
      exists rs, l'. split; [exact H1 | split; [exact H2 | split; [exact H3|]]].
      right. destruct H4 as [->|H4]; [|exact H4].
      eapply update_roots_settled; eauto.
  Qed.

  Lemma map_fst_to_file rs : map fst (to_file rs) = r_roots rs.
  Proof. unfold to_file. rewrite map_map. simpl. apply map_id. Qed.

  Theorem resolve_sound fuel ifuel ds F :
    tidy u mm fuel ifuel ds = TOk F ->
    exists rs,
      (forall k, Reach u mm rs k -> resolves u mm rs k) /\
      (forall n, In n (map fst F) <-> exists k, Reach u mm rs k /\ provides u mm rs k n) /\
      NoDup (map n_mpath (map fst F)) /\
      (forall n, In n (map fst F) ->
                 root_selected rs (n_mpath n) = Some (snd n) \/ selected u rs (n_mpath n) = Some (snd n)) /\
      (rs = of_file mm ds \/ settled u rs).
  Proof.
    unfold tidy. intros H. apply resolve_loop_ok in H. destruct H as [rs [l [Hl [Hok [-> Hst]]]]].
    apply (load_ok_spec u mm ifuel rs l Hl) in Hok. destruct Hok as [Hr Hn].
    exists rs. rewrite map_fst_to_file. simpl.
    assert (Hp := fun n => load_providers u mm ifuel rs l n Hl).
    repeat split; [exact Hr | apply Hp | apply Hp | exact Hn | | exact Hst].
    intros n Hn'. apply Hp in Hn'. destruct Hn' as [k [_ Hk]]. apply (provides_spec rs k n Hk).
  Qed.
End Sound.

Section Output.
  Variable u : universe.
  Variable mm : mainmod.
  (* no registry module shares the main module's base path *)
  Hypothesis main_base_free : forall n, In n (u_mods u) -> fst n <> m_base mm.

  Lemma to_file_wf ps ds :
    ssorted node_cmp ps -> NoDup (map n_mpath ps) -> (forall n, In n ps -> fst n <> m_base mm) ->
    wf_file mm (to_file (mkR ps ds)).
  Proof.
    intros Hs Hp Hm. unfold to_file. simpl. constructor.
    - apply (ssorted_map node_cmp); [exact Hs|]. intros n n' _ _ Hlt.
      unfold dep_cmp, lex. simpl. rewrite Hlt. reflexivity.
    - rewrite map_map. simpl. exact Hp.
    - intros d Hd. apply in_map_iff in Hd. destruct Hd as [n [<- Hn]]. simpl. apply Hm, Hn.
    - intros d d' Hd Hd'. apply in_map_iff in Hd, Hd'.
      destruct Hd as [n [<- Hn]], Hd' as [n' [<- Hn']]. simpl. intros F1 F2 E.
      assert (n = n'); [|subst; reflexivity].
      apply (NoDup_map_inj _ _ _ _ Hp Hn Hn'). rewrite <- E in F2.
      destruct (lookup_default ds (fst n)) as [m|]; [|discriminate].
      apply N.eqb_eq in F1, F2. unfold n_mpath. congruence.
  Qed.

  Theorem tidy_output_wf fuel ifuel ds F : tidy u mm fuel ifuel ds = TOk F -> wf_file mm F.
  Proof.
    unfold tidy. intros H. apply resolve_loop_ok in H. destruct H as [rs [l [Hl [[_ Hu] [-> _]]]]].
    apply to_file_wf.
    - apply providers_sorted.
    - apply unique_paths_iff, Hu.
    - intros n Hn. apply (load_providers u mm ifuel rs l n Hl) in Hn. destruct Hn as [k [_ Hk]].
      apply main_base_free, (provides_spec u mm rs k n Hk).
  Qed.
End Output.

Lemma mpaths_sort_dedup l mp : In mp (map n_mpath (sort_dedup node_cmp l)) <-> In mp (map n_mpath l).
Proof. rewrite !in_map_iff. setoid_rewrite (In_sort_dedup node_cmp node_cmp_total). reflexivity. Qed.

Lemma fresh_iff seen mp : negb (existsb (mpath_eqb mp) seen) = true <-> ~ In mp seen.
Proof. rewrite negb_true_iff, <- not_true_iff_false, seen_mpath. reflexivity. Qed.

Section Fuel.
  Variable u : universe.
  Variable mm : mainmod.

  (* registry modules whose module path is not yet a root *)
  Definition slack (roots : list node) : nat :=
    length (filter (fun n => negb (existsb (mpath_eqb (n_mpath n)) (map n_mpath roots))) (u_mods u)).

  Lemma slack_le roots : slack roots <= length (u_mods u).
  Proof.
    unfold slack. induction (u_mods u) as [|n l IH]; simpl; [lia|].
    destruct (negb _); simpl; lia.
  Qed.

  Lemma reselect_mpaths ds roots mp :
    In mp (map n_mpath (reselect u ds roots)) <-> In mp (map n_mpath roots).
  Proof.
    rewrite reselect_map, dedup_paths_mpaths, map_map.
    rewrite (map_ext _ n_mpath (reselect1_mpath u (mkR roots ds))). simpl. tauto.
  Qed.

  Lemma settle_mpaths fuel ds : forall roots roots' mp,
    settle u fuel ds roots = Some (Some roots') ->
    (In mp (map n_mpath roots') <-> In mp (map n_mpath roots)).
  Proof.
    induction fuel as [|f IH]; intros roots roots' mp; simpl; [discriminate|].
    destruct (graph_ok u (mkR roots ds)); [|discriminate].
    destruct (forallb _ roots).
    - intros [= <-]. apply reselect_mpaths.
    - intros H. rewrite (IH _ _ mp H), mpaths_sort_dedup. apply reselect_mpaths.
  Qed.

  (* updateRoots keeps the module path of every root and of every added module that is new *)
  Lemma update_roots_mpaths ifuel rs l add rs2 n :
    update_roots u ifuel rs l add = Some (Some rs2) ->
    In n (r_roots rs) \/ In n add /\ root_selected rs (n_mpath n) = None ->
    In (n_mpath n) (map n_mpath (r_roots rs2)).
  Proof.
    unfold update_roots.
    destruct (settle u ifuel (r_defaults rs) _) as [[roots'|]|] eqn:Es; try discriminate.
    intros [= <-] Hn. simpl.
    apply mpaths_sort_dedup, (settle_mpaths _ _ _ _ _ Es), mpaths_sort_dedup, in_map.
    rewrite !in_app_iff, !filter_In. destruct Hn as [Hn|[Hn Hr]]; [left; exact Hn | right; right].
    rewrite Hr. auto.
  Qed.

  Lemma latest_in vs v : latest vs = Some v -> In v vs.
  Proof.
    unfold latest. destruct (max_ver (filter (fun v => negb (v_pre v)) vs)) as [w|] eqn:E.
    - intros [= <-]. apply max_ver_spec in E. destruct E as [E _]. apply filter_In in E. tauto.
    - intros H. apply max_ver_spec in H. tauto.
  Qed.

  Lemma versions_of_in p mj v :
    In v (versions_of u p mj) ->
    In (p, v) (u_mods u) /\ match mj with Some m => v_major v = m | None => True end.
  Proof.
    unfold versions_of. intros H. apply in_map_iff in H. destruct H as [[b w] [E Hin]]. simpl in E. subst w.
    apply filter_In in Hin. destruct Hin as [Hin Hc]. simpl in Hc. apply andb_true_iff in Hc.
    destruct Hc as [Hp Hm]. apply path_eqb_iff in Hp. subst b. split; [exact Hin|].
    destruct mj; [apply N.eqb_eq, Hm | exact I].
  Qed.

  Lemma default_none_no_root rs p m : default_status rs p = DNone -> root_selected rs (p, m) = None.
  Proof.
    unfold default_status. destruct (lookup_default (r_defaults rs) p); [discriminate|].
    destruct (filter (fun r : path * ver => path_eqb (fst r) p) (r_roots rs)) as [|r [|r' t]] eqn:Ef;
      try discriminate. intros _.
    destruct (root_selected rs (p, m)) as [v|] eqn:E; [|reflexivity].
    rewrite root_selected_max_over in E. apply max_over_spec in E. destruct E as [Hin _].
    assert (Hf : In (p, v) (filter (fun r : path * ver => path_eqb (fst r) p) (r_roots rs))).
    { apply filter_In. split; [exact Hin | apply path_eqb_iff; reflexivity]. }
    rewrite Ef in Hf. destruct Hf.
  Qed.

  (* queryLatestModules only proposes registry modules whose path is not a root *)
  Lemma query_new rs i c :
    In c (query u rs i) -> In c (u_mods u) /\ root_selected rs (n_mpath c) = None.
  Proof.
    unfold query. rewrite in_flat_map. intros [[pre dir] [_ H]]. simpl in H. unfold query_at in H.
    assert (Hgo : forall mj,
      (mj = None -> default_status rs pre = DNone) ->
      In c match (match mj with Some m => root_selected rs (pre, m) | None => None end) with
           | Some _ => []
           | None => match latest (versions_of u pre mj) with Some v => [(pre, v)] | None => [] end
           end ->
      In c (u_mods u) /\ root_selected rs (n_mpath c) = None).
    { intros mj Hnone Hc.
      destruct (match mj with Some m => root_selected rs (pre, m) | None => None end) eqn:Er; [destruct Hc|].
      destruct (latest (versions_of u pre mj)) as [v|] eqn:El; [|destruct Hc].
      destruct Hc as [<-|[]]. apply latest_in, versions_of_in in El. destruct El as [Hin Hm].
      split; [exact Hin|]. unfold n_mpath. simpl. destruct mj as [m|].
      - rewrite Hm. exact Er.
      - apply default_none_no_root, Hnone. reflexivity. }
    revert H. destruct (snd i) as [m|]; [apply (Hgo (Some m)); discriminate|].
    destruct (default_status rs pre) as [m|m| |].
    - apply (Hgo (Some m)). discriminate.
    - apply (Hgo (Some m)). discriminate.
    - apply (Hgo None). reflexivity.
    - intros [].
  Qed.

  Lemma to_add_new rs l c :
    In c (to_add u rs l) -> In c (u_mods u) /\ root_selected rs (n_mpath c) = None.
  Proof.
    unfold to_add. rewrite (In_sort_dedup node_cmp node_cmp_total), in_flat_map.
    intros [k [_ H]]. eapply query_new; eauto.
  Qed.

  Lemma slack_decreases ifuel rs ds' l c add rs2 :
    to_add u rs l = c :: add ->
    update_roots u ifuel (mkR (r_roots rs) ds') l (c :: add) = Some (Some rs2) ->
    slack (r_roots rs2) < slack (r_roots rs).
  Proof.
    intros Ha Hu.
    assert (Hc : In c (to_add u rs l)) by (rewrite Ha; left; reflexivity).
    apply to_add_new in Hc. destruct Hc as [Hc1 Hc2].
    pose proof (fun n => update_roots_mpaths ifuel _ l (c :: add) rs2 n Hu) as Hup. simpl in Hup.
    unfold slack. apply (filter_length_lt _ _ _ c); [intros n|exact Hc1| |]; rewrite !fresh_iff.
    - intros Hn Hin. apply Hn. apply in_map_iff in Hin. destruct Hin as [n' [<- Hn']].
      apply Hup. left. exact Hn'.
    - exact (max_over_none _ _ Hc2).
    - intros H. apply H, Hup. right. split; [left; reflexivity | exact Hc2].
  Qed.

  Lemma resolve_loop_fuel ifuel : forall fuel rs,
    slack (r_roots rs) < fuel -> resolve_loop u mm fuel ifuel rs <> TFuel.
  Proof.
    induction fuel as [|f IH]; intros rs Hs; [lia|]. simpl.
    destruct (load u mm ifuel rs) as [l|]; [|discriminate].
    destruct (to_add u rs l) as [|c add] eqn:Ea.
    - unfold finish. destruct (existsb _ l); [unfold err_of; discriminate|].
      destruct (unique_paths _); discriminate.
    - destruct (update_roots u ifuel _ l (c :: add)) as [[rs2|]|] eqn:Eu; try discriminate.
      apply IH. pose proof (slack_decreases ifuel rs _ l c add rs2 Ea Eu). lia.
  Qed.

  (* fuel = number of registry modules + 1 is enough for the resolve loop: each
     round that does not stop adds a module path of the registry to the roots *)
  Theorem resolve_fuel_sufficient fuel ifuel ds :
    length (u_mods u) < fuel -> tidy u mm fuel ifuel ds <> TFuel.
  Proof.
    intros H. apply resolve_loop_fuel. pose proof (slack_le (r_roots (of_file mm ds))). lia.
  Qed.
End Fuel.

(* the written requirements are closed under minimal version selection: no entry is
   below what another entry's module file requires for the same module path *)
Definition mvs_closed (u : universe) (F : list dep) : Prop :=
  forall d q d', In d F -> In q (deps_of u (fst d)) -> In d' F ->
                 n_mpath (fst d') = n_mpath (fst q) -> ver_le (snd (fst q)) (snd (fst d')).
