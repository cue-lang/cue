(* Canonical forms of finite sets: [sort_dedup] with a total order yields THE
   strictly sorted list of the elements, so it is invariant under permutation and
   repetition of its input.  Also the total orders used by the tidy model, and a few
   facts about lists that the proofs share. *)
From Coq Require Import List Bool NArith Arith Lia Sorted.
From Verif Require Import Base.Order Tidy.Model.
Import ListNotations.

Lemma bool_cmp_total : total_cmp bool_cmp.
Proof.
  constructor.
  - intros [] []; simpl; split; congruence.
  - intros [] []; reflexivity.
  - intros [] [] []; simpl; congruence.
Qed.

Lemma option_cmp_total {A} (c : A -> A -> comparison) : total_cmp c -> total_cmp (option_cmp c).
Proof.
  intros H. constructor.
  - intros [x|] [y|]; simpl; split; try congruence.
    + intros E. apply (tc_eq c H) in E. congruence.
    + intros [= ->]. apply (tc_refl c H).
  - intros [x|] [y|]; simpl; auto. apply (tc_opp c H).
  - intros [x|] [y|] [z|]; simpl; try congruence. apply (tc_trans c H).
Qed.

Lemma path_cmp_total : total_cmp path_cmp.
Proof. apply list_cmp_total, N_compare_total. Qed.

Lemma ver_cmp_total : total_cmp ver_cmp.
Proof.
  unfold ver_cmp. apply lex_total.
  - apply lex_total; [apply lex_total|]; apply N_compare_total.
  - apply (total_cmp_inj bool_cmp negb bool_cmp_total). intros [] []; simpl; congruence.
Qed.

Lemma node_cmp_total : total_cmp node_cmp.
Proof. apply lex_total; [apply path_cmp_total | apply ver_cmp_total]. Qed.
Lemma import_cmp_total : total_cmp import_cmp.
Proof. apply lex_total; [apply path_cmp_total | apply option_cmp_total, N_compare_total]. Qed.
Lemma dep_cmp_total : total_cmp dep_cmp.
Proof. apply lex_total; [apply node_cmp_total | apply bool_cmp_total]. Qed.
Lemma mpath_cmp_total : total_cmp mpath_cmp.
Proof. apply lex_total; [apply path_cmp_total | apply N_compare_total]. Qed.

#[export] Hint Resolve lex_total N_compare_total bool_cmp_total path_cmp_total node_cmp_total
  import_cmp_total dep_cmp_total : total_cmp.

Lemma eqb_of_iff {A} (c : A -> A -> comparison) : total_cmp c -> forall x y, eqb_of c x y = true <-> x = y.
Proof.
  intros H x y. unfold eqb_of. rewrite <- (tc_eq c H x y). destruct (c x y); split; congruence.
Qed.
Lemma eqb_of_refl {A} (c : A -> A -> comparison) : total_cmp c -> forall x, eqb_of c x x = true.
Proof. intros H x. apply (eqb_of_iff c H). reflexivity. Qed.

Lemma path_eqb_iff x y : path_eqb x y = true <-> x = y.
Proof. apply eqb_of_iff, path_cmp_total. Qed.
Lemma node_eqb_iff x y : node_eqb x y = true <-> x = y.
Proof. apply eqb_of_iff, node_cmp_total. Qed.
Lemma import_eqb_iff x y : import_eqb x y = true <-> x = y.
Proof. apply eqb_of_iff, import_cmp_total. Qed.
Lemma mpath_eqb_iff x y : mpath_eqb x y = true <-> x = y.
Proof. apply eqb_of_iff, mpath_cmp_total. Qed.

Lemma list_eqb_iff {A} (e : A -> A -> bool) :
  (forall x y, e x y = true <-> x = y) -> forall a b, list_eqb e a b = true <-> a = b.
Proof.
  intros H. induction a as [|x a IH]; destruct b as [|y b]; simpl; split; try congruence.
  - rewrite andb_true_iff, H, IH. intros [-> ->]; reflexivity.
  - intros [= -> ->]. rewrite andb_true_iff, H, IH. auto.
Qed.

Section SortDedup.
  Context {A : Type} (c : A -> A -> comparison) (Hc : total_cmp c).

  Definition lt (x y : A) : Prop := c x y = Lt.
  Definition ssorted (l : list A) : Prop := StronglySorted lt l.

  Lemma lt_irrefl x : ~ lt x x.
  Proof. unfold lt. rewrite (tc_refl c Hc). congruence. Qed.
  Lemma lt_trans x y z : lt x y -> lt y z -> lt x z.
  Proof. apply (tc_trans c Hc). Qed.
  Lemma lt_asym x y : lt x y -> ~ lt y x.
  Proof. intros H1 H2. apply (lt_irrefl x). eapply lt_trans; eauto. Qed.

  Lemma In_insert_u x l z : In z (insert_u c x l) <-> x = z \/ In z l.
  Proof.
    induction l as [|y l IH]; simpl; [reflexivity|].
    destruct (c x y) eqn:E; simpl; [|reflexivity|rewrite IH; clear; tauto].
    apply (tc_eq c Hc) in E. subst. clear. tauto.
  Qed.

  Lemma In_sort_dedup l z : In z (sort_dedup c l) <-> In z l.
  Proof.
    induction l as [|x l IH]; simpl; [tauto|].
    unfold sort_dedup in *. simpl. rewrite In_insert_u, IH. reflexivity.
  Qed.

  Lemma insert_u_sorted x l : ssorted l -> ssorted (insert_u c x l).
  Proof.
    induction 1 as [|y l Hs IH Hall]; simpl.
    - repeat constructor.
    - destruct (c x y) eqn:E.
      + constructor; assumption.
      + constructor; [constructor; assumption|].
        constructor; [exact E|].
        rewrite Forall_forall in *. intros z Hz. eapply lt_trans; [exact E | apply Hall, Hz].
      + constructor; [exact IH|].
        rewrite Forall_forall in *. intros z Hz. apply In_insert_u in Hz. destruct Hz as [<-|Hz].
        * apply (tc_gt_lt c Hc). exact E.
        * apply Hall, Hz.
  Qed.

  Lemma sort_dedup_sorted l : ssorted (sort_dedup c l).
  Proof.
    induction l as [|x l IH]; simpl; [constructor|]. apply insert_u_sorted, IH.
  Qed.

  Lemma ssorted_ext l l' :
    ssorted l -> ssorted l' -> (forall z, In z l <-> In z l') -> l = l'.
  Proof.
    intros Hl. revert l'. induction Hl as [|x l Hs IH Hall]; intros l' Hl' Hin.
    - destruct l' as [|y l']; [reflexivity|]. exfalso. apply (Hin y). left; reflexivity.
    - destruct Hl' as [|y l' Hs' Hall'].
      + exfalso. apply (Hin x). left; reflexivity.
      + rewrite Forall_forall in Hall, Hall'.
        assert (x = y).
        { destruct (proj1 (Hin x) (or_introl eq_refl)) as [E|Hx]; [congruence|].
          destruct (proj2 (Hin y) (or_introl eq_refl)) as [E|Hy]; [congruence|].
          exfalso. apply (lt_asym x y); [apply Hall, Hy | apply Hall', Hx]. }
        subst y. f_equal. apply IH; [exact Hs'|].
        intros z. split; intros Hz.
        * destruct (proj1 (Hin z) (or_intror Hz)) as [E|H']; [|exact H'].
          subst z. exfalso. apply (lt_irrefl x). apply Hall, Hz.
        * destruct (proj2 (Hin z) (or_intror Hz)) as [E|H']; [|exact H'].
          subst z. exfalso. apply (lt_irrefl x). apply Hall', Hz.
  Qed.

  (* a strictly sorted list is THE canonical form of every list with its elements *)
  Theorem sort_dedup_unique l l' :
    ssorted l' -> (forall z, In z l <-> In z l') -> sort_dedup c l = l'.
  Proof.
    intros Hs H. apply ssorted_ext; [apply sort_dedup_sorted | exact Hs |].
    intros z. rewrite In_sort_dedup. apply H.
  Qed.

  Lemma sort_dedup_set_eq l l' :
    (forall z, In z l <-> In z l') -> sort_dedup c l = sort_dedup c l'.
  Proof.
    intros H. apply sort_dedup_unique; [apply sort_dedup_sorted|].
    intros z. rewrite In_sort_dedup. apply H.
  Qed.

  Lemma sort_dedup_id l : ssorted l -> sort_dedup c l = l.
  Proof. intros H. apply sort_dedup_unique; [exact H | reflexivity]. Qed.

  Lemma sort_dedup_idem l : sort_dedup c (sort_dedup c l) = sort_dedup c l.
  Proof. apply sort_dedup_id, sort_dedup_sorted. Qed.

  Lemma ssorted_NoDup l : ssorted l -> NoDup l.
  Proof.
    induction 1 as [|x l Hs IH Hall]; constructor; [|exact IH].
    intros Hx. rewrite Forall_forall in Hall. apply (lt_irrefl x), Hall, Hx.
  Qed.
End SortDedup.

Lemma ssorted_map {A B} (ca : A -> A -> comparison) (cb : B -> B -> comparison) (f : A -> B) l :
  ssorted ca l ->
  (forall x y, In x l -> In y l -> ca x y = Lt -> cb (f x) (f y) = Lt) -> ssorted cb (map f l).
Proof.
  induction 1 as [|x l Hs IH Hall]; intros Hf; simpl; constructor.
  - apply IH. intros y z Hy Hz. apply Hf; right; assumption.
  - rewrite Forall_forall in *. intros y Hy. apply in_map_iff in Hy. destruct Hy as [z [<- Hz]].
    apply Hf; [left; reflexivity | right; exact Hz | apply Hall, Hz].
Qed.

Lemma existsb_false {A} (f : A -> bool) l : existsb f l = false <-> forall x, In x l -> f x = false.
Proof.
  rewrite <- not_true_iff_false, existsb_exists. split.
  - intros H x Hx. apply not_true_iff_false. intros E. apply H. exists x. auto.
  - intros H [x [Hx E]]. rewrite (H x Hx) in E. discriminate.
Qed.

Lemma existsb_eqb_in {A} (e : A -> A -> bool) :
  (forall x y, e x y = true <-> x = y) -> forall x l, existsb (e x) l = true <-> In x l.
Proof.
  intros He x l. rewrite existsb_exists. setoid_rewrite He. split.
  - intros [y [Hy ->]]. exact Hy.
  - intros H. exists x. auto.
Qed.

Lemma NoDup_map_inj {A B} (f : A -> B) l x y :
  NoDup (map f l) -> In x l -> In y l -> f x = f y -> x = y.
Proof.
  induction l as [|a l IH]; simpl; [tauto|]. rewrite NoDup_cons_iff.
  intros [Hn Hd] [<-|Hx] [<-|Hy] E; auto; exfalso; apply Hn.
  - rewrite E. apply in_map, Hy.
  - rewrite <- E. apply in_map, Hx.
Qed.

Lemma filter_length_le {A} (f1 f2 : A -> bool) l :
  (forall y, f2 y = true -> f1 y = true) -> length (filter f2 l) <= length (filter f1 l).
Proof.
  intros Himp. induction l as [|y l IH]; simpl; [lia|].
  destruct (f2 y) eqn:E2; [rewrite (Himp y E2) | destruct (f1 y)]; simpl; lia.
Qed.

Lemma filter_length_lt {A} (f1 f2 : A -> bool) l x :
  (forall y, f2 y = true -> f1 y = true) -> In x l -> f1 x = true -> f2 x <> true ->
  length (filter f2 l) < length (filter f1 l).
Proof.
  intros Himp Hx H1 H2. apply not_true_iff_false in H2.
  apply in_split in Hx. destruct Hx as [l1 [l2 ->]].
  rewrite !filter_app, !app_length. simpl. rewrite H1, H2. simpl.
  pose proof (filter_length_le f1 f2 l1 Himp). pose proof (filter_length_le f1 f2 l2 Himp). lia.
Qed.
