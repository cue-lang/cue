(* C12: canonical event sequences of data trees (the layout TOML encoders
   write: key-values first, then [tables], then [[arrays of tables]]), and how
   the decoder runs through the flat fragment of it (for C12_decode_emit_flat_partial). *)
From Verif Require Import Toml.Decode Toml.Proofs.
From Coq Require Import List NArith Bool Arith Lia.
Import ListNotations.

(* general canonical layout (used as documentation of what the structured
   generator of the harness produces; no theorem about the nested case) *)

Fixpoint to_value (d : data) : value :=
  match d with
  | DLeaf l => VLeaf l
  | DList es => VArray (map to_value es)
  | DStruct fs => VInline (map (fun f => ([fst f], to_value (snd f))) fs)
  end.

Definition is_struct (d : data) : bool := match d with DStruct _ => true | _ => false end.
Definition is_table_array (d : data) : bool :=
  match d with DList (e :: es) => forallb is_struct (e :: es) | _ => false end.

(* events of the table whose header path is [p]; [fuel] bounds the depth *)
Fixpoint emit_table (fuel : nat) (p : list str) (fs : list (str * data)) : list event :=
  match fuel with
  | O => []
  | S f =>
    flat_map (fun kv => if is_struct (snd kv) || is_table_array (snd kv) then []
                        else [EKeyValue [fst kv] (to_value (snd kv))]) fs ++
    flat_map (fun kv => match snd kv with
                        | DStruct sub => ETable (p ++ [fst kv]) :: emit_table f (p ++ [fst kv]) sub
                        | _ => []
                        end) fs ++
    flat_map (fun kv => if is_table_array (snd kv) then
                          match snd kv with
                          | DList es =>
                            flat_map (fun e => match e with
                                               | DStruct sub => EArrayTable (p ++ [fst kv]) :: emit_table f (p ++ [fst kv]) sub
                                               | _ => []
                                               end) es
                          | _ => []
                          end
                        else []) fs
  end.

Definition emit (fuel : nat) (d : data) : list event :=
  match d with DStruct fs => emit_table fuel [] fs | _ => [] end.

(* the flat fragment: root scalars, then tables of scalars *)

Record flat_doc := mkFlat {
  fd_root : list (str * leaf);
  fd_tables : list (str * list (str * leaf)) }.

Definition kv_events (fs : list (str * leaf)) : list event :=
  map (fun f => EKeyValue [fst f] (VLeaf (snd f))) fs.

Definition emit_flat (d : flat_doc) : list event :=
  kv_events (fd_root d) ++ flat_map (fun t => ETable [fst t] :: kv_events (snd t)) (fd_tables d).

Definition leaf_fields (fs : list (str * leaf)) : list (str * otree) :=
  map (fun f => (fst f, OLeaf (snd f))) fs.

Definition tree_flat (d : flat_doc) : otree :=
  OStruct (leaf_fields (fd_root d) ++ map (fun t => (fst t, OStruct (leaf_fields (snd t)))) (fd_tables d)).

(* toml-safe: no key twice in a table, table names distinct from each other and from the root keys *)
Definition flat_safe (d : flat_doc) : Prop :=
  NoDup (map fst (fd_root d) ++ map fst (fd_tables d)) /\
  Forall (fun t => NoDup (map fst (snd t))) (fd_tables d).

Lemma rkey_snoc_neq : forall a x y, rkey_eqb (a ++ [SName x]) (a ++ [SName y]) = true -> x = y.
Proof.
  intros a x y H. apply rkey_eqb_eq in H. apply app_inv_head in H. injection H as ->. reflexivity.
Qed.

Lemma fold_append_root : forall fs F,
  fold_left (fun o f => append_field [] (fst f, OLeaf (snd f)) o) fs (OStruct F) =
  OStruct (F ++ leaf_fields fs).
Proof.
  induction fs as [|f fs IH]; intro F.
  - cbn. rewrite app_nil_r. reflexivity.
  - cbn [fold_left append_field leaf_fields map]. rewrite IH. rewrite <- app_assoc. reflexivity.
Qed.

Lemma append_field_last : forall F t fs0 f,
  append_field [length F] f (OStruct (F ++ [(t, OStruct fs0)])) = OStruct (F ++ [(t, OStruct (fs0 ++ [f]))]).
Proof.
  intros. exact (append_field_chain F [t] f fs0 ltac:(discriminate)).
Qed.

Lemma fold_append_last : forall fs F t fs0,
  fold_left (fun o f => append_field [length F] (fst f, OLeaf (snd f)) o) fs (OStruct (F ++ [(t, OStruct fs0)])) =
  OStruct (F ++ [(t, OStruct (fs0 ++ leaf_fields fs))]).
Proof.
  induction fs as [|f fs IH]; intros F t fs0.
  - cbn. rewrite app_nil_r. reflexivity.
  - cbn [fold_left leaf_fields map]. rewrite append_field_last. rewrite IH. rewrite <- app_assoc. reflexivity.
Qed.

Lemma NoDup_app_l : forall (A : Type) (a b : list A), NoDup (a ++ b) -> NoDup a.
Proof.
  induction a as [|x a IH]; intros b H; [constructor|].
  inversion H; subst. constructor.
  - intro Hin. apply H2. apply in_or_app. left. exact Hin.
  - eapply IH; eauto.
Qed.

(* key-values of leaves in the current table *)
Lemma run_kvs : forall fs s,
  st_arrays s = [] -> NoDup (map fst fs) ->
  (forall k, In k (map fst fs) -> mem_key (st_key s ++ [SName k]) (st_seen s) = false) ->
  run s (kv_events fs) =
  Ok (mkState (fold_left (fun o f => append_field (tab_ptr s) (fst f, OLeaf (snd f)) o) fs (st_out s))
              (rev (map (fun f => st_key s ++ [SName (fst f)]) fs) ++ st_seen s)
              [] (st_key s) (st_tab s)).
Proof.
  induction fs as [|[k l] fs IH]; intros s Ha Hnd Hfresh.
  - cbn. destruct s; cbn in *. subst. reflexivity.
  - inversion Hnd as [|? ? Hnotin Hnd2]; subst.
    cbn [kv_events map run step fst snd]. unfold decode_field. rewrite Ha. cbn [find_array key_of map].
    rewrite (Hfresh k) by (left; reflexivity).
    cbn [decode_expr chain].
    set (s1 := mkState (append_field (tab_ptr s) (k, OLeaf l) (st_out s))
                       ((st_key s ++ [SName k]) :: st_seen s) [] (st_key s) (st_tab s)).
    fold (kv_events fs).
    rewrite (IH s1); [| reflexivity | exact Hnd2 |].
    + unfold s1. cbn [st_out st_seen st_key st_tab tab_ptr fold_left map rev fst snd].
      unfold tab_ptr. rewrite <- app_assoc. reflexivity.
    + intros k2 Hin. unfold s1. cbn [st_key st_seen]. rewrite mem_key_cons.
      rewrite (Hfresh k2) by (right; exact Hin). rewrite orb_false_r.
      destruct (rkey_eqb (st_key s ++ [SName k2]) (st_key s ++ [SName k])) eqn:E; [|reflexivity].
      apply rkey_snoc_neq in E. subst k2. contradiction.
Qed.

(* every seen key starts with a name from [names] *)
Definition seen_under (names : list str) (S : list rkey) : Prop :=
  forall k, In k S -> exists x rest, In x names /\ k = SName x :: rest.

Lemma fresh_not_seen : forall names S t rest,
  seen_under names S -> ~ In t names -> mem_key (SName t :: rest) S = false.
Proof.
  intros names S t rest Hu Hn. destruct (mem_key (SName t :: rest) S) eqn:E; [|reflexivity].
  apply mem_key_In in E. destruct (Hu _ E) as [x [r2 [Hin Heq]]]. injection Heq as -> _. contradiction.
Qed.

(* the tables, one after the other *)
Lemma run_tables : forall tables F S names key tab,
  seen_under names S ->
  NoDup (names ++ map fst tables) ->
  Forall (fun t => NoDup (map fst (snd t))) tables ->
  tree_of (run (mkState (OStruct F) S [] key tab)
               (flat_map (fun t => ETable [fst t] :: kv_events (snd t)) tables)) =
  Ok (OStruct (F ++ map (fun t => (fst t, OStruct (leaf_fields (snd t)))) tables)).
Proof.
  induction tables as [|[t fs] tables IH]; intros F S names key tab Hu Hnd Hall.
  - cbn. rewrite app_nil_r. reflexivity.
  - inversion Hall as [|? ? Hfs Hall2]; subst. cbn [fst snd] in *.
    assert (Htfresh : ~ In t names).
    { intro Hin. apply NoDup_remove_2 in Hnd. apply Hnd. apply in_or_app. left. exact Hin. }
    cbn [flat_map fst snd]. rewrite <- app_comm_cons. cbn [run].
    rewrite step_table_root by apply (fresh_not_seen names S t [] Hu Htfresh).
    unfold chain_leaf_ptr. cbn [key_of map app length repeat Nat.sub chain].
    rewrite run_app.
    rewrite (run_kvs fs); [| reflexivity | exact Hfs |].
    2:{ intros k Hin. cbn [st_key st_seen app]. rewrite mem_key_cons.
        cbn [rkey_eqb seg_eqb]. rewrite andb_false_r. cbn [orb].
        apply (fresh_not_seen names S t [SName k] Hu Htfresh). }
    cbn [st_out st_seen st_key st_tab tab_ptr].
    rewrite fold_append_last. cbn [app].
    rewrite (IH (F ++ [(t, OStruct (leaf_fields fs))]) _ (names ++ [t]));
      [rewrite <- app_assoc; reflexivity| |rewrite <- app_assoc; exact Hnd|exact Hall2].
    intros k Hin. apply in_app_or in Hin. destruct Hin as [Hin|[<-|Hin]].
    + apply in_rev in Hin. apply in_map_iff in Hin. destruct Hin as [f [<- _]].
      exists t, [SName (fst f)]. split; [apply in_or_app; right; left; reflexivity|reflexivity].
    + exists t, []. split; [apply in_or_app; right; left; reflexivity|reflexivity].
    + destruct (Hu _ Hin) as [x [r2 [Hx ->]]]. exists x, r2. split; [apply in_or_app; left; exact Hx|reflexivity].
Qed.
