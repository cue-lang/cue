(* C12: lemmas about the decoder of Toml/Decode.v - which seen keys a step keeps, the loops
   of decodeExpr, pointers into chains of one-field structs - and the theorems on repeated
   [[p]] headers and on the three spellings of a dotted key. *)
From Verif Require Import Toml.Decode.
From Coq Require Import List NArith Bool Arith Lia.
Import ListNotations.

Lemma str_eqb_refl : forall a, str_eqb a a = true.
Proof. induction a; simpl; auto. rewrite N.eqb_refl. auto. Qed.

Lemma str_eqb_eq : forall a b, str_eqb a b = true <-> a = b.
Proof.
  induction a; destruct b; simpl; split; intro H; try discriminate; auto.
  - apply andb_true_iff in H. destruct H as [H1 H2]. apply N.eqb_eq in H1. apply IHa in H2. congruence.
  - injection H as -> ->. rewrite N.eqb_refl. apply str_eqb_refl.
Qed.

Lemma seg_eqb_refl : forall a, seg_eqb a a = true.
Proof. destruct a; simpl; [apply str_eqb_refl|apply Nat.eqb_refl]. Qed.

Lemma seg_eqb_eq : forall a b, seg_eqb a b = true -> a = b.
Proof.
  destruct a, b; simpl; intro H; try discriminate.
  - f_equal. apply str_eqb_eq; auto.
  - f_equal. apply Nat.eqb_eq; auto.
Qed.

Lemma rkey_eqb_refl : forall a, rkey_eqb a a = true.
Proof. induction a; simpl; auto. rewrite seg_eqb_refl. auto. Qed.

Lemma rkey_eqb_eq : forall a b, rkey_eqb a b = true -> a = b.
Proof.
  induction a; destruct b; simpl; intro H; try discriminate; auto.
  apply andb_true_iff in H. destruct H as [H1 H2]. f_equal; [apply seg_eqb_eq|]; auto.
Qed.

Lemma proper_prefix_irrefl : forall k, proper_prefix k k = false.
Proof. induction k; simpl; auto. rewrite seg_eqb_refl. auto. Qed.

Lemma proper_prefix_length : forall p k, proper_prefix p k = true -> (length p < length k)%nat.
Proof.
  induction p; destruct k; simpl; intro H; try discriminate; try lia.
  apply andb_true_iff in H. destruct H as [_ H]. apply IHp in H. lia.
Qed.

Lemma mem_key_cons : forall k x l, mem_key k (x :: l) = rkey_eqb k x || mem_key k l.
Proof. reflexivity. Qed.

Lemma mem_key_filter : forall k (f : rkey -> bool) l,
  f k = true -> mem_key k l = true -> mem_key k (filter f l) = true.
Proof.
  intros k f l Hf H. unfold mem_key in *. apply existsb_exists in H. destruct H as [x [Hin He]].
  apply rkey_eqb_eq in He. subst x. apply existsb_exists. exists k. split.
  - apply filter_In. auto.
  - apply rkey_eqb_refl.
Qed.

Lemma mem_key_In : forall k S, mem_key k S = true -> In k S.
Proof.
  intros k S H. unfold mem_key in H. apply existsb_exists in H. destruct H as [x [Hin He]].
  apply rkey_eqb_eq in He. subst. exact Hin.
Qed.

Lemma mem_key_app : forall k a b, mem_key k (a ++ b) = mem_key k a || mem_key k b.
Proof. intros. unfold mem_key. apply existsb_app. Qed.

Lemma rkey_eqb_length_neq : forall a b, length a <> length b -> rkey_eqb a b = false.
Proof.
  intros a b H. destruct (rkey_eqb a b) eqn:E; [|reflexivity]. apply rkey_eqb_eq in E. subst. congruence.
Qed.

Lemma rkey_eqb_app_neq : forall a b, b <> [] -> rkey_eqb a (a ++ b) = false.
Proof.
  intros a b Hb. apply rkey_eqb_length_neq. rewrite app_length. destruct b; [congruence|cbn; lia].
Qed.

(* findArrayPrefix forgets only seen keys properly below the header's key *)
Lemma find_array_prefix_keeps : forall key arrays seen f arrays2 seen2 k,
  find_array_prefix key arrays seen = (f, arrays2, seen2) ->
  proper_prefix key k = false ->
  mem_key k seen = true -> mem_key k seen2 = true.
Proof.
  intros key arrays seen f arrays2 seen2 k H Hp Hm. unfold find_array_prefix in H.
  destruct (find_array_idx key arrays 0); injection H as _ _ <-; [|exact Hm].
  apply mem_key_filter; [rewrite Hp; reflexivity|exact Hm].
Qed.

(* indices count from i *)
Lemma find_array_idx_spec : forall k l i j,
  find_array_idx k l i = Some j ->
  exists j0 a, j = (i + j0)%nat /\ nth_error l j0 = Some a /\ rkey_eqb (oa_key a) k = true.
Proof.
  induction l as [|a l IH]; intros i j H; [discriminate|].
  cbn [find_array_idx] in H. destruct (rkey_eqb (oa_key a) k) eqn:E.
  - injection H as <-. exists O, a. auto.
  - destruct (IH _ _ H) as [j0 [b [-> Hb]]]. exists (S j0), b. split; [lia|exact Hb].
Qed.

(* where the search ends: at [best], or at an array of the list whose key is a proper prefix of k *)
Lemma longest_prefix_spec : forall k l i best j b,
  longest_prefix k l i best = Some (j, b) ->
  best = Some (j, b) \/
  exists j0, j = (i + j0)%nat /\ nth_error l j0 = Some b /\ proper_prefix (oa_key b) k = true.
Proof.
  induction l as [|a l IH]; intros i best j b H; cbn [longest_prefix] in H; [left; exact H|].
  destruct (proper_prefix (oa_key a) k && _) eqn:E in H;
    (destruct (IH _ _ _ _ H) as [Hb|[j0 [-> Hr]]]; [|right; exists (S j0); split; [lia|exact Hr]]); auto.
  injection Hb as <- <-. apply andb_true_iff in E. destruct E as [E _]. right. exists O. auto.
Qed.

(* the seen keys after a step are what decodeField, resp. findArrayPrefix, leaves *)
Lemma step_seen : forall s e s2, step s e = Ok s2 ->
  match e with
  | EKeyValue p v => exists f, decode_field (st_arrays s) (st_key s) p v (st_seen s) = Ok (st_seen s2, f)
  | ETable p =>
    exists f a2, find_array_prefix (key_of p) (st_arrays s) (key_of p :: st_seen s) = (f, a2, st_seen s2)
  | EArrayTable p =>
    exists f a2, find_array_prefix (key_of p) (st_arrays s) (st_seen s) = (f, a2, st_seen s2)
  end.
Proof.
  intros s [p v|p|p] s2 H; cbn [step] in H.
  - destruct (decode_field _ _ _ _ _) as [[seen2 f]|]; [|discriminate]. injection H as <-. eauto.
  - destruct (mem_key _ _); [discriminate|].
    destruct (find_array_prefix _ _ _) as [[[|i a] a2] seen2].
    + injection H as <-. eauto.
    + destruct (rkey_eqb _ _); [discriminate|]. injection H as <-. eauto.
  - destruct (mem_key _ _); [discriminate|].
    destruct (find_array_prefix _ _ _) as [[[|i a] a2] seen2].
    + injection H as <-. eauto.
    + destruct (Nat.eqb _ _); injection H as <-; eauto.
Qed.

Lemma table_seen : forall s p s2, step s (ETable p) = Ok s2 -> mem_key (key_of p) (st_seen s2) = true.
Proof.
  intros s p s2 H. destruct (step_seen _ _ _ H) as [f [a2 F]].
  apply (find_array_prefix_keeps _ _ _ _ _ _ _ F (proper_prefix_irrefl _)).
  rewrite mem_key_cons, rkey_eqb_refl. reflexivity.
Qed.

Section ValueInd.
  Variable P : value -> Prop.
  Hypothesis Hleaf : forall l, P (VLeaf l).
  Hypothesis Harr : forall vs, Forall P vs -> P (VArray vs).
  Hypothesis Hinl : forall fs, Forall (fun pv => P (snd pv)) fs -> P (VInline fs).

  Fixpoint value_nested_ind (v : value) : P v :=
    match v with
    | VLeaf l => Hleaf l
    | VArray vs => Harr vs (list_ind (Forall P) (Forall_nil _) (fun x _ => Forall_cons x (value_nested_ind x)) vs)
    | VInline fs =>
      Hinl fs (list_ind (Forall (fun pv => P (snd pv))) (Forall_nil _)
                        (fun pv _ => Forall_cons pv (value_nested_ind (snd pv))) fs)
    end.
End ValueInd.

(* the loops of decode_expr, named; an inline table is decoded field by field *)
Fixpoint arr_loop (arrays : list oarr) (rk : rkey) (vs : list value) (i : nat) (seen : list rkey)
         (acc : list otree) : result (list rkey * otree) :=
  match vs with
  | [] => Ok (seen, OList (rev acc))
  | x :: r =>
    match decode_expr arrays (rk ++ [SIdx i]) x seen with
    | Ok (s2, t) => arr_loop arrays rk r (S i) s2 (t :: acc)
    | Err e => Err e
    end
  end.

Fixpoint inl_loop (arrays : list oarr) (rk : rkey) (fs : list (list str * value)) (seen : list rkey)
         (acc : list (str * otree)) : result (list rkey * otree) :=
  match fs with
  | [] => Ok (seen, OStruct (rev acc))
  | (p, x) :: r =>
    match decode_field arrays rk p x seen with
    | Ok (s2, f) => inl_loop arrays rk r s2 (f :: acc)
    | Err e => Err e
    end
  end.

Lemma decode_expr_array : forall arrays rk vs seen,
  decode_expr arrays rk (VArray vs) seen = arr_loop arrays rk vs O seen [].
Proof.
  intros. cbn [decode_expr]. generalize (@nil otree) as acc. generalize O as i. revert seen.
  induction vs as [|x r IH]; intros seen i acc; [reflexivity|].
  cbn [arr_loop]. destruct (decode_expr arrays (rk ++ [SIdx i]) x seen) as [[s2 t]|e]; [apply IH|reflexivity].
Qed.

Lemma decode_expr_inline : forall arrays rk fs seen,
  decode_expr arrays rk (VInline fs) seen = inl_loop arrays rk fs seen [].
Proof.
  intros. cbn [decode_expr]. generalize (@nil (str * otree)) as acc. revert seen.
  induction fs as [|[p x] r IH]; intros seen acc; [reflexivity|].
  cbn [inl_loop]. unfold decode_field. destruct (find_array (rk ++ key_of p) arrays); [reflexivity|].
  destruct (mem_key (rk ++ key_of p) seen); [reflexivity|].
  destruct (decode_expr arrays (rk ++ key_of p) x ((rk ++ key_of p) :: seen)) as [[s2 t]|e]; [apply IH|reflexivity].
Qed.


Fixpoint is_prefix (p k : rkey) : bool :=
  match p, k with
  | [], _ => true
  | x :: p2, y :: k2 => seg_eqb x y && is_prefix p2 k2
  | _ :: _, [] => false
  end.

Lemma is_prefix_app : forall a b, is_prefix a (a ++ b) = true.
Proof. induction a; intro b; simpl; auto. rewrite seg_eqb_refl. cbn. auto. Qed.

Lemma is_prefix_trans : forall a b c, is_prefix a b = true -> is_prefix b c = true -> is_prefix a c = true.
Proof.
  induction a; intros b c H1 H2; [reflexivity|].
  destruct b as [|y b]; [discriminate|]. destruct c as [|z c]; [discriminate|].
  cbn in *. apply andb_true_iff in H1. destruct H1 as [E1 H1]. apply andb_true_iff in H2. destruct H2 as [E2 H2].
  apply seg_eqb_eq in E1. apply seg_eqb_eq in E2. subst. rewrite seg_eqb_refl. cbn. eapply IHa; eauto.
Qed.

Lemma is_prefix_length : forall a b, is_prefix a b = true -> (length a <= length b)%nat.
Proof.
  induction a; intros b H; [cbn; lia|]. destruct b; [discriminate|].
  cbn in H. apply andb_true_iff in H. destruct H as [_ H]. apply IHa in H. cbn. lia.
Qed.

Definition agree (rk : rkey) (s1 s2 : list rkey) : Prop :=
  forall k, is_prefix rk k = true -> mem_key k s1 = mem_key k s2.

Lemma agree_app : forall rk added s1 s2, agree rk s1 s2 -> agree rk (added ++ s1) (added ++ s2).
Proof. intros rk added s1 s2 H k Hk. rewrite !mem_key_app. rewrite (H k Hk). reflexivity. Qed.

Lemma agree_sub : forall rk rk2 s1 s2, is_prefix rk rk2 = true -> agree rk s1 s2 -> agree rk2 s1 s2.
Proof. intros rk rk2 s1 s2 Hp H k Hk. apply H. eapply is_prefix_trans; eauto. Qed.

Definition same_outcome (rk : rkey) (s1 s2 : list rkey) (r1 r2 : result (list rkey * otree)) : Prop :=
  match r1 with
  | Ok (s1b, t) => exists added, s1b = added ++ s1 /\ r2 = Ok (added ++ s2, t)
  | Err e => r2 = Err e
  end.

(* the outcomes of the rest of a loop, started from what its first steps added *)
Lemma same_outcome_app : forall rk added s1 s2 r1 r2,
  same_outcome rk (added ++ s1) (added ++ s2) r1 r2 -> same_outcome rk s1 s2 r1 r2.
Proof.
  intros rk added s1 s2 [[s t]|e] r2; cbn; [|auto].
  intros [a [-> ->]]. exists (a ++ added). rewrite <- !app_assoc. auto.
Qed.

(* decodeExpr depends on the seen keys only below its own rooted key, and only adds to them *)
Lemma decode_expr_agree : forall arrays v rk s1 s2,
  agree rk s1 s2 ->
  same_outcome rk s1 s2 (decode_expr arrays rk v s1) (decode_expr arrays rk v s2).
Proof.
  intros arrays v. induction v as [l|vs IHvs|fs IHfs] using value_nested_ind; intros rk s1 s2 Ha.
  - exists []. split; reflexivity.
  - rewrite !decode_expr_array. generalize O (@nil otree). revert s1 s2 Ha.
    induction IHvs as [|x r Hx _ IH]; intros s1 s2 Ha i acc; cbn [arr_loop].
    + exists []. split; reflexivity.
    + specialize (Hx (rk ++ [SIdx i]) s1 s2 (agree_sub _ _ _ _ (is_prefix_app _ _) Ha)).
      unfold same_outcome in Hx.
      destruct (decode_expr arrays (rk ++ [SIdx i]) x s1) as [[s3 t3]|e].
      * destruct Hx as [added [-> ->]]. apply (same_outcome_app rk added). apply IH, agree_app, Ha.
      * rewrite Hx. reflexivity.
  - rewrite !decode_expr_inline. generalize (@nil (str * otree)). revert s1 s2 Ha.
    induction IHfs as [|[p x] r Hx _ IH]; intros s1 s2 Ha acc; cbn [inl_loop].
    + exists []. split; reflexivity.
    + unfold decode_field. set (K := rk ++ key_of p).
      destruct (find_array K arrays); [reflexivity|].
      rewrite (Ha K (is_prefix_app _ _)). destruct (mem_key K s2); [reflexivity|].
      specialize (Hx K (K :: s1) (K :: s2) (agree_app K [K] _ _ (agree_sub _ _ _ _ (is_prefix_app _ _) Ha))).
      unfold same_outcome in Hx. cbn [snd] in Hx.
      destruct (decode_expr arrays K x (K :: s1)) as [[s3 t3]|e].
      * destruct Hx as [added [-> ->]]. apply (same_outcome_app rk (added ++ [K])).
        rewrite <- !app_assoc. apply IH, agree_app, (agree_app rk [K]), Ha.
      * rewrite Hx. reflexivity.
Qed.

Lemma decode_expr_seen_mono : forall arrays v rk seen s2 t,
  decode_expr arrays rk v seen = Ok (s2, t) ->
  forall k, mem_key k seen = true -> mem_key k s2 = true.
Proof.
  intros arrays v rk seen s2 t H k Hk.
  pose proof (decode_expr_agree arrays v rk seen seen (fun _ _ => eq_refl)) as G.
  rewrite H in G. destruct G as [added [-> _]]. rewrite mem_key_app, Hk. apply orb_true_r.
Qed.

(* an accepted field: no array of tables has its key, the key is seen afterwards, and
   so is every key seen before *)
Lemma decode_field_seen : forall arrays rk p v seen s2 f,
  decode_field arrays rk p v seen = Ok (s2, f) ->
  find_array (rk ++ key_of p) arrays = None /\ mem_key (rk ++ key_of p) s2 = true /\
  forall k, mem_key k seen = true -> mem_key k s2 = true.
Proof.
  intros arrays rk p v seen s2 f H. unfold decode_field in H.
  destruct (find_array _ _); [discriminate|]. destruct (mem_key _ seen); [discriminate|].
  destruct (decode_expr _ _ _ _) as [[s3 t]|] eqn:E; [|discriminate]. injection H as <- _.
  pose proof (decode_expr_seen_mono _ _ _ _ _ _ E) as M. repeat split.
  - apply M. rewrite mem_key_cons, rkey_eqb_refl. reflexivity.
  - intros k Hk. apply M. rewrite mem_key_cons, Hk. apply orb_true_r.
Qed.

Definition tree_of (r : result state) : result otree :=
  match r with Ok s => Ok (st_out s) | Err e => Err e end.

Lemma decode_tree_of : forall es, decode es = tree_of (run init es).
Proof. reflexivity. Qed.

Lemma run_app : forall a b s,
  run s (a ++ b) = match run s a with Ok s2 => run s2 b | Err e => Err e end.
Proof.
  induction a as [|e a IH]; intros b s; [reflexivity|].
  cbn [app run]. destruct (step s e); [apply IH|reflexivity].
Qed.

Definition lp (p : list str) : ptr := repeat O (length p).

Lemma chain_leaf_ptr_root : forall p, p <> [] -> chain_leaf_ptr [] O (length p) = lp p.
Proof.
  intros p H. destruct p as [|k r]; [congruence|]. unfold chain_leaf_ptr, lp. cbn [length app repeat].
  replace (S (length r) - 1)%nat with (length r) by lia. reflexivity.
Qed.

Lemma chain_cons_cons : forall k k2 r t, chain (k :: k2 :: r) t = (k, OStruct [chain (k2 :: r) t]).
Proof. reflexivity. Qed.

Lemma nth_error_last : forall (A : Type) (F : list A) x, nth_error (F ++ [x]) (length F) = Some x.
Proof. induction F; intro x; cbn; auto. Qed.

Lemma set_nth_last : forall (A : Type) (F : list A) x y, set_nth (length F) y (F ++ [x]) = F ++ [y].
Proof. induction F; intros x y; cbn; [reflexivity|]. rewrite IHF. reflexivity. Qed.

Lemma node_at_chain : forall F p X, p <> [] ->
  node_at (chain_leaf_ptr [] (length F) (length p)) (OStruct (F ++ [chain p X])) = Some X.
Proof.
  intros F p. revert F. induction p as [|k r IH]; intros F X Hp; [congruence|].
  specialize (IH [] X). unfold chain_leaf_ptr in *. cbn [app length Nat.sub] in *. rewrite Nat.sub_0_r.
  destruct r as [|k2 r2]; cbn [chain length repeat Nat.sub node_at] in *; rewrite nth_error_last; [reflexivity|].
  rewrite Nat.sub_0_r in IH. apply IH. discriminate.
Qed.

(* an update that descends through the fields of structs happens, through the pointer of a
   chain appended to a struct, at the chain's leaf *)
Lemma chain_update : forall upd : ptr -> otree -> otree,
  (forall i q fs k sub, nth_error fs i = Some (k, sub) ->
     upd (i :: q) (OStruct fs) = OStruct (set_nth i (k, upd q sub) fs)) ->
  forall F p X, p <> [] ->
  upd (chain_leaf_ptr [] (length F) (length p)) (OStruct (F ++ [chain p X])) =
  OStruct (F ++ [chain p (upd [] X)]).
Proof.
  intros upd Hupd F p. revert F. induction p as [|k r IH]; intros F X Hp; [congruence|].
  specialize (IH [] X). unfold chain_leaf_ptr in *. cbn [app length Nat.sub] in *. rewrite Nat.sub_0_r.
  destruct r as [|k2 r2]; cbn [chain length repeat Nat.sub] in *;
    rewrite (Hupd _ _ _ k _ (nth_error_last _ F _)), set_nth_last; [reflexivity|].
  rewrite Nat.sub_0_r in IH. rewrite IH by discriminate. reflexivity.
Qed.

Lemma append_elem_chain : forall F p e es, p <> [] ->
  append_elem (chain_leaf_ptr [] (length F) (length p)) e (OStruct (F ++ [chain p (OList es)])) =
  OStruct (F ++ [chain p (OList (es ++ [e]))]).
Proof.
  intros F p e es. apply (chain_update (fun q => append_elem q e)).
  intros i q fs k sub H. cbn [append_elem]. rewrite H. reflexivity.
Qed.

Lemma append_field_chain : forall F p f fs, p <> [] ->
  append_field (chain_leaf_ptr [] (length F) (length p)) f (OStruct (F ++ [chain p (OStruct fs)])) =
  OStruct (F ++ [chain p (OStruct (fs ++ [f]))]).
Proof.
  intros F p f fs. apply (chain_update (fun q => append_field q f)).
  intros i q fs0 k sub H. cbn [append_field]. rewrite H. reflexivity.
Qed.

Lemma chain_app : forall p q t, p <> [] -> q <> [] -> chain (p ++ q) t = chain p (OStruct [chain q t]).
Proof.
  induction p as [|k r IH]; intros q t Hp Hq; [congruence|].
  destruct r as [|k2 r2].
  - cbn [app]. destruct q as [|k3 q3]; [congruence|]. reflexivity.
  - change ((k :: k2 :: r2) ++ q) with (k :: k2 :: (r2 ++ q)). rewrite !chain_cons_cons.
    change (k2 :: r2 ++ q) with ((k2 :: r2) ++ q). rewrite IH by (auto; discriminate). reflexivity.
Qed.

Lemma key_of_app : forall p q, key_of (p ++ q) = key_of p ++ key_of q.
Proof. intros. unfold key_of. apply map_app. Qed.

Lemma key_of_length : forall p, length (key_of p) = length p.
Proof. intros. unfold key_of. apply map_length. Qed.

(* a table header at the root of a document with no array of tables open *)
Lemma step_table_root : forall F seen key tab p, mem_key (key_of p) seen = false ->
  step (mkState (OStruct F) seen [] key tab) (ETable p) =
  Ok (mkState (OStruct (F ++ [chain p (OStruct [])])) (key_of p :: seen) [] (key_of p)
              (Some (chain_leaf_ptr [] (length F) (length p)))).
Proof. intros F seen key tab p H. cbn [step st_seen st_arrays st_out]. rewrite H. reflexivity. Qed.

(* [[p]] repeated: every header appends one table to the same list *)

Definition array_state (p : list str) (n : nat) : state :=
  mkState (OStruct [chain p (OList (repeat (OStruct []) (S n)))]) []
          [mkArr (key_of p) (length p) (lp p) (lp p ++ [n])]
          (key_of p ++ [SIdx n]) (Some (lp p ++ [n])).

(* ... after any events that left the fields F at the root, no array of tables open, and
   the keys [seen], none of them p or below p *)
Definition array_state_root (F : list (str * otree)) (seen : list rkey) (p : list str) (n : nat) : state :=
  let ptr := chain_leaf_ptr [] (length F) (length p) in
  mkState (OStruct (F ++ [chain p (OList (repeat (OStruct []) (S n)))])) seen
          [mkArr (key_of p) (length p) ptr (ptr ++ [n])]
          (key_of p ++ [SIdx n]) (Some (ptr ++ [n])).

Theorem array_table_append_root : forall F seen key0 tab0 p n, p <> [] ->
  mem_key (key_of p) seen = false ->
  existsb (proper_prefix (key_of p)) seen = false ->
  run (mkState (OStruct F) seen [] key0 tab0) (repeat (EArrayTable p) (S n)) = Ok (array_state_root F seen p n).
Proof.
  intros F seen key0 tab0 p n Hp Hm Hbelow.
  (* the purge at every header after the first leaves the seen keys as they are *)
  assert (Hf : filter (fun k => negb (proper_prefix (key_of p) k)) seen = seen).
  { clear - Hbelow. induction seen as [|k l IHl]; [reflexivity|]. cbn in *.
    apply orb_false_iff in Hbelow. destruct Hbelow as [Hk Hl]. rewrite Hk, (IHl Hl). reflexivity. }
  induction n as [|n IH].
  - cbn [repeat run step st_seen st_arrays st_out]. rewrite Hm. reflexivity.
  - rewrite (repeat_cons (S n) (EArrayTable p) : repeat _ (S (S n)) = _), run_app, IH. cbn [run].
    unfold array_state_root. cbn [step st_seen st_arrays st_out]. rewrite Hm.
    unfold find_array_prefix. cbn [find_array_idx oa_key]. rewrite rkey_eqb_refl.
    cbn [filter oa_key]. rewrite proper_prefix_irrefl. cbn [negb find_array_idx oa_key].
    rewrite rkey_eqb_refl, Hf. cbn [nth_error oa_level oa_list].
    rewrite Nat.eqb_refl.
    unfold width. rewrite node_at_chain by auto. rewrite repeat_length.
    rewrite append_elem_chain by auto. rewrite <- repeat_cons.
    unfold update_arr. cbn [nth_error set_nth oa_key oa_level oa_list]. reflexivity.
Qed.

Theorem array_table_append : forall p n, p <> [] ->
  run init (repeat (EArrayTable p) (S n)) = Ok (array_state p n).
Proof.
  intros p n Hp. unfold init. rewrite (array_table_append_root [] [] [] None p n Hp eq_refl eq_refl).
  unfold array_state_root, array_state. cbn [length app]. rewrite chain_leaf_ptr_root by exact Hp.
  reflexivity.
Qed.

Definition ka : str := [97%N]. Definition kb : str := [98%N]. Definition kc : str := [99%N].
Definition kx : str := [120%N].

Lemma key_app_neq : forall p q, q <> [] -> rkey_eqb (key_of p ++ key_of q) (key_of p) = false.
Proof.
  intros p q Hq. apply rkey_eqb_length_neq. rewrite app_length, !key_of_length.
  destruct q; [congruence|cbn; lia].
Qed.

(* The three spellings, at the root of a document that has so far the fields F, the seen
   keys [seen] and no array of tables open.  Each decodes v under the rooted key p.q, unless
   that has been seen; they differ in the keys seen by then: the table header and the inline
   table have recorded p as well. *)
Definition nested (F : list (str * otree)) (seen : list rkey) (p q : list str)
           (r : result (list rkey * otree)) : result otree :=
  if mem_key (key_of p ++ key_of q) seen then Err EDup else
  match r with
  | Ok (_, t) => Ok (OStruct (F ++ [chain p (OStruct [chain q t])]))
  | Err e => Err e
  end.

Section Dotted.
  Variables (F : list (str * otree)) (seen : list rkey) (p q : list str) (v : value).
  Hypotheses (Hp : p <> []) (Hq : q <> []).
  Let s0 := mkState (OStruct F) seen [] [] None.
  Let K := key_of p ++ key_of q.

  Lemma dotted_form :
    tree_of (run s0 [EKeyValue (p ++ q) v]) = nested F seen p q (decode_expr [] K v (K :: seen)).
  Proof using Hp Hq.
    cbn [run step s0 st_key st_arrays st_seen st_tab st_out tab_ptr].
    unfold decode_field, nested. cbn [find_array app]. rewrite key_of_app. fold K.
    destruct (mem_key K seen); [reflexivity|].
    destruct (decode_expr _ _ _ _) as [[s3 t]|e]; [|reflexivity].
    cbn [tree_of st_out append_field]. rewrite chain_app by auto. reflexivity.
  Qed.

  Lemma table_form : mem_key (key_of p) seen = false ->
    tree_of (run s0 [ETable p; EKeyValue q v]) =
    nested F seen p q (decode_expr [] K v (K :: key_of p :: seen)).
  Proof using Hp Hq.
    intro Hm. unfold s0. cbn [run]. rewrite step_table_root by exact Hm.
    cbn [step st_key st_arrays st_seen st_tab st_out tab_ptr].
    unfold decode_field, nested. cbn [find_array]. fold K.
    rewrite mem_key_cons. unfold K at 1. rewrite key_app_neq by auto. cbn [orb].
    destruct (mem_key K seen); [reflexivity|].
    destruct (decode_expr _ _ _ _) as [[s3 t]|e]; [|reflexivity].
    cbn [tree_of st_out]. rewrite append_field_chain by auto. reflexivity.
  Qed.

  Lemma inline_form : mem_key (key_of p) seen = false ->
    tree_of (run s0 [EKeyValue p (VInline [(q, v)])]) =
    nested F seen p q (decode_expr [] K v (K :: key_of p :: seen)).
  Proof using Hp Hq.
    intro Hm. cbn [run step s0 st_key st_arrays st_seen st_tab st_out tab_ptr].
    unfold decode_field at 1. cbn [find_array app]. rewrite Hm.
    rewrite decode_expr_inline. cbn [inl_loop]. unfold decode_field, nested. cbn [find_array]. fold K.
    rewrite mem_key_cons. unfold K at 1. rewrite key_app_neq by auto. cbn [orb].
    destruct (mem_key K seen); [reflexivity|].
    destruct (decode_expr _ _ _ _) as [[s3 t]|e]; reflexivity.
  Qed.

  (* a.b.c = v    ==    [a] b.c = v    ==    a = { b.c = v }
     give the same syntax tree (or the same error) wherever [a] has not been seen *)
  Theorem dotted_equiv_root : mem_key (key_of p) seen = false ->
    tree_of (run s0 [ETable p; EKeyValue q v]) = tree_of (run s0 [EKeyValue (p ++ q) v]) /\
    tree_of (run s0 [EKeyValue p (VInline [(q, v)])]) = tree_of (run s0 [EKeyValue (p ++ q) v]).
  Proof using Hp Hq.
    intro Hm.
    assert (Hag : agree K (K :: seen) (K :: key_of p :: seen)).
    { apply (agree_app K [K]). intros k Hk. rewrite mem_key_cons.
      rewrite (rkey_eqb_length_neq k (key_of p)); [reflexivity|].
      apply is_prefix_length in Hk. unfold K in Hk. rewrite app_length, !key_of_length in Hk.
      rewrite key_of_length. destruct q; [congruence|cbn in Hk; lia]. }
    pose proof (decode_expr_agree [] v _ _ _ Hag) as Hsame. unfold same_outcome in Hsame.
    rewrite table_form, inline_form, dotted_form by exact Hm. unfold nested. fold K.
    destruct (mem_key K seen); [split; reflexivity|].
    destruct (decode_expr [] K v (K :: seen)) as [[s3 t]|e].
    - destruct Hsame as [added [_ ->]]. split; reflexivity.
    - rewrite Hsame. split; reflexivity.
  Qed.
End Dotted.

Theorem decode_dotted_equiv : forall p q v, p <> [] -> q <> [] ->
  decode [ETable p; EKeyValue q v] = decode [EKeyValue (p ++ q) v] /\
  decode [EKeyValue p (VInline [(q, v)])] = decode [EKeyValue (p ++ q) v].
Proof. intros p q v Hp Hq. exact (dotted_equiv_root [] [] p q v Hp Hq eq_refl). Qed.
