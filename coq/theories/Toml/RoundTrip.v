(* C12: the inline layout, for ALL documents of the modelled data type.

   [emit_inline d] writes a document as root key-values whose values are TOML
   arrays and inline tables (to_value).  The lemmas here are what C12_decode_emit_inline
   (decode reads it back as exactly the tree of the document, for every document whose
   tables have no repeated key: [wf], a boolean predicate), C12_eval_to_otree (what CUE
   makes of that tree is the document), C12_root_kvs_as_inline and the theorems on whole
   histories (C12_run_seen_persist, C12_table_twice_never_accepted) are proved from. *)
From Verif Require Import Toml.Decode Toml.Proofs Toml.Emit.
From Coq Require Import List NArith Bool Arith Lia.
Import ListNotations.

Fixpoint to_otree (d : data) : otree :=
  match d with
  | DLeaf l => OLeaf l
  | DList es => OList (map to_otree es)
  | DStruct fs => OStruct (map (fun f => (fst f, to_otree (snd f))) fs)
  end.

Fixpoint nodup_keys (ks : list str) : bool :=
  match ks with
  | [] => true
  | k :: r => negb (existsb (str_eqb k) r) && nodup_keys r
  end.

(* toml-safe: no table has a key twice (hereditarily) *)
Fixpoint wf (d : data) : bool :=
  match d with
  | DLeaf _ => true
  | DList es => forallb wf es
  | DStruct fs => nodup_keys (map fst fs) && forallb (fun f => wf (snd f)) fs
  end.

Definition emit_inline (d : data) : list event :=
  match d with
  | DStruct fs => map (fun f => EKeyValue [fst f] (to_value (snd f))) fs
  | _ => []
  end.

Section DataInd.
  Variable P : data -> Prop.
  Hypothesis Hleaf : forall l, P (DLeaf l).
  Hypothesis Hlist : forall es, Forall P es -> P (DList es).
  Hypothesis Hstruct : forall fs, Forall (fun f => P (snd f)) fs -> P (DStruct fs).

  Fixpoint data_nested_ind (d : data) : P d :=
    match d with
    | DLeaf l => Hleaf l
    | DList es => Hlist es (list_ind (Forall P) (Forall_nil _) (fun x _ => Forall_cons x (data_nested_ind x)) es)
    | DStruct fs =>
      Hstruct fs (list_ind (Forall (fun f => P (snd f))) (Forall_nil _)
                           (fun f _ => Forall_cons f (data_nested_ind (snd f))) fs)
    end.
End DataInd.

(* prefixes of rooted keys, as propositions *)

Definition at_or_below (p k : rkey) : Prop := exists r, k = p ++ r.            (* prefix or equal *)
Definition pp (p k : rkey) : Prop := exists x r, k = p ++ x :: r.     (* proper prefix *)

Lemma proper_prefix_pp : forall p k, proper_prefix p k = true -> pp p k.
Proof.
  induction p as [|x p IH]; intros k H.
  - destruct k as [|y k]; [discriminate|]. exists y, k. reflexivity.
  - destruct k as [|y k]; [discriminate|]. cbn in H. apply andb_true_iff in H. destruct H as [E H].
    apply seg_eqb_eq in E. subst y. destruct (IH _ H) as [z [r ->]]. exists z, r. reflexivity.
Qed.

Lemma pp_proper_prefix : forall p k, pp p k -> proper_prefix p k = true.
Proof.
  intros p k [x [r ->]]. induction p as [|y p IH]; [reflexivity|].
  cbn. rewrite seg_eqb_refl. exact IH.
Qed.

Lemma pp_irrefl : forall k, ~ pp k k.
Proof.
  intros k [x [r H]]. apply (f_equal (@length seg)) in H. rewrite app_length in H. cbn in H. lia.
Qed.

Lemma pp_at_or_below : forall p k, pp p k -> at_or_below p k.
Proof. intros p k [x [r ->]]. exists (x :: r). reflexivity. Qed.

Lemma not_In_mem_key : forall k S, ~ In k S -> mem_key k S = false.
Proof. intros k S H. destruct (mem_key k S) eqn:E; [|reflexivity]. apply mem_key_In in E. contradiction. Qed.

Lemma find_array_In : forall k l a, find_array k l = Some a -> In a l /\ oa_key a = k.
Proof.
  induction l as [|b l IH]; intros a H; [discriminate|]. cbn in H.
  destruct (rkey_eqb (oa_key b) k) eqn:E.
  - injection H as <-. split; [left; reflexivity|]. apply rkey_eqb_eq. exact E.
  - destruct (IH _ H) as [Hin Hk]. split; [right; exact Hin|exact Hk].
Qed.

Definition expr_ok (d : data) : Prop :=
  forall arrays rk seen,
    wf d = true ->
    (forall s, In s seen -> ~ pp rk s) ->
    (forall a, In a arrays -> ~ pp rk (oa_key a)) ->
    exists seen2,
      decode_expr arrays rk (to_value d) seen = Ok (seen2, to_otree d) /\
      (forall s, In s seen2 -> In s seen \/ pp rk s).

Lemma pp_snoc_trans : forall rk y s, pp (rk ++ [y]) s -> pp rk s.
Proof. intros rk y s [x [r ->]]. exists y, (x :: r). rewrite <- app_assoc. reflexivity. Qed.

Lemma nodup_keys_cons : forall k ks, nodup_keys (k :: ks) = true -> ~ In k ks /\ nodup_keys ks = true.
Proof.
  intros k ks H. cbn in H. apply andb_true_iff in H. destruct H as [H1 H2]. split; [|exact H2].
  intro Hin. apply negb_true_iff in H1. assert (existsb (str_eqb k) ks = true); [|congruence].
  apply existsb_exists. exists k. split; [exact Hin|apply str_eqb_refl].
Qed.

(* The two loops of decodeExpr below a rooted key rk under which nothing has been seen and
   no array of tables is open. *)
Section Below.
  Variables (arrays : list oarr) (rk : rkey) (seen : list rkey).
  Hypothesis Hseen : forall s, In s seen -> ~ pp rk s.
  Hypothesis Harr : forall a, In a arrays -> ~ pp rk (oa_key a).

  (* the invariant: what has been recorded so far was seen before, or lies under one of the
     segments [done] already gone through *)
  Definition below_done (cur : list rkey) (done : list seg) : Prop :=
    forall s, In s cur -> In s seen \/ exists x r, In x done /\ s = rk ++ x :: r.

  Lemma below_done_pp : forall cur done,
    below_done cur done -> forall s, In s cur -> In s seen \/ pp rk s.
  Proof.
    intros cur done H s Hs.
    destruct (H s Hs) as [H0|[x [r [_ ->]]]]; [left; exact H0|right; exists x, r; reflexivity].
  Qed.

  (* a key below rk ++ [y] is none of the keys seen before (none of them is below rk)
     and none of those added under other segments *)
  Lemma fresh_below : forall cur done y,
    below_done cur done -> ~ In y done -> forall s, In s cur -> ~ at_or_below (rk ++ [y]) s.
  Proof.
    intros cur done y Hinv Hy s Hin [r Hs].
    destruct (Hinv s Hin) as [H0|[x [r1 [Hx Hs1]]]].
    - apply (Hseen s H0). exists y, r. rewrite Hs, <- app_assoc. reflexivity.
    - rewrite Hs1 in Hs. rewrite <- app_assoc in Hs. apply app_inv_head in Hs. cbn in Hs.
      injection Hs as -> _. contradiction.
  Qed.

  (* one round of either loop: the child under a fresh segment y reads back, and the invariant
     holds with y done; [cur'] is [cur], with the child's own key added by the inline loop *)
  Lemma child_ok : forall d cur cur' done y,
    expr_ok d -> wf d = true -> below_done cur done -> ~ In y done ->
    (forall s, In s cur' -> s = rk ++ [y] \/ In s cur) ->
    exists s2, decode_expr arrays (rk ++ [y]) (to_value d) cur' = Ok (s2, to_otree d) /\
               below_done s2 (y :: done).
  Proof.
    intros d cur cur' done y Hd Hwf Hinv Hy Hcur'.
    pose proof (fresh_below cur done y Hinv Hy) as Hfresh.
    destruct (Hd arrays (rk ++ [y]) cur' Hwf) as [s2 [E Hpost]].
    - intros s Hs Hpp. destruct (Hcur' s Hs) as [->|Hc]; [exact (pp_irrefl _ Hpp)|].
      apply (Hfresh s Hc), pp_at_or_below, Hpp.
    - intros a Ha Hpp. apply (Harr a Ha). eapply pp_snoc_trans. exact Hpp.
    - exists s2. split; [exact E|]. intros s Hs. destruct (Hpost s Hs) as [Hc|[x [r ->]]].
      + destruct (Hcur' s Hc) as [->|Hc2].
        * right. exists y, []. split; [left; reflexivity|reflexivity].
        * destruct (Hinv s Hc2) as [H|[x [r [Hx ->]]]]; [left; exact H|].
          right. exists x, r. split; [right; exact Hx|reflexivity].
      + right. exists y, (x :: r). split; [left; reflexivity|rewrite <- app_assoc; reflexivity].
  Qed.

  Lemma arr_loop_ok : forall es,
    Forall expr_ok es -> forallb wf es = true ->
    forall i done cur acc,
      (forall j, (i <= j)%nat -> ~ In (SIdx j) done) ->
      below_done cur done ->
      exists seen2,
        arr_loop arrays rk (map to_value es) i cur acc = Ok (seen2, OList (rev acc ++ map to_otree es)) /\
        (forall s, In s seen2 -> In s seen \/ pp rk s).
  Proof.
    intros es IH. induction IH as [|d es Hd _ IHes]; intros Hwf i done cur acc Hdone Hinv.
    - exists cur. split; [cbn; rewrite app_nil_r; reflexivity|exact (below_done_pp _ _ Hinv)].
    - cbn [forallb] in Hwf. apply andb_true_iff in Hwf. destruct Hwf as [Hwd Hwes].
      cbn [map arr_loop].
      destruct (child_ok d cur cur done (SIdx i) Hd Hwd Hinv (Hdone i (le_n i))) as [s2 [E Hinv2]]; [auto|].
      rewrite E. destruct (IHes Hwes (S i) (SIdx i :: done) s2 (to_otree d :: acc)) as [s3 [E3 Hp]].
      + intros j Hj [Heq|Hin]; [injection Heq; lia|]. apply (Hdone j); [lia|exact Hin].
      + exact Hinv2.
      + exists s3. split; [|exact Hp]. rewrite E3. cbn [rev]. rewrite <- app_assoc. reflexivity.
  Qed.

  Lemma inl_loop_ok : forall fs,
    Forall (fun f => expr_ok (snd f)) fs ->
    forallb (fun f => wf (snd f)) fs = true ->
    forall done cur acc,
      nodup_keys (map fst fs) = true ->
      (forall k, In k (map fst fs) -> ~ In (SName k) done) ->
      below_done cur done ->
      exists seen2,
        inl_loop arrays rk (map (fun f => ([fst f], to_value (snd f))) fs) cur acc =
        Ok (seen2, OStruct (rev acc ++ map (fun f => (fst f, to_otree (snd f))) fs)) /\
        (forall s, In s seen2 -> In s seen \/ pp rk s).
  Proof.
    intros fs IH. induction IH as [|[k d] fs Hd _ IHfs]; intros Hwf done cur acc Hnd Hdone Hinv.
    - exists cur. split; [cbn; rewrite app_nil_r; reflexivity|exact (below_done_pp _ _ Hinv)].
    - cbn [forallb snd] in Hwf. apply andb_true_iff in Hwf. destruct Hwf as [Hwd Hwfs].
      cbn [map fst] in Hnd. apply nodup_keys_cons in Hnd. destruct Hnd as [Hk Hnd].
      cbn [map inl_loop fst snd]. unfold decode_field. cbn [key_of map].
      assert (Hy : ~ In (SName k) done) by (apply Hdone; left; reflexivity).
      pose proof (fresh_below cur done (SName k) Hinv Hy) as Hfresh.
      destruct (find_array (rk ++ [SName k]) arrays) as [a|] eqn:Ef.
      { exfalso. apply find_array_In in Ef. destruct Ef as [Hin Hkey]. apply (Harr a Hin).
        rewrite Hkey. exists (SName k), []. reflexivity. }
      rewrite not_In_mem_key.
      2:{ intro Hin. apply (Hfresh _ Hin). exists []. rewrite app_nil_r. reflexivity. }
      cbn [snd] in Hd.
      destruct (child_ok d cur ((rk ++ [SName k]) :: cur) done (SName k) Hd Hwd Hinv Hy)
        as [s2 [E Hinv2]]; [intros s [<-|Hs]; auto|].
      rewrite E. cbn [chain].
      destruct (IHfs Hwfs (SName k :: done) s2 ((k, to_otree d) :: acc) Hnd) as [s3 [E3 Hp]].
      + intros k2 Hk2 [Heq|Hin]; [injection Heq as ->; contradiction|].
        apply (Hdone k2); [right; exact Hk2|exact Hin].
      + exact Hinv2.
      + exists s3. split; [|exact Hp]. rewrite E3. cbn [rev]. rewrite <- app_assoc. reflexivity.
  Qed.
End Below.

(* decodeExpr reads the value of every toml-safe document back as its tree, below any
   rooted key under which nothing has been seen yet; the keys it records are below rk *)
Theorem decode_expr_to_value : forall d, expr_ok d.
Proof.
  induction d as [l|es IH|fs IH] using data_nested_ind; intros arrays rk seen Hwf Hseen Harr.
  - exists seen. split; [reflexivity|]. intros s Hs. left. exact Hs.
  - cbn [to_value to_otree]. rewrite decode_expr_array.
    apply (arr_loop_ok arrays rk seen Hseen Harr es IH Hwf O [] seen []); [auto|].
    intros s Hs. left. exact Hs.
  - cbn [to_value to_otree wf] in *. apply andb_true_iff in Hwf. destruct Hwf as [Hnd Hwf].
    rewrite decode_expr_inline.
    apply (inl_loop_ok arrays rk seen Hseen Harr fs IH Hwf [] seen [] Hnd); [auto|].
    intros s Hs. left. exact Hs.
Qed.

Lemma run_root_kvs : forall fs seen acc,
  tree_of (run (mkState (OStruct (rev acc)) seen [] [] None) (map (fun f => EKeyValue (fst f) (snd f)) fs)) =
  match inl_loop [] [] fs seen acc with
  | Ok (_, t) => Ok t
  | Err e => Err e
  end.
Proof.
  induction fs as [|[p v] fs IH]; intros seen acc; [reflexivity|].
  cbn [map run step inl_loop fst snd st_arrays st_key st_seen app].
  destruct (decode_field [] [] p v seen) as [[s2 f]|e]; [|reflexivity].
  apply (IH s2 (f :: acc)).
Qed.

Lemma upd_field_fresh : forall u k v acc,
  ~ In k (map fst acc) -> upd_field u k v acc = Some None.
Proof.
  induction acc as [|[k2 v2] acc IH]; intro H; [reflexivity|].
  cbn [upd_field]. destruct (str_eqb k2 k) eqn:E.
  - apply str_eqb_eq in E. subst. exfalso. apply H. left. reflexivity.
  - rewrite IH; [reflexivity|]. intro Hin. apply H. right. exact Hin.
Qed.

Definition eval_fields (fuel : nat) :=
  fix go (fs : list (str * otree)) (acc : list (str * data)) : option (list (str * data)) :=
    match fs with
    | [] => Some acc
    | (k, x) :: r =>
      match eval fuel x with
      | Some d => match add_field (unify fuel) k d acc with
                  | Some acc2 => go r acc2
                  | None => None
                  end
      | None => None
      end
    end.

Definition eval_elems (fuel : nat) :=
  fix go (es : list otree) : option (list data) :=
    match es with
    | [] => Some []
    | x :: r => match eval fuel x, go r with
                | Some d, Some dr => Some (d :: dr)
                | _, _ => None
                end
    end.

Lemma eval_struct : forall fuel fs, eval fuel (OStruct fs) = opt_map DStruct (eval_fields fuel fs []).
Proof. reflexivity. Qed.
Lemma eval_list : forall fuel es, eval fuel (OList es) = opt_map DList (eval_elems fuel es).
Proof. reflexivity. Qed.

Lemma eval_elems_to_otree : forall fuel es,
  Forall (fun d => wf d = true -> eval fuel (to_otree d) = Some d) es -> forallb wf es = true ->
  eval_elems fuel (map to_otree es) = Some es.
Proof.
  intros fuel es IH Hwf. induction IH as [|d es Hd _ IHes]; [reflexivity|].
  cbn [forallb] in Hwf. apply andb_true_iff in Hwf. destruct Hwf as [H1 H2].
  cbn [map eval_elems]. rewrite (Hd H1).
  change (match eval_elems fuel (map to_otree es) with Some dr => Some (d :: dr) | None => None end = Some (d :: es)).
  rewrite (IHes H2). reflexivity.
Qed.

(* fields with distinct keys, none of them among those gathered so far, are only appended *)
Lemma eval_fields_to_otree : forall fuel fs,
  Forall (fun f => wf (snd f) = true -> eval fuel (to_otree (snd f)) = Some (snd f)) fs ->
  nodup_keys (map fst fs) = true -> forallb (fun f => wf (snd f)) fs = true ->
  forall acc, (forall k, In k (map fst fs) -> ~ In k (map fst acc)) ->
  eval_fields fuel (map (fun f => (fst f, to_otree (snd f))) fs) acc = Some (acc ++ fs).
Proof.
  intros fuel fs IH. induction IH as [|[k d] fs Hd _ IHfs]; intros Hnd Hwf acc Hdisj.
  - cbn. rewrite app_nil_r. reflexivity.
  - cbn [forallb snd] in Hwf. apply andb_true_iff in Hwf. destruct Hwf as [H1 H2].
    cbn [map fst] in Hnd. apply nodup_keys_cons in Hnd. destruct Hnd as [Hk Hnd].
    cbn [map eval_fields fst snd]. cbn [snd] in Hd. rewrite (Hd H1).
    unfold add_field. rewrite upd_field_fresh by (apply Hdisj; left; reflexivity).
    rewrite (IHfs Hnd H2).
    + rewrite <- app_assoc. reflexivity.
    + intros k2 Hk2 Hin. rewrite map_app in Hin. apply in_app_or in Hin. destruct Hin as [Hin|[<-|[]]].
      * apply (Hdisj k2); [right; exact Hk2|exact Hin].
      * contradiction.
Qed.

Lemma wf_list_app : forall a b, wf (DList (a ++ b)) = wf (DList a) && wf (DList b).
Proof. intros. cbn [wf]. apply forallb_app. Qed.

Lemma wf_elem : forall es d, wf (DList es) = true -> In d es -> wf d = true.
Proof. intros es d H Hin. cbn [wf] in H. rewrite forallb_forall in H. exact (H _ Hin). Qed.

Example decode_emit_inline_example :
  let d := [(ka, DLeaf 1%N); (kb, DList [DStruct [(ka, DLeaf 2%N); (kx, DList [])]; DStruct []]);
            (kc, DStruct [(ka, DStruct [(ka, DLeaf 3%N)])])] in
  wf (DStruct d) = true /\
  decode (emit_inline (DStruct d)) = Ok (to_otree (DStruct d)) /\
  eval 0 (to_otree (DStruct d)) = Some (DStruct d).
Proof. vm_compute. repeat split. Qed.

(* a repeated key is never merged silently *)
Example decode_emit_inline_dup_rejected :
  wf (DStruct [(ka, DLeaf 1%N); (ka, DLeaf 1%N)]) = false /\
  decode (emit_inline (DStruct [(ka, DLeaf 1%N); (ka, DLeaf 1%N)])) = Err EDup.
Proof. vm_compute. split; reflexivity. Qed.

(* whole histories: a key that has been seen stays seen until an array of tables ABOVE it
   starts a new element; so a table defined twice is an error wherever the second header
   comes, never a silent merge *)

Definition purges (k : rkey) (e : event) : bool :=
  match e with
  | EArrayTable q | ETable q => proper_prefix (key_of q) k
  | EKeyValue _ _ => false
  end.

Lemma step_seen_persist : forall s e s2 k,
  step s e = Ok s2 -> purges k e = false ->
  mem_key k (st_seen s) = true -> mem_key k (st_seen s2) = true.
Proof.
  intros s e s2 k H Hp Hm. apply step_seen in H. destruct e as [p v|p|p]; cbn [purges] in Hp.
  - destruct H as [f H]. exact (proj2 (proj2 (decode_field_seen _ _ _ _ _ _ _ H)) k Hm).
  - destruct H as [f [a2 F]]. apply (find_array_prefix_keeps _ _ _ _ _ _ _ F Hp).
    rewrite mem_key_cons, Hm. apply orb_true_r.
  - destruct H as [f [a2 F]]. exact (find_array_prefix_keeps _ _ _ _ _ _ _ F Hp Hm).
Qed.

(* the condition cannot be dropped: a new element of an array above p makes [p] fresh again *)
Example table_twice_in_two_elements_accepted :
  decode [EArrayTable [ka]; ETable [ka; kb]; EArrayTable [ka]; ETable [ka; kb]] =
  Ok (OStruct [(ka, OList [OStruct [(kb, OStruct [])]; OStruct [(kb, OStruct [])]])]).
Proof. vm_compute. reflexivity. Qed.
