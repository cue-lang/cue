(* C20: removing declarations that the rest of the package absorbs preserves the
   evaluated configuration - for every label universe, every set of probe atoms and
   every depth (fuel).  Built on the order/grouping laws of Core/Laws.v. *)
From Verif Require Import Core.Syntax Core.Eval Core.Laws Core.Spec Core.Disj Trim.Model.
From Coq Require Import List Bool ZArith NArith Lia Permutation PeanoNat.
Import ListNotations.

(* an atom entails exactly the constraints it satisfies *)
Lemma sc_entails_atom_sat b c : sc_entails (SAtom b) c = ssat b c.
Proof. destruct c; destruct b; reflexivity. Qed.

Lemma sc_entails_sat c' c a : sc_entails c' c = true -> ssat a c' = true -> ssat a c = true.
Proof.
  intros H S. destruct c' as [b'|k'|z'|z'|z'|z'|z'].
  { simpl in S. apply atom_eqb_eq in S. subst b'. rewrite <- sc_entails_atom_sat. exact H. }
  { (* a kind entails only itself *)
    destruct c as [b|k|z|z|z|z|z]; try discriminate H. destruct a, k, k'; simpl in *; congruence. }
  (* a bound is satisfied by integers only and entails bounds only: compare the operands *)
  all: destruct a as [y| | |]; try discriminate S.
  all: destruct c as [b|k|z|z|z|z|z]; try discriminate H; simpl in *; lia.
Qed.

Lemma sc_entails_kind c' c k : sc_entails c' c = true -> sc_kind_ok k c' = true -> sc_kind_ok k c = true.
Proof.
  intros H S. destruct c' as [b'|k'|z'|z'|z'|z'|z'].
  { (* the kind of an atom is admitted by whatever the atom satisfies *)
    rewrite sc_entails_atom_sat in H. apply ssat_kind_ok in H.
    simpl in S. destruct (atom_kind b'), k; try discriminate S; exact H. }
  { destruct c as [b|k0|z|z|z|z|z]; try discriminate H. destruct k, k0, k'; simpl in *; congruence. }
  (* bounds entail bounds, and all bounds admit the same kinds *)
  all: destruct c as [b|k0|z|z|z|z|z]; try discriminate H; exact S.
Qed.

Lemma sc_entails_atom c' c a : sc_entails c' c = true -> is_atom_c a c = true -> is_atom_c a c' = true.
Proof.
  destruct c as [b|k0|z|z|z|z|z]; simpl; try discriminate.
  destruct c' as [b'|k'|z'|z'|z'|z'|z']; try discriminate. simpl.
  intros H S. apply atom_eqb_eq in H. subst. exact S.
Qed.

Lemma null_false_in {A} (x : A) l : In x l -> null l = false.
Proof. destruct l; [intros [] | reflexivity]. Qed.

(* adding entailed constraints to a scalar node *)
Section ScalarAbsorb.
  Variables add scs : list sconstr.
  Hypothesis Himp : forall c, In c add -> sc_implied scs c = true.

  Lemma implied_witness c : In c add -> exists c', In c' scs /\ sc_entails c' c = true.
  Proof. intros H. apply Himp in H. apply existsb_exists in H. exact H. Qed.

  (* a test that entailment preserves passes on [add ++ scs] exactly when it passes on [scs] *)
  Lemma add_forall (g : sconstr -> bool) :
    (forall c' c, sc_entails c' c = true -> g c' = true -> g c = true) ->
    forallb g (add ++ scs) = forallb g scs.
  Proof.
    intros Hg. rewrite forallb_app. destruct (forallb g scs) eqn:E; [|apply andb_false_r].
    rewrite andb_true_r. apply forallb_forall. intros c Hc.
    destruct (implied_witness c Hc) as (c' & Hc' & He).
    apply (Hg c' c He). rewrite forallb_forall in E. auto.
  Qed.

  Lemma add_forall_sat a : forallb (ssat a) (add ++ scs) = forallb (ssat a) scs.
  Proof. apply add_forall. intros c' c. apply sc_entails_sat. Qed.

  Lemma add_forall_kind k : forallb (sc_kind_ok k) (add ++ scs) = forallb (sc_kind_ok k) scs.
  Proof. apply add_forall. intros c' c. apply sc_entails_kind. Qed.

  Lemma add_exists_atom a : existsb (is_atom_c a) (add ++ scs) = existsb (is_atom_c a) scs.
  Proof.
    rewrite existsb_app. destruct (existsb (is_atom_c a) add) eqn:E; [|reflexivity].
    simpl. symmetry. apply existsb_exists in E as (c & Hc & Ha).
    destruct (implied_witness c Hc) as (c' & Hc' & He).
    apply existsb_exists. exists c'. split; auto. apply (sc_entails_atom c' c a He Ha).
  Qed.

  Lemma add_null : null (add ++ scs) = null scs.
  Proof.
    pose proof implied_witness as W. clear Himp. destruct add as [|c r]; [reflexivity|].
    destruct (W c (or_introl eq_refl)) as (c' & Hc' & _). symmetry. apply (null_false_in c' scs Hc').
  Qed.

  Lemma add_scalar_bottom : scalar_bottom (add ++ scs) = scalar_bottom scs.
  Proof.
    unfold scalar_bottom. f_equal.
    - f_equal. apply existsb_ext. intros k. apply add_forall_kind.
    - rewrite (existsb_ext
                 (fun c => match c with SAtom a => negb (forallb (ssat a) (add ++ scs)) | _ => false end)
                 (fun c => match c with SAtom a => negb (forallb (ssat a) scs) | _ => false end)).
      2:{ intros [a| | | | | |]; auto. rewrite add_forall_sat. reflexivity. }
      rewrite existsb_app.
      destruct (existsb _ add) eqn:E; [|reflexivity]. simpl. symmetry.
      apply existsb_exists in E as (c & Hc & Hf). destruct c as [a| | | | | |]; try discriminate.
      destruct (implied_witness _ Hc) as (c' & Hc' & He).
      destruct c' as [b| | | | | |]; try discriminate. simpl in He. apply atom_eqb_eq in He. subst b.
      apply existsb_exists. exists (SAtom a). split; auto.
  Qed.
End ScalarAbsorb.

Definition abs_fields (cs : list conj) (ds : list (dhead * expr)) : bool :=
  forallb (fun d => match fst d with
                    | HField l k => has_field (flat_all cs) l k && absorbs (snd d) (children (flat_all cs) l)
                    | HEllipsis => true
                    | _ => false
                    end) ds.

Lemma absorbs_struct ds cs :
  absorbs (EStruct ds) cs = n_struct (flat_all cs) && abs_fields cs ds.
Proof.
  cbn [absorbs]. f_equal. unfold abs_fields.
  induction ds as [|[h e] ds IH]; [reflexivity|].
  destruct h; cbn [forallb fst snd]; try reflexivity.
  - rewrite IH. reflexivity.
  - rewrite IH. reflexivity.
Qed.

Lemma abs_fields_spec cs ds :
  abs_fields cs ds = true ->
  embed_free ds = true /\ pats_of ds = [] /\
  forall l k e, In (l, k, e) (fields_of ds) ->
                has_field (flat_all cs) l k = true /\ absorbs e (children (flat_all cs) l) = true.
Proof.
  unfold abs_fields, embed_free, pats_of, fields_of.
  induction ds as [|[h e] ds IH]; cbn [forallb flat_map fst snd].
  - intros _. split; [reflexivity | split; [reflexivity | intros l k e []]].
  - intros H. apply andb_true_iff in H as [Hh Hr]. destruct (IH Hr) as (I1 & I2 & I3).
    destruct h; try discriminate; cbn [is_embed negb andb app].
    + apply andb_true_iff in Hh as [Hf Ha]. split; [exact I1 | split; [exact I2|]].
      intros l0 k0 e0 [E|Hin]; [inversion E; subst; split; assumption | apply (I3 _ _ _ Hin)].
    + split; [exact I1 | split; [exact I2 | exact I3]].
Qed.

(* the shape of the flattened form of an absorbed expression, in any scope *)
Record absorbed_flat (cs : list conj) (F : flat) : Prop := {
  af_bot : f_bot F = false;
  af_ownp : f_ownp F = [];
  af_subs : f_subs F = [];
  af_closers : f_closers F = [];
  af_scal : forall c, In c (f_scal F) -> sc_implied (n_scal (flat_all cs)) c = true;
  af_struct : f_struct F = true -> n_struct (flat_all cs) = true;
  af_own : forall l k e, In (l, k, e) (f_own F) ->
                         has_field (flat_all cs) l k = true /\ absorbs e (children (flat_all cs) l) = true }.

Lemma absorbed_flat_empty cs : absorbed_flat cs flat_empty.
Proof. constructor; simpl; auto; try discriminate; intros; contradiction. Qed.

Lemma absorbed_flat_app cs A B : absorbed_flat cs A -> absorbed_flat cs B -> absorbed_flat cs (flat_app A B).
Proof.
  intros [a1 a2 a3 a4 a5 a6 a7] [b1 b2 b3 b4 b5 b6 b7]. constructor; simpl.
  - rewrite a1, b1. reflexivity.
  - rewrite a2, b2. reflexivity.
  - rewrite a3, b3. reflexivity.
  - rewrite a4, b4. reflexivity.
  - intros c H. apply in_app_or in H as [H|H]; auto.
  - intros H. apply orb_true_iff in H as [H|H]; auto.
  - intros l k e H. apply in_app_or in H as [H|H]; auto.
Qed.

Lemma absorbs_flatten v : forall cs r x, absorbs v cs = true -> absorbed_flat cs (flatten r x v).
Proof.
  induction v as [| |c|a IHa b IHb|ds|e _|e _]; intros cs r x H; try discriminate.
  - apply absorbed_flat_empty.
  - cbn [absorbs] in H. constructor; simpl; auto; try discriminate; try (intros; contradiction).
    intros c0 [<-|[]]. exact H.
  - cbn [absorbs] in H. apply andb_true_iff in H as [Ha Hb]. cbn [flatten].
    apply absorbed_flat_app; auto.
  - rewrite absorbs_struct in H. apply andb_true_iff in H as [Hs Hf].
    destruct (abs_fields_spec cs ds Hf) as (E1 & E2 & E3).
    rewrite (flatten_embed_free r x ds E1), E2.
    constructor; simpl; auto; intros; contradiction.
Qed.

Lemma absorbs_flat_exprs cs vs :
  (forall v, In v vs -> absorbs v cs = true) -> absorbed_flat cs (flat_exprs false vs).
Proof.
  induction vs as [|v vs IH]; intros H.
  - apply absorbed_flat_empty.
  - rewrite flat_exprs_cons. apply absorbed_flat_app.
    + apply absorbs_flatten. apply H. left; reflexivity.
    + apply IH. intros w Hw. apply H. right; exact Hw.
Qed.

Lemma has_field_app A B l k :
  has_field (nflat_app A B) l k = has_field A l k || has_field B l k.
Proof. unfold has_field; simpl. apply existsb_app. Qed.

Lemma open_values_app A B l : open_values (nflat_app A B) l = open_values A l ++ open_values B l.
Proof. unfold open_values; simpl. apply flat_map_app. Qed.

Lemma rec_children_app A B l : rec_children (nflat_app A B) l = rec_children A l ++ rec_children B l.
Proof. unfold rec_children; simpl. apply flat_map_app. Qed.

(* an open part whose fields all exist in fl adds no field *)
Lemma has_field_add_open sc st own fl l k :
  (forall l k e, In (l, k, e) own -> has_field fl l k = true) ->
  has_field (nflat_app (mkNFlat false sc st [mkPart false own []] []) fl) l k = has_field fl l k.
Proof.
  intros H. rewrite has_field_app. destruct (has_field (mkNFlat _ _ _ _ _) l k) eqn:E; [|reflexivity].
  simpl. symmetry. unfold has_field in E. simpl in E. rewrite orb_false_r in E.
  apply existsb_exists in E as ([[l' k'] e] & Hin & Hm). simpl in Hm.
  apply andb_true_iff in Hm as [Hl Hk]. apply label_eqb_eq in Hl. subst l'.
  assert (k' = k) by (destruct k', k; simpl in Hk; congruence). subst k'.
  apply (H _ _ _ Hin).
Qed.

Section Absorb.
  Variable labs : list label.
  Variable atoms : list atom.

  (* more members for the open group of a child: a group of their own, whether or not there was one *)
  Lemma eval_open_group_cons fuel vs os rest :
    vs <> [] ->
    evalNode labs atoms fuel ((if null (vs ++ os) then [] else [mkConj false (vs ++ os)]) ++ rest) =
    evalNode labs atoms fuel (mkConj false vs :: (if null os then [] else [mkConj false os]) ++ rest).
  Proof.
    destruct vs as [|v vs]; [congruence|intros _]. destruct os as [|o os]; cbn [null app].
    - rewrite app_nil_r. reflexivity.
    - apply (eval_split_decl labs atoms fuel (v :: vs) (o :: os) rest).
  Qed.

  Theorem absorb_sound fuel : forall cs vs,
    (forall v, In v vs -> absorbs v cs = true) ->
    evalNode labs atoms fuel (mkConj false vs :: cs) = evalNode labs atoms fuel cs.
  Proof.
    induction fuel as [|f IH]; intros cs vs H; [reflexivity|].
    unfold evalNode. rewrite flat_all_cons.
    set (fl := flat_all cs).
    pose proof (absorbs_flat_exprs cs vs H) as [a1 a2 a3 a4 a5 a6 a7]. fold fl in a5, a6, a7.
    set (F := flat_exprs false vs) in *.
    assert (EA : flat_conj (mkConj false vs) =
                 mkNFlat false (f_scal F) (f_struct F) [mkPart false (f_own F) []] []).
    { unfold flat_conj. cbn [c_rec c_exprs andb]. fold F. rewrite a1, a2, a3, a4. reflexivity. }
    rewrite EA. set (A := mkNFlat false (f_scal F) (f_struct F) [mkPart false (f_own F) []] []).
    cbn [evalFlat].
    assert (Eb : n_bot (nflat_app A fl) = n_bot fl) by reflexivity.
    assert (Es : n_struct (nflat_app A fl) = n_struct fl).
    { simpl. destruct (f_struct F) eqn:E; [rewrite (a6 eq_refl)|]; reflexivity. }
    assert (En : null (n_scal (nflat_app A fl)) = null (n_scal fl)).
    { simpl. apply add_null. exact a5. }
    rewrite Eb, Es, En.
    destruct (n_bot fl); [reflexivity|].
    destruct (n_struct fl && negb (null (n_scal fl))); [reflexivity|].
    destruct (n_struct fl) eqn:Estruct.
    - assert (HP : forall l, presence (nflat_app A fl) l = presence fl l).
      { intros l. unfold presence, A. rewrite !has_field_add_open; [reflexivity|..]; intros l0 k0 e0 Hin; apply (a7 _ _ _ Hin). }
      (* the fields of the absorbed part join the open group of the child, which absorbs them *)
      assert (HC : forall l, evalFlat labs atoms f (flat_all (children (nflat_app A fl) l)) =
                             evalFlat labs atoms f (flat_all (children fl l))).
      { intros l. unfold children. rewrite open_values_app, rec_children_app.
        change (rec_children A l) with (@nil conj). cbn [app].
        destruct (open_values A l) as [|e0 vs0] eqn:Ev; [reflexivity|].
        change (evalNode labs atoms f ((if null ((e0 :: vs0) ++ open_values fl l) then [] else [mkConj false ((e0 :: vs0) ++ open_values fl l)]) ++ rec_children fl l) =
                evalNode labs atoms f (children fl l)).
        rewrite eval_open_group_cons by discriminate. apply (IH (children fl l)).
        intros e He. rewrite <- Ev in He. unfold open_values in He. simpl in He. rewrite app_nil_r in He.
        apply part_values_in in He as [(fd & Hfd & Hl & <-)|(q & [] & _)].
        destruct fd as [[l' k'] e']. simpl in *. apply label_eqb_eq in Hl. subst l'.
        apply (a7 _ _ _ Hfd). }
      f_equal.
      + apply map_ext. intros l. rewrite HP, HC. reflexivity.
      + apply map_ext. intros l. rewrite HC. reflexivity.
    - assert (ESC : n_scal (nflat_app A fl) = f_scal F ++ n_scal fl) by reflexivity.
      rewrite ESC, (add_scalar_bottom _ _ a5).
      destruct (scalar_bottom (n_scal fl)); [reflexivity|].
      f_equal.
      + apply map_ext. intros k. apply add_forall_kind. exact a5.
      + apply map_ext. intros a. apply add_forall_sat. exact a5.
      + apply map_ext. intros a. apply add_exists_atom. exact a5.
  Qed.
End Absorb.

(* r is implied by the package K: unifying it back changes nothing, whatever is observed *)
Definition implied1 (K : pkg) (r : decl) : Prop :=
  forall labs atoms fuel, final_value labs atoms fuel (r :: K) = final_value labs atoms fuel K.

(* K is obtained from P by removing declarations one after the other, each one implied
   by what REMAINS at that moment *)
Inductive removes : pkg -> pkg -> Prop :=
| rm_done P K : Permutation P K -> removes P K
| rm_step P r P' K : Permutation P (r :: P') -> implied1 P' r -> removes P' K -> removes P K.

Lemma final_perm labs atoms fuel P Q :
  Permutation P Q -> final_value labs atoms fuel P = final_value labs atoms fuel Q.
Proof. intros H. unfold final_value, conjs. apply eval_perm. apply Permutation_map. exact H. Qed.

Theorem absorbed_implied d K : absorbed d K = true -> implied1 K d.
Proof.
  intros H labs atoms fuel. unfold final_value, conjs. cbn [map]. unfold conj_of at 1.
  apply absorb_sound. intros v [<-|[]]. exact H.
Qed.

Theorem removes_preserves P K :
  removes P K -> forall labs atoms fuel, final_value labs atoms fuel K = final_value labs atoms fuel P.
Proof.
  induction 1 as [P K HP|P r P' K HP Hr _ IH]; intros labs atoms fuel.
  - symmetry. apply final_perm. exact HP.
  - rewrite (final_perm labs atoms fuel P (r :: P') HP), (Hr labs atoms fuel). apply IH.
Qed.

Lemma keep_take_perm m : forall P, Permutation P (keepm m P ++ takem m P).
Proof.
  induction m as [|b m IH]; intros P.
  - simpl. destruct P; rewrite app_nil_r; apply Permutation_refl.
  - destruct P as [|d P]; [destruct b; apply Permutation_refl|].
    destruct b; cbn [keepm takem].
    + apply Permutation_cons_app. apply IH.
    + simpl. constructor. apply IH.
Qed.

(* the property, for a removed set given as a mask *)
Theorem remove_implied_preserves P m :
  removes P (keepm m P) ->
  forall labs atoms fuel, final_value labs atoms fuel (keepm m P) = final_value labs atoms fuel P.
Proof. apply removes_preserves. Qed.

Lemma removes_perm_l P Q K : Permutation P Q -> removes P K -> removes Q K.
Proof.
  intros HPQ H. destruct H as [P K HP|P r P' K HP Hr Hrest].
  - apply rm_done. apply (Permutation_trans (Permutation_sym HPQ) HP).
  - apply (rm_step Q r P' K); auto. apply (Permutation_trans (Permutation_sym HPQ) HP).
Qed.

Lemma removes_trans A B C : removes A B -> removes B C -> removes A C.
Proof.
  induction 1 as [A B HP|A r A' B HP Hr _ IH]; intros HBC.
  - apply (removes_perm_l B A C); auto using Permutation_sym.
  - apply (rm_step A r A' C); auto.
Qed.

Lemma pick_spec K : forall R seen r R',
  pick K seen R = Some (r, R') -> absorbed r K = true /\ Permutation (seen ++ R) (r :: R').
Proof.
  induction R as [|x R IH]; intros seen r R' H; [discriminate|]. cbn [pick] in H.
  destruct (absorbed x K) eqn:E.
  - inversion H; subst. split; auto. rewrite rev_append_rev.
    apply Permutation_sym. apply Permutation_cons_app.
    apply Permutation_app_tail. apply Permutation_sym, Permutation_rev.
  - destruct (IH _ _ _ H) as [Ha Hp]. split; auto.
    apply (Permutation_trans (l' := (x :: seen) ++ R)); auto.
    simpl. apply Permutation_sym. apply Permutation_middle.
Qed.

Lemma accepts_go_sound n : forall K R, accepts_go n K R = true -> removes (K ++ R) K.
Proof.
  induction n as [|n IH]; intros K R H.
  - destruct R; [|discriminate]. rewrite app_nil_r. apply rm_done, Permutation_refl.
  - destruct R as [|x R]; [rewrite app_nil_r; apply rm_done, Permutation_refl|].
    cbn [accepts_go] in H. destruct (pick K [] (x :: R)) as [[r R']|] eqn:Ep; [|discriminate].
    destruct (pick_spec K _ _ _ _ Ep) as [Ha Hp]. simpl in Hp.
    apply (removes_trans _ (r :: K)).
    + apply (removes_perm_l ((r :: K) ++ R')); [|apply IH; exact H].
      simpl. apply Permutation_sym.
      apply (Permutation_trans (l' := K ++ r :: R')); [apply Permutation_app_head; exact Hp|].
      apply Permutation_sym, Permutation_middle.
    + apply (rm_step (r :: K) r K K); [apply Permutation_refl | apply absorbed_implied; exact Ha |].
      apply rm_done, Permutation_refl.
Qed.

Theorem accepts_sound K R : accepts K R = true -> removes (K ++ R) K.
Proof. apply accepts_go_sound. Qed.

Lemma trim_pass_removes : forall todo kept, removes (kept ++ todo) (trim_pass kept todo).
Proof.
  induction todo as [|d r IH]; intros kept; cbn [trim_pass].
  - rewrite app_nil_r. apply rm_done, Permutation_refl.
  - destruct (absorbed d (kept ++ r)) eqn:E.
    + apply (rm_step _ d (kept ++ r)); [apply Permutation_sym, Permutation_middle | apply absorbed_implied, E | apply IH].
    + specialize (IH (kept ++ [d])). rewrite <- app_assoc in IH. exact IH.
Qed.

Lemma trim_iter_removes n : forall P, removes P (trim_iter n P).
Proof.
  induction n as [|n IH]; intros P; cbn [trim_iter]; [apply rm_done, Permutation_refl|].
  destruct (Nat.eqb _ _); [apply rm_done, Permutation_refl|].
  apply (removes_trans _ (trim_pass [] P)); [apply (trim_pass_removes P []) | apply IH].
Qed.

Lemma trim_pass_length : forall todo kept,
  length (trim_pass kept todo) <= length kept + length todo /\
  (length (trim_pass kept todo) = length kept + length todo -> trim_pass kept todo = kept ++ todo).
Proof.
  induction todo as [|d r IH]; intros kept; cbn [trim_pass].
  - rewrite app_nil_r. simpl. split; [lia | reflexivity].
  - destruct (absorbed d (kept ++ r)).
    + destruct (IH kept) as [L _]. simpl. split; [lia | intros; lia].
    + destruct (IH (kept ++ [d])) as [L E]. rewrite app_length in L, E. simpl in *.
      split; [lia|]. intros H. rewrite E by lia. rewrite <- app_assoc. reflexivity.
Qed.

Definition stable (Q : pkg) : Prop := trim_pass [] Q = Q.

Lemma trim_iter_stable n : forall P, length P < n -> stable (trim_iter n P).
Proof.
  induction n as [|n IH]; intros P H; [lia|]. cbn [trim_iter].
  destruct (trim_pass_length P []) as [L E]. simpl in L, E.
  destruct (Nat.eqb (length (trim_pass [] P)) (length P)) eqn:Q.
  - apply Nat.eqb_eq in Q. unfold stable. apply E. exact Q.
  - apply Nat.eqb_neq in Q. apply IH. lia.
Qed.

Lemma trim_iter_of_stable n Q : stable Q -> trim_iter n Q = Q.
Proof.
  intros H. destruct n; [reflexivity|]. cbn [trim_iter]. rewrite H, Nat.eqb_refl. reflexivity.
Qed.

Theorem trim_model_stable P : stable (trim_model P).
Proof. apply trim_iter_stable. lia. Qed.

Theorem trim_model_idempotent P : trim_model (trim_model P) = trim_model P.
Proof. apply trim_iter_of_stable, trim_model_stable. Qed.

(* nothing more can be removed: no remaining declaration is absorbed by the others *)
Lemma stable_none : forall todo kept,
  trim_pass kept todo = kept ++ todo ->
  forall Q1 d Q2, todo = Q1 ++ d :: Q2 -> absorbed d (kept ++ Q1 ++ Q2) = false.
Proof.
  induction todo as [|x r IH]; intros kept H Q1 d Q2 E.
  - destruct Q1; discriminate.
  - cbn [trim_pass] in H. destruct (absorbed x (kept ++ r)) eqn:A.
    + exfalso. destruct (trim_pass_length r kept) as [L _]. rewrite H, app_length in L. simpl in L. lia.
    + destruct Q1 as [|y Q1]; simpl in E; injection E as E1 E2; subst x r.
      * exact A.
      * replace (kept ++ y :: Q1 ++ d :: Q2) with ((kept ++ [y]) ++ Q1 ++ d :: Q2) in H
          by (rewrite <- app_assoc; reflexivity).
        specialize (IH (kept ++ [y]) H Q1 d Q2 eq_refl). rewrite <- app_assoc in IH. exact IH.
Qed.

(* two copies of the same declaration imply each other; removing BOTH changes the value:
   implication by "the package without this one declaration" is not enough for a set *)
Theorem mutual_redundancy_unsafe :
  exists d : decl,
    implied1 [d] d /\
    exists labs atoms fuel, final_value labs atoms fuel [] <> final_value labs atoms fuel [d; d].
Proof.
  exists (mkDecl 0 [(LReg 0, FRegular)] (EScalar (SAtom (AInt 1)))). split.
  - intros labs atoms fuel. unfold final_value, conjs. cbn [map]. apply eval_dup.
  - exists [LReg 0], [AInt 1], 3. vm_compute. discriminate.
Qed.

(* absorption without the check that the field already exists: what would follow from
   letting a pattern root "win" ([string]: 5 gives o the value 5, o: int is no more specific
   than that - but removing o: int removes the field) *)
Fixpoint absorbs_loose (v : expr) (cs : list conj) {struct v} : bool :=
  let fl := flat_all cs in
  match v with
  | ETop => true
  | EScalar c => sc_implied (n_scal fl) c
  | EAnd a b => absorbs_loose a cs && absorbs_loose b cs
  | EStruct ds =>
    n_struct fl &&
    (fix go (ds : list (dhead * expr)) : bool :=
       match ds with
       | [] => true
       | (HField l k, e) :: r => absorbs_loose e (children fl l) && go r
       | (HEllipsis, _) :: r => go r
       | _ => false
       end) ds
  | _ => false
  end.

(* trimv3.go tests specificity "with defaults applied on both sides" (subsumeProfile): the concrete
   value 2 counts as implied by the conjunct [*2 | int].  That is a sound reason to drop [2] only
   if no other conjunct carries a different default: with [*1 | int] present as well, the package
   resolves to 2 with the data and is ambiguous without it (known finding F11, reproduced on the
   implementation by corpus/C20/explore/f11_conflicting_defaults.txt). *)
Theorem default_is_not_implication :
  exists labs atoms fuel (c : expr) (d1 d2 : disj),
    resolve (pair_of labs atoms fuel [c] [d2]) = resolve (pair_of labs atoms fuel [] [d2]) /\
    resolve (pair_of labs atoms fuel [c] [d1; d2]) <> resolve (pair_of labs atoms fuel [] [d1; d2]).
Proof.
  exists [LReg 0], [AInt 1; AInt 2; AInt 3], 3, (EScalar (SAtom (AInt 2))),
         [(true, EScalar (SAtom (AInt 1))); (false, EScalar (SKind KInt))],
         [(true, EScalar (SAtom (AInt 2))); (false, EScalar (SKind KInt))].
  split; vm_compute; [reflexivity | discriminate].
Qed.
