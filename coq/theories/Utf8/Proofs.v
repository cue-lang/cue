(* Facts about the UTF-8 codec model.  Everything goes through the bit layout
   [enc]: the payload of each byte is a variable of its own, so the round trips
   are linear arithmetic in the payloads and division only occurs where a rune
   is cut into its base-64 digits. *)
From Verif Require Import Utf8.Model.
From Coq Require Import ZArith Lia ZifyN ZifyNat ZifyBool.

Ltac bdestruct1 :=
  match goal with
  | |- context [?a =? ?b] => destruct (N.eqb_spec a b)
  | |- context [?a <? ?b] => destruct (N.ltb_spec a b)
  | |- context [?a <=? ?b] => destruct (N.leb_spec a b)
  end.
Ltac bdestruct_all := unfold max_rune, rune_error, rune_self in *; repeat (bdestruct1; cbn [andb orb negb]; try lia).

(* settles the test of an [if] whose outcome follows from the hypotheses by lia *)
Ltac if_lia :=
  match goal with |- context [if ?c then _ else _] =>
    first [replace c with true by lia | replace c with false by lia]
  end.

Lemma skipn_app_exact : forall (a b : str) n, length a = n -> skipn n (a ++ b) = b.
Proof. intros a b n <-. induction a; [reflexivity|exact IHa]. Qed.

Lemma firstn_app_exact : forall (a b : str) n, length a = n -> firstn n (a ++ b) = a.
Proof. intros a b n <-. induction a; cbn; [reflexivity|now rewrite IHa]. Qed.

Lemma scalarb_spec : forall r, scalarb r = true <-> scalar r.
Proof. intro r. unfold scalarb, scalar, max_rune. lia. Qed.

Lemma encode_length_bounds : forall r,
  (1 <= length (utf8_encode r) <= 4)%nat.
Proof. intro r. unfold utf8_encode. bdestruct_all; cbn; lia. Qed.

Lemma encode_nonempty : forall r, utf8_encode r <> [].
Proof. intro r. pose proof (encode_length_bounds r). destruct (utf8_encode r); cbn in *; [lia|discriminate]. Qed.

Lemma encode_ascii : forall r, r < 0x80 -> utf8_encode r = [r].
Proof. intros r H. unfold utf8_encode. now if_lia. Qed.

Lemma encode_bytes : forall r, is_bytes (utf8_encode r).
Proof.
  intro r. unfold is_bytes, utf8_encode, is_byte, max_rune.
  bdestruct_all; repeat constructor; lia.
Qed.

Lemma encode_high : forall r, 0x80 <= r ->
  Forall (fun b => 0x80 <= b) (utf8_encode r) /\
  exists b t, utf8_encode r = b :: t /\ 0xC2 <= b.
Proof.
  intros r H. unfold utf8_encode, max_rune.
  bdestruct_all; (split; [repeat constructor; lia | eexists; eexists; split; [reflexivity|lia]]).
Qed.

Lemma encode_length_high : forall r, 0x80 <= r -> (2 <= length (utf8_encode r))%nat.
Proof.
  intros r H. unfold utf8_encode.
  repeat match goal with |- context [if ?c then _ else _] => destruct c eqn:? end; cbn; lia.
Qed.

Lemma is_bytes_skipn : forall n s, is_bytes s -> is_bytes (skipn n s).
Proof.
  intros n s H. unfold is_bytes in *. apply Forall_forall. intros x Hx.
  eapply Forall_forall; [exact H|]. rewrite <- (firstn_skipn n s). apply in_or_app. now right.
Qed.

Lemma is_bytes_tail : forall b t, is_bytes (b :: t) -> is_byte b /\ is_bytes t.
Proof. intros b t H. inversion H; subst. now split. Qed.

(* [enc r bs]: bs spells the scalar value r.
     0aaaaaaa | 110aaaaa 10bbbbbb | 1110aaaa 10bbbbbb 10cccccc | 11110aaa 10bbbbbb 10cccccc 10dddddd
   without overlong forms, surrogates and values above U+10FFFF. *)
Inductive enc : N -> str -> Prop :=
| enc1 a : a < 0x80 -> enc a [a]
| enc2 a b : 2 <= a < 32 -> b < 64 -> enc (a * 64 + b) [0xC0 + a; 0x80 + b]
| enc3 a b c : a < 16 -> b < 64 -> c < 64 -> (a = 0 -> 32 <= b) -> (a = 13 -> b < 32) ->
    enc (a * 4096 + b * 64 + c) [0xE0 + a; 0x80 + b; 0x80 + c]
| enc4 a b c d : a < 5 -> b < 64 -> c < 64 -> d < 64 -> (a = 0 -> 16 <= b) -> (a = 4 -> b < 16) ->
    enc (a * 262144 + b * 4096 + c * 64 + d) [0xF0 + a; 0x80 + b; 0x80 + c; 0x80 + d].

Lemma add_sub_l : forall n m, n + m - n = m.
Proof. intros. lia. Qed.

Lemma enc_decode : forall r bs rest, enc r bs -> utf8_decode (bs ++ rest) = (r, length bs).
Proof.
  intros r bs rest H. destruct H; cbn [app utf8_decode length]; unfold is_cont, in_range; repeat if_lia.
  - reflexivity.
  - now rewrite !add_sub_l.
  - destruct (N.eqb_spec (0xE0 + a) 0xE0), (N.eqb_spec (0xE0 + a) 0xED); if_lia; now rewrite !add_sub_l.
  - destruct (N.eqb_spec (0xF0 + a) 0xF0), (N.eqb_spec (0xF0 + a) 0xF4); if_lia; now rewrite !add_sub_l.
Qed.

Lemma enc_encode : forall r bs, enc r bs -> scalar r /\ utf8_encode r = bs.
Proof.
  intros r bs H. unfold scalar, utf8_encode, max_rune.
  destruct H; (split; [lia|]); repeat if_lia; repeat (f_equal; try lia).
Qed.

Lemma digit64 : forall r, exists q d, r = q * 64 + d /\ d < 64.
Proof. intro r. exists (r / 64), (r mod 64). lia. Qed.

(* every scalar value has a layout: cut it into base-64 digits *)
Lemma scalar_enc : forall r, scalar r -> enc r (utf8_encode r).
Proof.
  intros r [Hm Hs]. unfold max_rune in Hm.
  assert (E : exists bs, enc r bs).
  { destruct (N.ltb_spec r 0x80); [eexists; now apply enc1|].
    destruct (digit64 r) as (r1 & d & -> & Hd).
    destruct (N.ltb_spec r1 32); [eexists; apply enc2; lia|].
    destruct (digit64 r1) as (r2 & c & -> & Hc).
    destruct (N.ltb_spec r2 16).
    { replace ((r2 * 64 + c) * 64 + d) with (r2 * 4096 + c * 64 + d) by lia. eexists. apply enc3; lia. }
    destruct (digit64 r2) as (a & b & -> & Hb).
    replace (((a * 64 + b) * 64 + c) * 64 + d) with (a * 262144 + b * 4096 + c * 64 + d) by lia.
    eexists. apply enc4; lia. }
  destruct E as [bs E]. now rewrite (proj2 (enc_encode _ _ E)).
Qed.

(* THE codec round trip: decoding what AppendRune wrote for a scalar value gives
   that value and its width, whatever follows. *)
Lemma decode_encode : forall r rest, scalar r ->
  utf8_decode (utf8_encode r ++ rest) = (r, length (utf8_encode r)).
Proof. intros r rest H. apply enc_decode, scalar_enc, H. Qed.

(* U+FFFD itself is a scalar: its encoding decodes with width 3 *)
Lemma decode_encode_rune_error : forall rest,
  utf8_decode ([0xEF; 0xBF; 0xBD] ++ rest) = (rune_error, 3%nat).
Proof. intro rest. reflexivity. Qed.

Lemma decode_width : forall b t,
  let '(r, w) := utf8_decode (b :: t) in (1 <= w <= length (b :: t))%nat.
Proof.
  intros b t. unfold utf8_decode.
  repeat match goal with
  | |- context [if ?c then _ else _] => destruct c
  | |- context [match ?l with [] => _ | _ :: _ => _ end] => destruct l
  end; cbn [length]; lia.
Qed.

Lemma decode_ascii : forall b t, b < 0x80 -> utf8_decode (b :: t) = (b, 1%nat).
Proof. intros b t H. unfold utf8_decode. now if_lia. Qed.

Lemma payload : forall lo b, lo <= b -> exists a, b = lo + a.
Proof. intros lo b H. exists (b - lo). lia. Qed.

Lemma decode_enc : forall b t,
  let '(r, w) := utf8_decode (b :: t) in
  (r, w) = (rune_error, 1%nat) \/ enc r (firstn w (b :: t)).
Proof.
  intros b t. unfold utf8_decode.
  destruct (N.ltb_spec b 0x80); [right; now apply enc1|].
  destruct (N.ltb_spec b 0xC2); [now left|]. destruct (N.ltb_spec 0xF4 b); [now left|]. cbn [orb].
  destruct (N.ltb_spec b 0xE0).
  { destruct t as [|b1 t]; [now left|]. destruct (is_cont b1) eqn:C; [right|now left].
    unfold is_cont, in_range in C.
    destruct (payload 0xC0 b) as [a ->]; [lia|]. destruct (payload 0x80 b1) as [x ->]; [lia|].
    rewrite !add_sub_l. apply enc2; lia. }
  destruct (N.ltb_spec b 0xF0).
  { destruct t as [|b1 [|b2 t]]; try now left.
    destruct (in_range _ _ b1 && is_cont b2) eqn:C; [right|now left].
    assert (R : 0x80 <= b1 <= 0xBF /\ (b = 0xE0 -> 0xA0 <= b1) /\ (b = 0xED -> b1 <= 0x9F) /\ 0x80 <= b2 <= 0xBF).
    { unfold is_cont, in_range in C. destruct (N.eqb_spec b 0xE0), (N.eqb_spec b 0xED); lia. }
    clear C.
    destruct (payload 0xE0 b) as [a ->]; [lia|]. destruct (payload 0x80 b1) as [x ->]; [lia|].
    destruct (payload 0x80 b2) as [y ->]; [lia|].
    rewrite !add_sub_l. apply enc3; lia. }
  destruct t as [|b1 [|b2 [|b3 t]]]; try now left.
  destruct (in_range _ _ b1 && is_cont b2 && is_cont b3) eqn:C; [right|now left].
  assert (R : 0x80 <= b1 <= 0xBF /\ (b = 0xF0 -> 0x90 <= b1) /\ (b = 0xF4 -> b1 <= 0x8F) /\
              0x80 <= b2 <= 0xBF /\ 0x80 <= b3 <= 0xBF).
  { unfold is_cont, in_range in C. destruct (N.eqb_spec b 0xF0), (N.eqb_spec b 0xF4); lia. }
  clear C.
  destruct (payload 0xF0 b) as [a ->]; [lia|]. destruct (payload 0x80 b1) as [x ->]; [lia|].
  destruct (payload 0x80 b2) as [y ->]; [lia|]. destruct (payload 0x80 b3) as [z ->]; [lia|].
  rewrite !add_sub_l. apply enc4; lia.
Qed.

Lemma enc_head : forall r bs, enc r bs -> (hd 0 bs < 0x80 <-> r < 0x80) /\ (r < 0x80 -> r = hd 0 bs).
Proof. destruct 1; cbn [hd]; lia. Qed.

Lemma decode_spec : forall b t,
  let '(r, w) := utf8_decode (b :: t) in
  (r = rune_error /\ w = 1%nat) \/
  (scalar r /\ firstn w (b :: t) = utf8_encode r /\ length (utf8_encode r) = w /\
   (w <= length (b :: t))%nat /\ (b < 0x80 <-> r < 0x80) /\ (r < 0x80 -> r = b)).
Proof.
  intros b t. pose proof (decode_enc b t) as D. pose proof (decode_width b t) as W.
  destruct (utf8_decode (b :: t)) as [r w].
  destruct D as [D|E]; [left; now inversion D|right].
  destruct (enc_encode _ _ E) as [Hs Hb].
  split; [exact Hs|]. split; [symmetry; exact Hb|].
  split; [rewrite Hb, firstn_length; lia|]. split; [lia|].
  destruct w; [lia|]. exact (enc_head _ _ E).
Qed.

Lemma sanitize_go_skip : forall xs rest,
  sanitize_go (length xs) (xs ++ rest) = xs ++ sanitize_go 0 rest.
Proof. induction xs; intros; cbn; [reflexivity|]. now rewrite IHxs. Qed.

Lemma scalar_rune_error : scalar rune_error.
Proof. unfold scalar, rune_error, max_rune. lia. Qed.

Lemma decode_scalar : forall s r w, utf8_decode s = (r, w) -> scalar r.
Proof.
  intros [|b t] r w D; [injection D as <- _; apply scalar_rune_error|].
  pose proof (decode_spec b t) as DS. rewrite D in DS.
  destruct DS as [[-> _]|[H _]]; [apply scalar_rune_error|exact H].
Qed.

(* one step of the range loop: the rune that was decoded is written back, be it
   U+FFFD for an undecodable byte *)
Lemma sanitize_step : forall b t r w, utf8_decode (b :: t) = (r, w) ->
  sanitize (b :: t) = utf8_encode r ++ sanitize (skipn w (b :: t)).
Proof.
  intros b t r w D. pose proof (decode_spec b t) as DS. rewrite D in DS.
  unfold sanitize. cbn [sanitize_go]. rewrite D.
  destruct DS as [[-> ->]|(Hs & Hf & Hl & Hw & _)]; [reflexivity|].
  destruct ((r =? rune_error) && Nat.eqb w 1) eqn:C.
  { apply andb_prop in C. destruct C as [C1 C2]. apply N.eqb_eq in C1. apply Nat.eqb_eq in C2.
    rewrite C1, C2 in Hl. discriminate Hl. }
  destruct w as [|w]; [destruct (encode_nonempty r); now apply length_zero_iff_nil|].
  rewrite <- Hf, Nat.sub_succ, Nat.sub_0_r. cbn [firstn skipn app]. f_equal.
  rewrite <- (firstn_skipn w t) at 1. cbn [length] in Hw.
  rewrite <- (firstn_length_le t) at 1 by lia. apply sanitize_go_skip.
Qed.

Theorem sanitize_valid : forall s, valid_utf8 s -> sanitize s = s.
Proof.
  induction 1 as [|r rest Hs _ IH]; [reflexivity|].
  pose proof (decode_encode r rest Hs) as D.
  destruct (utf8_encode r ++ rest) as [|b t] eqn:E.
  { apply app_eq_nil in E. now destruct (encode_nonempty r). }
  rewrite (sanitize_step _ _ _ _ D), <- E, skipn_app_exact by reflexivity. now rewrite IH.
Qed.

Theorem sanitize_fixed : forall s, sanitize s = s -> valid_utf8 s.
Proof.
  intro s. remember (length s) as n eqn:Hn. revert s Hn.
  induction n as [n IH] using lt_wf_ind. intros s Hn Hs.
  destruct s as [|b t]; [constructor|].
  destruct (utf8_decode (b :: t)) as [r w] eqn:D.
  pose proof (decode_scalar _ _ _ D) as Hr. pose proof (sanitize_step _ _ _ _ D) as S. rewrite Hs in S.
  (* b :: t starts with the encoding of r, so w is its length *)
  pose proof (decode_encode r (sanitize (skipn w (b :: t))) Hr) as D'.
  rewrite <- S, D in D'. injection D' as Hw.
  assert (Hk : skipn w (b :: t) = sanitize (skipn w (b :: t))).
  { rewrite S at 1. now apply skipn_app_exact. }
  rewrite S, <- Hk. constructor; [exact Hr|].
  apply (IH (length (skipn w (b :: t)))); [|reflexivity|now rewrite <- Hk].
  pose proof (decode_width b t) as W. rewrite D in W. rewrite skipn_length. subst n. lia.
Qed.
