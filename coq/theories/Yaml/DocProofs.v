(* C11: whole documents (Yaml/Doc.v) - the block parser inverts the token layout of every
   document, with the fuel parse_toks gives; a quoted inline value reads as a string or not
   at all. *)
From Verif Require Import Yaml.Scalar Yaml.Proofs Yaml.Literal Yaml.Style Yaml.Doc.
From Coq Require Import List NArith Bool Lia Arith PeanoNat.
Import ListNotations.
Open Scope N_scope.

(* induction over data with the nested lists *)
Section DataInd.
  Variable P : data -> Prop.
  Hypothesis HNull : P DNull.
  Hypothesis HBool : forall b, P (DBool b).
  Hypothesis HInt : forall t, P (DInt t).
  Hypothesis HFloat : forall t, P (DFloat t).
  Hypothesis HStr : forall s, P (DStr s).
  Hypothesis HBytes : forall b, P (DBytes b).
  Hypothesis HSeq : forall l, Forall P l -> P (DSeq l).
  Hypothesis HMap : forall l, Forall (fun kv => P (snd kv)) l -> P (DMap l).

  Fixpoint data_nested_ind (d : data) : P d :=
    match d with
    | DNull => HNull
    | DBool b => HBool b
    | DInt t => HInt t
    | DFloat t => HFloat t
    | DStr s => HStr s
    | DBytes b => HBytes b
    | DSeq l => HSeq l (list_ind (Forall P) (Forall_nil _) (fun x _ => Forall_cons x (data_nested_ind x)) l)
    | DMap l =>
      HMap l (list_ind (Forall (fun kv => P (snd kv))) (Forall_nil _)
                       (fun kv _ => Forall_cons kv (data_nested_ind (snd kv))) l)
    end.
End DataInd.

(* fuel the parser needs for the tokens of d *)
Fixpoint need (d : data) : nat :=
  match d with
  | DSeq l => S (fold_right (fun e n => S (need e + n)) 1%nat l)
  | DMap l => S (fold_right (fun kv n => S (need (snd kv) + n)) 1%nat l)
  | _ => 1%nat
  end.

(* what follows the tokens of a block at column c: nothing, or a token of an
   enclosing block (column < c) *)
Definition rest_lt (c : nat) (rest : list tok) : Prop :=
  match rest with
  | [] => True
  | TDash k :: _ => (k < c)%nat
  | TKey k _ :: _ => (k < c)%nat
  | TVal _ :: _ => False
  end.

Definition node_ok (d : data) : Prop :=
  forall fuel cmin c rest, (need d <= fuel)%nat -> (cmin <= c)%nat -> rest_lt c rest ->
    parse_node fuel cmin (emit_toks c d ++ rest) = Some (d, rest).

Lemma emit_toks_seq : forall c l, l <> [] ->
  emit_toks c (DSeq l) = flat_map (fun e => TDash c :: emit_toks (c + 2) e) l.
Proof. intros c [|x r] H; [congruence|reflexivity]. Qed.
Lemma emit_toks_map : forall c l, l <> [] ->
  emit_toks c (DMap l) = flat_map (fun kv => TKey c (fst kv) :: emit_toks (c + 2) (snd kv)) l.
Proof. intros c [|x r] H; [congruence|reflexivity]. Qed.

Lemma parse_seq_stop : forall f c rest, rest_lt c rest ->
  parse_seq (S f) c rest = Some ([], rest).
Proof.
  intros f c rest H. cbn [parse_seq]. destruct rest as [|[k|k key|d] r]; try reflexivity.
  cbn [rest_lt] in H. destruct (Nat.eqb k c) eqn:E; [apply Nat.eqb_eq in E; lia|reflexivity].
Qed.
Lemma parse_map_stop : forall f c rest, rest_lt c rest ->
  parse_map (S f) c rest = Some ([], rest).
Proof.
  intros f c rest H. cbn [parse_map]. destruct rest as [|[k|k key|d] r]; try reflexivity.
  cbn [rest_lt] in H. destruct (Nat.eqb k c) eqn:E; [apply Nat.eqb_eq in E; lia|reflexivity].
Qed.

(* what follows the node of an entry of a block at column c - the next entry, or what follows
   the block - may follow a node at column c + 2 *)
Lemma rest_lt_next : forall c next rest, rest_lt c rest ->
  match next with
  | [] => True
  | TDash k :: _ | TKey k _ :: _ => k = c
  | TVal _ :: _ => False
  end -> rest_lt (c + 2) (next ++ rest).
Proof.
  intros c [|[k|k key|d] ts] rest Hr H; cbn in *; try lia; try contradiction.
  destruct rest as [|[k|k key|d] r]; cbn in *; auto; lia.
Qed.

Lemma parse_seq_emit : forall l, Forall node_ok l ->
  forall fuel c rest,
    (fold_right (fun e n => S (need e + n)) 1%nat l <= fuel)%nat -> rest_lt c rest ->
    parse_seq fuel c (flat_map (fun e => TDash c :: emit_toks (c + 2) e) l ++ rest) = Some (l, rest).
Proof.
  induction 1 as [|x l Hx Hl IH]; intros fuel c rest Hf Hr.
  - cbn [fold_right] in Hf. destruct fuel as [|f]; [lia|]. cbn [flat_map app]. apply parse_seq_stop; exact Hr.
  - cbn [fold_right] in Hf. destruct fuel as [|f]; [lia|].
    cbn [flat_map]. rewrite <- app_assoc. cbn [app parse_seq]. rewrite Nat.eqb_refl.
    rewrite (Hx f (S c) (c + 2)%nat); [|lia|lia|].
    + rewrite IH; [reflexivity|lia|exact Hr].
    + apply rest_lt_next; [exact Hr|]. destruct l; cbn; auto.
Qed.

Lemma parse_map_emit : forall l, Forall (fun kv => node_ok (snd kv)) l ->
  forall fuel c rest,
    (fold_right (fun kv n => S (need (snd kv) + n)) 1%nat l <= fuel)%nat -> rest_lt c rest ->
    parse_map fuel c (flat_map (fun kv => TKey c (fst kv) :: emit_toks (c + 2) (snd kv)) l ++ rest) = Some (l, rest).
Proof.
  induction 1 as [|x l Hx Hl IH]; intros fuel c rest Hf Hr.
  - cbn [fold_right] in Hf. destruct fuel as [|f]; [lia|]. cbn [flat_map app]. apply parse_map_stop; exact Hr.
  - cbn [fold_right] in Hf. destruct fuel as [|f]; [lia|].
    cbn [flat_map]. rewrite <- app_assoc. cbn [app parse_map]. rewrite Nat.eqb_refl.
    rewrite (Hx f (S c) (c + 2)%nat); [|lia|lia|].
    + rewrite IH; [destruct x; reflexivity|lia|exact Hr].
    + apply rest_lt_next; [exact Hr|]. destruct l; cbn; auto.
Qed.

Lemma leaf_ok : forall d, inline d = true -> node_ok d.
Proof.
  intros d Hi fuel cmin c rest Hf _ _.
  assert (E : emit_toks c d = [TVal d] /\ (1 <= need d)%nat)
    by (destruct d as [| | | | | |[|]|[|]]; try discriminate; cbn; auto with arith).
  destruct E as [-> Hn]. destruct fuel; [lia|reflexivity].
Qed.

(* the block parser inverts the token layout, for every document and every column *)
Theorem parse_node_emit : forall d, node_ok d.
Proof.
  induction d using data_nested_ind; try (apply leaf_ok; reflexivity).
  - destruct l as [|x l]; [apply leaf_ok; reflexivity|].
    intros fuel cmin c rest Hf Hc Hr. rewrite emit_toks_seq by discriminate.
    destruct fuel as [|f]; cbn [need] in Hf; [lia|].
    pose proof (parse_seq_emit (x :: l) H f c rest ltac:(lia) Hr) as P.
    cbn [flat_map app] in P |- *. cbn [parse_node].
    rewrite P, (proj2 (Nat.leb_le cmin c) Hc). reflexivity.
  - destruct l as [|x l]; [apply leaf_ok; reflexivity|].
    intros fuel cmin c rest Hf Hc Hr. rewrite emit_toks_map by discriminate.
    destruct fuel as [|f]; cbn [need] in Hf; [lia|].
    pose proof (parse_map_emit (x :: l) H f c rest ltac:(lia) Hr) as P.
    cbn [flat_map app] in P |- *. cbn [parse_node].
    rewrite P, (proj2 (Nat.leb_le cmin c) Hc). reflexivity.
Qed.

(* The fuel [parse_toks] gives is enough.  An entry costs its node and one step more, a block
   two more; an entry has a token more than its node, so three steps per token cover it. *)
Lemma need_entries : forall (A : Type) (val : A -> data) (hd : A -> tok) c l,
  Forall (fun x => forall c, (need (val x) < 3 * List.length (emit_toks c (val x)))%nat) l ->
  (fold_right (fun x n => S (need (val x) + n)) 1 l + 3 * List.length l
   <= 1 + 3 * List.length (flat_map (fun x => hd x :: emit_toks (c + 2) (val x)) l))%nat.
Proof.
  induction 1 as [|x l Hx _ IH]; [cbn; lia|].
  cbn [fold_right flat_map app List.length]. rewrite app_length. specialize (Hx (c + 2)%nat). lia.
Qed.

Lemma need_lt_toks : forall d c, (need d < 3 * List.length (emit_toks c d))%nat.
Proof.
  induction d using data_nested_ind; intros c; try (cbn; lia).
  - destruct l as [|x l]; [cbn; lia|]. rewrite emit_toks_seq by discriminate.
    pose proof (need_entries data (fun e => e) (fun _ => TDash c) c (x :: l) H) as G.
    cbn [need List.length] in *. lia.
  - destruct l as [|x l]; [cbn; lia|]. rewrite emit_toks_map by discriminate.
    pose proof (need_entries _ snd (fun kv => TKey c (fst kv)) c (x :: l) H) as G.
    cbn [need List.length] in *. lia.
Qed.

(* a text that opens with a quote reads as a string or not at all: none of the other forms
   of an inline value starts with a quote *)
Lemma read_value_quoted : forall tok_number q body d, q = c_dq \/ q = c_sq ->
  read_value tok_number (q :: body) = Some d -> exists s', d = DStr s'.
Proof.
  intros tok_number q body d Hq H. unfold read_value in H.
  destruct (read_any _ _ _ _ _ _) as [v|]; [inversion H; eauto|].
  destruct Hq as [->| ->]; cbn in H; discriminate.
Qed.

Example doc_structure_example :
  emit_toks 0 (DMap [([97], DSeq [DSeq [DInt [49]]; DMap [([98], DSeq [])]]); ([99], DMap [])])
  = [TKey 0 [97]; TDash 2; TDash 4; TVal (DInt [49]); TDash 2; TKey 4 [98]; TVal (DSeq []); TKey 0 [99]; TVal (DMap [])].
Proof. vm_compute. reflexivity. Qed.
