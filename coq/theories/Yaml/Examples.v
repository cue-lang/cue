(* Witnesses (refutations) and non-vacuity examples for the C11 model.
   The oracles are instantiated with the values the implementation's libraries
   give on the witness strings (checked on every run: the witnesses are part of
   the harness corpus): no witness is a number or a timestamp, and apart
   from the line breaks and the tab the only non-printable rune used is U+00A0. *)
From Verif Require Import Yaml.Scalar Yaml.Proofs Yaml.Literal Yaml.Style.
From Coq Require Import List NArith Bool String.
Import ListNotations.
Open Scope N_scope.

Definition ex_print (c : N) : bool := (32 <=? c) && (c <? 127) || (161 <=? c).
Definition ex_no (_ : str) : bool := false.
Definition ex_choose := choose_style ex_no ex_no ex_no.
Definition ex_read := read_any ex_no.
Definition ex_doc := emit_doc ex_print.

(* F4: the string "\n" as a map value is written in literal style with header "|" and reads
   back as "" (C11_literal_refuted_newline) *)
Definition nl1 : str := [c_nl].

(* what follows a value, and a key, in the probes *)
Definition val_suffix : str := [c_nl].
Definition key_suffix : str := s_ ": 1
".

(* "\n a": the first content line starts with a blank; the reader takes the
   block's indentation from it (C11_literal_refuted_space) *)
Definition nl_sp_a : str := s_ "
 a".

(* a string starting with the document end marker is double quoted in every position and
   reads back (C11_dots_quoted; C11-dots-root, C11-reader-dots) *)
Definition dots : str := s_ "...".

(* "#" followed by U+00A0: goccy quotes with single quotes and Go escapes
   (C11_style_choice_refuted_nbsp) *)
Definition hash_nbsp : str := [c_hash; 160].

(* "? " followed by a carriage return: cue's singleQuoted writes the break raw
   (C11_style_choice_refuted_cr) *)
Definition qm_cr : str := [c_qm; c_sp; c_cr].

(* non-vacuity: the hypotheses of the conditional theorems are met by ordinary strings *)
Definition multi_ex : str := s_ "key: value
  indented # not a comment

last".
Example literal_ok_example :
  literal_ok multi_ex = true /\ ex_choose false true multi_ex = Literal /\
  ex_read 2 false false val_suffix (ex_doc Literal 4 multi_ex val_suffix) = Some multi_ex.
Proof. repeat split; vm_compute; reflexivity. Qed.

Example literal_keep_example :
  literal_ok (s_ "a

") = true /\ literal_ok [c_nl; c_nl] = true /\
  ex_read 0 true false val_suffix (ex_doc Literal 2 [c_nl; c_nl] val_suffix) = Some [c_nl; c_nl].
Proof. repeat split; vm_compute; reflexivity. Qed.

Example plain_ok_example :
  plain_ok true (s_ "http://a.b/c?d=e#f") = true /\
  ex_choose true false (s_ "-a:b") = Plain /\ plain_ok true (s_ "-a:b") = true /\
  ex_read 0 false true key_suffix (ex_doc Plain 2 (s_ "-a:b") key_suffix) = Some (s_ "-a:b").
Proof. repeat split; vm_compute; reflexivity. Qed.

Example styles_example :
  ex_choose false false (s_ "yes") = Double /\ ex_choose false false (s_ "1e3") = Double /\
  ex_choose false false (s_ "2001-12-14") = Double /\ ex_choose false false (s_ "a: b") = SingleGo /\
  ex_choose false false (s_ "? x") = SingleCue /\ ex_choose true false (s_ "a
b") = Double /\
  ex_choose false false (s_ "plain text") = Plain /\ ex_choose false false [] = Double.
Proof. repeat split; vm_compute; reflexivity. Qed.

Example gap_false_example :
  style_gap ex_print true (ex_choose true false (s_ "a b")) (s_ "a b") = false /\
  style_gap ex_print false (ex_choose false false (s_ "it's")) (s_ "it's") = false.
Proof. split; vm_compute; reflexivity. Qed.

(* reader deviations of goccy's scanner (Yaml/Scalar.v): the YAML reading is right, the
   implementation's reader differs *)
Example deviation_examples :
  ex_read 0 false true key_suffix (s_ "...: 1
") = Some (s_ "...") /\ quirk_dots true true (s_ "...") = true /\
  ex_read 0 false true key_suffix (s_ "...a: 1
") = Some (s_ "...a") /\ quirk_dots true true (s_ "...a") = true /\
  ex_read 0 false true key_suffix (s_ "a<<: 1
") = Some (s_ "a<<") /\ quirk_merge true true (s_ "a<<") = true /\
  parse_literal 0 false (s_ "|-

  	a
  b
") = Some (s_ "
	a
b") /\ goccy_literal (s_ "|-

  	a
  b
") = None /\
  quirk_blank_followed true true [c_nl; c_nl] = true.
Proof. repeat split; vm_compute; reflexivity. Qed.

(* JSON scalars under the YAML reading *)
Definition json_simple_escape (c : N) : option N :=
  if c =? 34 then Some 34 else if c =? 92 then Some 92 else if c =? 47 then Some 47
  else if c =? 98 then Some 8 else if c =? 102 then Some 12 else if c =? 110 then Some 10
  else if c =? 114 then Some 13 else if c =? 116 then Some 9 else None.
