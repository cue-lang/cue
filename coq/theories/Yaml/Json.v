(* C11: JSON numbers under the YAML decoder: every JSON number text is a plain
   scalar that the decoder resolves as a number (never as a string). *)
From Verif Require Import Yaml.Scalar.
From Coq Require Import List NArith Bool Lia Arith.
Import ListNotations.
Open Scope N_scope.

(* RFC 8259 number: optional minus, 0 or a non-zero digit followed by digits, optional fraction, optional exponent *)
Definition json_number (s : str) : bool :=
  let b := match s with c :: r => if c =? c_minus then r else s | [] => s end in
  let (d1, r1) := span is_digit b in
  (match d1 with
   | [] => false
   | [c] => true
   | c :: _ => negb (c =? 48)
   end) &&
  match r1 with
  | [] => true
  | d :: r2 =>
    if d =? c_dot then
      let (d2, r3) := span is_digit r2 in
      (match d2 with [] => false | _ :: _ => rx_opt_exp r3 end)
    else rx_exp r1
  end.

Lemma span_spec : forall p l a b, span p l = (a, b) -> l = a ++ b /\ forallb p a = true.
Proof.
  induction l as [|c r IH]; intros a b H.
  - cbn in H. injection H as <- <-. split; reflexivity.
  - cbn in H. destruct (p c) eqn:E.
    + destruct (span p r) as [a2 b2] eqn:E2. injection H as <- <-.
      destruct (IH a2 b2 eq_refl) as [-> Ha]. split; [reflexivity|]. cbn. rewrite E, Ha. reflexivity.
    + injection H as <- <-. split; reflexivity.
Qed.

Definition us_free (l : str) : bool := forallb (fun c => negb (c =? c_us)) l.

Lemma digits_us_free : forall l, forallb is_digit l = true -> us_free l = true.
Proof.
  induction l as [|c r IH]; intro H; [reflexivity|].
  cbn in H. apply andb_true_iff in H. destruct H as [Hc Hr]. unfold us_free. cbn [forallb]. fold (us_free r). rewrite (IH Hr).
  rewrite andb_true_r. unfold is_digit in Hc. apply andb_true_iff in Hc. destruct Hc as [_ H2]. apply N.leb_le in H2.
  destruct (c =? c_us) eqn:E; [apply N.eqb_eq in E; subst; unfold c_us in H2; lia|reflexivity].
Qed.

Lemma us_free_cons : forall c r, us_free (c :: r) = negb (c =? c_us) && us_free r.
Proof. reflexivity. Qed.

Lemma us_free_app : forall a b, us_free (a ++ b) = us_free a && us_free b.
Proof. intros. unfold us_free. apply forallb_app. Qed.

Lemma filter_us_free : forall l, us_free l = true -> filter (fun c => negb (c =? c_us)) l = l.
Proof.
  induction l as [|c r IH]; intro H; [reflexivity|].
  rewrite us_free_cons in H. apply andb_true_iff in H. destruct H as [Hc Hr]. cbn [filter]. rewrite Hc, (IH Hr). reflexivity.
Qed.

Lemma nonempty_all_digits_us_free : forall l, nonempty_all is_digit l = true -> us_free l = true.
Proof. intros l H. destruct l; [discriminate|]. apply digits_us_free. exact H. Qed.

Lemma strip_sign_us_free : forall l, us_free (strip_sign l) = true -> us_free l = true.
Proof.
  intros l H. destruct l as [|c r]; [reflexivity|]. unfold strip_sign in H.
  destruct ((c =? c_minus) || (c =? c_plus)) eqn:E; [|exact H].
  rewrite us_free_cons. rewrite H. rewrite andb_true_r.
  apply orb_true_iff in E. destruct E as [E|E]; apply N.eqb_eq in E; subst; reflexivity.
Qed.

Lemma rx_exp_us_free : forall l, rx_exp l = true -> us_free l = true.
Proof.
  intros l H. destruct l as [|c r]; [discriminate|]. cbn in H. apply andb_true_iff in H. destruct H as [He Hd].
  rewrite us_free_cons. rewrite (strip_sign_us_free r (nonempty_all_digits_us_free _ Hd)). rewrite andb_true_r.
  unfold is_e in He. apply orb_true_iff in He. destruct He as [E|E]; apply N.eqb_eq in E; subst; reflexivity.
Qed.

Lemma rx_opt_exp_us_free : forall l, rx_opt_exp l = true -> us_free l = true.
Proof. intros l H. destruct l; [reflexivity|]. apply rx_exp_us_free. exact H. Qed.

(* the part after the optional minus *)
Definition json_body (b : str) : bool :=
  let (d1, r1) := span is_digit b in
  (match d1 with [] => false | [c] => true | c :: _ => negb (c =? 48) end) &&
  match r1 with
  | [] => true
  | d :: r2 =>
    if d =? c_dot then
      let (d2, r3) := span is_digit r2 in
      (match d2 with [] => false | _ :: _ => rx_opt_exp r3 end)
    else rx_exp r1
  end.

(* the YAML patterns strip a sign where the JSON grammar strips a minus; no JSON number
   starts with '+' *)
Lemma json_number_body : forall s, json_number s = true -> json_body (strip_sign s) = true.
Proof.
  intros [|c r] H; [exact H|]. unfold strip_sign.
  destruct (c =? c_minus) eqn:E1; [unfold json_number in H; rewrite E1 in H; exact H|].
  destruct (c =? c_plus) eqn:E2; [apply N.eqb_eq in E2; subst c; discriminate|].
  unfold json_number in H. rewrite E1 in H. exact H.
Qed.

Lemma json_body_us_free : forall b, json_body b = true -> us_free b = true.
Proof.
  intros b H. unfold json_body in H. destruct (span is_digit b) as [d1 r1] eqn:Es.
  destruct (span_spec _ _ _ _ Es) as [-> Hd]. apply andb_true_iff in H. destruct H as [_ H2].
  rewrite us_free_app, (digits_us_free _ Hd). cbn [andb].
  destruct r1 as [|d r2]; [reflexivity|].
  destruct (d =? c_dot) eqn:E.
  - apply N.eqb_eq in E. subst d. destruct (span is_digit r2) as [d2 r3] eqn:Es2.
    destruct (span_spec _ _ _ _ Es2) as [-> Hd2]. destruct d2 as [|x d2]; [discriminate|].
    rewrite us_free_cons. change (negb (c_dot =? c_us)) with true. cbn [andb].
    rewrite us_free_app, (digits_us_free _ Hd2), (rx_opt_exp_us_free _ H2). reflexivity.
  - apply rx_exp_us_free. exact H2.
Qed.

(* a JSON number body matches rxYamlInt or rxYamlFloat *)
Lemma json_body_rx : forall s, json_body (strip_sign s) = true ->
  rx_yaml_int s = true \/ rx_yaml_float s = true.
Proof.
  intros s H. unfold rx_yaml_int, rx_yaml_float. revert H. generalize (strip_sign s) as b. intros b H.
  unfold json_body in H. destruct (span is_digit b) as [d1 r1] eqn:Es.
  destruct (span_spec _ _ _ _ Es) as [Hb Hd]. apply andb_true_iff in H. destruct H as [H1 H2].
  destruct r1 as [|d r2].
  - left. rewrite app_nil_r in Hb. subst b.
    destruct d1 as [|c d1]; [discriminate|].
    cbn in Hd. apply andb_true_iff in Hd. destruct Hd as [Hc Hr].
    destruct (c =? 48) eqn:E0.
    + destruct d1 as [|c2 d1]; [reflexivity|]. cbn in H1. discriminate.
    + rewrite Hc, Hr. reflexivity.
  - right. destruct (d =? c_dot) eqn:E.
    + destruct (span is_digit r2) as [d2 r3]. destruct d2 as [|x d2]; [discriminate|].
      destruct d1; exact H2.
    + destruct d1 as [|c d1]; [discriminate|]. exact H2.
Qed.

Lemma number_kind_of_rx : forall s, us_free s = true ->
  rx_yaml_int s = true \/ rx_yaml_float s = true -> number_kind s = true.
Proof.
  intros s Hus H. destruct s as [|c r]; [destruct H; discriminate|].
  unfold number_kind.
  assert (Hc : (c =? c_us) = false).
  { rewrite us_free_cons in Hus. apply andb_true_iff in Hus. destruct Hus as [Hc _]. apply negb_true_iff in Hc. exact Hc. }
  rewrite Hc. rewrite filter_us_free by exact Hus.
  destruct H as [H|H]; rewrite H; [reflexivity|apply orb_true_r].
Qed.

(* every JSON number text is resolved as a number by the YAML decoder *)
Theorem json_number_is_number : forall s, json_number s = true -> number_kind s = true.
Proof.
  intros s H. pose proof (json_number_body s H) as Hb. apply number_kind_of_rx.
  - apply strip_sign_us_free, json_body_us_free, Hb.
  - apply json_body_rx, Hb.
Qed.
