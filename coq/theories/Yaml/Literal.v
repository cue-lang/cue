(* C11: literal block scalars - the text written by the emitter reads back as
   the string when [literal_ok] holds; what the encoder's own test lets through
   beyond that is [literal_gap]. *)
From Verif Require Import Yaml.Scalar Yaml.Proofs.
From Coq Require Import List NArith Bool Lia Arith.
Import ListNotations.
Open Scope N_scope.

(* [split_nl s] is the non-empty list of newline-free lines that joins to s *)

Definition nl_free (l : str) : Prop := ~ In c_nl l.

Lemma split_nl_nonnil : forall s, split_nl s <> [].
Proof.
  induction s as [|c r IH]; simpl; try discriminate.
  destruct (c =? c_nl); try discriminate.
  destruct (split_nl r); discriminate.
Qed.

Lemma split_nl_nlfree : forall s, Forall nl_free (split_nl s).
Proof.
  induction s as [|c r IH]; cbn [split_nl]; [repeat constructor; intros []|].
  destruct (N.eqb_spec c c_nl) as [->|Hc]; [constructor; [intros []|exact IH]|].
  assert (Hcl : forall l, nl_free l -> nl_free (c :: l)) by (intros l Hl [E|E]; [congruence|exact (Hl E)]).
  destruct (split_nl r); inversion IH; subst; repeat constructor; auto. apply Hcl. intros [].
Qed.

Lemma join_nl_cons : forall l x xs, join_nl (l :: x :: xs) = l ++ c_nl :: join_nl (x :: xs).
Proof. reflexivity. Qed.

Lemma join_split : forall s, join_nl (split_nl s) = s.
Proof.
  induction s as [|c r IH]; [reflexivity|]. cbn [split_nl]. pose proof (split_nl_nonnil r) as Hne.
  destruct (N.eqb_spec c c_nl) as [->|_]; destruct (split_nl r) as [|l [|x xs]]; try congruence;
    rewrite <- IH; reflexivity.
Qed.

Lemma split_nl_single : forall l, nl_free l -> split_nl l = [l].
Proof.
  induction l as [|c r IH]; intro H; [reflexivity|]. cbn [split_nl].
  rewrite IH by (intro; apply H; right; assumption).
  destruct (N.eqb_spec c c_nl) as [->|_]; [destruct H; left; reflexivity|reflexivity].
Qed.

Lemma split_nl_app : forall a b, split_nl (a ++ c_nl :: b) = split_nl a ++ split_nl b.
Proof.
  induction a as [|c r IH]; intro b; [reflexivity|]. cbn [app split_nl]. rewrite IH.
  destruct (c =? c_nl); [reflexivity|].
  destruct (split_nl r) eqn:E; [destruct (split_nl_nonnil _ E)|reflexivity].
Qed.

Lemma join_nl_snoc : forall L x, L <> [] -> join_nl (L ++ [x]) = join_nl L ++ c_nl :: x.
Proof.
  induction L as [|l L IH]; intros x H; [congruence|].
  destruct L as [|y ys].
  - reflexivity.
  - cbn [app]. rewrite join_nl_cons. change (y :: ys ++ [x]) with ((y :: ys) ++ [x]).
    rewrite IH by discriminate. rewrite join_nl_cons. rewrite <- app_assoc. reflexivity.
Qed.

Lemma split_join : forall L, L <> [] -> Forall nl_free L -> split_nl (join_nl L) = L.
Proof.
  induction L as [|l L IH]; intros Hne HF; [congruence|].
  inversion HF; subst.
  destruct L as [|y ys].
  - simpl. apply split_nl_single. auto.
  - rewrite join_nl_cons. rewrite split_nl_app. rewrite split_nl_single by auto.
    rewrite IH by (auto; discriminate). reflexivity.
Qed.

Lemma text_lines_join : forall L, L <> [] -> Forall nl_free L ->
  text_lines (join_nl L ++ [c_nl]) = Some L.
Proof.
  intros L Hne HF. unfold text_lines.
  rewrite split_nl_app. rewrite split_join by auto.
  cbn [split_nl]. rewrite rev_app_distr. cbn [rev app]. rewrite rev_involutive. reflexivity.
Qed.

(* apart from the newlines, the characters of the lines *)
Lemma mem_chr_join : forall c L, c <> c_nl -> mem_chr c (join_nl L) = existsb (mem_chr c) L.
Proof.
  intros c L Hc. apply N.eqb_neq in Hc. induction L as [|l L IH]; [reflexivity|].
  destruct L as [|y ys]; [cbn; rewrite orb_false_r; reflexivity|].
  rewrite join_nl_cons. unfold mem_chr in *. rewrite existsb_app. cbn [existsb] in *.
  rewrite IH, Hc. reflexivity.
Qed.

(* the line after the last newline, when the text does not end with one, is not empty *)
Lemma last_line : forall s c, c <> c_nl -> exists L x, split_nl (s ++ [c]) = L ++ [x] /\ x <> [].
Proof.
  intros s c Hc. induction s as [|d r [L [x [E Hx]]]]; cbn [app split_nl].
  - apply N.eqb_neq in Hc. rewrite Hc. exists [], [c]. split; [reflexivity|discriminate].
  - rewrite E. destruct (d =? c_nl); [exists ([] :: L), x; auto|].
    destruct L as [|y ys]; [exists [], (d :: x)|exists ((d :: y) :: ys), x]; split;
      (reflexivity || discriminate || assumption).
Qed.

Lemma keep_lines : forall t, flat_map (fun l => l ++ [c_nl]) (split_nl t) = t ++ [c_nl].
Proof.
  induction t as [|c r IH]; [reflexivity|]. cbn [split_nl].
  destruct (N.eqb_spec c c_nl) as [->|_]; [cbn [flat_map app]; rewrite IH; reflexivity|].
  destruct (split_nl r); [destruct r; discriminate|].
  cbn [flat_map app] in *. rewrite IH. reflexivity.
Qed.

Lemma all_spaces_app : forall a b, all_spaces (a ++ b) = all_spaces a && all_spaces b.
Proof. intros. unfold all_spaces. apply forallb_app. Qed.

Lemma all_spaces_repeat : forall n, all_spaces (repeat c_sp n) = true.
Proof. induction n; simpl; auto. Qed.

Lemma count_sp_repeat : forall n l, count_sp (repeat c_sp n ++ l) = (n + count_sp l)%nat.
Proof. induction n; intro l; simpl; auto. Qed.

Lemma skipn_repeat : forall n (l : str), skipn n (repeat c_sp n ++ l) = l.
Proof. induction n; intro l; simpl; auto. Qed.

Lemma pad_line_blank : forall n l, all_spaces l = true -> pad_line n l = [].
Proof. intros. unfold pad_line. rewrite H. reflexivity. Qed.

Lemma pad_line_real : forall n l, all_spaces l = false -> pad_line n l = repeat c_sp n ++ l.
Proof. intros. unfold pad_line. rewrite H. reflexivity. Qed.

Lemma all_spaces_pad_real : forall n l, all_spaces l = false -> all_spaces (pad_line n l) = false.
Proof.
  intros. rewrite pad_line_real by auto. rewrite all_spaces_app, H. apply andb_false_r.
Qed.

Lemma nl_free_pad : forall n l, nl_free l -> nl_free (pad_line n l).
Proof.
  intros n l H. unfold pad_line. destruct (all_spaces l).
  - intro X; inversion X.
  - intro X. apply in_app_or in X. destruct X as [X|X]; auto.
    apply repeat_spec in X. discriminate.
Qed.

Lemma first_content_indent_pad : forall n L,
  first_content_indent (map (pad_line n) L) =
  match first_real L with Some l => Some (n + count_sp l)%nat | None => None end.
Proof.
  induction L as [|l L IH]; [reflexivity|]. cbn [map first_content_indent first_real].
  destruct (all_spaces l) eqn:E.
  - rewrite pad_line_blank by exact E. exact IH.
  - rewrite all_spaces_pad_real, pad_line_real, count_sp_repeat by exact E. reflexivity.
Qed.

Lemma max_blank_pad : forall n L, max_blank_prefix (map (pad_line n) L) = O.
Proof.
  induction L as [|l L IH]; [reflexivity|].
  cbn [map max_blank_prefix].
  destruct (all_spaces l) eqn:E.
  - rewrite pad_line_blank by auto. cbn. auto.
  - rewrite all_spaces_pad_real by auto. reflexivity.
Qed.

Lemma lit_lines_pad : forall n L, lines_clean L = true ->
  lit_lines n (map (pad_line n) L) = Some L.
Proof.
  induction L as [|l L IH]; intro H; [reflexivity|].
  cbn [lines_clean forallb] in H. apply andb_true_iff in H. destruct H as [H1 H2].
  cbn [map lit_lines]. fold (lines_clean L) in H2. rewrite (IH H2).
  unfold lit_line.
  destruct (all_spaces l) eqn:E.
  - cbn [negb orb] in H1. destruct l; [|discriminate].
    rewrite pad_line_blank by auto. cbn. destruct n; reflexivity.
  - rewrite all_spaces_pad_real by auto. rewrite pad_line_real by auto.
    rewrite count_sp_repeat.
    replace (Nat.leb n (n + count_sp l)) with true by (symmetry; apply Nat.leb_le; lia).
    rewrite skipn_repeat. reflexivity.
Qed.

Lemma parse_header_chomp : forall ch body,
  parse_header (chomp_text ch ++ c_nl :: body) = Some (ch, body).
Proof. intros [] body; reflexivity. Qed.

Lemma all_empty_of_none : forall L, lines_clean L = true -> first_real L = None ->
  Forall (fun l => l = []) L.
Proof.
  induction L as [|l L IH]; intros H1 H2; [constructor|].
  cbn [lines_clean forallb first_real] in *. apply andb_true_iff in H1. destruct H1 as [Ha Hb].
  destruct (all_spaces l) eqn:E; [|discriminate].
  cbn in Ha. destruct l; [|discriminate]. constructor; auto.
Qed.

Lemma map_const_empty : forall (L : list str) (M : list str),
  Forall (fun l => l = []) L -> List.length M = List.length L -> map (fun _ : str => ([] : str)) M = L.
Proof.
  induction L as [|l L IH]; intros M H Hl; destruct M; try discriminate; [reflexivity|].
  inversion H; subst. cbn. f_equal. apply IH; auto.
Qed.

(* the written block has no carriage return if the lines have none *)
Lemma no_cr_block : forall n ch L, existsb (mem_chr c_cr) L = false ->
  mem_chr c_cr (chomp_text ch ++ c_nl :: join_nl (map (pad_line n) L) ++ [c_nl]) = false.
Proof.
  intros n ch L H.
  destruct (mem_chr c_cr _) eqn:E; [|reflexivity].
  exfalso. apply mem_chr_in in E. apply in_app_or in E. destruct E as [E|E].
  - destruct ch; cbn in E; intuition discriminate.
  - destruct E as [E|E]; [discriminate|].
    apply in_app_or in E. destruct E as [E|E]; [|destruct E as [E|[]]; discriminate].
    apply mem_chr_in in E. rewrite mem_chr_join in E by discriminate.
    apply existsb_exists in E. destruct E as [l [H1 H2]].
    apply in_map_iff in H1. destruct H1 as [l0 [<- H1]].
    apply mem_chr_in in H2. unfold pad_line in H2. destruct (all_spaces l0); [inversion H2|].
    apply in_app_or in H2. destruct H2 as [H2|H2]; [apply repeat_spec in H2; discriminate|].
    apply mem_chr_in in H2. rewrite (existsb_false _ _ l0 H H1) in H2. discriminate.
Qed.

(* the lines L written at indentation n read back as L *)
Lemma read_block : forall n p root ch L,
  L <> [] -> Forall nl_free L -> lines_clean L = true ->
  existsb (mem_chr c_cr) L = false ->
  (p < n)%nat ->
  match first_real L with
  | Some (c :: _) => negb (c =? c_sp)
  | Some [] => false
  | None => true
  end = true ->
  parse_literal p root (chomp_text ch ++ c_nl :: join_nl (map (pad_line n) L) ++ [c_nl]) =
  Some (apply_chomp ch L).
Proof.
  intros n p root ch L Hne Hfree Hclean Hcr Hpn Hfirst.
  unfold parse_literal. rewrite (no_cr_block n ch L Hcr). rewrite parse_header_chomp.
  rewrite text_lines_join.
  2:{ destruct L; [congruence|discriminate]. }
  2:{ apply Forall_forall. intros x Hx. apply in_map_iff in Hx. destruct Hx as [l [<- Hl]].
      apply nl_free_pad. eapply Forall_forall in Hfree; eauto. }
  rewrite first_content_indent_pad. destruct (first_real L) as [[|c l0]|] eqn:E.
  - discriminate.
  - apply negb_true_iff in Hfirst. cbn [count_sp]. rewrite Hfirst, Nat.add_0_r.
    replace (if root then Nat.leb p n else Nat.ltb p n) with true.
    2:{ destruct root; symmetry; [apply Nat.leb_le|apply Nat.ltb_lt]; lia. }
    cbn [negb]. rewrite max_blank_pad.
    replace (Nat.ltb n 0) with false by (symmetry; apply Nat.ltb_ge; lia).
    rewrite lit_lines_pad by auto. reflexivity.
  - rewrite (map_const_empty L); [reflexivity| |apply map_length].
    apply all_empty_of_none; auto.
Qed.

(* [drop_last_empty]: the line after a final newline is not written *)

Lemma drop_last_empty_snoc : forall L x,
  drop_last_empty (L ++ [x]) = match x, L with [], _ :: _ => L | _, _ => L ++ [x] end.
Proof.
  induction L as [|l L IH]; intro x; [destruct x; reflexivity|]. specialize (IH x).
  destruct L as [|y ys]; [destruct x; reflexivity|].
  assert (E : drop_last_empty ((l :: y :: ys) ++ [x]) = l :: drop_last_empty ((y :: ys) ++ [x]))
    by (destruct y, ys; reflexivity).
  rewrite E, IH. destruct x; reflexivity.
Qed.

Lemma drop_last_empty_spec : forall L, exists L', drop_last_empty L = L' /\ (L = L' \/ L = L' ++ [[]]).
Proof.
  intro L. destruct L as [|x L _] using rev_ind; [exists []; auto|].
  rewrite drop_last_empty_snoc. destruct x, L; eauto.
Qed.

Lemma in_drop_last_empty : forall L l, In l (drop_last_empty L) -> In l L.
Proof.
  intros L l. destruct (drop_last_empty_spec L) as [L' [-> [->| ->]]]; [auto|]. intro H. apply in_or_app. auto.
Qed.

Lemma drop_last_empty_nonnil : forall L, L <> [] -> drop_last_empty L <> [].
Proof.
  intros L. destruct (drop_last_empty_spec L) as [L' [E [->| ->]]]; rewrite E; [auto|].
  intros _ ->. discriminate E.
Qed.

Lemma first_real_snoc_empty : forall L, first_real (L ++ [[]]) = first_real L.
Proof.
  induction L as [|l L IH]; [reflexivity|].
  cbn [app first_real]. destruct (all_spaces l); auto.
Qed.

Lemma first_real_drop_last_empty : forall L, first_real (drop_last_empty L) = first_real L.
Proof.
  intro L. destruct (drop_last_empty_spec L) as [L' [-> [->| ->]]]; [reflexivity|].
  symmetry. apply first_real_snoc_empty.
Qed.

Lemma ends_nl_snoc : forall s c, ends_nl (s ++ [c]) = (c =? c_nl).
Proof. intros. unfold ends_nl, ends_with_chr, last_chr. rewrite rev_app_distr. reflexivity. Qed.

Lemma ends_nlnl_snoc : forall s c, ends_nlnl (s ++ [c]) = (c =? c_nl) && ends_nl s.
Proof.
  intros. unfold ends_nlnl, ends_nl, ends_with_chr, last_chr. rewrite rev_app_distr. cbn [rev app].
  destruct (rev s); [rewrite andb_false_r|]; reflexivity.
Qed.

Lemma strip_trailing_real : forall L x, x <> [] -> strip_trailing_empty (L ++ [x]) = L ++ [x].
Proof.
  intros. unfold strip_trailing_empty. rewrite rev_app_distr. cbn [rev app].
  destruct x; [congruence|]. cbn [drop_trailing_empty_rev].
  change ((n :: x) :: rev L) with (rev [n :: x] ++ rev L). rewrite <- rev_app_distr. apply rev_involutive.
Qed.

(* The header is chosen by the newlines s ends with, and the reader's chomping gives them
   back; only for the lone newline there is no content line left to clip after. *)
Lemma chomp_inverse : forall s, s <> [c_nl] ->
  apply_chomp (literal_chomp s) (drop_last_empty (split_nl s)) = s.
Proof.
  intros s Hs. unfold literal_chomp.
  destruct s as [|c s' _] using rev_ind; [reflexivity|]. rewrite ends_nlnl_snoc, ends_nl_snoc.
  destruct (N.eqb_spec c c_nl) as [->|Hc]; cbn [andb].
  - rewrite split_nl_app. cbn [split_nl]. rewrite drop_last_empty_snoc.
    destruct (split_nl s') as [|l0 L0] eqn:E0; [destruct (split_nl_nonnil _ E0)|]. rewrite <- E0. clear l0 L0 E0.
    destruct (ends_nl s') eqn:E; cbn [apply_chomp]; [apply keep_lines|].
    destruct s' as [|d s2 _] using rev_ind; [destruct Hs; reflexivity|].
    rewrite ends_nl_snoc in E. apply N.eqb_neq in E.
    destruct (last_line s2 d E) as [L [x [HL Hx]]]. pose proof (join_split (s2 ++ [d])) as Hj.
    rewrite HL in Hj |- *. rewrite strip_trailing_real, <- Hj by exact Hx. destruct L; reflexivity.
  - destruct (last_line s' c Hc) as [L [x [HL Hx]]]. pose proof (join_split (s' ++ [c])) as Hj.
    rewrite HL in Hj |- *. cbn [apply_chomp]. rewrite drop_last_empty_snoc.
    destruct x; [congruence|]. rewrite strip_trailing_real by discriminate. exact Hj.
Qed.

Theorem literal_roundtrip_when : forall n p root s,
  literal_ok s = true -> (p < n)%nat ->
  parse_literal p root (emit_literal n s) = Some s.
Proof.
  intros n p root s Hok Hpn.
  unfold literal_ok in Hok. apply andb_true_iff in Hok. destruct Hok as [Hok Hfirst].
  apply andb_true_iff in Hok. destruct Hok as [Hcr Hclean].
  apply negb_true_iff in Hcr. rewrite <- (join_split s), mem_chr_join in Hcr by discriminate.
  assert (Hs : s <> [c_nl]) by (intros ->; discriminate).
  rewrite <- (chomp_inverse s Hs) at 2. rewrite <- first_real_drop_last_empty in Hfirst.
  apply read_block; auto.
  - apply drop_last_empty_nonnil, split_nl_nonnil.
  - apply Forall_forall. intros l Hl. apply in_drop_last_empty in Hl.
    exact (proj1 (Forall_forall _ _) (split_nl_nlfree s) l Hl).
  - apply forallb_forall. intros l Hl. apply in_drop_last_empty in Hl.
    exact (proj1 (forallb_forall _ _) Hclean l Hl).
  - destruct (existsb _ (drop_last_empty _)) eqn:E; [|reflexivity].
    apply existsb_exists in E. destruct E as [l [Hl Hc]]. apply in_drop_last_empty in Hl.
    rewrite (existsb_false _ _ l Hcr Hl) in Hc. discriminate.
  - destruct (first_real _) as [[|c l]|]; auto.
Qed.

Lemma last_chr_cons : forall c r,
  last_chr (c :: r) = match last_chr r with Some d => Some d | None => Some c end.
Proof. intros. unfold last_chr. cbn [rev]. destruct (rev r); reflexivity. Qed.

Lemma last_chr_none : forall r, last_chr r = None -> r = [].
Proof.
  intros r H. unfold last_chr in H. destruct (rev r) eqn:E; [|discriminate].
  apply (f_equal (@rev N)) in E. rewrite rev_involutive in E. exact E.
Qed.

(* a line of blanks only would end with a blank in front of a newline or of the end *)
Lemma lines_clean_of_safe : forall s,
  contains [c_sp; c_nl] s = false -> ends_with_chr c_sp s = false ->
  lines_clean (split_nl s) = true.
Proof.
  induction s as [|c r IH]; intros Hc He; [reflexivity|].
  cbn [contains] in Hc. apply orb_false_iff in Hc. destruct Hc as [Hp Hc].
  assert (Her : ends_with_chr c_sp r = false).
  { unfold ends_with_chr in *. rewrite last_chr_cons in He. destruct (last_chr r); auto. }
  specialize (IH Hc Her). cbn [split_nl].
  destruct (N.eqb_spec c c_nl) as [->|Hnl]; [exact IH|].
  destruct (split_nl r) as [|l ls] eqn:E1; [destruct (split_nl_nonnil _ E1)|].
  cbn [lines_clean forallb] in *. apply andb_true_iff in IH. destruct IH as [Hl Hls].
  rewrite Hls, andb_true_r. cbn [all_spaces forallb].
  destruct (N.eqb_spec c_sp c) as [<-|_]; [|reflexivity].
  destruct l as [|d l']; [exfalso|exact Hl].
  destruct r as [|d r']; [discriminate He|]. cbn [split_nl] in E1.
  destruct (N.eqb_spec d c_nl) as [->|_]; [discriminate Hp|].
  destruct (split_nl r'); discriminate E1.
Qed.

Lemma first_real_not_blank : forall L l, first_real L = Some l -> all_spaces l = false.
Proof.
  induction L as [|x L IH]; intros l H; [discriminate|].
  cbn [first_real] in H. destruct (all_spaces x) eqn:E; [auto|]. injection H as <-. exact E.
Qed.

Lemma join_all_empty : forall L, Forall (fun l : str => l = []) L ->
  join_nl L = repeat c_nl (List.length L - 1).
Proof.
  induction L as [|l L IH]; intro H; [reflexivity|].
  inversion H; subst. destruct L as [|y ys].
  - reflexivity.
  - rewrite join_nl_cons. rewrite IH by auto. cbn [List.length]. cbn [app].
    replace (S (S (List.length ys)) - 1)%nat with (S (S (List.length ys) - 1))%nat by lia.
    reflexivity.
Qed.

Lemma unprintable_cr : forall s, yaml_unprintable s = false -> mem_chr c_cr s = false.
Proof.
  intros s H. destruct (mem_chr c_cr s) eqn:E; [|reflexivity].
  apply mem_chr_in in E. pose proof (existsb_false _ _ _ H E). discriminate.
Qed.
