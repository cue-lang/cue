(* C11: the double-quoted style - every string strconv.Quote writes reads back - and the
   small facts about the string model (Yaml/Scalar.v) that the other files use. *)
From Verif Require Import Yaml.Scalar.
From Coq Require Import List NArith Bool Lia ZifyBool ZifyN ZifyNat Arith.
Import ListNotations.
Open Scope N_scope.

Lemma str_eqb_refl : forall a, str_eqb a a = true.
Proof. induction a; simpl; auto. rewrite N.eqb_refl. auto. Qed.

Lemma str_eqb_eq : forall a b, str_eqb a b = true <-> a = b.
Proof.
  induction a; destruct b; simpl; split; intro H; try congruence; auto.
  - apply andb_true_iff in H. destruct H as [H1 H2]. apply N.eqb_eq in H1. apply IHa in H2. congruence.
  - inversion H; subst. rewrite N.eqb_refl. simpl. apply IHa. auto.
Qed.

Lemma mem_chr_in : forall c l, mem_chr c l = true <-> In c l.
Proof.
  unfold mem_chr. intros. rewrite existsb_exists. split.
  - intros [x [Hin He]]. apply N.eqb_eq in He. subst. auto.
  - intro. exists c. split; auto. apply N.eqb_refl.
Qed.

Lemma mem_chr_false : forall c s d, mem_chr c s = false -> In d s -> (d =? c) = false.
Proof. intros c s d H Hin. apply N.eqb_neq. intros ->. apply mem_chr_in in Hin. congruence. Qed.

Lemma existsb_false : forall {A} (f : A -> bool) s d, existsb f s = false -> In d s -> f d = false.
Proof.
  intros A f s d H Hin. destruct (f d) eqn:E; [|reflexivity].
  rewrite <- H. symmetry. apply existsb_exists. eauto.
Qed.

Lemma unhex_hex_digit : forall d, d < 16 -> unhex_digit (hex_digit d) = Some d.
Proof.
  intros d H. unfold hex_digit, unhex_digit, is_digit.
  destruct (N.ltb_spec d 10).
  - replace ((48 <=? 48 + d) && (48 + d <=? 57)) with true by lia. f_equal. lia.
  - replace ((48 <=? 87 + d) && (87 + d <=? 57)) with false by lia.
    replace ((97 <=? 87 + d) && (87 + d <=? 102)) with true by lia. f_equal. lia.
Qed.

Lemma unhex_hex_digits : forall k c r acc,
  unhex k (hex_digits k c ++ r) acc = Some (acc * 16 ^ N.of_nat k + c mod 16 ^ N.of_nat k, r).
Proof.
  induction k; intros c r acc.
  - simpl. rewrite N.mod_1_r. f_equal. f_equal. ring.
  - cbn [hex_digits unhex app].
    rewrite unhex_hex_digit by (apply N.mod_lt; discriminate).
    rewrite IHk. f_equal. f_equal.
    rewrite Nat2N.inj_succ, N.pow_succ_r'.
    set (b := 16 ^ N.of_nat k).
    assert (Hb : b <> 0) by (apply N.pow_nonzero; discriminate).
    rewrite (N.mul_comm 16 b).
    rewrite (N.mod_mul_r c b 16) by (auto; discriminate).
    ring.
Qed.

Lemma unhex_hex_digits_lt : forall k c r,
  c < 16 ^ N.of_nat k -> unhex k (hex_digits k c ++ r) 0 = Some (c, r).
Proof.
  intros. rewrite unhex_hex_digits. rewrite N.mod_small by auto. f_equal.
Qed.

Lemma hex_digits_length : forall k c, List.length (hex_digits k c) = k.
Proof. induction k; simpl; auto. Qed.

Definition rune32 (c : N) : Prop := c < 4294967296.

(* an escape by code: \x, \u, \U with 2, 4, 8 hexadecimal digits *)
Lemma pd_loop_hex : forall e k bound c tail acc f,
  In (e, k, bound) [(120, 2%nat, 256); (117, 4%nat, 65536); (85, 8%nat, 4294967296)] -> c < bound ->
  pd_loop (S f) (c_bs :: e :: hex_digits k c ++ tail) acc = pd_loop f tail (c :: acc).
Proof.
  intros e k bound c tail acc f H Hc.
  destruct H as [H|[H|[H|[]]]]; injection H as <- <- <-;
    cbn [pd_loop N.eqb Pos.eqb is_break orb c_bs c_dq c_nl c_cr];
    rewrite unhex_hex_digits_lt by exact Hc; reflexivity.
Qed.

Section Double.
  Variable is_print : N -> bool.
  (* printable runes are not line breaks (true of unicode.IsPrint) *)
  Hypothesis print_not_break : forall c, is_print c = true -> is_break c = false.

  Lemma esc_double_length : forall c, (1 <= List.length (esc_double is_print c))%nat.
  Proof.
    intro c. unfold esc_double.
    destruct (_ || _); [apply le_n_S, Nat.le_0_l|]. destruct (is_print c); [apply le_n|].
    destruct (esc_common c); [|apply le_n_S, Nat.le_0_l].
    destruct (_ || _); [|destruct (_ <? _)]; apply le_n_S, Nat.le_0_l.
  Qed.

  Ltac const_case c H :=
    apply N.eqb_eq in H; subst c; reflexivity.

  (* one iteration of the reader consumes one escaped rune *)
  Lemma pd_loop_step : forall c tail acc f,
    rune32 c ->
    pd_loop (S f) (esc_double is_print c ++ tail) acc = pd_loop f tail (c :: acc).
  Proof.
    intros c tail acc f Hc.
    unfold esc_double.
    destruct ((c =? c_dq) || (c =? c_bs)) eqn:E1.
    - apply orb_true_iff in E1. destruct E1 as [E|E]; const_case c E.
    - apply orb_false_iff in E1. destruct E1 as [Ea Eb].
      destruct (is_print c) eqn:E2.
      + cbn [app pd_loop]. rewrite Ea, (print_not_break c E2), Eb. reflexivity.
      + unfold esc_common.
        destruct (c =? 7) eqn:C7; [const_case c C7|].
        destruct (c =? 8) eqn:C8; [const_case c C8|].
        destruct (c =? 12) eqn:C12; [const_case c C12|].
        destruct (c =? 10) eqn:C10; [const_case c C10|].
        destruct (c =? 13) eqn:C13; [const_case c C13|].
        destruct (c =? 9) eqn:C9; [const_case c C9|].
        destruct (c =? 11) eqn:C11; [const_case c C11|].
        destruct ((c <? 32) || (c =? 127)) eqn:Elow; [|destruct (c <? 65536) eqn:E16]; cbn [app].
        * apply (pd_loop_hex 120 2 256); [cbn; auto|]. apply orb_true_iff in Elow. destruct Elow; lia.
        * apply (pd_loop_hex 117 4 65536); [cbn; auto|]. apply N.ltb_lt, E16.
        * apply (pd_loop_hex 85 8 4294967296); [cbn; auto|exact Hc].
  Qed.

  Lemma pd_loop_emit : forall s rest acc f,
    Forall rune32 s ->
    (List.length (flat_map (esc_double is_print) s ++ c_dq :: rest) <= f)%nat ->
    pd_loop f (flat_map (esc_double is_print) s ++ c_dq :: rest) acc = Some (rev acc ++ s, rest).
  Proof.
    induction s as [|c s IH]; intros rest acc f Hs Hf.
    - cbn [flat_map app] in *. cbn [List.length] in Hf.
      destruct f as [|f]; [lia|]. cbn [pd_loop]. change (c_dq =? c_dq) with true. cbv iota.
      rewrite app_nil_r. reflexivity.
    - inversion Hs as [|? ? Hc Hs']; subst.
      cbn [flat_map] in *. rewrite <- app_assoc in *.
      rewrite app_length in Hf. pose proof (esc_double_length c).
      destruct f as [|f]; [lia|].
      rewrite pd_loop_step by assumption.
      rewrite IH; [|assumption|lia].
      cbn [rev]. rewrite <- app_assoc. reflexivity.
  Qed.

  Theorem double_roundtrip : forall s,
    Forall rune32 s -> parse_double (emit_double is_print s) = Some s.
  Proof.
    intros s Hs. unfold parse_double, emit_double.
    change (c_dq =? c_dq) with true. cbv iota.
    rewrite (pd_loop_emit s [] []); [reflexivity|assumption|lia].
  Qed.
End Double.
