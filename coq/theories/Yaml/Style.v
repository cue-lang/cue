(* C11: single-quoted and plain scalars, and the encoder's style choice. *)
From Verif Require Import Yaml.Scalar Yaml.Proofs Yaml.Literal.
From Coq Require Import List NArith Bool Lia Arith.
Import ListNotations.
Open Scope N_scope.

(* one iteration of the reader consumes one rune as cue writes it *)
Lemma ps_loop_step : forall c tail acc, is_break c = false ->
  ps_loop (esc_single_cue c ++ tail) acc = ps_loop tail (c :: acc).
Proof.
  intros c tail acc Hc. unfold esc_single_cue. destruct (c =? c_sq) eqn:E; cbn [app ps_loop].
  - apply N.eqb_eq in E. subst c. reflexivity.
  - rewrite E, Hc. reflexivity.
Qed.

Lemma ps_loop_cue : forall s rest acc,
  existsb is_break s = false ->
  match rest with d :: _ => d <> c_sq | [] => True end ->
  ps_loop (flat_map esc_single_cue s ++ c_sq :: rest) acc = Some (rev acc ++ s, rest).
Proof.
  induction s as [|c s IH]; intros rest acc Hb Hr.
  - cbn [flat_map app ps_loop]. change (c_sq =? c_sq) with true. cbv iota.
    rewrite app_nil_r. destruct rest as [|d r]; [reflexivity|].
    apply N.eqb_neq in Hr. rewrite Hr. reflexivity.
  - cbn [existsb] in Hb. apply orb_false_iff in Hb. destruct Hb as [Hc Hb].
    cbn [flat_map]. rewrite <- app_assoc, ps_loop_step, IH by auto.
    cbn [rev]. rewrite <- app_assoc. reflexivity.
Qed.

Section SingleGo.
  Variable is_print : N -> bool.
  Hypothesis print_not_break : forall c, is_print c = true -> is_break c = false.

  Definition sq_safe (c : N) : bool := (c =? c_sq) || is_print c.

  Lemma flat_go_eq : forall s, forallb sq_safe s = true ->
    flat_map (esc_single_go is_print) s = flat_map esc_single_cue s.
  Proof.
    induction s as [|c s IH]; intro H; [reflexivity|].
    cbn [forallb] in H. apply andb_true_iff in H. destruct H as [Hc H].
    cbn [flat_map]. rewrite (IH H). f_equal.
    unfold esc_single_go, esc_single_cue, sq_safe in *.
    destruct (c =? c_sq); [reflexivity|]. cbn [orb] in Hc. rewrite Hc. reflexivity.
  Qed.

  Lemma sq_safe_no_break : forall s, forallb sq_safe s = true -> existsb is_break s = false.
  Proof.
    induction s as [|c s IH]; intro H; [reflexivity|].
    cbn [forallb] in H. apply andb_true_iff in H. destruct H as [H1 H2].
    cbn [existsb]. rewrite IH by auto. rewrite orb_false_r.
    unfold sq_safe in H1. apply orb_true_iff in H1. destruct H1 as [H1|H1].
    - apply N.eqb_eq in H1. subst. reflexivity.
    - auto.
  Qed.

End SingleGo.

Definition stops_scan (tail : str) : Prop :=
  tail = [] \/ (exists c r, tail = c :: r /\ is_break c = true) \/
  (exists r, tail = c_colon :: r /\ white_or_end r = true).

Lemma scan_plain_stop : forall tail acc pend pw,
  stops_scan tail -> scan_plain tail acc pend pw = (rev acc, rev pend ++ tail).
Proof.
  intros tail acc pend pw [->|[[c [r [-> Hb]]]|[r [-> Hw]]]].
  - cbn. rewrite app_nil_r. reflexivity.
  - cbn [scan_plain]. rewrite Hb. reflexivity.
  - cbn [scan_plain]. change (is_break c_colon) with false. change (c_colon =? c_hash) with false.
    cbn [andb]. change (c_colon =? c_colon) with true. rewrite Hw. reflexivity.
Qed.

(* The scanner runs through a text s without breaks, " #" and ": " whose last character is
   not white: white space it has met is pending and becomes content with the next other
   character; [pw] says that the previous character was white (or that s starts the line). *)
Lemma scan_plain_app : forall s tail acc pend pw,
  existsb is_break s = false -> colon_white s = false -> white_hash s = false ->
  (pw = true -> match s with c :: _ => c <> c_hash | [] => True end) ->
  match last_chr s with Some c => is_white c = false | None => True end ->
  stops_scan tail ->
  scan_plain (s ++ tail) acc pend pw =
  match s with [] => (rev acc, rev pend ++ tail) | _ => (rev acc ++ rev pend ++ s, tail) end.
Proof.
  induction s as [|c r IH]; intros tail acc pend pw Hb Hc Hw Hp Hl Ht.
  - apply scan_plain_stop, Ht.
  - cbn [existsb] in Hb. apply orb_false_iff in Hb. destruct Hb as [Hb1 Hb2].
    cbn [colon_white] in Hc. apply orb_false_iff in Hc. destruct Hc as [Hc1 Hc2].
    rewrite last_chr_cons in Hl.
    assert (Hw2 : white_hash r = false /\ (is_white c = true -> match r with d :: _ => d <> c_hash | [] => True end)).
    { destruct r as [|d r']; [split; auto|]. cbn [white_hash] in Hw. apply orb_false_iff in Hw.
      destruct Hw as [Hw1 Hw2]. split; [exact Hw2|]. intro E. rewrite E in Hw1. apply N.eqb_neq, Hw1. }
    destruct Hw2 as [Hw2 Hp2].
    cbn [app scan_plain]. rewrite Hb1.
    replace ((c =? c_hash) && pw) with false
      by (destruct pw; [rewrite (proj2 (N.eqb_neq _ _) (Hp eq_refl))|rewrite andb_false_r]; reflexivity).
    replace ((c =? c_colon) && white_or_end (r ++ tail)) with false
      by (destruct r; [destruct (c =? c_colon); [discriminate|]|]; auto).
    assert (Hl2 : match last_chr r with Some c => is_white c = false | None => True end)
      by (destruct (last_chr r); [exact Hl|exact I]).
    destruct (is_white c) eqn:E; rewrite IH by (try discriminate; auto).
    + destruct r; [cbn in Hl; congruence|]. cbn [rev]. rewrite <- !app_assoc. reflexivity.
    + destruct r; cbn [rev app]; rewrite ?rev_app_distr, <- ?app_assoc; reflexivity.
Qed.

Lemma plain_ok_parts : forall col0 s, plain_ok col0 s = true ->
  plain_first_ok s = true /\ existsb is_break s = false /\
  match s with c :: _ => is_white c = false | [] => False end /\
  match last_chr s with Some c => is_white c = false | None => False end /\
  colon_white s = false /\ white_hash s = false /\ (col0 && doc_marker s = false).
Proof.
  intros col0 s H. unfold plain_ok in H.
  repeat (apply andb_true_iff in H; destruct H as [H ?]).
  repeat match goal with X : negb _ = true |- _ => apply negb_true_iff in X end.
  repeat split; auto.
  - destruct s; [discriminate|]. auto.
  - destruct (last_chr s); [auto|discriminate].
Qed.

(* a string that satisfies plain_ok, followed by what ends a plain scalar, is
   scanned as exactly that string *)
Theorem plain_roundtrip_when : forall col0 s tail,
  plain_ok col0 s = true -> stops_scan tail -> parse_plain (s ++ tail) = (s, tail).
Proof.
  intros col0 s tail H Ht.
  destruct (plain_ok_parts col0 s H) as [Hf [Hb [H1 [Hl [Hc [Hw _]]]]]].
  unfold parse_plain. rewrite scan_plain_app; auto.
  - destruct s; [contradiction|reflexivity].
  - intros _. destruct s as [|c r]; [exact I|].
    unfold plain_first_ok in Hf. intro E. subst c. discriminate.
  - destruct (last_chr s); [auto|contradiction].
Qed.

Lemma mem_str_forall : forall (P : str -> bool) L s,
  forallb P L = true -> mem_str s L = true -> P s = true.
Proof.
  intros P L s HF H. unfold mem_str in H. apply existsb_exists in H. destruct H as [w [Hin He]].
  apply str_eqb_eq in He. subst w. eapply forallb_forall in HF; eauto.
Qed.

Lemma rtrim_id : forall s, ends_with_chr c_sp s = false -> rtrim_spaces s = s.
Proof.
  intros s H. unfold rtrim_spaces. unfold ends_with_chr, last_chr in H.
  destruct (rev s) as [|d t] eqn:E.
  - cbn. apply (f_equal (@rev N)) in E. rewrite rev_involutive in E. auto.
  - cbn [rtrim_rev]. rewrite H. rewrite <- E. apply rev_involutive.
Qed.

(* s starts with one of [non_string_starts] *)
Definition starts_ok (s : str) : bool :=
  match s with c :: _ => mem_chr c non_string_starts | [] => false end.

Definition first_numeric (c : N) : bool :=
  is_digit c || (c =? c_plus) || (c =? c_minus) || (c =? c_dot).

Lemma first_numeric_starts : forall c, first_numeric c = true -> mem_chr c non_string_starts = true.
Proof.
  intros c H. unfold first_numeric in H.
  apply orb_true_iff in H. destruct H as [H|H]; [|apply N.eqb_eq in H; subst; reflexivity].
  apply orb_true_iff in H. destruct H as [H|H]; [|apply N.eqb_eq in H; subst; reflexivity].
  apply orb_true_iff in H. destruct H as [H|H]; [|apply N.eqb_eq in H; subst; reflexivity].
  unfold is_digit in H. apply andb_true_iff in H. destruct H as [H1 H2].
  apply N.leb_le in H1. apply N.leb_le in H2.
  assert (E : c = 48 \/ c = 49 \/ c = 50 \/ c = 51 \/ c = 52 \/ c = 53 \/ c = 54 \/ c = 55 \/ c = 56 \/ c = 57) by lia.
  repeat (destruct E as [->|E]; [reflexivity|]). subst. reflexivity.
Qed.

Lemma rx_first : forall c r,
  rx_yaml_int (c :: r) || rx_yaml_float (c :: r) = true -> first_numeric c = true.
Proof.
  intros c r H. unfold first_numeric.
  destruct ((c =? c_minus) || (c =? c_plus)) eqn:Es.
  - apply orb_true_iff in Es. destruct Es as [E|E]; rewrite E; repeat rewrite orb_true_r; reflexivity.
  - destruct (is_digit c) eqn:Ed; [reflexivity|].
    unfold rx_yaml_int, rx_yaml_float, strip_sign in H. rewrite Es in H. cbn [span] in H. rewrite Ed in H.
    destruct (c =? 48) eqn:E0; [apply N.eqb_eq in E0; subst c; discriminate|].
    destruct (c =? c_dot); [repeat rewrite orb_true_r; reflexivity|discriminate].
Qed.

Lemma number_kind_starts : forall s, number_kind s = true -> starts_ok s = true.
Proof.
  intros s H. destruct s as [|c r]; [discriminate|].
  unfold number_kind in H. destruct (c =? c_us) eqn:E; [discriminate|].
  cbn [filter] in H. rewrite E in H. cbn [negb] in H.
  eapply first_numeric_starts, rx_first, H.
Qed.

Lemma resolve_tstr : forall tok_number t,
  is_tstr (resolve_plain tok_number t) =
  negb (negb (is_tstr (classify_token tok_number t)) || mem_str t special_floats || number_kind t).
Proof.
  intros. unfold resolve_plain.
  destruct (classify_token tok_number t), (mem_str t special_floats), (number_kind t); reflexivity.
Qed.

(* decodesAsNonString looks closer only at strings that start with one of [non_string_starts];
   nothing is lost by that: whatever the decoder does not resolve as a string starts with one
   of them, unless the scanner's own number test (an oracle here) is what says so *)
Lemma non_string_starts_ok : forall tok_number s,
  tok_number s = false -> is_tstr (resolve_plain tok_number s) = false -> starts_ok s = true.
Proof.
  intros tok_number s Hn R. rewrite resolve_tstr in R. apply negb_false_iff in R.
  unfold classify_token in R. rewrite Hn in R.
  destruct (mem_str s reserved_null) eqn:E1; [exact (mem_str_forall starts_ok reserved_null s eq_refl E1)|].
  destruct (mem_str s reserved_bool) eqn:E2; [exact (mem_str_forall starts_ok reserved_bool s eq_refl E2)|].
  destruct (mem_str s reserved_inf) eqn:E3; [exact (mem_str_forall starts_ok reserved_inf s eq_refl E3)|].
  destruct (mem_str s reserved_nan) eqn:E4; [exact (mem_str_forall starts_ok reserved_nan s eq_refl E4)|].
  destruct (mem_str s special_floats) eqn:E5; [exact (mem_str_forall starts_ok special_floats s eq_refl E5)|].
  apply number_kind_starts, R.
Qed.

(* every indicator is caught by IsNeedQuoted, as first character or anywhere *)
Lemma indicators_covered : forall c, mem_chr c indicators = true ->
  ((c =? c_minus) || (c =? c_qm) || (c =? c_colon) || (c =? c_hash) || mem_chr c nq_first) = true.
Proof.
  intros c H. apply mem_chr_in in H. vm_compute in H.
  repeat (destruct H as [<-|H]; [reflexivity|]). contradiction.
Qed.

Lemma leading_indicator_cases : forall c, (c =? c_minus) || (c =? c_qm) || (c =? c_colon) = true ->
  c = c_minus \/ c = c_qm \/ c = c_colon.
Proof.
  intros c H. apply orb_true_iff in H. destruct H as [H|H]; [apply orb_true_iff in H; destruct H as [H|H]|];
    apply N.eqb_eq in H; auto.
Qed.

Lemma in_last_chr : forall s c, last_chr s = Some c -> In c s.
Proof.
  intros s c H. unfold last_chr in H. destruct (rev s) eqn:E; [discriminate|].
  injection H as ->. apply in_rev. rewrite E. left. reflexivity.
Qed.

Lemma nq_scan_cons : forall c r, nq_scan (c :: r) = false ->
  (c =? c_hash) = false /\ (c =? c_bs) = false /\
  (((c =? c_colon) || (c =? c_minus)) && match r with d :: _ => d =? c_sp | [] => false end) = false /\
  nq_scan r = false.
Proof.
  intros c r H. cbn [nq_scan] in H.
  apply orb_false_iff in H. destruct H as [H H4].
  apply orb_false_iff in H. destruct H as [H H3].
  apply orb_false_iff in H. destruct H as [H1 H2]. auto.
Qed.

Lemma nq_scan_hash : forall s d, nq_scan s = false -> In d s -> (d =? c_hash) = false.
Proof.
  induction s as [|c r IH]; intros d H Hin; [destruct Hin|]. apply nq_scan_cons in H.
  destruct Hin as [<-|Hin]; [tauto|apply IH; tauto].
Qed.

Lemma no_hash_white_hash : forall s, (forall d, In d s -> (d =? c_hash) = false) -> white_hash s = false.
Proof.
  induction s as [|c r IH]; intro H; [reflexivity|]. destruct r as [|d r']; [reflexivity|].
  change (white_hash (c :: d :: r')) with ((is_white c && (d =? c_hash)) || white_hash (d :: r')).
  rewrite (H d) by (cbn; auto). rewrite IH by (intros d0 Hd; apply H; right; exact Hd).
  rewrite andb_false_r. reflexivity.
Qed.

(* a character that is neither a tab nor a break is white iff it is a blank *)
Lemma white_or_end_sp : forall d r, (d =? c_tab) = false -> is_break d = false ->
  white_or_end (d :: r) = (d =? c_sp).
Proof. intros d r Ht Hb. unfold white_or_end, is_white. rewrite Ht, Hb, !orb_false_r. reflexivity. Qed.

Lemma colon_white_of : forall s,
  nq_scan s = false -> mem_chr c_tab s = false -> existsb is_break s = false ->
  ends_with_chr c_colon s = false -> colon_white s = false.
Proof.
  induction s as [|c r IH]; intros Hn Ht Hb He; [reflexivity|].
  destruct (nq_scan_cons _ _ Hn) as [_ [_ [H0 Hn2]]].
  cbn [colon_white]. destruct r as [|d r'].
  - unfold ends_with_chr in He. cbn in He. cbn. rewrite He. reflexivity.
  - rewrite white_or_end_sp by ((eapply mem_chr_false || eapply existsb_false); eauto; cbn; auto).
    unfold ends_with_chr in He. rewrite last_chr_cons in He.
    rewrite IH; auto.
    + rewrite orb_false_r. destruct (c =? c_colon); [exact H0|reflexivity].
    + apply orb_false_iff in Ht. tauto.
    + apply orb_false_iff in Hb. tauto.
    + unfold ends_with_chr. destruct (last_chr (d :: r')) eqn:E; [exact He|]. apply last_chr_none in E. discriminate.
Qed.

Definition dots_marker (s : str) : bool :=
  match s with
  | a :: b :: c :: r => (a =? c_dot) && (b =? c_dot) && (c =? c_dot) && white_or_end r
  | _ => false
  end.

(* what the tests of encodeScalar / encodeDecls have established when a style comes out *)
Lemma choose_style_cases : forall tok_number tok_isnumber tok_timestamp is_key multi s,
  match choose_style tok_number tok_isnumber tok_timestamp is_key multi s with
  | Plain => is_need_quoted tok_isnumber tok_timestamp s = false /\ should_quote tok_number s = false /\
             needs_single_quoting s = false /\ has_nl s = false
  | Literal => block_literal_safe s = true
  | _ => True
  end.
Proof.
  intros. unfold choose_style, key_style, value_style, goccy_string_style. destruct is_key.
  - destruct (needs_single_quoting s); [exact I|]. destruct (should_quote tok_number s); [exact I|].
    destruct (has_nl s); [exact I|]. destruct (is_need_quoted tok_isnumber tok_timestamp s); auto.
  - destruct (multi && block_literal_safe s) eqn:E.
    + apply andb_true_iff in E. destruct (has_nl s); tauto.
    + destruct (has_nl s); [exact I|].
      destruct (needs_single_quoting s); [exact I|]. destruct (should_quote tok_number s); [exact I|].
      destruct (is_need_quoted tok_isnumber tok_timestamp s); auto.
Qed.

Section Choice.
  Variable tok_number tok_isnumber tok_timestamp : str -> bool.
  (* token.isNumber holds whenever token.ToNumber succeeds *)
  Hypothesis number_isnumber : forall t, tok_number t = true -> tok_isnumber t = true.

  Let choose := choose_style tok_number tok_isnumber tok_timestamp.

  Record plain_facts (s : str) : Prop := {
    pf_ne : s <> [];
    pf_tab : mem_chr c_tab s = false;
    pf_unp : yaml_unprintable s = false;
    pf_dec : decodes_as_non_string tok_number s = false;
    pf_uq : match s with c :: _ => mem_chr c (s_ "-+0123456789:. " ++ [c_tab]) && (use_quote s || any_octal11 s) = false | [] => True end;
    pf_dots : is_prefix [c_dot; c_dot; c_dot] s = false;
    pf_isnum : tok_isnumber s = false;
    pf_dash : str_eqb s [c_minus] = false;
    pf_first : match s with c :: _ => mem_chr c nq_first = false | [] => True end;
    pf_colon : ends_with_chr c_colon s = false;
    pf_sp : ends_with_chr c_sp s = false;
    pf_scan : nq_scan s = false;
    pf_nsq : needs_single_quoting s = false;
    pf_nl : has_nl s = false }.

  Lemma plain_facts_of : forall is_key multi s, choose is_key multi s = Plain -> plain_facts s.
  Proof.
    intros is_key multi s H.
    pose proof (choose_style_cases tok_number tok_isnumber tok_timestamp is_key multi s) as C.
    fold choose in C. rewrite H in C. destruct C as [Hq [Hs [Hn Hl]]].
    unfold is_need_quoted in Hq. unfold should_quote in Hs.
    destruct s as [|c r]; [discriminate|].
    do 7 (apply orb_false_iff in Hq; destruct Hq as [Hq ?]).
    do 5 (apply orb_false_iff in Hs; destruct Hs as [Hs ?]).
    constructor; auto. discriminate.
  Qed.

  Lemma plain_no_break : forall s, plain_facts s -> existsb is_break s = false.
  Proof.
    intros s F. destruct (existsb is_break s) eqn:E; [|reflexivity].
    apply existsb_exists in E. destruct E as [c [Hin Hc]]. unfold is_break in Hc.
    rewrite (mem_chr_false _ _ _ (pf_nl s F) Hin) in Hc.
    rewrite (mem_chr_false _ _ _ (unprintable_cr s (pf_unp s F)) Hin) in Hc. discriminate.
  Qed.

  (* no character of s is a tab or a break *)
  Lemma plain_white_or_end : forall s d r, plain_facts s -> In d s -> white_or_end (d :: r) = (d =? c_sp).
  Proof.
    intros s d r F Hin. apply white_or_end_sp.
    - exact (mem_chr_false _ _ _ (pf_tab s F) Hin).
    - exact (existsb_false _ _ _ (plain_no_break s F) Hin).
  Qed.

  (* a scalar the encoder leaves plain is read back as a string, not as a number, bool or null *)
  Theorem plain_choice_resolves_str : forall is_key multi s,
    choose is_key multi s = Plain -> resolve_plain tok_number s = TStr.
  Proof.
    intros is_key multi s H. pose proof (plain_facts_of _ _ _ H) as F.
    destruct (is_tstr (resolve_plain tok_number s)) eqn:R;
      [destruct (resolve_plain tok_number s); (reflexivity || discriminate)|exfalso].
    assert (Hn : tok_number s = false).
    { destruct (tok_number s) eqn:E; [|reflexivity].
      apply number_isnumber in E. rewrite (pf_isnum _ F) in E. discriminate. }
    pose proof (pf_dec s F) as Hd. pose proof (non_string_starts_ok _ _ Hn R) as Hs.
    unfold decodes_as_non_string in Hd. destruct s as [|c r]; [discriminate|].
    cbn [starts_ok] in Hs. rewrite (rtrim_id _ (pf_sp _ F)), Hs in Hd.
    rewrite resolve_tstr in R. apply negb_false_iff in R. rewrite R in Hd. discriminate.
  Qed.

  Lemma plain_first : forall s, plain_facts s -> plain_first_ok s = true.
  Proof.
    intros s F. destruct s as [|c r]; [destruct (pf_ne _ F eq_refl)|].
    destruct (nq_scan_cons _ _ (pf_scan _ F)) as [Hs [_ [H0 _]]].
    unfold plain_first_ok.
    destruct ((c =? c_minus) || (c =? c_qm) || (c =? c_colon)) eqn:E.
    - (* - ? : must be followed by a character that is not white: alone they are quoted, and so
         are "- " and ": " anywhere and "? " in front *)
      apply negb_true_iff. destruct r as [|d r'].
      + exfalso. destruct (leading_indicator_cases _ E) as [->|[->| ->]].
        * pose proof (pf_dash _ F). discriminate.
        * pose proof (pf_nsq _ F). discriminate.
        * pose proof (pf_colon _ F). discriminate.
      + rewrite (plain_white_or_end _ d r' F) by (cbn; auto).
        destruct (d =? c_sp) eqn:Ed; [exfalso|reflexivity]. apply N.eqb_eq in Ed. subst d.
        destruct (leading_indicator_cases _ E) as [->|[->| ->]]; [discriminate H0| |discriminate H0].
        pose proof (pf_nsq _ F). discriminate.
    - destruct (mem_chr c indicators) eqn:Ei; [|reflexivity]. exfalso.
      apply indicators_covered in Ei. rewrite E, Hs, (pf_first _ F) in Ei. discriminate.
  Qed.

  Lemma plain_doc_marker : forall s, plain_facts s -> doc_marker s = false.
  Proof.
    intros s F. destruct (doc_marker s) eqn:H; [exfalso|reflexivity].
    unfold doc_marker in H. destruct s as [|a [|b [|c r]]]; try discriminate.
    apply andb_true_iff in H. destruct H as [H Hw].
    apply orb_true_iff in H. destruct H as [H|H];
      apply andb_true_iff in H; destruct H as [H Hc]; apply andb_true_iff in H; destruct H as [Ha Hb];
      apply N.eqb_eq in Ha; apply N.eqb_eq in Hb; apply N.eqb_eq in Hc; subst.
    - (* "---" alone matches useQuote, "--- " holds "- " *)
      destruct r as [|d r'].
      + pose proof (pf_uq _ F) as Hu. vm_compute in Hu. discriminate.
      + rewrite (plain_white_or_end _ d r' F) in Hw by (cbn; auto). apply N.eqb_eq in Hw. subst d.
        pose proof (pf_scan _ F) as Hs. cbn in Hs. discriminate.
    - pose proof (pf_dots _ F). discriminate.
  Qed.

  (* a scalar the encoder leaves plain is syntactically a plain scalar *)
  Theorem plain_choice_ok : forall is_key multi col0 s,
    choose is_key multi s = Plain -> plain_ok col0 s = true.
  Proof.
    intros is_key multi col0 s H. pose proof (plain_facts_of _ _ _ H) as F.
    pose proof (plain_no_break s F) as Hb.
    unfold plain_ok. rewrite (plain_doc_marker s F), Hb, (plain_first s F), andb_false_r.
    rewrite (colon_white_of s (pf_scan _ F) (pf_tab _ F) Hb (pf_colon _ F)).
    rewrite (no_hash_white_hash s (fun d => nq_scan_hash s d (pf_scan _ F))).
    assert (H1 : match s with c :: _ => is_white c | [] => true end = false).
    { destruct s as [|c r]; [destruct (pf_ne _ F eq_refl)|].
      unfold is_white. rewrite (mem_chr_false _ _ c (pf_tab _ F)) by (left; reflexivity). rewrite orb_false_r.
      destruct (c =? c_sp) eqn:E; [|reflexivity]. apply N.eqb_eq in E. subst c.
      pose proof (pf_first _ F). discriminate. }
    assert (H2 : match last_chr s with Some c => is_white c | None => true end = false).
    { destruct (last_chr s) as [c|] eqn:El.
      - pose proof (pf_sp _ F) as Hs. unfold ends_with_chr in Hs. rewrite El in Hs.
        unfold is_white. rewrite Hs. exact (mem_chr_false _ _ _ (pf_tab _ F) (in_last_chr _ _ El)).
      - apply last_chr_none in El. destruct (pf_ne _ F El). }
    rewrite H1, H2. reflexivity.
  Qed.
End Choice.

Lemma doc_marker_first : forall a r,
  (a =? c_minus) = false -> (a =? c_dot) = false -> doc_marker (a :: r) = false.
Proof.
  intros a r H1 H2. destruct r as [|b [|c r]]; try reflexivity.
  cbn [doc_marker]. rewrite H1, H2. reflexivity.
Qed.

Definition suffix_ok (suffix : str) : Prop :=
  suffix = [c_nl] \/ exists r, suffix = c_colon :: c_sp :: r.

Lemma suffix_stops : forall suffix, suffix_ok suffix -> stops_scan suffix.
Proof.
  intros suffix [->|[r ->]].
  - right. left. exists c_nl, []. split; reflexivity.
  - right. right. exists (c_sp :: r). split; reflexivity.
Qed.

Lemma suffix_not_sq : forall suffix, suffix_ok suffix ->
  match suffix with d :: _ => d <> c_sq | [] => True end.
Proof. intros suffix [->|[r ->]]; discriminate. Qed.

Lemma doc_marker_app : forall s suffix, s <> [] -> suffix_ok suffix ->
  doc_marker (s ++ suffix) = true -> doc_marker s = true.
Proof.
  intros s suffix Hne Hs H.
  destruct s as [|a [|b [|c r]]]; [congruence| | |].
  - exfalso. destruct Hs as [->|[r ->]]; cbn in H.
    + discriminate.
    + rewrite !andb_false_r in H. discriminate.
  - exfalso. destruct Hs as [->|[r ->]]; cbn in H; rewrite !andb_false_r in H; discriminate.
  - cbn [app doc_marker] in *. apply andb_true_iff in H. destruct H as [H Hw]. rewrite H. cbn [andb].
    destruct r as [|d r']; [reflexivity|exact Hw].
Qed.

Lemma plain_first_not_quote : forall c r, plain_first_ok (c :: r) = true ->
  (c =? c_bar) = false /\ (c =? c_dq) = false /\ (c =? c_sq) = false.
Proof.
  intros c r H. unfold plain_first_ok in H.
  destruct ((c =? c_minus) || (c =? c_qm) || (c =? c_colon)) eqn:E.
  - destruct (leading_indicator_cases _ E) as [->|[->| ->]]; repeat split; reflexivity.
  - apply negb_true_iff in H.
    repeat split; rewrite N.eqb_sym; apply (mem_chr_false _ _ _ H), mem_chr_in; reflexivity.
Qed.

(* a text that opens with a quote is a flow scalar; it is the whole value if what the
   flow reader leaves is the expected suffix *)
Lemma read_any_quoted : forall tok_number p root col0 suffix q body v,
  q = c_dq \/ q = c_sq ->
  read_flow_rest tok_number (q :: body) = Some (v, suffix) ->
  read_any tok_number p root col0 suffix (q :: body) = Some v.
Proof.
  intros tok_number p root col0 suffix q body v Hq H. unfold read_any. rewrite H, str_eqb_refl.
  destruct Hq as [->| ->]; (rewrite doc_marker_first, andb_false_r by reflexivity); reflexivity.
Qed.

Lemma read_flow_single : forall tok_number s suffix,
  existsb is_break s = false -> suffix_ok suffix ->
  read_flow_rest tok_number (emit_single_cue s ++ suffix) = Some (s, suffix).
Proof.
  intros tok_number s suffix Hb Hs. unfold emit_single_cue. cbn [app read_flow_rest].
  change (c_sq =? c_dq) with false. change (c_sq =? c_sq) with true. cbv iota.
  rewrite <- app_assoc. apply (ps_loop_cue s suffix [] Hb), suffix_not_sq, Hs.
Qed.

Lemma read_any_plain : forall tok_number p root col0 suffix s,
  plain_ok col0 s = true -> resolve_plain tok_number s = TStr -> suffix_ok suffix ->
  read_any tok_number p root col0 suffix (s ++ suffix) = Some s.
Proof.
  intros tok_number p root col0 suffix s Hok Hstr Hsuf.
  destruct (plain_ok_parts col0 s Hok) as [Hf [_ [_ [_ [_ [_ Hdm]]]]]].
  destruct s as [|c r]; [discriminate|].
  destruct (plain_first_not_quote c r Hf) as [Hbar [Hdq Hsq]].
  assert (Hdoc : col0 && doc_marker ((c :: r) ++ suffix) = false).
  { destruct col0; [|reflexivity]. cbn [andb] in *.
    destruct (doc_marker ((c :: r) ++ suffix)) eqn:E; [|reflexivity].
    apply doc_marker_app in E; auto; [congruence|discriminate]. }
  unfold read_any, read_flow_rest. rewrite Hdoc. cbn [app]. rewrite Hbar, Hdq, Hsq.
  change (c :: r ++ suffix) with ((c :: r) ++ suffix).
  rewrite (plain_roundtrip_when col0 (c :: r) suffix Hok (suffix_stops _ Hsuf)), Hstr, Hf.
  cbn [is_tstr andb]. rewrite str_eqb_refl. reflexivity.
Qed.

(* a text that opens with '|' is a literal block *)
Lemma read_any_literal : forall tok_number p root col0 suffix n s,
  read_any tok_number p root col0 suffix (emit_literal n s) = parse_literal p root (emit_literal n s).
Proof. intros. unfold emit_literal. destruct (literal_chomp s); reflexivity. Qed.

Section Final.
  Variable is_print : N -> bool.
  Variable tok_number tok_isnumber tok_timestamp : str -> bool.
  Hypothesis print_not_break : forall c, is_print c = true -> is_break c = false.
  Hypothesis number_isnumber : forall t, tok_number t = true -> tok_isnumber t = true.

  Let choose := choose_style tok_number tok_isnumber tok_timestamp.

  (* the document text of one scalar: flow scalars are followed by [suffix]
     (the end of the line, or ": " and the value for keys) *)
  Definition emit_doc (st : style) (n : nat) (s suffix : str) : str :=
    match st with
    | Literal => emit_literal n s
    | _ => emit is_print st n s ++ suffix
    end.

  (* the cases in which the chosen style cannot express the string *)
  Definition style_gap (col0 : bool) (st : style) (s : str) : bool :=
    match st with
    | Plain => false
    | SingleGo => negb (forallb (sq_safe is_print) s)
    | SingleCue => existsb is_break s
    | Literal => negb (literal_ok s)
    | Double => false
    end.

  Theorem style_choice_safe_when : forall is_key multi col0 root p n s suffix,
    Forall rune32 s -> (p < n)%nat -> suffix_ok suffix ->
    style_gap col0 (choose is_key multi s) s = false ->
    read_any tok_number p root col0 suffix (emit_doc (choose is_key multi s) n s suffix) = Some s.
  Proof.
    intros is_key multi col0 root p n s suffix Hr Hpn Hsuf Hgap.
    destruct (choose is_key multi s) eqn:Est; cbn [style_gap] in Hgap; unfold emit_doc, emit.
    - apply read_any_plain; [|eapply plain_choice_resolves_str; eauto|exact Hsuf].
      eapply plain_choice_ok; eauto.
    - apply read_any_quoted, read_flow_single; auto.
    - (* goccy single quotes: the same text when every rune is printable *)
      apply negb_false_iff in Hgap. unfold emit_single_go. rewrite flat_go_eq by exact Hgap.
      apply read_any_quoted, read_flow_single; auto. eapply sq_safe_no_break; eauto.
    - unfold emit_double. cbn [app]. apply read_any_quoted; [auto|].
      cbn [read_flow_rest]. change (c_dq =? c_dq) with true. cbv iota. rewrite <- app_assoc.
      apply (pd_loop_emit is_print print_not_break s suffix []); auto.
    - apply negb_false_iff in Hgap. rewrite read_any_literal. apply literal_roundtrip_when; auto.
  Qed.
End Final.
