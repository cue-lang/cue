(* The file-list check and the zip check give every file the same verdict - under an explicit
   side condition; without it they differ (known finding F7). *)
From Coq Require Import String.
From Coq Require Import List NArith ZArith Bool Lia.
From Verif Require Import Zip.Bytes Zip.BytesProofs Zip.Model Zip.PathProofs Zip.ZipProofs Zip.FsProofs
  Zip.UnzipProofs Zip.CollisionProofs Zip.HostileProofs Zip.ElemProofs Zip.RoundtripProofs Zip.CreateProofs.
Import ListNotations.
Local Open Scope N_scope.

(* the same regular file as a zip entry: declared size = Lstat size *)
Definition entry_of_file (f : file) : entry :=
  mkEntry (f_name f) (Z.to_N (f_size f)) KRegular (f_data f) true true false.

(* the side condition: a regular file that the zip format can express and that checkFiles
   neither omits nor treats specially *)
Record agree_cond (hcm : list str) (f : file) : Prop := {
  ac_kind : f_kind f = KRegular;
  ac_size : (0 <= f_size f < 9223372036854775808)%Z;
  ac_nodir : ends_with_slash (f_name f) = false;        (* else the zip entry is a directory entry *)
  ac_vendor : is_vendored (f_name f) = false;            (* omitted by checkFiles *)
  ac_submod : in_submodule hcm (f_name f) = false;       (* omitted by checkFiles *)
  ac_hg : f_name f <> s_hg_archival;                     (* omitted by checkFiles *)
  ac_local : f_name f <> s_local_module;                 (* omitted by checkFiles, invalid in a zip *)
  ac_root : f_name f <> s_cue_mod;                       (* F7a *)
  ac_case : cf_cue_mod_bad (f_name f) = false            (* F7b: wrongly-cased cue.mod / module.cue *)
}.

Section Oracle.
  Variable is_letter : N -> bool.
  Variable fold_min : N -> N.
  Notation cf_step := (cf_step is_letter fold_min).
  Notation cf_loop := (cf_loop is_letter fold_min).
  Notation cz_step := (cz_step is_letter fold_min).
  Notation cz_loop := (cz_loop is_letter fold_min).

  (* the two checks in step on the same files: unlike CreateProofs.sim, which lets CheckZip lag
     behind, the tables, the room left under MaxZipFile and the size-error flags coincide *)
  Record same_state (st : cf_state) (zst : cz_state) : Prop := {
    ss_cc : st_cc st = zs_cc zst;
    ss_size : st_max st = (MaxZipFile - zs_size zst)%Z;
    ss_err : st_size_err st = zs_size_err zst }.

  Lemma agree_step : forall hcm st zst f v st' v' zst',
    agree_cond hcm f -> same_state st zst -> hcm_covers hcm (f_name f) ->
    cf_step hcm st f = (v, st') -> cz_step zst (entry_of_file f) = (v', zst') ->
    v = v' /\ same_state st' zst'.
  Proof.
    intros hcm st zst f v st' v' zst' AC SS HCM HF HZ. pose proof SS as [S1 S2 S3].
    destruct AC as [K SZ ND VE SM HG LO RT CS].
    unfold Model.cf_step in HF. unfold Model.cz_step in HZ.
    destruct (file_entry (entry_of_file f) ND) as [ED EN]. cbn [entry_of_file e_name] in EN.
    rewrite ED, EN in HZ. rewrite K in HF.
    rewrite (str_eqb_sym (clean (f_name f)) (f_name f)) in HZ.
    destruct (str_eqb (f_name f) (clean (f_name f))) eqn:C; cbn [negb] in HF, HZ.
    2:{ inversion HF; inversion HZ; subst. auto. }
    destruct (is_abs (f_name f)) eqn:AB.
    { rewrite (is_abs_rejected is_letter _ AB) in HZ. cbn [negb] in HZ.
      inversion HF; inversion HZ; subst. auto. }
    rewrite VE, SM in HF.
    assert (HG' : str_eqb (f_name f) s_hg_archival = false) by (apply str_eqb_neq; auto).
    assert (LO' : str_eqb (f_name f) s_local_module = false) by (apply str_eqb_neq; auto).
    rewrite HG', LO' in HF. rewrite LO' in HZ.
    destruct (check_path is_letter (f_name f)) eqn:CP; cbn [negb] in HF, HZ.
    2:{ inversion HF; inversion HZ; subst. auto. }
    rewrite CS in HF. rewrite <- S1 in HZ.
    destruct (cc_check fold_min (st_cc st) (f_name f) false) as [cc' ok] eqn:CC.
    destruct ok; cbn [negb] in HF, HZ.
    2:{ inversion HF; inversion HZ; subst. split; auto. constructor; auto. }
    rewrite (cz_cue_mod_valid is_letter hcm (f_name f) CP CS SM HCM RT) in HZ.
    cbn [entry_of_file e_declared] in HZ.
    assert (TI : to_int64 (Z.to_N (f_size f)) = f_size f).
    { rewrite to_int64_small by lia. lia. }
    rewrite TI in HZ.
    set (st1 := mkCF cc' (st_max st) (st_size_err st) (st_found st)) in *.
    set (zs2 := mkCZ cc' (zs_size zst) (zs_size_err zst) (zs_mod zst || str_eqb (f_name f) s_cue_mod_module_cue)) in *.
    assert (ACC : same_state (cf_account st1 (f_size f)) (cz_account zs2 (f_size f))).
    { unfold cf_account, cz_account. cbn [st1 zs2 st_max zs_size st_size_err zs_size_err]. rewrite S2.
      destruct ((0 <=? f_size f)%Z && (f_size f <=? MaxZipFile - zs_size zst)%Z);
        constructor; cbn [st_cc st_max st_size_err zs_cc zs_size zs_size_err]; auto; lia. }
    destruct (str_eqb (f_name f) s_cue_mod_module_cue && (MaxCUEMod <? f_size f)%Z).
    { inversion HF; inversion HZ; subst. split; auto. }
    destruct (str_eqb (f_name f) s_license && (MaxLICENSE <? f_size f)%Z);
      inversion HF; inversion HZ; subst; (split; [reflexivity|]);
      destruct ACC as [A1 A2 A3]; constructor; cbn [st_cc st_max st_size_err]; auto.
  Qed.

  Lemma agree_loop : forall hcm files st zst vs st' vs' zst',
    Forall (agree_cond hcm) files -> same_state st zst ->
    Forall (fun f => hcm_covers hcm (f_name f)) files ->
    cf_loop hcm st files = (vs, st') -> cz_loop zst (map entry_of_file files) = (vs', zst') ->
    vs = vs' /\ same_state st' zst'.
  Proof.
    induction files as [|f r IH]; intros st zst vs st' vs' zst' AC SS HCM HF HZ;
      cbn [Model.cf_loop Model.cz_loop map] in HF, HZ.
    - inversion HF; inversion HZ; subst. auto.
    - destruct (cf_step hcm st f) as [v st1] eqn:S1. destruct (cf_loop hcm st1 r) as [vr st2] eqn:L1.
      destruct (cz_step zst (entry_of_file f)) as [w zs1] eqn:S2.
      destruct (cz_loop zs1 (map entry_of_file r)) as [wr zs2] eqn:L2.
      inversion HF; inversion HZ; subst. inversion AC; subst. inversion HCM; subst.
      destruct (agree_step hcm st zst f v st1 w zs1) as [-> SS1]; auto.
      destruct (IH st1 zs1 vr st' wr zst') as [-> SS2]; auto.
  Qed.
End Oracle.

(* the files of the witnesses for known finding F7: without the side condition the two checks
   reject different files *)
Definition rf (name : String.string) : file := mkFile (lit name) KRegular 0 [].

(* F7a: a regular root file named cue.mod; F7b: a wrongly-cased Cue.Mod/x before cue.mod/module.cue.
   The overall verdicts still agree on both witnesses (both checks report an error). *)
Example refuted_witnesses_overall_agree :
  checked_err (check_files (fun _ => false) (fun r => r) [rf "cue.mod"]) = true /\
  checked_err (check_zip (fun _ => false) (fun r => r) 0 (map entry_of_file [rf "cue.mod"])) = true /\
  checked_err (check_files (fun _ => false) (fun r => r) [rf "Cue.Mod/x"; rf "cue.mod/module.cue"]) = true /\
  checked_err (check_zip (fun _ => false) (fun r => r) 0 (map entry_of_file [rf "Cue.Mod/x"; rf "cue.mod/module.cue"])) = true.
Proof. vm_compute. repeat split; reflexivity. Qed.

(* non-vacuity of the side condition: an ordinary module satisfies it *)
Example agree_cond_nonvacuous :
  let files := [rf "cue.mod/module.cue"; rf "x.cue"; rf "sub/y.cue"; rf "LICENSE"] in
  Forall (agree_cond (have_cue_mod files)) files /\
  fst (check_files_verdicts (fun _ => false) (fun r => r) files) = [VValid; VValid; VValid; VValid].
Proof.
  split.
  - repeat constructor; try (vm_compute; congruence); try (vm_compute; reflexivity); try (vm_compute; discriminate).
  - vm_compute. reflexivity.
Qed.
