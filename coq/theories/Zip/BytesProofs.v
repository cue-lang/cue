(* Lemmas about Zip/Bytes.v: string equality, split/join, UTF-8 scanning, path.Clean. *)
From Coq Require Import List NArith ZArith Bool Lia.
From Verif Require Import Zip.Bytes.
Import ListNotations.
Local Open Scope N_scope.

Lemma firstn_app_exact : forall (A : Type) (a b : list A), firstn (length a) (a ++ b) = a.
Proof. intros. rewrite firstn_app, Nat.sub_diag, firstn_all. simpl. apply app_nil_r. Qed.

Lemma skipn_app_exact : forall (A : Type) (a b : list A), skipn (length a) (a ++ b) = b.
Proof. intros. rewrite skipn_app, Nat.sub_diag, skipn_all. reflexivity. Qed.

Lemma str_eqb_eq : forall a b, str_eqb a b = true <-> a = b.
Proof.
  induction a as [|x a IH]; destruct b as [|y b]; simpl; split; try congruence; auto.
  - rewrite andb_true_iff, N.eqb_eq, IH. intros [-> ->]; reflexivity.
  - intros [= -> ->]. rewrite N.eqb_refl. simpl. apply IH. reflexivity.
Qed.

Lemma str_eqb_refl : forall a, str_eqb a a = true.
Proof. intros; apply str_eqb_eq; reflexivity. Qed.

Lemma str_eqb_neq : forall a b, str_eqb a b = false <-> a <> b.
Proof.
  intros a b. split.
  - intros H E. apply str_eqb_eq in E. congruence.
  - intros H. destruct (str_eqb a b) eqn:E; auto. apply str_eqb_eq in E. contradiction.
Qed.

Lemma str_eqb_sym : forall a b, str_eqb a b = str_eqb b a.
Proof.
  intros. destruct (str_eqb a b) eqn:E1, (str_eqb b a) eqn:E2; auto.
  - apply str_eqb_eq in E1. subst. rewrite str_eqb_refl in E2. discriminate.
  - apply str_eqb_eq in E2. subst. rewrite str_eqb_refl in E1. discriminate.
Qed.

Lemma str_eqb_app_same : forall a b c, str_eqb (a ++ b) (a ++ c) = str_eqb b c.
Proof. induction a as [|x a IH]; intros; simpl; auto. rewrite N.eqb_refl. simpl. apply IH. Qed.

Lemma str_leb_total : forall a b, str_leb a b = false -> str_leb b a = true.
Proof.
  induction a as [|x a IH]; intros [|y b] H; simpl in *; try discriminate; auto.
  destruct (x <? y)%N eqn:E1; [discriminate|]. destruct (y <? x)%N eqn:E2; auto.
Qed.

Lemma mem_str_In : forall x l, mem_str x l = true <-> In x l.
Proof.
  induction l as [|y l IH]; simpl; split; try congruence; try tauto.
  - rewrite orb_true_iff, str_eqb_eq, IH. intuition.
  - rewrite orb_true_iff, str_eqb_eq, IH. intuition.
Qed.

Lemma split_on_nonempty : forall c s, split_on c s <> [].
Proof.
  induction s as [|b t IH]; simpl; try congruence.
  destruct (b =? c); try congruence. destruct (split_on c t); congruence.
Qed.

Lemma join_split : forall c s, join_with c (split_on c s) = s.
Proof.
  induction s as [|b t IH]; simpl; auto.
  destruct (b =? c) eqn:E.
  - apply N.eqb_eq in E. subst b.
    destruct (split_on c t) as [|e es] eqn:S; [exfalso; eapply split_on_nonempty; eauto|].
    simpl in *. rewrite IH. reflexivity.
  - destruct (split_on c t) as [|e es] eqn:S; [exfalso; eapply split_on_nonempty; eauto|].
    simpl in *. destruct es; simpl in *; congruence.
Qed.

Lemma split_no_sep : forall c s e, In e (split_on c s) -> ~ In c e.
Proof.
  induction s as [|b t IH]; simpl; intros e H.
  - destruct H as [<-|[]]. auto.
  - destruct (b =? c) eqn:E.
    + destruct H as [<-|H]; auto.
    + destruct (split_on c t) as [|e0 es] eqn:S; simpl in H.
      * destruct H as [<-|[]]. simpl. intros [->|[]]. rewrite N.eqb_refl in E. discriminate.
      * destruct H as [<-|H].
        -- simpl. intros [->|H']. rewrite N.eqb_refl in E; discriminate.
           apply (IH e0); simpl; auto.
        -- apply IH. simpl. auto.
Qed.

Lemma split_on_no_sep_single : forall c e, ~ In c e -> split_on c e = [e].
Proof.
  induction e as [|b t IH]; simpl; intros H; auto.
  destruct (b =? c) eqn:E. apply N.eqb_eq in E. subst. tauto.
  rewrite IH by tauto. reflexivity.
Qed.

Lemma split_on_app_sep : forall c e s, ~ In c e -> split_on c (e ++ c :: s) = e :: split_on c s.
Proof.
  induction e as [|b t IH]; simpl; intros s H.
  - rewrite N.eqb_refl. reflexivity.
  - destruct (b =? c) eqn:E. apply N.eqb_eq in E. subst. tauto.
    rewrite IH by tauto. reflexivity.
Qed.

Lemma split_join : forall c es, es <> [] -> (forall e, In e es -> ~ In c e) ->
  split_on c (join_with c es) = es.
Proof.
  induction es as [|e es IH]; intros NE H; try congruence.
  destruct es as [|e' es'].
  - simpl. apply split_on_no_sep_single. apply H. simpl; auto.
  - change (join_with c (e :: e' :: es')) with (e ++ c :: join_with c (e' :: es')).
    rewrite split_on_app_sep by (apply H; simpl; auto).
    rewrite IH; auto. congruence. intros; apply H; simpl; auto.
Qed.

Lemma join_with_cons : forall c e es, es <> [] -> join_with c (e :: es) = e ++ c :: join_with c es.
Proof. intros. destruct es; try congruence. reflexivity. Qed.

Lemma join_with_app : forall c a b, a <> [] -> b <> [] ->
  join_with c (a ++ b) = join_with c a ++ c :: join_with c b.
Proof.
  induction a as [|e a IH]; intros b NA NB; try congruence.
  destruct a as [|e' a'].
  - simpl app. rewrite join_with_cons; auto.
  - change ((e :: e' :: a') ++ b) with (e :: (e' :: a') ++ b).
    rewrite join_with_cons by (simpl; congruence).
    rewrite IH by congruence.
    rewrite (join_with_cons c e (e' :: a')) by congruence.
    rewrite <- app_assoc. reflexivity.
Qed.

Lemma In_join_with : forall c es b, In b (join_with c es) -> b = c \/ exists e, In e es /\ In b e.
Proof.
  induction es as [|e es IH]; simpl; intros b H; [tauto|].
  destruct es as [|e' es'].
  - right. exists e. auto.
  - apply in_app_or in H. destruct H as [H|[H|H]].
    + right; exists e; auto.
    + left; auto.
    + destruct (IH b H) as [->|[e0 [I1 I2]]]; auto. right; exists e0; auto.
Qed.

Lemma In_split_bytes : forall c s e b, In e (split_on c s) -> In b e -> In b s.
Proof.
  induction s as [|x t IH]; simpl; intros e b H Hb.
  - destruct H as [<-|[]]. destruct Hb.
  - destruct (x =? c) eqn:E.
    + destruct H as [<-|H]. destruct Hb. right. eapply IH; eauto.
    + destruct (split_on c t) as [|e0 es] eqn:S; simpl in H.
      * destruct H as [<-|[]]. destruct Hb as [<-|[]]. auto.
      * destruct H as [<-|H].
        -- destruct Hb as [<-|Hb]; auto. right. eapply IH; eauto. simpl; auto.
        -- right. eapply IH; eauto. simpl; auto.
Qed.

(* the bytes after the first of a well-formed multi-byte sequence are all >= 0x80 *)
Lemma cont_ge : forall b, cont b = true -> 128 <= b.
Proof. unfold cont. intros b H. apply andb_true_iff in H. destruct H as [H _]. apply N.leb_le in H. auto. Qed.

Lemma two_ok_ge : forall b0 b1, two_ok b0 b1 = true -> 128 <= b1.
Proof. unfold two_ok. intros b0 b1 H. apply andb_true_iff in H. destruct H as [_ C1]. apply cont_ge, C1. Qed.

(* whichever range of lead byte applies, the second byte is a continuation byte or lies in a
   narrower range *)
Local Ltac second_byte_ge E :=
  repeat (apply orb_true_iff in E; destruct E as [E|E]);
  repeat (apply andb_true_iff in E; destruct E as [E ?]);
  try (apply cont_ge; assumption);
  repeat match goal with H : (_ <=? _) = true |- _ => apply N.leb_le in H end; lia.

Lemma three_ok_ge : forall b0 b1 b2, three_ok b0 b1 b2 = true -> 128 <= b1 /\ 128 <= b2.
Proof.
  unfold three_ok. intros b0 b1 b2 E. apply andb_true_iff in E. destruct E as [E C2].
  split; [second_byte_ge E | apply cont_ge, C2].
Qed.

Lemma four_ok_ge : forall b0 b1 b2 b3, four_ok b0 b1 b2 b3 = true -> 128 <= b1 /\ 128 <= b2 /\ 128 <= b3.
Proof.
  unfold four_ok. intros b0 b1 b2 b3 E. apply andb_true_iff in E. destruct E as [E C3].
  apply andb_true_iff in E. destruct E as [E C2].
  split; [second_byte_ge E | split; apply cont_ge; assumption].
Qed.

(* every ASCII byte of a string is one of its runes: it is never swallowed by a multi-byte sequence.
   n bounds the length, because utf8_scan recurses on tails up to four bytes shorter *)
Lemma ascii_in_scan : forall n s, (length s <= n)%nat -> forall b, In b s -> b < 128 -> In (Some b) (utf8_scan s).
Proof.
  induction n as [|n IH]; intros s L b Hb Hlt.
  - destruct s; simpl in *; [tauto|lia].
  - destruct s as [|b0 t]; [destruct Hb|].
    simpl in L. simpl utf8_scan.
    destruct (b0 <? 128) eqn:E0.
    + destruct Hb as [->|Hb]; [left; auto|right; apply IH; auto; lia].
    + apply N.ltb_ge in E0.
      destruct Hb as [->|Hb]; [lia|].
      assert (Ht : In (Some b) (utf8_scan t)) by (apply IH; auto; lia).
      destruct t as [|b1 t1]; [destruct Hb|].
      destruct (two_ok b0 b1) eqn:E2.
      { apply two_ok_ge in E2. destruct Hb as [->|Hb]; [lia|]. right. apply IH; auto. simpl in *; lia. }
      destruct t1 as [|b2 t2]; [right; exact Ht|].
      destruct (three_ok b0 b1 b2) eqn:E3.
      { apply three_ok_ge in E3. destruct Hb as [->|[->|Hb]]; try lia. right. apply IH; auto. simpl in *; lia. }
      destruct t2 as [|b3 t3]; [right; exact Ht|].
      destruct (four_ok b0 b1 b2 b3) eqn:E4; [|right; exact Ht].
      apply four_ok_ge in E4. destruct Hb as [->|[->|[->|Hb]]]; try lia. right. apply IH; auto. simpl in *; lia.
Qed.

Lemma ascii_in_runes : forall s b, In b s -> b < 128 -> In b (runes s).
Proof.
  intros s b H L. unfold runes.
  change b with ((fun o : option N => match o with Some r => r | None => rune_error end) (Some b)).
  apply in_map. eapply ascii_in_scan; eauto.
Qed.

Definition plain_elem (e : str) : Prop := e <> [] /\ e <> s_dot /\ e <> s_dotdot.

Lemma plain_elem_tests : forall e, plain_elem e ->
  str_eqb e [] = false /\ str_eqb e s_dot = false /\ str_eqb e s_dotdot = false.
Proof. intros e [A [B C]]. repeat split; apply str_eqb_neq; auto. Qed.

Lemma clean_elems_plain : forall r es stack, Forall plain_elem es ->
  clean_elems r stack es = rev stack ++ es.
Proof.
  induction es as [|e es IH]; intros stack H; simpl.
  - rewrite app_nil_r. reflexivity.
  - inversion H as [|? ? Pe Pes]; subst. destruct (plain_elem_tests e Pe) as [A [B C]].
    rewrite A, B, C. simpl. rewrite IH; auto. simpl. rewrite <- app_assoc. reflexivity.
Qed.

Lemma clean_elems_app : forall r a b stack,
  clean_elems r stack (a ++ b) = clean_elems r (rev (clean_elems r stack a)) b.
Proof.
  induction a as [|e a IH]; intros b stack; simpl.
  - rewrite rev_involutive. reflexivity.
  - destruct (str_eqb e [] || str_eqb e s_dot); auto.
    destruct (str_eqb e s_dotdot); auto.
    destruct stack as [|top below]; auto.
    + destruct r; auto.
    + destruct (str_eqb top s_dotdot); auto.
Qed.

Lemma is_abs_join : forall e es, e <> [] -> ~ In c_slash e -> is_abs (join_slash (e :: es)) = false.
Proof.
  intros e es NE NS. unfold join_slash. destruct e as [|b e']; try congruence.
  assert (b <> c_slash) by (intro; subst; apply NS; left; reflexivity).
  destruct es; simpl; apply N.eqb_neq; auto.
Qed.

Lemma join_cons_nonempty : forall (e : str) es, e <> [] -> join_slash (e :: es) <> [].
Proof. intros [|b e] es NE; [congruence|]. destruct es; discriminate. Qed.

(* path.Clean of a relative path given by its slash-free elements works on the elements *)
Lemma clean_join : forall (e : str) es, e <> [] -> (forall x, In x (e :: es) -> ~ In c_slash x) ->
  clean (join_slash (e :: es)) =
  match join_slash (clean_elems false [] (e :: es)) with [] => s_dot | b :: t => b :: t end.
Proof.
  intros e es Ee NS. unfold clean. rewrite is_abs_join by (auto; apply NS; left; auto).
  destruct (join_slash (e :: es)) as [|b t] eqn:J; [destruct (join_cons_nonempty e es Ee J)|].
  rewrite <- J. unfold split_slash, join_slash. rewrite split_join by (auto; congruence).
  destruct (join_with c_slash _); reflexivity.
Qed.

(* a path element as path.Clean leaves it and '/'-splitting produces it: non-empty, not "." or
   "..", without a slash *)
Definition pelem (e : str) : Prop := plain_elem e /\ ~ In c_slash e.

(* a relative path made of such elements is its own Clean *)
Lemma clean_join_plain : forall es, es <> [] -> Forall pelem es -> clean (join_slash es) = join_slash es.
Proof.
  intros es NE F. destruct es as [|e es]; try congruence.
  assert (P : Forall plain_elem (e :: es)) by (eapply Forall_impl; [|exact F]; intros ? [X _]; exact X).
  assert (NS : forall x, In x (e :: es) -> ~ In c_slash x) by (intros x I; rewrite Forall_forall in F; apply F, I).
  assert (Ee : e <> []) by (inversion P as [|? ? [Ee _] _]; exact Ee).
  rewrite clean_join, clean_elems_plain by auto. simpl rev. simpl app.
  destruct (join_slash (e :: es)) eqn:J; [destruct (join_cons_nonempty e es Ee J) | reflexivity].
Qed.
