(* collisionChecker: the table only grows, an accepted path is registered together with
   all its parent directories, and a registered path blocks every later path that folds
   to the same key unless both are the same directory. *)
From Coq Require Import String.
From Coq Require Import List NArith ZArith Bool Lia.
From Verif Require Import Zip.Bytes Zip.BytesProofs Zip.Model.
Import ListNotations.

(* the table M holds every registration of the table m *)
Definition cc_sub (m M : cc_map) : Prop := forall k v, cc_lookup k m = Some v -> cc_lookup k M = Some v.

Lemma cc_sub_refl : forall m, cc_sub m m.
Proof. intros m k v H; exact H. Qed.

Lemma cc_sub_trans : forall a b c, cc_sub a b -> cc_sub b c -> cc_sub a c.
Proof. intros a b c H1 H2 k v L. auto. Qed.

Section Oracle.
  Variable fold_min : N -> N.
  Notation fold := (str_to_fold fold_min).
  Notation cc_one := (cc_one fold_min).
  Notation cc_walk := (cc_walk fold_min).
  Notation cc_check := (cc_check fold_min).

  Lemma cc_lookup_cons : forall k k' v m,
    cc_lookup k ((k', v) :: m) = if str_eqb k k' then Some v else cc_lookup k m.
  Proof. reflexivity. Qed.

  Lemma cc_one_mono : forall m p d m' ok, cc_one m p d = (m', ok) -> cc_sub m m'.
  Proof.
    intros m p d m' ok H k v L. unfold Model.cc_one in H.
    destruct (cc_lookup (fold p) m) as [other|] eqn:E.
    - repeat match type of H with context[if ?c then _ else _] => destruct c end; inversion H; subst; auto.
    - inversion H; subst. rewrite cc_lookup_cons.
      destruct (str_eqb k (fold p)) eqn:K; auto. apply str_eqb_eq in K. subst. congruence.
  Qed.

  (* a key that is already taken lets a path through only if it is the same directory,
     and then the table stays as it is *)
  Lemma cc_one_taken : forall m p d m' p0 d0,
    cc_lookup (fold p) m = Some (mkPI p0 d0) -> cc_one m p d = (m', true) ->
    m' = m /\ p0 = p /\ d0 = true /\ d = true.
  Proof.
    intros m p d m' p0 d0 L H. unfold Model.cc_one in H. rewrite L in H. cbn [pi_path pi_dir] in H.
    destruct (str_eqb p p0) eqn:A; cbn [negb] in H; [|inversion H].
    destruct (Bool.eqb d d0) eqn:B; cbn [negb] in H; [|inversion H].
    destruct d; cbn [negb] in H; inversion H.
    apply str_eqb_eq in A. apply eqb_prop in B. subst. auto.
  Qed.

  Lemma cc_one_ok : forall m p d m', cc_one m p d = (m', true) -> cc_lookup (fold p) m' = Some (mkPI p d).
  Proof.
    intros m p d m' H. destruct (cc_lookup (fold p) m) as [[p0 d0]|] eqn:E.
    - destruct (cc_one_taken _ _ _ _ _ _ E H) as [-> [-> [-> ->]]]. exact E.
    - unfold Model.cc_one in H. rewrite E in H. inversion H; subst. rewrite cc_lookup_cons, str_eqb_refl. reflexivity.
  Qed.

  Lemma cc_walk_mono : forall l m m' ok, cc_walk m l = (m', ok) -> cc_sub m m'.
  Proof.
    induction l as [|[p d] l IH]; intros m m' ok H; cbn [Model.cc_walk] in H.
    - inversion H; subst. apply cc_sub_refl.
    - destruct (cc_one m p d) as [m1 ok1] eqn:O. apply cc_one_mono in O.
      destruct ok1; [|inversion H; subst; exact O]. eapply cc_sub_trans; [exact O | eapply IH; eauto].
  Qed.

  Lemma cc_walk_ok : forall l m m', cc_walk m l = (m', true) ->
    forall p d, In (p, d) l -> cc_lookup (fold p) m' = Some (mkPI p d).
  Proof.
    induction l as [|[p d] l IH]; intros m m' H p0 d0 I; [destruct I|].
    cbn [Model.cc_walk] in H. destruct (cc_one m p d) as [m1 ok1] eqn:O.
    destruct ok1; [|inversion H].
    destruct I as [I|I].
    - inversion I; subst. eapply cc_walk_mono; eauto. eapply cc_one_ok; eauto.
    - eapply IH; eauto.
  Qed.

  Lemma cc_walk_taken : forall l m m' p d p0 d0,
    cc_walk m l = (m', true) -> In (p, d) l -> cc_lookup (fold p) m = Some (mkPI p0 d0) ->
    p0 = p /\ d0 = true /\ d = true.
  Proof.
    induction l as [|[q e] l IH]; intros m m' p d p0 d0 H I L; [destruct I|].
    cbn [Model.cc_walk] in H. destruct (cc_one m q e) as [m1 ok1] eqn:O.
    destruct ok1; [|inversion H].
    destruct I as [I|I].
    - inversion I; subst. eapply proj2, cc_one_taken; eauto.
    - eapply IH; eauto. eapply cc_one_mono; eauto.
  Qed.

  (* a collision check that passes against a table also passes against any smaller one *)
  Lemma cc_one_sub : forall m M p d M', cc_sub m M -> cc_one M p d = (M', true) ->
    exists m', cc_one m p d = (m', true) /\ cc_sub m' M'.
  Proof.
    intros m M p d M' SUB H.
    pose proof (cc_one_ok _ _ _ _ H) as OK.
    pose proof (cc_one_mono _ _ _ _ _ H) as MONO.
    unfold Model.cc_one. destruct (cc_lookup (fold p) m) as [other|] eqn:L.
    - pose proof (SUB _ _ L) as LM. destruct other as [p0 d0].
      destruct (cc_one_taken _ _ _ _ _ _ LM H) as [-> [-> [-> ->]]].
      cbn [pi_path pi_dir]. rewrite str_eqb_refl. cbn. exists m. split; auto.
    - exists ((fold p, mkPI p d) :: m). split; auto.
      intros k v Lk. rewrite cc_lookup_cons in Lk. destruct (str_eqb k (fold p)) eqn:E.
      + apply str_eqb_eq in E. subst. inversion Lk; subst. exact OK.
      + apply MONO. apply SUB. exact Lk.
  Qed.

  Lemma cc_walk_sub : forall l m M M', cc_sub m M -> cc_walk M l = (M', true) ->
    exists m', cc_walk m l = (m', true) /\ cc_sub m' M'.
  Proof.
    induction l as [|[p d] l IH]; intros m M M' SUB H; cbn [Model.cc_walk] in *.
    - inversion H; subst. exists m. auto.
    - destruct (cc_one M p d) as [M1 ok] eqn:O. destruct ok; [|inversion H].
      destruct (cc_one_sub _ _ _ _ _ SUB O) as [m1 [O1 S1]]. rewrite O1. eapply IH; eauto.
  Qed.

  (* the paths collisionChecker.check(p, isDir) registers: p itself and its parent chain *)
  Definition cc_targets (p : str) (isDir : bool) : list (str * bool) :=
    (p, isDir) :: map (fun d => (d, true)) (dir_chain (S (length p)) p).

  Lemma cc_check_walk : forall m p d, cc_check m p d = cc_walk m (cc_targets p d).
  Proof. reflexivity. Qed.

  Lemma cc_check_mono : forall m p d m' ok, cc_check m p d = (m', ok) -> cc_sub m m'.
  Proof. intros m p d m' ok H. rewrite cc_check_walk in H. eapply cc_walk_mono; eauto. Qed.

  Lemma cc_check_ok : forall m p d m', cc_check m p d = (m', true) ->
    forall q e, In (q, e) (cc_targets p d) -> cc_lookup (fold q) m' = Some (mkPI q e).
  Proof. intros m p d m' H. rewrite cc_check_walk in H. eapply cc_walk_ok; eauto. Qed.

  Lemma cc_check_taken : forall m p d m' q e p0 d0,
    cc_check m p d = (m', true) -> In (q, e) (cc_targets p d) ->
    cc_lookup (fold q) m = Some (mkPI p0 d0) -> p0 = q /\ d0 = true /\ e = true.
  Proof. intros m p d m' q e p0 d0 H. rewrite cc_check_walk in H. eapply cc_walk_taken; eauto. Qed.

  Lemma cc_check_sub : forall m M p d M', cc_sub m M -> cc_check M p d = (M', true) ->
    exists m', cc_check m p d = (m', true) /\ cc_sub m' M'.
  Proof. intros m M p d M' SUB H. rewrite cc_check_walk in *. eapply cc_walk_sub; eauto. Qed.

  (* two accepted paths whose registered targets share a fold key: same path, both directories *)
  Theorem cc_no_collision : forall m1 p1 d1 m2 m3 p2 d2 m4 q1 e1 q2 e2,
    cc_check m1 p1 d1 = (m2, true) -> cc_sub m2 m3 -> cc_check m3 p2 d2 = (m4, true) ->
    In (q1, e1) (cc_targets p1 d1) -> In (q2, e2) (cc_targets p2 d2) ->
    fold q1 = fold q2 -> q1 = q2 /\ e1 = true /\ e2 = true.
  Proof.
    intros m1 p1 d1 m2 m3 p2 d2 m4 q1 e1 q2 e2 C1 MONO C2 I1 I2 F.
    pose proof (cc_check_ok _ _ _ _ C1 _ _ I1) as L. apply MONO in L. rewrite F in L.
    destruct (cc_check_taken _ _ _ _ _ _ _ _ C2 I2 L) as [A [B C]]. auto.
  Qed.
End Oracle.
