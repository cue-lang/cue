(* Create: the archive it writes passes CheckZip and extracts to exactly the valid files. *)
From Coq Require Import String.
From Coq Require Import List NArith ZArith Bool Lia Sorted.
From Verif Require Import Zip.Bytes Zip.BytesProofs Zip.Model Zip.PathProofs Zip.ZipProofs Zip.FsProofs
  Zip.UnzipProofs Zip.CollisionProofs Zip.HostileProofs Zip.ElemProofs Zip.RoundtripProofs.
Import ListNotations.
Local Open Scope N_scope.

Section Oracle.
  Variable is_letter : N -> bool.
  Variable fold_min : N -> N.
  Notation fold := (str_to_fold fold_min).
  Notation check_path := (check_path is_letter).
  Notation cc_one := (cc_one fold_min).
  Notation cc_walk := (cc_walk fold_min).
  Notation cc_check := (cc_check fold_min).
  Notation cf_step := (cf_step is_letter fold_min).
  Notation cf_loop := (cf_loop is_letter fold_min).
  Notation cz_step := (cz_step is_letter fold_min).
  Notation cz_loop := (cz_loop is_letter fold_min).

  Record cf_valid (hcm : list str) (st : cf_state) (f : file) (st' : cf_state) : Prop := {
    fv_kind : f_kind f = KRegular;
    fv_clean : clean (f_name f) = f_name f;
    fv_sub : in_submodule hcm (f_name f) = false;
    fv_local : f_name f <> s_local_module;
    fv_path : check_path (f_name f) = true;
    fv_cue : cf_cue_mod_bad (f_name f) = false;
    fv_cc : cc_check (st_cc st) (f_name f) false = (st_cc st', true);
    fv_size : st_size_err st' = false ->
              st_size_err st = false /\ (0 <= f_size f <= st_max st)%Z /\ st_max st' = (st_max st - f_size f)%Z;
    fv_mod : f_name f = s_cue_mod_module_cue -> (f_size f <= MaxCUEMod)%Z /\ st_found st' = true;
    fv_lic : f_name f = s_license -> (f_size f <= MaxLICENSE)%Z;
    fv_found : st_found st = true -> st_found st' = true;
    fv_found_eq : st_found st' = st_found st || str_eqb (f_name f) s_cue_mod_module_cue
  }.

  Lemma cf_account_effect : forall st z,
    st_cc (cf_account st z) = st_cc st /\ st_found (cf_account st z) = st_found st /\
    (st_size_err (cf_account st z) = false ->
       st_size_err st = false /\ (0 <= z <= st_max st)%Z /\ st_max (cf_account st z) = (st_max st - z)%Z).
  Proof.
    intros st z. unfold cf_account.
    destruct ((0 <=? z)%Z && (z <=? st_max st)%Z) eqn:C; cbn [st_cc st_found st_max st_size_err].
    - apply andb_true_iff in C. destruct C as [C1 C2]. apply Z.leb_le in C1. apply Z.leb_le in C2.
      repeat split; auto; lia.
    - repeat split; auto; discriminate.
  Qed.

  (* what a step whose verdict is not Valid may have done to the state: the collision table
     only grows, maxSize only shrinks (as long as there is no size error), and the module-file
     flag is untouched *)
  Definition cf_inert (st st' : cf_state) : Prop :=
    cc_sub (st_cc st) (st_cc st') /\ st_found st' = st_found st /\
    (st_size_err st' = false -> st_size_err st = false /\ (st_max st' <= st_max st)%Z).

  (* closes a branch of cf_step that returns a verdict other than Valid and the state s, given I : cf_inert st s *)
  Local Ltac cf_exit H I := right; inversion H; subst; split; [discriminate | exact I].

  Lemma cf_step_inv : forall hcm st f v st', cf_step hcm st f = (v, st') ->
    (v = VValid /\ cf_valid hcm st f st') \/ (v <> VValid /\ cf_inert st st').
  Proof.
    intros hcm st f v st' H. unfold Model.cf_step in H.
    assert (I0 : cf_inert st st).
    { split; [apply cc_sub_refl|]. split; [reflexivity|]. intros E. split; [exact E | lia]. }
    destruct (f_kind f) eqn:K; try (cf_exit H I0).
    all: destruct (str_eqb (f_name f) (clean (f_name f))) eqn:C; cbn [negb] in H; [|cf_exit H I0].
    all: destruct (is_abs (f_name f)); [cf_exit H I0|].
    all: destruct (is_vendored (f_name f)); [cf_exit H I0|].
    all: destruct (in_submodule hcm (f_name f)) eqn:SUB; [cf_exit H I0|].
    all: destruct (str_eqb (f_name f) s_hg_archival); [cf_exit H I0|].
    all: destruct (str_eqb (f_name f) s_local_module) eqn:L; [cf_exit H I0|].
    all: destruct (Model.check_path is_letter (f_name f)) eqn:P; cbn [negb] in H; [|cf_exit H I0].
    all: destruct (cf_cue_mod_bad (f_name f)) eqn:B; [cf_exit H I0|].
    all: destruct (Model.cc_check fold_min (st_cc st) (f_name f) false) as [cc' ok] eqn:CC.
    all: set (st1 := mkCF cc' (st_max st) (st_size_err st) (st_found st)) in *.
    all: assert (I1 : cf_inert st st1)
      by (split; [eapply cc_check_mono; eauto|]; split; [reflexivity|]; intros E; split; [exact E | cbn; lia]).
    all: destruct ok; cbn [negb] in H; [|cf_exit H I1].
    all: try (cf_exit H I1).
    (* a regular file: the size is accounted for *)
    destruct (cf_account_effect st1 (f_size f)) as [A1 [A2 A4]].
    assert (I2 : cf_inert st (cf_account st1 (f_size f))).
    { destruct I1 as [S1 [F1 _]]. rewrite <- A1 in S1. rewrite <- A2 in F1. split; [exact S1|]. split; [exact F1|].
      intros E. destruct (A4 E) as [E1 [Z1 Z2]]. cbn [st1 st_size_err st_max] in *. split; [exact E1 | lia]. }
    destruct (str_eqb (f_name f) s_cue_mod_module_cue && (MaxCUEMod <? f_size f)%Z) eqn:M1; [cf_exit H I2|].
    destruct (str_eqb (f_name f) s_license && (MaxLICENSE <? f_size f)%Z) eqn:M2.
    - (* LICENSE is not the module file, so the flag stays *)
      apply andb_true_iff in M2. destruct M2 as [M2 _]. apply str_eqb_eq in M2.
      right. inversion H; subst. split; [discriminate|]. destruct I2 as [S2 [F2 Z2]].
      split; [exact S2|]. split; [|exact Z2].
      cbn [st_found]. rewrite M2. vm_compute (str_eqb s_license s_cue_mod_module_cue). rewrite orb_false_r. exact F2.
    - left. inversion H; subst; clear H. split; [reflexivity|].
      apply str_eqb_eq in C. apply str_eqb_neq in L.
      constructor; cbn [st_cc st_max st_size_err st_found]; auto; try congruence.
      + rewrite A1. exact CC.
      + intros E. split; [exact (proj1 (limit_test_false _ _ _ _) M1 E)|].
        rewrite E, str_eqb_refl. apply orb_true_r.
      + apply limit_test_false, M2.
      + intros F. rewrite A2. cbn [st_found st1]. rewrite F. reflexivity.
      + rewrite A2. reflexivity.
  Qed.

  Lemma cf_step_valid : forall hcm st f st', cf_step hcm st f = (VValid, st') -> cf_valid hcm st f st'.
  Proof. intros hcm st f st' H. destruct (cf_step_inv _ _ _ _ _ H) as [[_ V]|[NV _]]; [exact V | congruence]. Qed.

  (* the same for a step of any verdict, except that a Valid step may set the module-file flag:
     the flag is only known to stay set *)
  Definition cf_le (st st' : cf_state) : Prop :=
    cc_sub (st_cc st) (st_cc st') /\ (st_found st = true -> st_found st' = true) /\
    (st_size_err st' = false -> st_size_err st = false /\ (st_max st' <= st_max st)%Z).

  Lemma cf_step_mono : forall hcm st f v st', cf_step hcm st f = (v, st') -> cf_le st st'.
  Proof.
    intros hcm st f v st' H. destruct (cf_step_inv _ _ _ _ _ H) as [[_ V]|[_ [S [F Z]]]].
    - split; [eapply cc_check_mono; apply (fv_cc _ _ _ _ V)|]. split; [apply (fv_found _ _ _ _ V)|].
      intros E. destruct (fv_size _ _ _ _ V E) as [E0 [SZ MX]]. split; [exact E0 | lia].
    - split; [exact S|]. split; [congruence | exact Z].
  Qed.

  Lemma cf_loop_mono : forall hcm files st vs st', cf_loop hcm st files = (vs, st') -> cf_le st st'.
  Proof.
    induction files as [|f r IH]; intros st vs st' H; cbn [Model.cf_loop] in H.
    - inversion H; subst. split; [apply cc_sub_refl|]. split; [auto|]. intros E. split; [exact E | lia].
    - destruct (cf_step hcm st f) as [v st1] eqn:S. destruct (cf_loop hcm st1 r) as [vs' st2] eqn:L.
      inversion H; subst. destruct (cf_step_mono _ _ _ _ _ S) as [C1 [F1 Z1]]. destruct (IH _ _ _ L) as [C2 [F2 Z2]].
      split; [eapply cc_sub_trans; eauto|]. split; [auto|].
      intros E. destruct (Z2 E) as [E1 M2]. destruct (Z1 E1) as [E0 M1]. split; [exact E0 | lia].
  Qed.

  (* hcm lists the directory in front of the cue.mod that splitCUEMod finds in p, if it finds one *)
  Definition hcm_covers (hcm : list str) (p : str) : Prop :=
    forall a b, split_cue_mod p = (a, b) -> b <> [] -> In a hcm.

  Lemma have_cue_mod_covers : forall files, Forall (fun f => hcm_covers (have_cue_mod files) (f_name f)) files.
  Proof.
    intros files. apply Forall_forall. intros f I a b SC NB.
    unfold have_cue_mod. apply in_flat_map. exists f. split; auto.
    rewrite SC. destruct b; [congruence|left; reflexivity].
  Qed.

  Lemma cz_cue_mod_valid : forall hcm p,
    check_path p = true -> cf_cue_mod_bad p = false -> in_submodule hcm p = false ->
    hcm_covers hcm p -> p <> s_cue_mod ->
    cz_cue_mod p = Some (str_eqb p s_cue_mod_module_cue).
  Proof.
    intros hcm p CP BAD SUB HCM NR. unfold cz_cue_mod.
    destruct (split_cue_mod p) as [a b] eqn:SC.
    destruct (checked_elems is_letter p CP) as [J [NE F]].
    destruct (checked_scm_spec is_letter p a b CP SC) as [[-> _]|[p1 [top [es' [SP [A [_ [-> B]]]]]]]].
    - (* no element is cue.mod up to case *)
      destruct (str_eqb p s_cue_mod_module_cue) eqn:E; auto.
      apply str_eqb_eq in E. rewrite E in SC. vm_compute in SC. inversion SC.
    - rewrite app_nil_r in B. rewrite SP in F, J.
      assert (NB : b <> []).
      { rewrite B. apply join_nonempty; [discriminate|]. apply Forall_app in F. tauto. }
      destruct p1 as [|q p1'].
      2:{ (* a cue.mod below the root: its directory is in hcm, so checkFiles would have omitted p *)
          exfalso. assert (T : in_submodule hcm p = true); [|congruence].
          unfold in_submodule. rewrite J at 2. apply in_submodule_join; auto; try discriminate.
          - pose proof (join_length_ge _ F) as L. rewrite <- J in L. lia.
          - apply (HCM _ b SC NB). }
      simpl app in *. replace b with p in * by congruence. clear B.
      destruct p as [|b0 bt] eqn:EP; [congruence|]. rewrite <- EP in *. cbn [dir_of].
      assert (NS : ~ In c_slash top) by (inversion F as [|? ? [_ S] _]; exact S).
      unfold cf_cue_mod_bad in BAD. rewrite J, cut_on_join in BAD by auto.
      rewrite A in BAD. cbn [andb] in BAD.
      apply orb_false_iff in BAD. destruct BAD as [BAD _]. apply orb_false_iff in BAD. destruct BAD as [B1 B2].
      apply negb_false_iff in B1. apply str_eqb_eq in B1. subst top.
      destruct es' as [|e2 es''].
      { exfalso. apply NR. rewrite J. reflexivity. }
      assert (PE : p = s_cue_mod_slash ++ join_slash (e2 :: es'')) by (rewrite J; reflexivity).
      set (r := join_slash (e2 :: es'')) in *.
      assert (C1 : contains_byte c_slash p = true) by (rewrite PE; reflexivity).
      assert (C2 : has_prefix s_cue_mod_slash p = true) by (rewrite PE; reflexivity).
      rewrite C1, C2. cbn [negb].
      assert (EF : ascii_eqfold p s_cue_mod_module_cue = ascii_eqfold r s_module_cue).
      { rewrite PE. unfold ascii_eqfold. change s_cue_mod_module_cue with (s_cue_mod_slash ++ s_module_cue).
        rewrite !map_app. apply str_eqb_app_same. }
      assert (EQ : str_eqb p s_cue_mod_module_cue = str_eqb r s_module_cue).
      { rewrite PE. change s_cue_mod_module_cue with (s_cue_mod_slash ++ s_module_cue). apply str_eqb_app_same. }
      rewrite EF, EQ.
      destruct (ascii_eqfold r s_module_cue) eqn:E1.
      + cbn [andb] in B2. apply negb_false_iff in B2. rewrite B2. reflexivity.
      + destruct (str_eqb r s_module_cue) eqn:E2; auto.
        apply str_eqb_eq in E2. rewrite E2 in E1. vm_compute in E1. discriminate.
  Qed.

  (* checkFiles after some of the files against CheckZip after the entries written for the valid
     ones among them: CheckZip has registered fewer paths (files that were not valid registered
     theirs too) and counted no more bytes than checkFiles took off maxSize *)
  Record sim (st : cf_state) (zst : cz_state) : Prop := {
    sim_cc : cc_sub (zs_cc zst) (st_cc st);
    sim_err : zs_size_err zst = false;
    sim_size : (0 <= zs_size zst <= MaxZipFile - st_max st)%Z;
    sim_max : (st_max st <= MaxZipFile)%Z;
    sim_mod : st_found st = true -> zs_mod zst = true }.

  (* the entry addFile writes for a valid file *)
  Definition created_entry (f : file) : entry :=
    mkEntry (f_name f) (N.of_nat (length (f_data f))) KRegular (f_data f) true true true.

  Lemma MaxZipFile_small : (MaxZipFile < 9223372036854775808)%Z.
  Proof. vm_compute. reflexivity. Qed.

  Lemma created_honest : forall f, (Z.of_nat (length (f_data f)) <= MaxZipFile)%Z -> honest (created_entry f).
  Proof.
    intros f B. unfold honest, created_entry. cbn. repeat split; auto.
    pose proof MaxZipFile_small. lia.
  Qed.

  Lemma sim_step_valid : forall hcm st f st' zst,
    cf_valid hcm st f st' -> st_size_err st' = false -> sim st zst ->
    (Z.of_nat (length (f_data f)) <= f_size f)%Z ->
    f_name f <> s_cue_mod -> hcm_covers hcm (f_name f) ->
    exists zst', cz_step zst (created_entry f) = (VValid, zst') /\ sim st' zst'.
  Proof.
    intros hcm st f st' zst V NE [S1 S2 S3 S4 S5] LEN NR HCM.
    destruct (fv_size _ _ _ _ V NE) as [E0 [SZ MX]].
    pose proof (check_path_not_dir is_letter _ (fv_path _ _ _ _ V)) as ND.
    unfold Model.cz_step.
    destruct (file_entry (created_entry f) ND) as [ED EN]. cbn [created_entry e_name] in EN.
    rewrite ED, EN. rewrite (fv_clean _ _ _ _ V), str_eqb_refl. cbn [negb].
    rewrite (fv_path _ _ _ _ V). cbn [negb].
    assert (L : str_eqb (f_name f) s_local_module = false) by (apply str_eqb_neq; apply (fv_local _ _ _ _ V)).
    rewrite L.
    destruct (cc_check_sub fold_min _ _ _ _ _ S1 (fv_cc _ _ _ _ V)) as [m' [CC SUB]]. rewrite CC. cbn [negb].
    rewrite (cz_cue_mod_valid hcm (f_name f) (fv_path _ _ _ _ V) (fv_cue _ _ _ _ V) (fv_sub _ _ _ _ V) HCM NR).
    cbn [created_entry e_declared].
    pose proof MaxZipFile_small as MS.
    assert (TI : to_int64 (N.of_nat (length (f_data f))) = Z.of_nat (length (f_data f))).
    { rewrite to_int64_small by lia. lia. }
    rewrite TI. set (sz := Z.of_nat (length (f_data f))) in *.
    assert (M1 : str_eqb (f_name f) s_cue_mod_module_cue && (MaxCUEMod <? sz)%Z = false).
    { apply limit_test_false. intros E. destruct (fv_mod _ _ _ _ V E) as [X _]. lia. }
    assert (M2 : str_eqb (f_name f) s_license && (MaxLICENSE <? sz)%Z = false).
    { apply limit_test_false. intros E. pose proof (fv_lic _ _ _ _ V E) as X. lia. }
    rewrite M1, M2. eexists. split; [reflexivity|].
    unfold cz_account. cbn [zs_size zs_cc zs_size_err zs_mod].
    assert (C : ((0 <=? sz)%Z && (sz <=? MaxZipFile - zs_size zst)%Z) = true).
    { apply andb_true_iff. split; [apply Z.leb_le; lia|apply Z.leb_le; lia]. }
    rewrite C. constructor; cbn [zs_size zs_cc zs_size_err zs_mod]; auto.
    - rewrite MX. lia.
    - lia.
    - intros F. destruct (str_eqb (f_name f) s_cue_mod_module_cue) eqn:E; [apply orb_true_r|].
      rewrite orb_false_r. apply S5.
      (* found was already set before this file *)
      rewrite (fv_found_eq _ _ _ _ V), E, orb_false_r in F. exact F.
  Qed.

  (* validFiles for given verdicts *)
  Definition valid_of (files : list file) (vs : list verdict) : list file :=
    map fst (filter (fun fv : file * verdict => verdict_eqb (snd fv) VValid) (combine files vs)).

  Lemma valid_files_eq : forall files,
    valid_files is_letter fold_min files = valid_of files (fst (check_files_verdicts is_letter fold_min files)).
  Proof. reflexivity. Qed.

  Lemma valid_of_cons : forall f r v vs,
    valid_of (f :: r) (v :: vs) = if verdict_eqb v VValid then f :: valid_of r vs else valid_of r vs.
  Proof. intros. unfold valid_of. simpl. destruct (verdict_eqb v VValid); reflexivity. Qed.

  Lemma add_files_cons : forall f r,
    add_files (f :: r) = if (f_size f <? Z.of_nat (length (f_data f)))%Z then None
                         else option_map (cons (created_entry f)) (add_files r).
  Proof. intros. simpl. destruct (add_files r); reflexivity. Qed.

  Lemma sim_loop : forall hcm files st vs st_end zst es,
    cf_loop hcm st files = (vs, st_end) -> st_size_err st_end = false ->
    sim st zst ->
    add_files (valid_of files vs) = Some es ->
    (forall f v, In (f, v) (combine files vs) -> v = VValid -> f_name f <> s_cue_mod) ->
    Forall (fun f => hcm_covers hcm (f_name f)) files ->
    exists zst_end, cz_loop zst es = (repeat VValid (length es), zst_end) /\ sim st_end zst_end /\
                    es = map created_entry (valid_of files vs) /\
                    Forall (fun e => is_file e /\ honest e) es.
  Proof.
    induction files as [|f r IH]; intros st vs st_end zst es H E SIM ADD ROOT HCM; cbn [Model.cf_loop] in H.
    - inversion H; subst. cbn in ADD. inversion ADD; subst. cbn. eauto 6.
    - destruct (cf_step hcm st f) as [v st1] eqn:S. destruct (cf_loop hcm st1 r) as [vs' st2] eqn:L.
      inversion H; subst. clear H.
      destruct (cf_loop_mono _ _ _ _ _ L) as [_ [_ Z]]. destruct (Z E) as [E1 _]. clear Z.
      assert (ROOT' : forall f0 v0, In (f0, v0) (combine r vs') -> v0 = VValid -> f_name f0 <> s_cue_mod)
        by (intros; eapply ROOT; eauto; simpl; right; eauto).
      inversion HCM as [|? ? HC HCM']; subst.
      rewrite valid_of_cons in *.
      destruct (cf_step_inv _ _ _ _ _ S) as [[-> CV]|[NV [M1 [FO M3]]]].
      + cbn [verdict_eqb] in *. rewrite add_files_cons in ADD.
        destruct (f_size f <? Z.of_nat (length (f_data f)))%Z eqn:LEN; [discriminate|]. apply Z.ltb_ge in LEN.
        destruct (add_files (valid_of r vs')) as [es'|] eqn:ADD'; [|discriminate].
        cbn [option_map] in ADD. inversion ADD; subst. clear ADD.
        destruct (sim_step_valid hcm st f st1 zst CV E1 SIM LEN) as [zst1 [ZS SIM1]].
        * eapply ROOT; [left; reflexivity|reflexivity].
        * exact HC.
        * destruct (IH st1 vs' st_end zst1 es' L E SIM1 ADD' ROOT' HCM') as [zend [ZL [SE [EQ HF]]]].
          exists zend. cbn [Model.cz_loop]. rewrite ZS, ZL. split; auto. split; auto.
          split; [rewrite EQ; reflexivity|].
          constructor; auto. split.
          -- exact (check_path_not_dir is_letter _ (fv_path _ _ _ _ CV)).
          -- apply created_honest. destruct (fv_size _ _ _ _ CV E1) as [_ [SZ _]]. destruct SIM. lia.
      + assert (V : verdict_eqb v VValid = false).
        { apply not_true_iff_false. intros V. apply NV, verdict_eqb_eq, V. }
        rewrite V in ADD |- *. destruct (M3 E1) as [E0 MX].
        assert (SIM1 : sim st1 zst).
        { destruct SIM as [S1 S2 S3 S4 S5]. constructor; auto.
          - eapply cc_sub_trans; eauto.
          - lia.
          - lia.
          - rewrite FO. exact S5. }
        eapply IH; eauto.
  Qed.

  (* There is no valid regular root file "cue.mod" next to a valid cue.mod/module.cue: the two
     would be registered under the same key, once as a file and once as a directory. *)
  Definition root_key := fold s_cue_mod.

  Lemma module_cue_registers_dir : In (s_cue_mod, true) (cc_targets s_cue_mod_module_cue false).
  Proof. vm_compute. right. left. reflexivity. Qed.

  Lemma found_registers_dir : forall hcm files st vs st', cf_loop hcm st files = (vs, st') ->
    (st_found st = true -> cc_lookup root_key (st_cc st) = Some (mkPI s_cue_mod true)) ->
    st_found st' = true -> cc_lookup root_key (st_cc st') = Some (mkPI s_cue_mod true).
  Proof.
    induction files as [|f r IH]; intros st vs st' H INV F; cbn [Model.cf_loop] in H.
    - inversion H; subst. auto.
    - destruct (cf_step hcm st f) as [v st1] eqn:S. destruct (cf_loop hcm st1 r) as [vs' st2] eqn:L.
      inversion H; subst. eapply IH; eauto. intros F1.
      destruct (cf_step_mono _ _ _ _ _ S) as [M _].
      destruct (cf_step_inv _ _ _ _ _ S) as [[_ CV]|[_ [_ [FO _]]]].
      + rewrite (fv_found_eq _ _ _ _ CV) in F1. apply orb_true_iff in F1. destruct F1 as [F0|E].
        * apply M. auto.
        * apply str_eqb_eq in E. pose proof (fv_cc _ _ _ _ CV) as CC. rewrite E in CC.
          apply (cc_check_ok fold_min _ _ _ _ CC _ _ module_cue_registers_dir).
      + rewrite FO in F1. apply M. auto.
  Qed.

  Lemma valid_root_file_registers_file : forall hcm files st vs st' g, cf_loop hcm st files = (vs, st') ->
    In (g, VValid) (combine files vs) -> f_name g = s_cue_mod ->
    cc_lookup root_key (st_cc st') = Some (mkPI s_cue_mod false).
  Proof.
    induction files as [|f r IH]; intros st vs st' g H I N; cbn [Model.cf_loop] in H.
    - inversion H; subst. destruct I.
    - destruct (cf_step hcm st f) as [v st1] eqn:S. destruct (cf_loop hcm st1 r) as [vs' st2] eqn:L.
      inversion H; subst. cbn [combine] in I. destruct I as [I|I].
      + inversion I; subst. pose proof (cf_step_valid _ _ _ _ S) as CV.
        pose proof (fv_cc _ _ _ _ CV) as CC. rewrite N in CC.
        apply (cf_loop_mono _ _ _ _ _ L).
        apply (cc_check_ok fold_min _ _ _ _ CC s_cue_mod false). left. reflexivity.
      + eapply IH; eauto.
  Qed.

  Lemma no_valid_root_cue_mod_file : forall hcm files vs st' g,
    cf_loop hcm cf_init files = (vs, st') -> st_found st' = true ->
    In (g, VValid) (combine files vs) -> f_name g <> s_cue_mod.
  Proof.
    intros hcm files vs st' g H F I N.
    pose proof (valid_root_file_registers_file _ _ _ _ _ _ H I N) as A.
    pose proof (found_registers_dir _ _ _ _ _ H ltac:(cbn; discriminate) F) as B.
    rewrite A in B. discriminate.
  Qed.

  Lemma names_with_all_valid : forall (ns : list str) n, length ns = n ->
    names_with VInvalid (combine ns (repeat VValid n)) = [].
  Proof.
    induction ns as [|x ns IH]; intros n L; destruct n; simpl in *; try reflexivity; try lia.
    unfold names_with in *. simpl. apply IH. lia.
  Qed.

  (* Writing out the valid files of ANY list that checkFiles accepts gives an archive that passes
     CheckZip, with honest headers; the order of the list plays no part. *)
  Theorem accepted_files_pass_check : forall files es zs,
    checked_err (check_files is_letter fold_min files) = false ->
    add_files (valid_files is_letter fold_min files) = Some es -> (zs <= MaxZipFile)%Z ->
    checked_err (check_zip is_letter fold_min zs es) = false /\
    es = map created_entry (valid_files is_letter fold_min files) /\
    Forall (fun e => is_file e /\ honest e) es.
  Proof.
    intros files es zs CE H ZS.
    rewrite valid_files_eq in *. unfold check_files, check_files_verdicts in *.
    destruct (cf_loop (have_cue_mod files) cf_init files) as [vs st'] eqn:L. cbn [fst] in *.
    destruct (collect_errs [] (combine (map f_name files) vs)) as [o i].
    unfold checked_err in CE. cbn [c_size_err c_invalid c_nomod] in CE.
    (* of the three parts of the error only "no size error" and "module file found" are used: the
       Invalid list plays no part, since only files with verdict Valid are written *)
    apply orb_false_iff in CE. destruct CE as [CE NM]. apply orb_false_iff in CE. destruct CE as [SE _].
    apply negb_false_iff in NM.
    assert (SIM0 : sim cf_init cz_init).
    { constructor; cbn; try discriminate; try lia; try (intros k v X; exact X). }
    destruct (sim_loop (have_cue_mod files) files cf_init vs st' cz_init es L SE SIM0 H) as [zend [ZL [SIM [EQ HF]]]].
    - intros f v I ->. eapply no_valid_root_cue_mod_file; eauto.
    - apply have_cue_mod_covers.
    - split; [|split; auto]. unfold Model.check_zip.
      destruct (MaxZipFile <? zs)%Z eqn:Z; [apply Z.ltb_lt in Z; lia|].
      unfold check_zip_verdicts. rewrite ZL. unfold checked_err. cbn [c_size_err c_invalid c_nomod].
      destruct SIM as [_ S2 _ _ S5]. rewrite S2, (S5 NM). cbn [negb orb].
      rewrite names_with_all_valid; [reflexivity|apply map_length].
  Qed.

  (* stated as C15_create_passes_check *)
  Theorem create_passes_check : forall files es zs,
    create is_letter fold_min files = Some es -> (zs <= MaxZipFile)%Z ->
    checked_err (check_zip is_letter fold_min zs es) = false /\
    es = map created_entry (valid_files is_letter fold_min (sort_files files)) /\
    Forall (fun e => is_file e /\ honest e) es.
  Proof.
    intros files es zs H ZS. unfold create in H.
    destruct (checked_err (check_files is_letter fold_min (sort_files files))) eqn:CE; [discriminate|].
    exact (accepted_files_pass_check _ es zs CE H ZS).
  Qed.

  (* stated as C15_create_unzip_roundtrip *)
  Theorem create_unzip_roundtrip : forall dir, clean_elems true [] dir = dir -> dir <> [] ->
    forall files es fs zs,
    create is_letter fold_min files = Some es -> (zs <= MaxZipFile)%Z ->
    dir_nonempty fs dir = false -> mkdir_all fs dir <> None ->
    exists fs', unzip is_letter fold_min dir fs zs es = (fs', UOk) /\
      (forall f, In f (valid_files is_letter fold_min (sort_files files)) ->
         fs_lookup fs' (dir ++ split_slash (f_name f)) = Some (NFile (f_data f))) /\
      (forall q c, fs_lookup fs' q = Some (NFile c) -> strict_prefix dir q = true ->
         exists f, In f (valid_files is_letter fold_min (sort_files files)) /\
                   q = dir ++ split_slash (f_name f) /\ c = f_data f).
  Proof.
    intros dir DC DN files es fs zs CR ZS EMP MK.
    destruct (create_passes_check files es zs CR ZS) as [OK [EQ HF]].
    assert (HO : Forall honest es) by (eapply Forall_impl; [|exact HF]; intros e [_ X]; exact X).
    destruct (unzip_accepted_honest_ok is_letter fold_min dir DC DN fs zs es OK HO EMP MK) as [fs' [U [_ [I1 _]]]].
    exists fs'. split; auto. split.
    - intros f I.
      assert (UE : Forall uint64_entry es).
      { eapply Forall_impl; [|exact HO]. intros e [_ [_ [_ B]]]. unfold uint64_entry. lia. }
      destruct (unzip_ok_exact is_letter fold_min dir DC fs zs es fs' UE U) as [X _].
      destruct (X (created_entry f)) as [Y _].
      + rewrite EQ. apply in_map. exact I.
      + rewrite Forall_forall in HF. destruct (HF (created_entry f)) as [A _]; [rewrite EQ; apply in_map; exact I|exact A].
      + exact Y.
    - intros q c L S. destruct (I1 q c L S) as [e [A [B [C D]]]].
      rewrite EQ in A. apply in_map_iff in A. destruct A as [f [<- A]]. exists f. auto.
  Qed.

  (* Create sorts the files by path: sort_files keeps the set of files (C15_create_sort_permutes) and its output
     is ordered by name_le (C15_create_order) *)
  Definition name_le (a b : file) : Prop := str_leb (f_name a) (f_name b) = true.

  Lemma In_insert_sorted : forall x f l, In x (insert_sorted f l) <-> x = f \/ In x l.
  Proof.
    induction l as [|g r IH]; simpl.
    - intuition.
    - destruct (str_leb (f_name f) (f_name g)); simpl; rewrite ?IH; intuition.
  Qed.

  Lemma insert_sorted_sorted : forall f l, Sorted name_le l -> Sorted name_le (insert_sorted f l).
  Proof.
    induction l as [|g r IH]; intros S; simpl.
    - repeat constructor.
    - destruct (str_leb (f_name f) (f_name g)) eqn:E.
      + constructor; auto.
      + inversion S as [|? ? Sr Hd]; subst. constructor; auto.
        destruct r as [|h r']; simpl.
        * constructor. apply str_leb_total; auto.
        * destruct (str_leb (f_name f) (f_name h)); constructor; auto.
          -- apply str_leb_total; auto.
          -- inversion Hd; auto.
  Qed.
End Oracle.
