(* Element-level behaviour of the byte-level path walkers (path.Split/Dir, dir_chain,
   splitCUEMod, inSubmodule) on paths that are joins of slash-free, plain elements. *)
From Coq Require Import String.
From Coq Require Import List NArith ZArith Bool Lia.
From Verif Require Import Zip.Bytes Zip.BytesProofs Zip.Model Zip.PathProofs.
Import ListNotations.
Local Open Scope N_scope.

Lemma path_split_noslash : forall x, ~ In c_slash x -> path_split x = ([], x).
Proof.
  induction x as [|b t IH]; simpl; intros H; auto.
  rewrite IH by tauto. destruct (b =? c_slash) eqn:E; auto.
  apply N.eqb_eq in E. subst. tauto.
Qed.

Lemma path_split_app : forall a x, ~ In c_slash x -> path_split (a ++ c_slash :: x) = (a ++ [c_slash], x).
Proof.
  induction a as [|b a IH]; intros x H.
  - simpl. rewrite path_split_noslash by auto. reflexivity.
  - simpl. rewrite IH by auto. destruct (a ++ [c_slash]) eqn:E; auto.
    destruct a; discriminate.
Qed.

Lemma join_snoc : forall pre x, pre <> [] -> join_slash (pre ++ [x]) = join_slash pre ++ c_slash :: x.
Proof. intros. unfold join_slash. rewrite join_with_app; auto. congruence. Qed.

Lemma path_split_join : forall pre x, pre <> [] -> ~ In c_slash x ->
  path_split (join_slash (pre ++ [x])) = (join_slash pre ++ [c_slash], x).
Proof. intros. rewrite join_snoc by auto. apply path_split_app; auto. Qed.

Lemma join_nonempty : forall es, es <> [] -> Forall pelem es -> join_slash es <> [].
Proof.
  intros [|e es] NE F; [congruence|]. inversion F as [|? ? [[A _] _] _]. apply join_cons_nonempty, A.
Qed.

Lemma last_byte_app : forall a b t, last_byte (a ++ b :: t) = last_byte (b :: t).
Proof.
  induction a as [|x a IH]; intros; auto. simpl app.
  destruct (a ++ b :: t) eqn:E; [destruct a; discriminate|]. rewrite <- E. simpl. rewrite E. rewrite <- E. apply IH.
Qed.

Lemma join_last_not_slash : forall es, es <> [] -> Forall pelem es -> ends_with_slash (join_slash es) = false.
Proof.
  intros es NE F. destruct (exists_last NE) as [pre [x ->]].
  apply Forall_app in F. destruct F as [Fp Fx]. inversion Fx as [|? ? [[XN _] XS] _]; subst.
  assert (L : ends_with_slash x = false).
  { unfold ends_with_slash. destruct (last_byte x) eqn:E; auto. apply N.eqb_neq. intros ->.
    apply XS. clear -E. induction x as [|b t IH]; [discriminate|]. destruct t; [inversion E; left; auto|].
    right. apply IH. exact E. }
  destruct pre as [|p0 pre'].
  - exact L.
  - rewrite join_snoc by congruence. unfold ends_with_slash in *.
    destruct x as [|b t]; [congruence|]. change (c_slash :: b :: t) with ([c_slash] ++ b :: t).
    rewrite app_assoc, last_byte_app. exact L.
Qed.

Lemma trim_right_slash_id : forall s, ends_with_slash s = false -> trim_right_slash s = s.
Proof.
  unfold ends_with_slash. induction s as [|b t IH]; intros H; auto.
  simpl. destruct t as [|b1 t1].
  - simpl in *. rewrite H. reflexivity.
  - rewrite IH by exact H. reflexivity.
Qed.

Lemma trim_right_slash_snoc : forall s, trim_right_slash (s ++ [c_slash]) = trim_right_slash s.
Proof.
  induction s as [|b t IH]; simpl; auto. rewrite IH. reflexivity.
Qed.

Lemma trim_join_slash : forall pre, pre <> [] -> Forall pelem pre ->
  trim_right_slash (join_slash pre ++ [c_slash]) = join_slash pre.
Proof.
  intros. rewrite trim_right_slash_snoc. apply trim_right_slash_id. apply join_last_not_slash; auto.
Qed.

(* path.Dir on a join *)
Lemma path_dir_join : forall pre x, pre <> [] -> Forall pelem pre -> pelem x ->
  path_dir (join_slash (pre ++ [x])) = join_slash pre.
Proof.
  intros pre x NE F [_ XS]. unfold path_dir. rewrite path_split_join by auto. cbn [fst].
  (* the directory part is the join of pre and an empty element, which Clean drops *)
  rewrite <- (join_snoc pre []) by auto.
  assert (NS : forall e, In e (pre ++ [[]]) -> ~ In c_slash e).
  { intros e I. apply in_app_or in I. destruct I as [I|[<-|[]]]; [|tauto].
    rewrite Forall_forall in F. apply F; auto. }
  destruct pre as [|p0 pre']; [congruence|].
  cbn [app]. rewrite clean_join by (auto; inversion F as [|? ? [[A _] _] _]; exact A).
  change (p0 :: pre' ++ [[]]) with ((p0 :: pre') ++ [[]]). rewrite clean_elems_app.
  rewrite (clean_elems_plain false (p0 :: pre') []) by (eapply Forall_impl; [|exact F]; intros ? [X _]; exact X).
  change (rev [] ++ p0 :: pre') with (p0 :: pre').
  cbn [clean_elems str_eqb orb]. rewrite rev_involutive.
  destruct (join_slash (p0 :: pre')) eqn:J; [|reflexivity].
  exfalso. revert J. apply join_nonempty; auto.
Qed.

Lemma path_dir_single : forall x, ~ In c_slash x -> path_dir x = s_dot.
Proof. intros. unfold path_dir. rewrite path_split_noslash by auto. reflexivity. Qed.

Lemma join_not_dot : forall es, es <> [] -> Forall pelem es -> join_slash es <> s_dot.
Proof.
  intros es NE F E. destruct es as [|e es]; try congruence.
  inversion F as [|? ? [[A [B C]] S] _]; subst. unfold join_slash in E. destruct es as [|e2 es].
  - simpl in E. congruence.
  - change (join_with c_slash (e :: e2 :: es)) with (e ++ c_slash :: join_with c_slash (e2 :: es)) in E.
    destruct e as [|b [|b' t]]; try congruence; simpl in E; try discriminate.
Qed.

(* every proper directory prefix of a joined path is in its dir_chain *)
Lemma dir_chain_contains : forall suf pre k,
  pre <> [] -> suf <> [] -> Forall pelem (pre ++ suf) -> (length suf <= k)%nat ->
  In (join_slash pre) (dir_chain k (join_slash (pre ++ suf))).
Proof.
  intros suf. induction suf as [|x suf' IH] using rev_ind; intros pre k NP NS F L; try congruence.
  rewrite app_length in L. simpl in L. destruct k as [|k]; [lia|].
  rewrite app_assoc in *. apply Forall_app in F. destruct F as [F1 Fx]. inversion Fx; subst.
  assert (NN : pre ++ suf' <> []) by (destruct pre; [congruence|discriminate]).
  cbn [dir_chain]. rewrite path_dir_join; auto.
  assert (ND : str_eqb (join_slash (pre ++ suf')) s_dot = false).
  { apply str_eqb_neq. apply join_not_dot; auto. }
  rewrite ND. destruct suf' as [|y suf''].
  - rewrite app_nil_r. left; reflexivity.
  - right. apply IH; auto; try discriminate. lia.
Qed.

Lemma join_length_ge : forall es, Forall pelem es -> (length es <= length (join_slash es))%nat.
Proof.
  induction es as [|e es IH]; intros F; simpl; auto.
  inversion F as [|? ? [[A _] _] Fes]; subst. specialize (IH Fes).
  destruct es as [|e' es'].
  - simpl. destruct e; simpl; try congruence; lia.
  - change (join_slash (e :: e' :: es')) with (e ++ c_slash :: join_slash (e' :: es')).
    rewrite app_length. simpl in *. lia.
Qed.

Lemma cut_on_nosep : forall c e, ~ In c e -> cut_on c e = (e, []).
Proof.
  induction e as [|b t IH]; simpl; intros NS; auto.
  destruct (b =? c) eqn:E; [apply N.eqb_eq in E; subst; tauto|].
  rewrite IH by tauto. reflexivity.
Qed.

Lemma cut_on_app : forall c e rest, ~ In c e -> cut_on c (e ++ c :: rest) = (e, rest).
Proof.
  induction e as [|b t IH]; simpl; intros rest NS.
  - rewrite N.eqb_refl. reflexivity.
  - destruct (b =? c) eqn:E; [apply N.eqb_eq in E; subst; tauto|].
    rewrite IH by tauto. reflexivity.
Qed.

Lemma cut_on_join : forall e es, ~ In c_slash e -> cut_on c_slash (join_slash (e :: es)) = (e, join_slash es).
Proof.
  intros e es NS. destruct es as [|e2 es].
  - change (join_slash [e]) with e. apply cut_on_nosep; auto.
  - change (join_slash (e :: e2 :: es)) with (e ++ c_slash :: join_slash (e2 :: es)). apply cut_on_app; auto.
Qed.

Lemma join_snoc_app : forall pre x suf, pre <> [] ->
  join_slash ((pre ++ [x]) ++ suf) = (join_slash pre ++ [c_slash]) ++ join_slash (x :: suf).
Proof.
  intros. rewrite <- app_assoc. unfold join_slash. rewrite join_with_app by (try discriminate; auto).
  rewrite <- app_assoc. reflexivity.
Qed.

Lemma pelem_snoc_app : forall pre x suf, Forall pelem ((pre ++ [x]) ++ suf) -> Forall pelem pre /\ pelem x.
Proof.
  intros pre x suf F. apply Forall_app in F. destruct F as [F _]. apply Forall_app in F. destruct F as [F Fx].
  inversion Fx; auto.
Qed.

(* the directory part of path.Split in front of a remaining element: "" at the root *)
Definition dir_of (p1 : list str) : str :=
  match p1 with [] => [] | _ => join_slash p1 ++ [c_slash] end.

(* splitCUEMod on the joined elements pre ++ suf, looking at pre only: it cuts in front of the LAST
   element of pre that is cue.mod up to case, and returns an empty rest if there is none *)
Definition scm_cut (pre suf : list str) (a b : str) : Prop :=
  (b = [] /\ Forall (fun y => ascii_eqfold y s_cue_mod = false) pre) \/
  (exists p1 x p2, pre = p1 ++ x :: p2 /\ ascii_eqfold x s_cue_mod = true /\ Forall (fun y => ascii_eqfold y s_cue_mod = false) p2 /\
                   a = dir_of p1 /\ b = join_slash (x :: p2 ++ suf)).

(* The walk keeps the whole path and shortens only its second argument from the right, so the
   induction is on pre from its last element, with the elements already passed collected in suf. *)
Lemma scm_spec : forall pre suf k a b,
  pre <> [] -> Forall pelem (pre ++ suf) -> (length pre <= k)%nat ->
  split_cue_mod_aux k (join_slash (pre ++ suf)) (join_slash pre) = (a, b) -> scm_cut pre suf a b.
Proof.
  intros pre. induction pre as [|x pre' IH] using rev_ind; intros suf k a b NP F Lk H; try congruence.
  rewrite app_length in Lk. simpl in Lk. destruct k as [|k]; [lia|].
  destruct (pelem_snoc_app _ _ _ F) as [F' [Px Sx]].
  cbn [split_cue_mod_aux] in H.
  assert (SPLIT : path_split (join_slash (pre' ++ [x])) = (dir_of pre', x)).
  { destruct pre'; [apply path_split_noslash | apply path_split_join]; auto. discriminate. }
  assert (WHOLE : join_slash ((pre' ++ [x]) ++ suf) = dir_of pre' ++ join_slash (x :: suf)).
  { destruct pre'; [reflexivity | apply join_snoc_app; discriminate]. }
  rewrite SPLIT in H. destruct (ascii_eqfold x s_cue_mod) eqn:E.
  - rewrite WHOLE, firstn_app_exact, skipn_app_exact in H. inversion H; subst.
    right. exists pre', x, []. repeat split; auto.
  - destruct pre' as [|y pre''].
    + inversion H; subst. left. split; [reflexivity|]. constructor; auto.
    + cbn [dir_of] in H. rewrite trim_join_slash in H by (auto; discriminate).
      destruct (join_slash (y :: pre'')) as [|j0 jt] eqn:J; [exfalso; revert J; apply join_nonempty; auto; discriminate|].
      rewrite <- J, <- app_assoc in *.
      destruct (IH ([x] ++ suf) k a b ltac:(discriminate) F ltac:(simpl in *; lia) H)
        as [[B N]|[p1 [z [p2 [P [Z [N [A B]]]]]]]].
      * left. split; [exact B|]. apply Forall_app. split; [exact N|]. constructor; auto.
      * right. exists p1, z, (p2 ++ [x]). rewrite P, <- !app_assoc. repeat split; auto.
        apply Forall_app. split; [exact N|]. constructor; auto.
Qed.

(* inSubmodule finds every directory prefix (other than the whole path) that is listed in hcm *)
Lemma in_submodule_join : forall rest p1 hcm k,
  p1 <> [] -> rest <> [] -> Forall pelem (p1 ++ rest) -> (length (p1 ++ rest) <= k)%nat ->
  In (dir_of p1) hcm -> in_submodule_aux k hcm (join_slash (p1 ++ rest)) = true.
Proof.
  intros rest. induction rest as [|x rest' IH] using rev_ind; intros p1 hcm k NP NR F L I; try congruence.
  rewrite app_assoc in *. rewrite app_length in L. simpl in L. destruct k as [|k]; [lia|].
  apply Forall_app in F. destruct F as [F Fx]. inversion Fx as [|? ? [_ Sx] _]; subst.
  assert (NE : p1 ++ rest' <> []) by (destruct p1; [congruence|discriminate]).
  cbn [in_submodule_aux]. rewrite path_split_join by auto. cbn [fst].
  destruct (join_slash (p1 ++ rest') ++ [c_slash]) eqn:Q; [destruct (join_slash (p1 ++ rest')); discriminate|].
  rewrite <- Q. destruct (mem_str (join_slash (p1 ++ rest') ++ [c_slash]) hcm) eqn:M; [reflexivity|].
  rewrite removelast_last. destruct rest' as [|y rest''].
  - rewrite app_nil_r in M. destruct p1; [congruence|]. apply mem_str_In in I. cbn [dir_of] in I. congruence.
  - apply IH; auto; [discriminate | lia].
Qed.

Section Oracle.
  Variable is_letter : N -> bool.

  Lemma checked_elems : forall p, check_path is_letter p = true ->
    p = join_slash (split_slash p) /\ split_slash p <> [] /\ Forall pelem (split_slash p).
  Proof.
    intros p H. destruct (check_path_safe is_letter p H) as [J [NE [G _]]].
    repeat split; auto. eapply Forall_impl; [|exact G]. apply good_pelem.
  Qed.

  (* a checked name registers every proper directory prefix (as a joined string) *)
  Lemma checked_dir_chain : forall p pre suf, check_path is_letter p = true ->
    split_slash p = pre ++ suf -> pre <> [] -> suf <> [] ->
    In (join_slash pre) (dir_chain (S (length p)) p).
  Proof.
    intros p pre suf H E NP NS. destruct (checked_elems p H) as [J [_ F]].
    rewrite E in *. rewrite J at 2. apply dir_chain_contains; auto.
    pose proof (join_length_ge _ F) as L. rewrite <- J in L. rewrite app_length in L.
    destruct pre; [congruence|]. simpl in L. lia.
  Qed.

  Lemma checked_scm_spec : forall p a b, check_path is_letter p = true -> split_cue_mod p = (a, b) ->
    scm_cut (split_slash p) [] a b.
  Proof.
    intros p a b H SC. destruct (checked_elems p H) as [J [NE F]].
    pose proof (join_length_ge _ F) as L. rewrite <- J in L.
    apply (scm_spec (split_slash p) [] (S (length p)) a b NE).
    - rewrite app_nil_r. exact F.
    - lia.
    - rewrite app_nil_r, <- J. exact SC.
  Qed.

  Lemma checked_nested_cue_mod : forall p pre x suf, check_path is_letter p = true ->
    split_slash p = pre ++ x :: suf -> pre <> [] -> ascii_eqfold x s_cue_mod = true ->
    cz_cue_mod p = None.
  Proof.
    intros p pre x suf H SP NP EQ. unfold cz_cue_mod. destruct (split_cue_mod p) as [a b] eqn:SC.
    assert (LIKE : forall l, In x l -> ~ Forall (fun y => ascii_eqfold y s_cue_mod = false) l).
    { intros l I N. rewrite Forall_forall in N. specialize (N x I). congruence. }
    destruct (checked_scm_spec p a b H SC) as [[_ N]|[p1 [z [p2 [SP2 [_ [N [A B]]]]]]]].
    - exfalso. apply (LIKE _ (in_elt x pre suf)). rewrite <- SP. exact N.
    - destruct p1 as [|q p1'].
      + (* the cut would be in front of the first element, but x comes later *)
        exfalso. rewrite SP in SP2. destruct pre as [|y pre']; [congruence|]. injection SP2 as _ E2.
        apply (LIKE _ (in_elt x pre' suf)). rewrite E2. exact N.
      + destruct (checked_elems p H) as [_ [_ F]]. rewrite SP2 in F. apply Forall_app in F. destruct F as [F1 F2].
        rewrite A, B, app_nil_r. cbn [dir_of].
        destruct (join_slash (q :: p1') ++ [c_slash]) eqn:Q; [destruct (join_slash (q :: p1')); discriminate|].
        destruct (join_slash (z :: p2)) eqn:Q2; [|reflexivity].
        exfalso. revert Q2. apply join_nonempty; [discriminate | exact F2].
  Qed.
End Oracle.
