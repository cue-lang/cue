(* The abstract file system of Zip/Model.v: lookups, MkdirAll, O_EXCL create only ever
   ADD entries with fresh keys. *)
From Coq Require Import List NArith ZArith Bool Lia.
From Verif Require Import Zip.Bytes Zip.BytesProofs Zip.Model.
Import ListNotations.

Lemma NoDup_app_intro {A} (l1 l2 : list A) :
  NoDup l1 -> NoDup l2 -> (forall x, In x l1 -> ~ In x l2) -> NoDup (l1 ++ l2).
Proof.
  induction l1 as [|a l1 IH]; simpl; intros D1 D2 H; auto.
  inversion D1; subst. constructor.
  - intros I. apply in_app_or in I. destruct I as [I|I]; auto. apply (H a); auto.
  - apply IH; auto.
Qed.

Lemma path_eqb_eq : forall a b, path_eqb a b = true <-> a = b.
Proof.
  induction a as [|x a IH]; destruct b as [|y b]; simpl; split; try congruence; auto.
  - rewrite andb_true_iff, str_eqb_eq, IH. intros [-> ->]; reflexivity.
  - intros [= -> ->]. rewrite str_eqb_refl. simpl. apply IH. reflexivity.
Qed.

Lemma path_eqb_refl : forall a, path_eqb a a = true.
Proof. intros; apply path_eqb_eq; reflexivity. Qed.

Lemma is_path_prefix_spec : forall a b, is_path_prefix a b = true <-> exists c, b = a ++ c.
Proof.
  induction a as [|x a IH]; intros b; simpl.
  - split; eauto.
  - destruct b as [|y b]; [split; [discriminate|intros [c H]; discriminate]|].
    rewrite andb_true_iff, str_eqb_eq, IH. split.
    + intros [-> [c ->]]. exists c; reflexivity.
    + intros [c H]. inversion H; subst. split; eauto.
Qed.

Lemma is_path_prefix_app : forall a c, is_path_prefix a (a ++ c) = true.
Proof. intros. apply is_path_prefix_spec. eauto. Qed.

Lemma is_path_prefix_refl : forall a, is_path_prefix a a = true.
Proof. intros. apply is_path_prefix_spec. exists []. symmetry. apply app_nil_r. Qed.

Lemma strict_prefix_spec : forall a b, strict_prefix a b = true <-> exists x c, b = a ++ x :: c.
Proof.
  intros a b. unfold strict_prefix. rewrite andb_true_iff, is_path_prefix_spec, negb_true_iff. split.
  - intros [[c ->] NE]. destruct c as [|x c].
    + rewrite app_nil_r, path_eqb_refl in NE. discriminate.
    + eauto.
  - intros [x [c ->]]. split; [eauto|].
    destruct (path_eqb a (a ++ x :: c)) eqn:E; auto. apply path_eqb_eq in E.
    assert (L : length a = length (a ++ x :: c)) by congruence. rewrite app_length in L. simpl in L. lia.
Qed.

Lemma strict_prefix_app : forall (a b : fpath), b <> [] -> strict_prefix a (a ++ b) = true.
Proof. intros a b NE. apply strict_prefix_spec. destruct b as [|x c]; try congruence. eauto. Qed.

Lemma prefix_not_strict : forall (a q : fpath), is_path_prefix q a = true -> strict_prefix a q = false.
Proof.
  intros a q P. destruct (strict_prefix a q) eqn:S; auto.
  apply is_path_prefix_spec in P. destruct P as [c ->]. apply strict_prefix_spec in S. destruct S as [x [c2 E]].
  apply (f_equal (@length _)) in E. rewrite !app_length in E. simpl in E. lia.
Qed.

Lemma prefix_of_app : forall q a b, is_path_prefix q (a ++ b) = true ->
  is_path_prefix q a = true \/ strict_prefix a q = true.
Proof.
  induction q as [|x q IH]; intros a b H; simpl; auto.
  destruct a as [|y a].
  - right. apply strict_prefix_spec. exists x, q. reflexivity.
  - simpl in H. apply andb_true_iff in H. destruct H as [E H]. apply str_eqb_eq in E. subst y.
    destruct (IH a b H) as [P|P].
    + left. simpl. rewrite str_eqb_refl. exact P.
    + right. apply strict_prefix_spec in P. destruct P as [z [c ->]]. apply strict_prefix_spec.
      exists z, c. reflexivity.
Qed.

Lemma fs_lookup_app_none : forall news fs q, fs_lookup (news ++ fs) q = None ->
  fs_lookup fs q = None /\ ~ In q (map fst news).
Proof.
  induction news as [|[k n] news IH]; simpl; intros fs q H; auto.
  destruct (path_eqb q k) eqn:E; [discriminate|].
  destruct (IH fs q H) as [A B]. split; auto. intros [->|I]; auto.
  rewrite path_eqb_refl in E. discriminate.
Qed.

Lemma fs_lookup_app_old : forall news fs q, ~ In q (map fst news) -> fs_lookup (news ++ fs) q = fs_lookup fs q.
Proof.
  induction news as [|[k n] news IH]; simpl; intros fs q H; auto.
  destruct (path_eqb q k) eqn:E.
  - apply path_eqb_eq in E. subst. tauto.
  - apply IH. tauto.
Qed.

Lemma fs_lookup_some_in : forall fs q n, fs_lookup fs q = Some n -> In (q, n) fs.
Proof.
  induction fs as [|[k m] fs IH]; simpl; intros q n H; [discriminate|].
  destruct (path_eqb q k) eqn:E.
  - apply path_eqb_eq in E. inversion H; subst. auto.
  - right. auto.
Qed.

Lemma fs_lookup_in_nodup : forall fs q n, NoDup (map fst fs) -> In (q, n) fs -> fs_lookup fs q = Some n.
Proof.
  induction fs as [|[k m] fs IH]; simpl; intros q n ND I; [tauto|].
  inversion ND as [|? ? Fresh ND']; subst.
  destruct I as [I|I].
  - inversion I; subst. rewrite path_eqb_refl. reflexivity.
  - destruct (path_eqb q k) eqn:E.
    + apply path_eqb_eq in E. subst. exfalso. apply Fresh. apply (in_map fst) in I. exact I.
    + apply IH; auto.
Qed.

(* fs' is fs plus fresh entries, each satisfying P *)
Definition extends (P : fpath -> node -> Prop) (fs fs' : fsys) : Prop :=
  exists news, fs' = news ++ fs /\ NoDup (map fst news) /\
               forall q n, In (q, n) news -> fs_lookup fs q = None /\ P q n.

Lemma extends_refl : forall P fs, extends P fs fs.
Proof. intros. exists []. simpl. split; auto. split; [constructor|]. intros q n []. Qed.

Lemma extends_trans : forall P fs1 fs2 fs3, extends P fs1 fs2 -> extends P fs2 fs3 -> extends P fs1 fs3.
Proof.
  intros P fs1 fs2 fs3 [n1 [E1 [D1 H1]]] [n2 [E2 [D2 H2]]]. subst.
  exists (n2 ++ n1). rewrite app_assoc. split; auto. split.
  - rewrite map_app. apply NoDup_app_intro; auto.
    intros q I2 I1. apply in_map_iff in I2. destruct I2 as [[q' n] [E I2]]. simpl in E. subst q'.
    destruct (H2 _ _ I2) as [L _]. apply fs_lookup_app_none in L. tauto.
  - intros q n I. apply in_app_or in I. destruct I as [I|I].
    + destruct (H2 _ _ I) as [L Pq]. apply fs_lookup_app_none in L. tauto.
    + auto.
Qed.

Lemma extends_weaken : forall (P Q : fpath -> node -> Prop) fs fs',
  (forall q n, P q n -> Q q n) -> extends P fs fs' -> extends Q fs fs'.
Proof.
  intros P Q fs fs' W [n [E [D H]]]. exists n. split; [exact E|]. split; [exact D|].
  intros q m I. destruct (H q m I) as [L Pq]. split; [exact L | apply W, Pq].
Qed.

Lemma extends_one : forall (P : fpath -> node -> Prop) fs q n,
  fs_lookup fs q = None -> P q n -> extends P fs ((q, n) :: fs).
Proof.
  intros P fs q n L Pq. exists [(q, n)]. split; [reflexivity|]. split.
  - constructor; [intros []|constructor].
  - intros q' n' [[= <- <-]|[]]. split; assumption.
Qed.

Lemma extends_lookup_old : forall P fs fs' q n, extends P fs fs' -> fs_lookup fs q = Some n -> fs_lookup fs' q = Some n.
Proof.
  intros P fs fs' q n [news [-> [D H]]] L.
  rewrite fs_lookup_app_old; auto.
  intros I. apply in_map_iff in I. destruct I as [[q' m] [E I]]. simpl in E. subst.
  destruct (H _ _ I) as [X _]. congruence.
Qed.

(* whatever fs' holds was in fs already, or is one of the fresh entries *)
Lemma extends_lookup_inv : forall P fs fs' q n, extends P fs fs' -> fs_lookup fs' q = Some n ->
  fs_lookup fs q = Some n \/ (fs_lookup fs q = None /\ P q n).
Proof.
  intros P fs fs' q n [news [-> [_ H]]]. induction news as [|[k m] news IH]; simpl; intros L; [left; exact L|].
  destruct (path_eqb q k) eqn:E.
  - apply path_eqb_eq in E. inversion L; subst. right. apply H. left; reflexivity.
  - apply IH; [|exact L]. intros q' n' I. apply H. right; exact I.
Qed.

Lemma mkdir_all_rev_dir : forall fs rp, fs_lookup fs (rev rp) = Some NDir -> mkdir_all_rev fs rp = Some fs.
Proof. intros fs [|x rp] H; cbn [mkdir_all_rev]; rewrite H; reflexivity. Qed.

(* os.MkdirAll only adds directories that are prefixes of the requested path *)
Lemma mkdir_all_rev_extends : forall rp fs fs',
  mkdir_all_rev fs rp = Some fs' ->
  extends (fun q n => n = NDir /\ is_path_prefix q (rev rp) = true) fs fs'.
Proof.
  induction rp as [|x rp IH]; intros fs fs' H; simpl in H.
  - destruct (fs_lookup fs []) as [[c|]|]; inversion H; subst; apply extends_refl.
  - destruct (fs_lookup fs (rev rp ++ [x])) as [[c|]|] eqn:L; try discriminate.
    + inversion H; subst. apply extends_refl.
    + destruct (mkdir_all_rev fs rp) as [fs1|] eqn:M; [|discriminate]. inversion H; subst. clear H.
      apply IH in M.
      eapply extends_trans.
      * eapply extends_weaken; [|exact M]. intros q n [-> Pq]. split; auto.
        simpl. apply is_path_prefix_spec in Pq. destruct Pq as [c E]. apply is_path_prefix_spec.
        exists (c ++ [x]). rewrite E. rewrite <- app_assoc. reflexivity.
      * apply extends_one.
        -- destruct M as [news [-> [D Hn]]]. simpl.
           rewrite fs_lookup_app_old; auto.
           intros I. apply in_map_iff in I. destruct I as [[q' m] [E I]]. simpl in E. subst.
           destruct (Hn _ _ I) as [_ [_ Pq]]. apply prefix_not_strict in Pq.
           rewrite strict_prefix_app in Pq; discriminate.
        -- split; auto. simpl. apply is_path_prefix_spec. exists []. rewrite app_nil_r. reflexivity.
Qed.

Lemma mkdir_all_extends : forall p fs fs',
  mkdir_all fs p = Some fs' -> extends (fun q n => n = NDir /\ is_path_prefix q p = true) fs fs'.
Proof.
  intros p fs fs' H. unfold mkdir_all in H. apply mkdir_all_rev_extends in H. rewrite rev_involutive in H. exact H.
Qed.

Lemma mkdir_all_lookup : forall p fs fs', mkdir_all fs p = Some fs' -> p <> [] -> fs_lookup fs' p = Some NDir.
Proof.
  intros p fs fs' H NE. unfold mkdir_all in H. rewrite <- (rev_involutive p) in NE |- *.
  destruct (rev p) as [|x rp]; [contradiction|]. cbn [mkdir_all_rev] in H.
  destruct (fs_lookup fs (rev (x :: rp))) as [[c|]|] eqn:L; try discriminate.
  - inversion H; subst. exact L.
  - destruct (mkdir_all_rev fs rp); [|discriminate]. inversion H; subst.
    cbn [fs_lookup]. rewrite path_eqb_refl. reflexivity.
Qed.

Lemma create_excl_spec : forall fs p c fs',
  create_excl fs p c = Some fs' -> fs' = (p, NFile c) :: fs /\ fs_lookup fs p = None.
Proof.
  intros fs p c fs' H. unfold create_excl in H.
  destruct (fs_lookup fs p) eqn:L; [discriminate|].
  destruct p as [|x p]; [discriminate|].
  destruct (removelast (x :: p)); [inversion H; auto|].
  destruct (fs_lookup fs (s :: l)) as [[?|]|]; try discriminate. inversion H; auto.
Qed.

Lemma create_excl_ok : forall fs p c, fs_lookup fs p = None -> p <> [] ->
  fs_lookup fs (removelast p) = Some NDir -> create_excl fs p c = Some ((p, NFile c) :: fs).
Proof.
  intros fs p c L NE D. unfold create_excl. rewrite L, D.
  destruct p; [contradiction|]. destruct (removelast _); reflexivity.
Qed.
