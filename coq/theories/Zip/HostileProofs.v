(* What CheckZip guarantees about every entry of an accepted archive, and about any two of them;
   mode bits are never consulted. *)
From Coq Require Import String.
From Coq Require Import List NArith ZArith Bool Lia.
From Verif Require Import Zip.Bytes Zip.BytesProofs Zip.Model Zip.PathProofs Zip.ZipProofs Zip.FsProofs
  Zip.UnzipProofs Zip.CollisionProofs Zip.ElemProofs.
Import ListNotations.
Local Open Scope N_scope.

Section Oracle.
  Variable is_letter : N -> bool.
  Variable fold_min : N -> N.
  Notation fold := (str_to_fold fold_min).
  Notation check_zip := (check_zip is_letter fold_min).
  Notation check_path := (check_path is_letter).
  Notation entry_ok := (entry_ok is_letter fold_min).
  Notation cz_chain := (cz_chain is_letter fold_min).

  (* the raw zf.Name is the checked name, plus one '/' for a directory entry *)
  Lemma e_name_shape : forall e, e_name e = entry_name e \/ e_name e = entry_name e ++ [c_slash].
  Proof.
    intros e. unfold entry_name, entry_is_dir. destruct (ends_with_slash (e_name e)) eqn:D; auto.
    right. apply ends_with_slash_removelast. exact D.
  Qed.

  (* the module-file flag is only ever set by an entry named cue.mod/module.cue *)
  Lemma cz_chain_mod : forall es st st', cz_chain st es st' ->
    (forall e, In e es -> entry_name e <> s_cue_mod_module_cue) -> zs_mod st' = true -> zs_mod st = true.
  Proof.
    induction es as [|e es IH]; intros st st' H X M; simpl in H.
    - subst; auto.
    - destruct H as [v [s1 [OK CH]]].
      assert (M1 : zs_mod s1 = true) by (eapply IH; eauto; intros; apply X; right; auto).
      destruct (eo_mod _ _ _ _ _ _ OK M1) as [A|A]; auto. exfalso. apply (X e); [left; auto|exact A].
  Qed.

  Lemma cz_chain_cc_mono : forall es st st', cz_chain st es st' -> cc_sub (zs_cc st) (zs_cc st').
  Proof.
    induction es as [|e es IH]; intros st st' H; simpl in H.
    - subst. apply cc_sub_refl.
    - destruct H as [w [s1 [OK CH]]]. eapply cc_sub_trans; [|eapply IH; eauto].
      eapply cc_check_mono. apply (eo_cc _ _ _ _ _ _ OK).
  Qed.

  (* Two entries of an accepted archive never register fold-equal paths, except the same
     directory twice.  [cc_targets name isDir] = the name itself and all its parent directories. *)
  Theorem accepted_no_collision : forall zs l1 e1 l2 e2 l3 q1 x1 q2 x2,
    checked_err (check_zip zs (l1 ++ e1 :: l2 ++ e2 :: l3)) = false ->
    In (q1, x1) (cc_targets (entry_name e1) (entry_is_dir e1)) ->
    In (q2, x2) (cc_targets (entry_name e2) (entry_is_dir e2)) ->
    fold q1 = fold q2 -> q1 = q2 /\ x1 = true /\ x2 = true.
  Proof.
    intros zs l1 e1 l2 e2 l3 q1 x1 q2 x2 H I1 I2 F.
    destruct (check_zip_ok is_letter fold_min _ _ H) as [_ [st' [CH _]]].
    apply cz_chain_app in CH. destruct CH as [sa [_ CH]]. simpl in CH.
    destruct CH as [v1 [sb [OK1 CH]]]. apply cz_chain_app in CH. destruct CH as [sc [CH2 CH]]. simpl in CH.
    destruct CH as [v2 [sd [OK2 _]]].
    eapply (cc_no_collision fold_min); [apply (eo_cc _ _ _ _ _ _ OK1)| |apply (eo_cc _ _ _ _ _ _ OK2)| | |]; eauto.
    apply (cz_chain_cc_mono _ _ _ CH2).
  Qed.

  (* the same entry with other mode bits: neither CheckZip nor Unzip consults them *)
  Definition rekind (g : entry -> kind) (e : entry) : entry :=
    mkEntry (e_name e) (e_declared e) (g e) (e_data e) (e_crc_ok e) (e_open_ok e) (e_deflate e).

  Lemma cz_loop_rekind : forall g es st,
    cz_loop is_letter fold_min st (map (rekind g) es) = cz_loop is_letter fold_min st es.
  Proof.
    induction es as [|e es IH]; intros st; cbn [map Model.cz_loop]; auto.
    change (cz_step is_letter fold_min st (rekind g e)) with (cz_step is_letter fold_min st e).
    destruct (cz_step is_letter fold_min st e) as [v s1]. rewrite IH. reflexivity.
  Qed.

  Lemma unzip_entries_rekind : forall g dir es fs,
    unzip_entries dir fs (map (rekind g) es) = unzip_entries dir fs es.
  Proof.
    induction es as [|e es IH]; intros fs; cbn [map unzip_entries]; auto.
    cbn [rekind e_name e_open_ok e_declared].
    change (zip_read (rekind g e)) with (zip_read e).
    destruct (e_name e); auto. destruct (ends_with_slash (n :: s)); auto.
    destruct (mkdir_all fs (removelast (join_path dir (n :: s)))); auto.
    destruct (e_open_ok e); cbn [negb]; auto.
    destruct (zip_read e) as [dl rerr]. destruct (limited_copy (to_int64 (e_declared e)) dl rerr) as [w err].
    destruct (create_excl f (join_path dir (n :: s)) w); auto. destruct err; auto.
  Qed.
End Oracle.
