(* check_path (module.CheckFilePath) accepts only safe relative paths. *)
From Coq Require Import String.
From Coq Require Import List NArith ZArith Bool Lia.
From Verif Require Import Zip.Bytes Zip.BytesProofs Zip.Model.
Import ListNotations.
Local Open Scope N_scope.

(* what "safe" means for one path element *)
Definition good_elem (e : str) : Prop :=
  e <> [] /\ e <> s_dot /\ e <> s_dotdot /\
  (forall b, In b e -> b <> c_slash /\ b <> c_backslash /\ b <> c_colon /\ b <> 0).

Lemma good_plain : forall e, good_elem e -> plain_elem e.
Proof. intros e [A [B [C _]]]. repeat split; auto. Qed.

Lemma good_no_slash : forall e, good_elem e -> ~ In c_slash e.
Proof. intros e [_ [_ [_ H]]] I. destruct (H _ I) as [X _]. congruence. Qed.

Lemma good_pelem : forall e, good_elem e -> pelem e.
Proof. intros e G. split; [apply good_plain; auto|apply good_no_slash; auto]. Qed.

Section Oracle.
  Variable is_letter : N -> bool.

  Lemma ascii_ok_not_bad : forall b, ascii_file_char_ok b = true ->
    b <> c_slash /\ b <> c_backslash /\ b <> c_colon /\ b <> 0.
  Proof.
    intros b H. repeat split; intros ->; vm_compute in H; discriminate.
  Qed.

  Lemma check_elem_good : forall e, check_elem is_letter e = true -> good_elem e.
  Proof.
    intros e H. unfold check_elem in H. destruct e as [|b0 t] eqn:Ee; [discriminate|]. rewrite <- Ee in *.
    destruct (forallb (N.eqb c_dot) e) eqn:D; [discriminate|].
    destruct (match last_byte e with Some b => b =? c_dot | None => false end); [discriminate|].
    destruct (forallb (file_name_ok is_letter) (runes e)) eqn:F; [|discriminate]. simpl in H.
    assert (B : forall b, In b e -> b <> c_slash /\ b <> c_backslash /\ b <> c_colon /\ b <> 0).
    { intros b I. destruct (N.lt_ge_cases b 128) as [L|G].
      - apply ascii_ok_not_bad. pose proof (ascii_in_runes e b I L) as R.
        rewrite forallb_forall in F. specialize (F _ R). unfold file_name_ok in F.
        apply N.ltb_lt in L. rewrite L in F. exact F.
      - repeat split; intros ->; vm_compute in G; apply G; reflexivity. }
    split; [subst; congruence|].
    split; [intros ->; vm_compute in D; discriminate|].
    split; [intros ->; vm_compute in D; discriminate | exact B].
  Qed.

  Lemma check_path_elems : forall p, check_path is_letter p = true ->
    Forall good_elem (split_slash p) /\ valid_utf8 p = true /\ ends_with_slash p = false /\ p <> [].
  Proof.
    intros p H. unfold check_path in H.
    destruct (valid_utf8 p) eqn:V; [|discriminate]. simpl in H.
    destruct p as [|b t] eqn:Ep; [discriminate|]. rewrite <- Ep in *.
    destruct (has_double_slash p); [discriminate|].
    destruct (ends_with_slash p); [discriminate|].
    split; [|repeat split; auto; subst; congruence].
    apply Forall_forall. intros e I. apply check_elem_good.
    rewrite forallb_forall in H. auto.
  Qed.

  (* stated as C15_checked_path_safe *)
  Theorem check_path_safe : forall p, check_path is_letter p = true ->
    let es := split_slash p in
    p = join_slash es /\ es <> [] /\ Forall good_elem es /\
    is_abs p = false /\ clean p = p /\
    (forall b, In b p -> b <> c_backslash /\ b <> c_colon /\ b <> 0).
  Proof.
    intros p H es. destruct (check_path_elems p H) as [G [_ [_ NE]]].
    assert (J : p = join_slash es) by (unfold es, join_slash, split_slash; rewrite join_split; reflexivity).
    assert (N0 : es <> []) by (apply split_on_nonempty).
    fold es in G.
    assert (F : Forall pelem es) by (eapply Forall_impl; [|exact G]; apply good_pelem).
    assert (NS : forall e, In e es -> ~ In c_slash e) by (intros; apply (split_no_sep c_slash p); auto).
    repeat (split; [assumption|]). split; [|split].
    - rewrite J. destruct es as [|e es']; try congruence. apply is_abs_join.
      + inversion G as [|? ? [Ne _] _]; exact Ne.
      + apply NS; left; auto.
    - rewrite J. apply clean_join_plain; auto.
    - intros b I. rewrite J in I. apply In_join_with in I. destruct I as [->|[e [I1 I2]]].
      + repeat split; discriminate.
      + rewrite Forall_forall in G. destruct (G _ I1) as [_ [_ [_ X]]]. apply X, I2.
  Qed.

  Lemma is_abs_rejected : forall p, is_abs p = true -> check_path is_letter p = false.
  Proof.
    intros p A. destruct (check_path is_letter p) eqn:C; auto.
    destruct (check_path_safe p C) as [_ [_ [_ [X _]]]]. congruence.
  Qed.

  Lemma check_path_not_dir : forall p, check_path is_letter p = true -> ends_with_slash p = false.
  Proof. intros p H. apply (check_path_elems p H). Qed.
End Oracle.
