(* An accepted archive with honest entries extracts completely, and the regular files beneath the
   target are then exactly its file entries. *)
From Coq Require Import String.
From Coq Require Import List NArith ZArith Bool Lia.
From Verif Require Import Zip.Bytes Zip.BytesProofs Zip.Model Zip.PathProofs Zip.ZipProofs Zip.FsProofs
  Zip.UnzipProofs Zip.CollisionProofs Zip.HostileProofs Zip.ElemProofs.
Import ListNotations.
Local Open Scope N_scope.

Section Oracle.
  Variable is_letter : N -> bool.
  Variable fold_min : N -> N.
  Notation fold := (str_to_fold fold_min).
  Notation check_zip := (check_zip is_letter fold_min).
  Notation check_path := (check_path is_letter).
  Notation unzip := (unzip is_letter fold_min).

  Definition is_file (e : entry) : Prop := ends_with_slash (e_name e) = false.

  Lemma is_file_entry : forall e, is_file e -> entry_is_dir e = false /\ entry_name e = e_name e.
  Proof. exact file_entry. Qed.

  (* no file entry's element list is a prefix of (or equal to) another file entry's *)
  Definition no_clash (es : list entry) : Prop :=
    forall l1 e1 l2 e2 l3, es = l1 ++ e1 :: l2 ++ e2 :: l3 -> is_file e1 -> is_file e2 ->
      is_path_prefix (split_slash (e_name e1)) (split_slash (e_name e2)) = false /\
      is_path_prefix (split_slash (e_name e2)) (split_slash (e_name e1)) = false.

  Lemma self_target : forall p d, In (p, d) (cc_targets p d).
  Proof. intros. left. reflexivity. Qed.

  Lemma prefix_target : forall n pre suf, check_path n = true -> split_slash n = pre ++ suf ->
    pre <> [] -> suf <> [] -> In (join_slash pre, true) (cc_targets n false).
  Proof.
    intros n pre suf C E NP NS. right.
    apply in_map with (f := fun d => (d, true)). eapply checked_dir_chain; eauto.
  Qed.

  (* a checked name whose elements begin with those of n1 registers n1 on its way *)
  Lemma prefix_registered : forall n1 n2, check_path n1 = true -> check_path n2 = true ->
    is_path_prefix (split_slash n1) (split_slash n2) = true -> exists x, In (n1, x) (cc_targets n2 false).
  Proof.
    intros n1 n2 C1 C2 P. apply is_path_prefix_spec in P. destruct P as [suf E].
    destruct (checked_elems is_letter _ C1) as [J1 [N1 _]]. destruct (checked_elems is_letter _ C2) as [J2 _].
    destruct suf as [|x suf].
    - rewrite app_nil_r in E. exists false. rewrite J1, <- E, <- J2. apply self_target.
    - exists true. rewrite J1. eapply prefix_target; eauto. discriminate.
  Qed.

  Lemma accepted_no_clash : forall zs es, checked_err (check_zip zs es) = false -> no_clash es.
  Proof.
    intros zs es H l1 e1 l2 e2 l3 -> F1 F2.
    destruct (is_file_entry e1 F1) as [D1 N1]. destruct (is_file_entry e2 F2) as [D2 N2].
    assert (C1 : check_path (e_name e1) = true).
    { rewrite <- N1. eapply accepted_name_safe; eauto. apply in_or_app; right; left; auto. }
    assert (C2 : check_path (e_name e2) = true).
    { rewrite <- N2. eapply accepted_name_safe; eauto.
      apply in_or_app; right; right. apply in_or_app; right; left; auto. }
    pose proof (accepted_no_collision is_letter fold_min zs l1 e1 l2 e2 l3) as NC.
    rewrite N1, N2, D1, D2 in NC.
    (* the shorter name would be registered by both entries, by one of them as a file *)
    split.
    - destruct (is_path_prefix (split_slash (e_name e1)) (split_slash (e_name e2))) eqn:P; [exfalso|reflexivity].
      destruct (prefix_registered _ _ C1 C2 P) as [x I].
      destruct (NC _ false _ x H (self_target _ _) I eq_refl) as [_ [X _]]. discriminate.
    - destruct (is_path_prefix (split_slash (e_name e2)) (split_slash (e_name e1))) eqn:P; [exfalso|reflexivity].
      destruct (prefix_registered _ _ C2 C1 P) as [x I].
      destruct (NC _ x _ false H I (self_target _ _) eq_refl) as [_ [_ X]]. discriminate.
  Qed.

  Lemma mkdir_all_succeeds : forall ext base fs,
    fs_lookup fs base = Some NDir ->
    (forall e1 e2 c, ext = e1 ++ e2 -> e1 <> [] -> fs_lookup fs (base ++ e1) <> Some (NFile c)) ->
    mkdir_all fs (base ++ ext) <> None.
  Proof.
    unfold mkdir_all. induction ext as [|x ext IH] using rev_ind; intros base fs B H.
    - rewrite app_nil_r, mkdir_all_rev_dir by (rewrite rev_involutive; exact B). discriminate.
    - rewrite app_assoc, rev_unit. cbn [mkdir_all_rev].
      assert (RR : rev (x :: rev (base ++ ext)) = base ++ ext ++ [x]) by (simpl; rewrite rev_involutive, app_assoc; reflexivity).
      rewrite RR.
      destruct (fs_lookup fs (base ++ ext ++ [x])) as [[c|]|] eqn:L; try discriminate.
      + exfalso. apply (H (ext ++ [x]) [] c); auto. rewrite app_nil_r; auto. destruct ext; discriminate.
      + destruct (mkdir_all_rev fs (rev (base ++ ext))) eqn:M; [discriminate|].
        exfalso. revert M. apply IH; auto.
        intros e1 e2 c E NE. apply (H e1 (e2 ++ [x]) c); auto. rewrite E, app_assoc. reflexivity.
  Qed.

  Definition honest (e : entry) : Prop :=
    e_open_ok e = true /\ e_crc_ok e = true /\ N.of_nat (length (e_data e)) = e_declared e /\
    (e_declared e < 9223372036854775808)%N.

  Lemma honest_copy : forall e, honest e ->
    zip_read e = (e_data e, false) /\
    limited_copy (to_int64 (e_declared e)) (e_data e) false = (e_data e, false).
  Proof.
    intros e [O [C [L B]]]. split.
    - unfold zip_read. rewrite L, N.ltb_irrefl, C. reflexivity.
    - unfold limited_copy. rewrite to_int64_small by auto.
      destruct (Z.of_N (e_declared e) + 1 <=? Z.of_nat (length (e_data e)))%Z eqn:X; auto.
      apply Z.leb_le in X. lia.
  Qed.

  Variable dir : fpath.
  Hypothesis dir_clean : clean_elems true [] dir = dir.
  Hypothesis dir_nonroot : dir <> [].

  (* what lies strictly beneath dir after extracting the entries [done] *)
  Definition beneath_inv (done : list entry) (fs : fsys) : Prop :=
    fs_lookup fs dir = Some NDir /\
    (forall q c, fs_lookup fs q = Some (NFile c) -> strict_prefix dir q = true ->
       exists e, In e done /\ is_file e /\ q = dir ++ split_slash (e_name e) /\ c = e_data e) /\
    (forall q, fs_lookup fs q = Some NDir -> strict_prefix dir q = true ->
       exists e pre suf, In e done /\ is_file e /\ split_slash (e_name e) = pre ++ suf /\ pre <> [] /\ suf <> [] /\
                         q = dir ++ pre).

  Lemma unzip_entries_honest : forall rest done fs,
    no_clash (done ++ rest) ->
    Forall (checked_entry is_letter) rest -> Forall honest rest ->
    beneath_inv done fs ->
    exists fs', unzip_entries dir fs rest = (fs', UOk) /\ beneath_inv (done ++ rest) fs'.
  Proof.
    induction rest as [|e rest IH]; intros done fs NC CE HO INV.
    - exists fs. rewrite app_nil_r. split; auto.
    - inversion CE as [|? ? CE1 CE2]; subst. inversion HO as [|? ? HO1 HO2]; subst.
      (* it is enough to have the invariant again once e is dealt with *)
      assert (STEP : forall fs1, beneath_inv (done ++ [e]) fs1 ->
                exists fs', unzip_entries dir fs1 rest = (fs', UOk) /\ beneath_inv (done ++ e :: rest) fs').
      { intros fs1 INV1. replace (done ++ e :: rest) with ((done ++ [e]) ++ rest) by (rewrite <- app_assoc; reflexivity).
        apply IH; auto. rewrite <- app_assoc. exact NC. }
      destruct INV as [I0 [I1 I2]].
      assert (WEAK : beneath_inv (done ++ [e]) fs).
      { split; [exact I0|]. split.
        - intros q c L S. destruct (I1 q c L S) as [e0 [A B]]. exists e0. split; [apply in_or_app; auto | exact B].
        - intros q L S. destruct (I2 q L S) as [e0 [pre [suf [A B]]]]. exists e0, pre, suf.
          split; [apply in_or_app; auto | exact B]. }
      cbn [unzip_entries].
      destruct CE1 as [D|CP]; [rewrite D; destruct (e_name e); apply STEP, WEAK|].
      pose proof (check_path_not_dir is_letter _ CP) as D. rewrite D.
      destruct (e_name e) as [|b0 t0] eqn:NM; [discriminate CP|]. rewrite <- NM in *.
      destruct (join_path_checked is_letter dir dir_clean _ CP) as [J NE]. rewrite J.
      set (sp := split_slash (e_name e)) in *.
      destruct (exists_last NE) as [rs [x SP]].
      assert (PA : removelast (dir ++ sp) = dir ++ rs) by (rewrite SP, app_assoc; apply removelast_last).
      assert (TNE : dir ++ sp <> []) by (destruct dir; [congruence|discriminate]).
      (* clashes with already extracted entries are impossible *)
      assert (CL : forall e0, In e0 done -> is_file e0 ->
                is_path_prefix (split_slash (e_name e0)) sp = false /\ is_path_prefix sp (split_slash (e_name e0)) = false).
      { intros e0 I F0. destruct (in_split _ _ I) as [l1 [l2 ->]].
        apply (NC l1 e0 l2 e rest); auto. rewrite <- app_assoc. reflexivity. }
      (* MkdirAll of the parent directory: no earlier file is in the way *)
      rewrite PA. destruct (mkdir_all fs (dir ++ rs)) as [fs1|] eqn:M.
      2:{ exfalso. revert M. apply mkdir_all_succeeds; [exact I0|].
          intros e1 e2 c E N1 L.
          destruct (I1 _ _ L (strict_prefix_app _ _ N1)) as [e0 [A [B [Q _]]]].
          apply app_inv_head in Q. destruct (CL e0 A B) as [X _].
          rewrite <- Q, SP, E, <- app_assoc, is_path_prefix_app in X. discriminate. }
      pose proof (mkdir_all_extends _ _ _ M) as EX.
      assert (PAR : fs_lookup fs1 (dir ++ rs) = Some NDir).
      { apply (mkdir_all_lookup _ _ _ M). destruct dir; [congruence|discriminate]. }
      assert (NEW : fs_lookup fs1 (dir ++ sp) = None).
      { destruct (fs_lookup fs1 (dir ++ sp)) as [n|] eqn:L; [exfalso|reflexivity].
        destruct (extends_lookup_inv _ _ _ _ _ EX L) as [L0|[_ [_ P]]].
        - (* there before: it would belong to an earlier entry *)
          destruct n as [c|].
          + destruct (I1 _ _ L0 (strict_prefix_app _ _ NE)) as [e0 [A [B [Q _]]]].
            apply app_inv_head in Q. destruct (CL e0 A B) as [X _].
            rewrite <- Q, is_path_prefix_refl in X. discriminate.
          + destruct (I2 _ L0 (strict_prefix_app _ _ NE)) as [e0 [pre [suf [A [B [S [_ [_ Q]]]]]]]].
            apply app_inv_head in Q. destruct (CL e0 A B) as [_ X].
            rewrite S, <- Q, is_path_prefix_app in X. discriminate.
        - (* MkdirAll made prefixes of the parent only *)
          apply prefix_not_strict in P. rewrite SP, app_assoc, strict_prefix_app in P; discriminate. }
      destruct HO1 as [O HO1']. rewrite O. cbn [negb].
      destruct (honest_copy e (conj O HO1')) as [ZR LC]. rewrite ZR, LC.
      rewrite (create_excl_ok fs1 (dir ++ sp) (e_data e) NEW TNE) by (rewrite PA; exact PAR).
      (* the invariant after creating the file *)
      apply STEP. destruct WEAK as [_ [W1 W2]].
      assert (TD : path_eqb dir (dir ++ sp) = false).
      { pose proof (strict_prefix_app dir sp NE) as S. apply andb_true_iff in S. apply negb_true_iff, S. }
      split; [|split].
      + cbn [fs_lookup]. rewrite TD. eapply extends_lookup_old; eauto.
      + intros q c L S. cbn [fs_lookup] in L. destruct (path_eqb q (dir ++ sp)) eqn:Q.
        * apply path_eqb_eq in Q. inversion L; subst. exists e. repeat split; auto. apply in_or_app; right; left; auto.
        * destruct (extends_lookup_inv _ _ _ _ _ EX L) as [L0|[_ [N _]]]; [exact (W1 _ _ L0 S) | discriminate].
      + intros q L S. cbn [fs_lookup] in L. destruct (path_eqb q (dir ++ sp)); [discriminate|].
        destruct (extends_lookup_inv _ _ _ _ _ EX L) as [L0|[_ [_ P]]]; [exact (W2 _ L0 S)|].
        (* a directory MkdirAll made: dir followed by a proper prefix of the entry's elements *)
        apply is_path_prefix_spec in P. destruct P as [c Ec].
        apply strict_prefix_spec in S. destruct S as [y [c2 ->]].
        rewrite <- app_assoc in Ec. apply app_inv_head in Ec.
        exists e, (y :: c2), (c ++ [x]). split; [apply in_or_app; right; left; auto|].
        split; [exact D|]. split; [|split; [discriminate|split; [destruct c; discriminate|reflexivity]]].
        fold sp. rewrite SP, Ec, <- app_assoc. reflexivity.
  Qed.

  (* stated as C15_unzip_accepted_honest_ok *)
  Theorem unzip_accepted_honest_ok : forall fs zs es,
    checked_err (check_zip zs es) = false -> Forall honest es ->
    dir_nonempty fs dir = false -> mkdir_all fs dir <> None ->
    exists fs', unzip dir fs zs es = (fs', UOk) /\ beneath_inv es fs'.
  Proof.
    intros fs zs es C HO DN MK. unfold Model.unzip. rewrite DN, C.
    destruct (mkdir_all fs dir) as [fs1|] eqn:M; [|congruence]. clear MK.
    assert (INV : beneath_inv [] fs1).
    { assert (NB : forall q n, fs_lookup fs1 q = Some n -> strict_prefix dir q = false).
      { intros q n L. destruct (extends_lookup_inv _ _ _ _ _ (mkdir_all_extends _ _ _ M) L) as [L0|[_ [_ P]]].
        - destruct (strict_prefix dir q) eqn:S; [|reflexivity]. apply fs_lookup_some_in in L0.
          rewrite <- DN. symmetry. apply existsb_exists. exists (q, n). auto.
        - apply prefix_not_strict, P. }
      split; [|split].
      - apply (mkdir_all_lookup _ _ _ M dir_nonroot).
      - intros q c L S. rewrite (NB _ _ L) in S. discriminate.
      - intros q L S. rewrite (NB _ _ L) in S. discriminate. }
    destruct (unzip_entries_honest es [] fs1) as [fs' [U I]]; auto.
    - simpl. eapply accepted_no_clash; eauto.
    - eapply accepted_entries_checked; eauto.
    - exists fs'. auto.
  Qed.
End Oracle.
