(* What Unzip does to the file system: it only adds fresh entries, beneath the target directory or
   on the way to it (unzip_entries_spec, unzip_confined), and a successful run wrote every file entry
   with exactly its declared bytes (unzip_ok_exact). *)
From Coq Require Import String.
From Coq Require Import List NArith ZArith Bool Lia.
From Verif Require Import Zip.Bytes Zip.BytesProofs Zip.Model Zip.PathProofs Zip.ZipProofs Zip.FsProofs.
Import ListNotations.
Local Open Scope N_scope.

Theorem limited_copy_bounded : forall d delivered rerr w err,
  limited_copy d delivered rerr = (w, err) ->
  (Z.of_nat (length w) <= Z.max 0 (d + 1))%Z /\
  (err = false -> w = delivered /\ rerr = false /\ (Z.of_nat (length w) <= d)%Z).
Proof.
  intros d dl rerr w err H. unfold limited_copy in H.
  destruct (d + 1 <=? Z.of_nat (length dl))%Z eqn:C; inversion H; subst; clear H.
  - apply Z.leb_le in C. split; [|discriminate].
    rewrite firstn_length. lia.
  - apply Z.leb_gt in C. split; [lia|]. intros ->. repeat split; auto. lia.
Qed.

Lemma to_int64_range : forall n, (to_int64 n < 0)%Z \/ to_int64 n = Z.of_N (n mod 18446744073709551616).
Proof.
  intros n. unfold to_int64. destruct (_ <? _)%N eqn:E; auto.
  left. apply N.ltb_ge in E.
  assert ((n mod 18446744073709551616) < 18446744073709551616)%N by (apply N.mod_lt; discriminate). lia.
Qed.

(* zf.UncompressedSize64 is a uint64 *)
Definition uint64_entry (e : entry) : Prop := (e_declared e < 18446744073709551616)%N.

Lemma zip_read_length_le : forall e dl rerr, zip_read e = (dl, rerr) -> (N.of_nat (length dl) <= e_declared e)%N.
Proof.
  intros e dl rerr R. unfold zip_read in R.
  destruct (e_declared e <? N.of_nat (length (e_data e))) eqn:C1.
  - inversion R; subst. simpl. lia.
  - apply N.ltb_ge in C1. destruct (N.of_nat (length (e_data e)) <? e_declared e) eqn:C2; inversion R; subst; auto.
    destruct (e_deflate e); simpl; lia.
Qed.

Lemma zip_read_ok : forall e dl, zip_read e = (dl, false) ->
  dl = e_data e /\ N.of_nat (length (e_data e)) = e_declared e /\ e_crc_ok e = true.
Proof.
  intros e dl R. unfold zip_read in R.
  destruct (e_declared e <? N.of_nat (length (e_data e))) eqn:C1; [inversion R|].
  destruct (N.of_nat (length (e_data e)) <? e_declared e) eqn:C2; [inversion R|].
  apply N.ltb_ge in C1. apply N.ltb_ge in C2. inversion R. repeat split; try lia.
  apply negb_false_iff. auto.
Qed.

(* with the archive/zip reader model the file never gets more than the declared size *)
Lemma read_copy_bounded : forall e dl rerr w err,
  uint64_entry e ->
  zip_read e = (dl, rerr) ->
  limited_copy (to_int64 (e_declared e)) dl rerr = (w, err) ->
  (Z.of_nat (length w) <= Z.max 0 (to_int64 (e_declared e)))%Z /\
  (err = false -> w = e_data e /\ N.of_nat (length (e_data e)) = e_declared e /\ e_crc_ok e = true).
Proof.
  intros e dl rerr w err U R L.
  destruct (limited_copy_bounded _ _ _ _ _ L) as [B1 B2].
  pose proof (zip_read_length_le _ _ _ R) as S.
  split.
  - unfold limited_copy in L.
    destruct (to_int64 (e_declared e) + 1 <=? Z.of_nat (length dl))%Z eqn:C; inversion L; subst; clear L.
    + apply Z.leb_le in C. rewrite firstn_length.
      destruct (Z.lt_ge_cases (to_int64 (e_declared e)) 0) as [Neg|Pos]; [lia|].
      rewrite (to_int64_nonneg _ U Pos) in *. lia.
    + apply Z.leb_gt in C. lia.
  - intros ->. destruct (B2 eq_refl) as [X [Y _]]. subst. apply zip_read_ok in R. destruct R as [A [B C]].
    subst. auto.
Qed.

Section Oracle.
  Variable is_letter : N -> bool.
  Variable fold_min : N -> N.
  Variable dir : fpath.
  Hypothesis dir_clean : clean_elems true [] dir = dir.   (* the target is a clean absolute path *)

  Notation check_path := (check_path is_letter).
  Notation unzip := (unzip is_letter fold_min).
  Notation check_zip := (check_zip is_letter fold_min).

  (* filepath.Join(dir, name) of a checked name is dir followed by the name's elements *)
  Lemma join_path_checked : forall name, check_path name = true ->
    join_path dir name = dir ++ split_slash name /\ split_slash name <> [].
  Proof.
    intros name H. destruct (check_path_safe is_letter name H) as [_ [NE [G _]]].
    split; auto. unfold join_path. rewrite clean_elems_app, dir_clean.
    rewrite clean_elems_plain.
    - rewrite rev_involutive. reflexivity.
    - eapply Forall_impl; [|exact G]. apply good_plain.
  Qed.

  Definition checked_entry (e : entry) : Prop :=
    ends_with_slash (e_name e) = true \/ check_path (e_name e) = true.

  (* q is the regular file written for some file entry of the archive, holding at most
     the declared number of bytes *)
  Definition file_of (es : list entry) (q : fpath) (n : node) : Prop :=
    exists e c, In e es /\ ends_with_slash (e_name e) = false /\ q = dir ++ split_slash (e_name e) /\
                n = NFile c /\ (Z.of_nat (length c) <= Z.max 0 (to_int64 (e_declared e)))%Z.

  Definition unzip_effect (es : list entry) (q : fpath) (n : node) : Prop :=
    (n = NDir /\ is_path_prefix q dir = true) \/
    (strict_prefix dir q = true /\ (n = NDir \/ file_of es q n)).

  Lemma unzip_effect_mono : forall e es q n, unzip_effect es q n -> unzip_effect (e :: es) q n.
  Proof.
    intros e es q n [H|[S [H|[e0 [c [I H]]]]]]; [left; auto|right; auto|].
    right. split; auto. right. exists e0, c. split; [right; auto|auto].
  Qed.

  Lemma mkdir_parent_effect : forall es' fs fs1 l,
    es' <> [] ->
    mkdir_all fs (removelast (dir ++ es')) = Some fs1 ->
    extends (unzip_effect l) fs fs1.
  Proof.
    intros es' fs fs1 l NE M. apply mkdir_all_extends in M.
    eapply extends_weaken; [|exact M]. intros q n [-> P].
    rewrite removelast_app in P by auto.
    destruct (prefix_of_app _ _ _ P) as [A|A]; [left; auto|right; auto].
  Qed.

  (* every file entry of es has its file in fs: exactly the data, as long as declared, opened
     and checksummed without error *)
  Definition extracted (es : list entry) (fs : fsys) : Prop :=
    forall e, In e es -> ends_with_slash (e_name e) = false ->
      fs_lookup fs (dir ++ split_slash (e_name e)) = Some (NFile (e_data e)) /\
      N.of_nat (length (e_data e)) = e_declared e /\ e_crc_ok e = true /\ e_open_ok e = true.

  Lemma unzip_entries_spec : forall es fs fs' r,
    Forall checked_entry es -> Forall uint64_entry es ->
    unzip_entries dir fs es = (fs', r) ->
    extends (unzip_effect es) fs fs' /\ (r = UOk -> extracted es fs').
  Proof.
    induction es as [|e es IH]; intros fs fs' r CE UE H.
    - simpl in H. inversion H; subst. split; [apply extends_refl|]. intros _ e [].
    - inversion CE as [|? ? CE1 CE2]; subst. inversion UE as [|? ? UE1 UE2]; subst.
      cbn [unzip_entries] in H.
      (* the rest of the archive, run from a state fsm in which e has been dealt with *)
      assert (REST : forall fsm, extends (unzip_effect (e :: es)) fs fsm -> extracted [e] fsm ->
                unzip_entries dir fsm es = (fs', r) ->
                extends (unzip_effect (e :: es)) fs fs' /\ (r = UOk -> extracted (e :: es) fs')).
      { intros fsm X W H2. destruct (IH _ _ _ CE2 UE2 H2) as [A B]. split.
        - eapply extends_trans; [exact X|]. eapply extends_weaken; [|exact A]. intros; apply unzip_effect_mono; auto.
        - intros R e0 [<-|I] ND; [|apply B; auto].
          destruct (W e (or_introl eq_refl) ND) as [L W']. split; [|exact W'].
          eapply extends_lookup_old; [exact A | exact L]. }
      destruct CE1 as [D|CP].
      { rewrite D in H. apply (REST fs); [apply extends_refl | | destruct (e_name e); exact H].
        intros e0 [<-|[]] ND. congruence. }
      pose proof (check_path_not_dir is_letter _ CP) as D. rewrite D in H.
      destruct (e_name e) as [|b0 t0] eqn:NM; [discriminate CP|]. rewrite <- NM in *.
      destruct (join_path_checked _ CP) as [J NE]. rewrite J in H.
      destruct (mkdir_all fs (removelast (dir ++ split_slash (e_name e)))) as [fs1|] eqn:M.
      2:{ inversion H; subst. split; [apply extends_refl|discriminate]. }
      pose proof (mkdir_parent_effect _ _ _ (e :: es) NE M) as X1.
      assert (FO : forall c, (Z.of_nat (length c) <= Z.max 0 (to_int64 (e_declared e)))%Z ->
                   unzip_effect (e :: es) (dir ++ split_slash (e_name e)) (NFile c)).
      { intros c B. right. split; [apply strict_prefix_app; auto|]. right. exists e, c.
        repeat split; auto. left; reflexivity. }
      destruct (e_open_ok e) eqn:OP; cbn [negb] in H.
      2:{ destruct (create_excl fs1 (dir ++ split_slash (e_name e)) []) as [fs2|] eqn:CR.
          - inversion H; subst. split; [|discriminate].
            apply create_excl_spec in CR. destruct CR as [-> L].
            eapply extends_trans; [exact X1|]. apply extends_one; auto. apply FO. simpl. lia.
          - inversion H; subst. split; [exact X1|discriminate]. }
      destruct (zip_read e) as [dl rerr] eqn:ZR.
      destruct (limited_copy (to_int64 (e_declared e)) dl rerr) as [w err] eqn:LC.
      destruct (read_copy_bounded _ _ _ _ _ UE1 ZR LC) as [B1 B2].
      destruct (create_excl fs1 (dir ++ split_slash (e_name e)) w) as [fs2|] eqn:CR.
      2:{ inversion H; subst. split; [exact X1|discriminate]. }
      apply create_excl_spec in CR. destruct CR as [-> L].
      assert (X2 : extends (unzip_effect (e :: es)) fs ((dir ++ split_slash (e_name e), NFile w) :: fs1)).
      { eapply extends_trans; [exact X1|]. apply extends_one; auto. }
      destruct err.
      { inversion H; subst. split; [exact X2|discriminate]. }
      apply (REST _ X2); [|exact H].
      intros e0 [<-|[]] _. destruct (B2 eq_refl) as [-> [Y1 Y2]]. repeat split; auto.
      simpl. rewrite path_eqb_refl. reflexivity.
  Qed.

  Lemma accepted_entries_checked : forall zs es, checked_err (check_zip zs es) = false -> Forall checked_entry es.
  Proof.
    intros zs es H. apply Forall_forall. intros e I.
    pose proof (accepted_name_safe is_letter fold_min zs es e H I) as P. unfold checked_entry.
    destruct (ends_with_slash (e_name e)) eqn:D; [left; reflexivity|right].
    destruct (file_entry e D) as [_ N]. rewrite <- N. exact P.
  Qed.

  (* stated as C15_unzip_confined *)
  Theorem unzip_confined : forall fs zs es fs' r,
    Forall uint64_entry es ->
    unzip dir fs zs es = (fs', r) ->
    extends (unzip_effect es) fs fs'.
  Proof.
    intros fs zs es fs' r U H. unfold Model.unzip in H.
    destruct (dir_nonempty fs dir); [inversion H; apply extends_refl|].
    destruct (checked_err (check_zip zs es)) eqn:C; [inversion H; apply extends_refl|].
    destruct (mkdir_all fs dir) as [fs1|] eqn:M; [|inversion H; apply extends_refl].
    apply mkdir_all_extends in M.
    eapply extends_trans.
    - eapply extends_weaken; [|exact M]. intros q n [-> P]. left; auto.
    - eapply unzip_entries_spec; eauto. eapply accepted_entries_checked; eauto.
  Qed.

  (* stated as C15_unzip_bytes_bounded *)
  Theorem unzip_ok_exact : forall fs zs es fs',
    Forall uint64_entry es ->
    unzip dir fs zs es = (fs', UOk) ->
    extracted es fs' /\ (0 <= declared_sum es <= MaxZipFile)%Z.
  Proof.
    intros fs zs es fs' U H. unfold Model.unzip in H.
    destruct (dir_nonempty fs dir); [inversion H|].
    destruct (checked_err (check_zip zs es)) eqn:C; [inversion H|].
    destruct (mkdir_all fs dir) as [fs1|] eqn:M; [|inversion H].
    split.
    - eapply unzip_entries_spec; eauto. eapply accepted_entries_checked; eauto.
    - apply (check_zip_total_size is_letter fold_min zs es C).
  Qed.
End Oracle.
