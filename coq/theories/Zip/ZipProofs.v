(* CheckZip: the inversion of one step (entry_ok), the chain of steps of an accepted archive
   (cz_chain, check_zip_ok), and what follows for each entry and for the sum of declared sizes. *)
From Coq Require Import String.
From Coq Require Import List NArith ZArith Bool Lia.
From Verif Require Import Zip.Bytes Zip.BytesProofs Zip.Model Zip.PathProofs.
Import ListNotations.
Local Open Scope N_scope.

Lemma to_int64_small : forall n, (n < 9223372036854775808)%N -> to_int64 n = Z.of_N n.
Proof.
  intros n H. unfold to_int64. rewrite N.mod_small by lia.
  apply N.ltb_lt in H. rewrite H. reflexivity.
Qed.

Lemma to_int64_nonneg : forall n, (n < 18446744073709551616)%N -> (0 <= to_int64 n)%Z -> to_int64 n = Z.of_N n.
Proof.
  intros n H P. unfold to_int64 in *. rewrite N.mod_small in * by lia.
  destruct (n <? 9223372036854775808)%N; lia.
Qed.

Lemma ends_with_slash_removelast : forall s, ends_with_slash s = true -> s = removelast s ++ [c_slash].
Proof.
  unfold ends_with_slash. induction s as [|b t IH]; intros H; [discriminate|].
  destruct t as [|b1 t1].
  - simpl in *. apply N.eqb_eq in H. subst. reflexivity.
  - change (removelast (b :: b1 :: t1)) with (b :: removelast (b1 :: t1)).
    simpl app. f_equal. apply IH. exact H.
Qed.

(* the name CheckZip checks is zf.Name without the slash that marks a directory entry *)
Lemma entry_is_dir_eq : forall e, entry_is_dir e = ends_with_slash (e_name e).
Proof. reflexivity. Qed.

Lemma entry_name_file : forall e, entry_is_dir e = false -> entry_name e = e_name e.
Proof. intros e H. unfold entry_name. rewrite H. reflexivity. Qed.

(* an entry whose name does not end in a slash is a file entry, checked under its own name *)
Lemma file_entry : forall e, ends_with_slash (e_name e) = false ->
  entry_is_dir e = false /\ entry_name e = e_name e.
Proof. intros e H. rewrite <- entry_is_dir_eq in H. split; [exact H | apply entry_name_file, H]. Qed.

Lemma verdict_eqb_eq : forall a b, verdict_eqb a b = true <-> a = b.
Proof. intros [] []; simpl; split; congruence. Qed.

Section Oracle.
  Variable is_letter : N -> bool.
  Variable fold_min : N -> N.

  Notation cz_step := (cz_step is_letter fold_min).
  Notation cz_loop := (cz_loop is_letter fold_min).
  Notation check_zip := (check_zip is_letter fold_min).
  Notation check_path := (check_path is_letter).
  Notation cc_check := (cc_check fold_min).

  Record entry_ok (st : cz_state) (e : entry) (v : verdict) (st' : cz_state) : Prop := {
    eo_clean : clean (entry_name e) = entry_name e;
    eo_path : check_path (entry_name e) = true;
    eo_local : entry_name e <> s_local_module;
    eo_cc : cc_check (zs_cc st) (entry_name e) (entry_is_dir e) = (zs_cc st', true);
    eo_cue_mod : cz_cue_mod (entry_name e) <> None;
    eo_mod : zs_mod st' = true -> zs_mod st = true \/ entry_name e = s_cue_mod_module_cue;
    eo_dir : entry_is_dir e = true -> v = VSkipped /\ zs_size st' = zs_size st /\ zs_size_err st' = zs_size_err st;
    eo_file : entry_is_dir e = false ->
              v = VValid /\
              (zs_size_err st' = false ->
                 zs_size_err st = false /\ (0 <= to_int64 (e_declared e) <= MaxZipFile - zs_size st)%Z /\
                 zs_size st' = (zs_size st + to_int64 (e_declared e))%Z) /\
              ~ (entry_name e = s_cue_mod_module_cue /\ (MaxCUEMod < to_int64 (e_declared e))%Z) /\
              ~ (entry_name e = s_license /\ (MaxLICENSE < to_int64 (e_declared e))%Z)
  }.

  Lemma split_cue_mod_aux_app : forall fuel p s a b, split_cue_mod_aux fuel p s = (a, b) -> p = a ++ b.
  Proof.
    induction fuel as [|k IH]; intros p s a b H; cbn [split_cue_mod_aux] in H.
    - inversion H; subst. rewrite app_nil_r. reflexivity.
    - destruct (path_split s) as [dir f]. destruct (ascii_eqfold f s_cue_mod).
      + inversion H; subst. symmetry. apply firstn_skipn.
      + destruct (trim_right_slash dir); [inversion H; subst; rewrite app_nil_r; reflexivity|].
        eapply IH; eauto.
  Qed.

  Lemma cz_cue_mod_true : forall name, cz_cue_mod name = Some true -> name = s_cue_mod_module_cue.
  Proof.
    intros name H. unfold cz_cue_mod in H. destruct (split_cue_mod name) as [prefix rest] eqn:S.
    apply split_cue_mod_aux_app in S.
    destruct rest as [|r0 rest']; [inversion H|]. destruct prefix; [|inversion H].
    destruct (negb (contains_byte c_slash (r0 :: rest'))); [inversion H|].
    destruct (negb (has_prefix s_cue_mod_slash (r0 :: rest'))); [inversion H|].
    destruct (ascii_eqfold (r0 :: rest') s_cue_mod_module_cue); [|inversion H].
    destruct (str_eqb (r0 :: rest') s_cue_mod_module_cue) eqn:E; cbn [negb] in H; [|inversion H].
    apply str_eqb_eq in E. simpl in S. congruence.
  Qed.

  Lemma cz_account_effect : forall s z,
    zs_cc (cz_account s z) = zs_cc s /\ zs_mod (cz_account s z) = zs_mod s /\
    (zs_size_err (cz_account s z) = false ->
       zs_size_err s = false /\ (0 <= z <= MaxZipFile - zs_size s)%Z /\ zs_size (cz_account s z) = (zs_size s + z)%Z).
  Proof.
    intros s z. unfold cz_account.
    destruct ((0 <=? z)%Z && (z <=? MaxZipFile - zs_size s)%Z) eqn:C; cbn [zs_cc zs_mod zs_size zs_size_err].
    - apply andb_true_iff in C. destruct C as [C1 C2]. apply Z.leb_le in C1. apply Z.leb_le in C2.
      repeat split; auto.
    - repeat split; auto; discriminate.
  Qed.

  (* the limits on cue.mod/module.cue and LICENSE are tested as [name == n && limit < size] *)
  Lemma limit_test_false : forall a n lim x, str_eqb a n && (lim <? x)%Z = false <-> (a = n -> (x <= lim)%Z).
  Proof.
    intros a n lim x. destruct (str_eqb a n) eqn:E; cbn [andb].
    - apply str_eqb_eq in E. rewrite Z.ltb_ge. tauto.
    - apply str_eqb_neq in E. tauto.
  Qed.

  Lemma cz_step_inv : forall st e v st', cz_step st e = (v, st') -> v <> VInvalid -> entry_ok st e v st'.
  Proof.
    intros st e v st' H NV. unfold Model.cz_step in H.
    destruct (str_eqb (clean (entry_name e)) (entry_name e)) eqn:C; cbn [negb] in H; [|inversion H; congruence].
    destruct (Model.check_path is_letter (entry_name e)) eqn:P; cbn [negb] in H; [|inversion H; congruence].
    destruct (str_eqb (entry_name e) s_local_module) eqn:L; [inversion H; congruence|].
    destruct (Model.cc_check fold_min (zs_cc st) (entry_name e) (entry_is_dir e)) as [cc' ok] eqn:CC.
    destruct ok; cbn [negb] in H; [|inversion H; congruence].
    apply str_eqb_eq in C. apply str_eqb_neq in L.
    destruct (cz_cue_mod (entry_name e)) as [is_mod|] eqn:CM; [|inversion H; congruence].
    assert (MOD : zs_mod st || is_mod = true -> zs_mod st = true \/ entry_name e = s_cue_mod_module_cue).
    { intros M. apply orb_true_iff in M. destruct M as [M|M]; auto. subst. right. apply cz_cue_mod_true. exact CM. }
    destruct (entry_is_dir e) eqn:D.
    - inversion H; subst. constructor; cbn [zs_cc zs_size zs_size_err zs_mod]; auto; congruence.
    - destruct (str_eqb (entry_name e) s_cue_mod_module_cue && (MaxCUEMod <? to_int64 (e_declared e))%Z) eqn:M1;
        [inversion H; congruence|].
      destruct (str_eqb (entry_name e) s_license && (MaxLICENSE <? to_int64 (e_declared e))%Z) eqn:M2;
        [inversion H; congruence|].
      inversion H; subst; clear H.
      destruct (cz_account_effect (mkCZ cc' (zs_size st) (zs_size_err st) (zs_mod st || is_mod)) (to_int64 (e_declared e)))
        as [CCeq [MDeq SZ]].
      constructor; rewrite ?CCeq, ?MDeq; cbn [zs_cc zs_size zs_size_err zs_mod]; auto; try congruence.
      intros _. split; [reflexivity|]. split; [exact SZ|].
      split.
      + intros [A B]. pose proof (proj1 (limit_test_false _ _ _ _) M1 A). lia.
      + intros [A B]. pose proof (proj1 (limit_test_false _ _ _ _) M2 A). lia.
  Qed.

  (* a non-directory entry is either Valid or Invalid; a directory entry is never Valid *)
  Lemma cz_step_verdict : forall st e v st', cz_step st e = (v, st') ->
    (entry_is_dir e = false -> v = VValid \/ v = VInvalid) /\
    (entry_is_dir e = true -> v = VSkipped \/ v = VInvalid) /\ v <> VOmitted.
  Proof.
    intros st e v st' H. unfold Model.cz_step in H.
    repeat match type of H with
           | context[if ?c then _ else _] => destruct c
           | context[let (_, _) := ?x in _] => destruct x
           | context[match ?x with Some _ => _ | None => _ end] => destruct x
           end; inversion H; subst; repeat split; intros; try discriminate; auto.
  Qed.

  (* the states threaded through an archive all of whose entries are accepted *)
  Fixpoint cz_chain (st : cz_state) (es : list entry) (st' : cz_state) : Prop :=
    match es with
    | [] => st' = st
    | e :: r => exists v s1, entry_ok st e v s1 /\ cz_chain s1 r st'
    end.

  Lemma cz_chain_app : forall a b st st', cz_chain st (a ++ b) st' <-> exists s, cz_chain st a s /\ cz_chain s b st'.
  Proof.
    induction a as [|e a IH]; intros b st st'; simpl.
    - split; [intros H; exists st; auto|intros [s [-> H]]; auto].
    - split.
      + intros [v [s1 [OK H]]]. apply IH in H. destruct H as [s [H1 H2]]. exists s. split; auto. exists v, s1. auto.
      + intros [s [[v [s1 [OK H1]]] H2]]. exists v, s1. split; auto. apply IH. exists s. auto.
  Qed.

  Lemma cz_loop_length : forall es st vs st', cz_loop st es = (vs, st') -> length vs = length es.
  Proof.
    induction es as [|e es IH]; intros st vs st' H; cbn [Model.cz_loop] in H.
    - inversion H; reflexivity.
    - destruct (cz_step st e) as [v s1]. destruct (cz_loop s1 es) as [vs' s2] eqn:L.
      inversion H; subst. simpl. f_equal. eapply IH; eauto.
  Qed.

  Lemma cz_loop_chain : forall es st vs st', cz_loop st es = (vs, st') -> ~ In VInvalid vs -> cz_chain st es st'.
  Proof.
    induction es as [|e es IH]; intros st vs st' H NI; cbn [Model.cz_loop] in H.
    - inversion H; reflexivity.
    - destruct (cz_step st e) as [v s1] eqn:S. destruct (cz_loop s1 es) as [vs' s2] eqn:L.
      inversion H; subst. simpl. exists v, s1. split.
      + apply cz_step_inv; auto. intros ->. apply NI. left; reflexivity.
      + eapply IH; eauto. intros I. apply NI. right; exact I.
  Qed.

  Lemma names_with_nil : forall v (ns : list str) vs, length ns = length vs ->
    names_with v (combine ns vs) = [] -> ~ In v vs.
  Proof.
    induction ns as [|n ns IH]; intros [|w vs] L H; simpl in *; try lia; auto.
    unfold names_with in H. simpl in H.
    destruct (verdict_eqb w v) eqn:E; simpl in H; [discriminate|].
    intros [->|I].
    - rewrite (proj2 (verdict_eqb_eq v v) eq_refl) in E. discriminate.
    - revert I. apply IH; auto.
  Qed.

  (* an accepted archive: its size is within the limit, every entry went through cz_step without
     error, there was no size error and the module file was seen *)
  Theorem check_zip_ok : forall zs es, checked_err (check_zip zs es) = false ->
    (zs <= MaxZipFile)%Z /\
    exists st', cz_chain cz_init es st' /\ zs_size_err st' = false /\ zs_mod st' = true.
  Proof.
    intros zs es H. unfold Model.check_zip in H.
    destruct (MaxZipFile <? zs)%Z eqn:Z; [discriminate|]. apply Z.ltb_ge in Z. split; auto.
    unfold check_zip_verdicts in H. destruct (cz_loop cz_init es) as [vs st'] eqn:L.
    unfold checked_err in H. cbn [c_size_err c_invalid c_nomod] in H.
    apply orb_false_iff in H. destruct H as [H NM]. apply orb_false_iff in H. destruct H as [SE I].
    exists st'. split; [|split; auto; apply negb_false_iff; auto].
    eapply cz_loop_chain; eauto.
    apply names_with_nil with (ns := map e_name es).
    - rewrite map_length. symmetry. eapply cz_loop_length; eauto.
    - destruct (names_with VInvalid (combine (map e_name es) vs)); [reflexivity|discriminate].
  Qed.

  (* every entry of an accepted archive went through cz_step without error *)
  Lemma accepted_entry : forall zs es e, checked_err (check_zip zs es) = false -> In e es ->
    exists s v s', entry_ok s e v s'.
  Proof.
    intros zs es e H I. destruct (check_zip_ok zs es H) as [_ [st' [C _]]].
    destruct (in_split _ _ I) as [l1 [l2 ->]]. apply cz_chain_app in C. destruct C as [s [_ [v [s' [OK _]]]]].
    exists s, v, s'. exact OK.
  Qed.

  Lemma accepted_name_safe : forall zs es e, checked_err (check_zip zs es) = false -> In e es ->
    check_path (entry_name e) = true.
  Proof.
    intros zs es e H I. destruct (accepted_entry zs es e H I) as [s [v [s' OK]]]. apply (eo_path _ _ _ _ OK).
  Qed.

  (* the sum of the declared sizes of the file entries *)
  Fixpoint declared_sum (es : list entry) : Z :=
    match es with
    | [] => 0
    | e :: r => ((if entry_is_dir e then 0 else to_int64 (e_declared e)) + declared_sum r)%Z
    end.

  Lemma cz_chain_sizes : forall es st st', cz_chain st es st' -> zs_size_err st' = false ->
    zs_size_err st = false /\ (0 <= declared_sum es)%Z /\
    ((zs_size st <= MaxZipFile)%Z -> (zs_size st + declared_sum es <= MaxZipFile)%Z) /\
    Forall (fun e => entry_is_dir e = false -> (0 <= to_int64 (e_declared e))%Z) es.
  Proof.
    induction es as [|e es IH]; intros st st' H SE; simpl in *.
    - subst. repeat split; auto; lia.
    - destruct H as [v [s1 [A B]]]. destruct (IH _ _ B SE) as [S1 [S2 [S3 S4]]].
      destruct (entry_is_dir e) eqn:D.
      + destruct (eo_dir _ _ _ _ A D) as [_ [X Y]]. repeat split; try congruence; try lia.
        constructor; auto. congruence.
      + (* the entry fitted into what the earlier ones left of MaxZipFile *)
        destruct (eo_file _ _ _ _ A D) as [_ [SZ _]]. destruct (SZ S1) as [E0 [[R1 R2] E]].
        repeat split; auto; lia.
  Qed.

  (* the declared sizes of the file entries of an accepted archive add up to at most MaxZipFile *)
  Theorem check_zip_total_size : forall zs es, checked_err (check_zip zs es) = false ->
    (0 <= declared_sum es <= MaxZipFile)%Z /\
    Forall (fun e => entry_is_dir e = false -> (0 <= to_int64 (e_declared e))%Z) es.
  Proof.
    intros zs es H. destruct (check_zip_ok zs es H) as [_ [st' [C [SE _]]]].
    destruct (cz_chain_sizes _ _ _ C SE) as [_ [N [M F]]]. split; [|exact F].
    split; [exact N|]. apply M. vm_compute. discriminate.
  Qed.
End Oracle.
